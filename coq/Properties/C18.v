(** C18 — animations keep their transparency in lossy and mixed-codec modes. *)
From Coq Require Import List ZArith.
From Webp Require Import Anim.Blend Anim.Canvas Anim.AnimDec Anim.AnimEncModel Anim.AnimEncSpec
  Anim.AnimEncLemmas Anim.AnimEncProofs Anim.AnimEncMain Anim.AnimEncWitness Anim.AnimEncCodec.
Import ListNotations.
Open Scope Z_scope.

(** For Lossless in {false,true} x AllowMixed in {false,true}, any Quality 0..100,
    any Kmin/Kmax, any frames (binary or graded alpha), every outcome of the size
    comparisons (which candidate, which codec in mixed mode): with a VP8L codec that
    is exact up to colour under alpha 0 and a VP8+ALPH codec that is exact in size and
    alpha, the alpha planes of what is played are the alpha planes of what was added —
    picture by picture, with the same display times (the C08 relation on the alpha
    channel).  Model of the code under test: [repaired]. *)
Theorem C18_anim_alpha_preserved :
  forall (rt_ll rt_ly : img -> img) (W H : Z) (opts : eopts) (frames : list (img * Z))
         (oracle : nat -> orc) (has_meta simple : bool) (st0 : est) (out : output),
    codec_lossless rt_ll -> codec_alpha_exact rt_ly ->
    wf_canvas_dims W H -> alpha_opts opts -> frames <> [] -> Forall wf_input frames ->
    new_encoder W H opts = Some st0 ->
    close has_meta simple (run_frames repaired oracle st0 frames) = Some out ->
    same_show_by alpha_only W H (eo_loop opts) out (playback rt_ll rt_ly repaired out)
                 (inputs_of W H frames).
Proof. exact anim_alpha_preserved. Qed.
Print Assumptions C18_anim_alpha_preserved.

(** The same with failing AddFrame calls (frame encoder errors at chosen calls, muxer frame
    limit): the alpha planes played are those of the calls that returned nil. *)
Theorem C18_anim_error_alpha :
  forall (rt_ll rt_ly : img -> img) (W H : Z) (opts : eopts) (frames : list (img * Z))
         (oracle : nat -> orc) (fails : nat -> efail) (maxf : Z) (has_meta simple : bool)
         (st0 stf : est) (acc : list (img * Z)) (out : output),
    codec_lossless rt_ll -> codec_alpha_exact rt_ly ->
    wf_canvas_dims W H -> alpha_opts opts -> Forall wf_input frames ->
    new_encoder W H opts = Some st0 ->
    run_e repaired true maxf oracle fails st0 frames = (stf, acc) ->
    close has_meta simple stf = Some out ->
    same_show_by alpha_only W H (eo_loop opts) out (playback rt_ll rt_ly repaired out)
                 (inputs_of W H acc).
Proof. exact anim_error_alpha. Qed.
Print Assumptions C18_anim_error_alpha.

(** ... and with pre-encoded frames mixed in (see C08_anim_mixed_roundtrip). *)
Theorem C18_anim_mixed_alpha :
  forall (rt_ll rt_ly : img -> img) (W H : Z) (opts : eopts) (ops : list op)
         (oracle : nat -> orc) (fails : nat -> efail) (maxf : Z) (has_meta simple : bool)
         (st0 stf : est) (acc : list op) (out : output),
    codec_lossless rt_ll -> codec_alpha_exact rt_ly ->
    wf_canvas_dims W H -> alpha_opts opts -> Forall (AnimEncSpec.wf_op W H) ops ->
    new_encoder W H opts = Some st0 ->
    run_ops repaired maxf oracle fails st0 ops = (stf, acc) ->
    lone_small_raw_ok W H has_meta acc ->
    close has_meta simple stf = Some out ->
    same_show_by alpha_only W H (eo_loop opts) out (playback rt_ll rt_ly repaired out)
                 (ref_show W H (blank W H, None) acc).
Proof. exact anim_mixed_alpha. Qed.
Print Assumptions C18_anim_mixed_alpha.

(** blending never changes alpha: the alpha of a blend depends on the alphas only *)
Theorem C18_blending_alpha_depends_on_alpha_only : forall s s' d d',
  alpha_only s = alpha_only s' -> alpha_only d = alpha_only d' ->
  alpha_only (blend_spec s d) = alpha_only (blend_spec s' d').
Proof. exact alpha_blend. Qed.
Print Assumptions C18_blending_alpha_depends_on_alpha_only.

(** pixelsAreSimilar requires equal alpha *)
Theorem C18_similar_pixels_have_equal_alpha : forall p t md,
  pixels_similar p t md = true -> pa p = pa t.
Proof. exact similar_pixels_have_equal_alpha. Qed.
Print Assumptions C18_similar_pixels_have_equal_alpha.

(** The codec hypotheses are satisfiable: the identity codec. *)
Theorem C18_example_codec : codec_lossless id_img /\ codec_alpha_exact id_img.
Proof. exact (conj id_codec_lossless id_codec_alpha_exact). Qed.
Print Assumptions C18_example_codec.

(** False of the code as pinned ([pinned]): the lossy frame encoder of the animation
    path returned the colour bitstream without its alpha data. *)
Theorem C18_anim_alpha_preserved_refuted : ~ anim_alpha_preserved_statement pinned.
Proof. exact anim_alpha_preserved_refuted. Qed.
Print Assumptions C18_anim_alpha_preserved_refuted.

Theorem C18_lossy_frame_carries_alph_refuted :
  exists r : mrec, m_lossy r = true /\ wf_img (m_img r) /\
    map pa (ipix (decoded id_img id_img pinned false r)) <> map pa (ipix (m_img r)).
Proof. exact lossy_frame_carries_alph_refuted. Qed.
Print Assumptions C18_lossy_frame_carries_alph_refuted.

(** On the repaired wiring a lossy frame keeps its alpha plane. *)
Theorem C18_lossy_frame_carries_alph : forall (rt_ll rt_ly : img -> img) via r,
  codec_alpha_exact rt_ly -> m_lossy r = true -> wf_img (m_img r) ->
  map pa (ipix (decoded rt_ll rt_ly repaired via r)) = map pa (ipix (m_img r)).
Proof. exact lossy_frame_carries_alph. Qed.
Print Assumptions C18_lossy_frame_carries_alph.

(** Whichever codec mixed mode picks for a frame, the decoded frame has the alpha
    of the picture that was encoded. *)
Theorem C18_mixed_never_drops_alpha : forall (rt_ll rt_ly : img -> img) via r,
  codec_lossless rt_ll -> codec_alpha_exact rt_ly -> wf_img (m_img r) ->
  map pa (ipix (decoded rt_ll rt_ly repaired via r)) = map pa (ipix (m_img r)).
Proof. exact mixed_never_drops_alpha. Qed.
Print Assumptions C18_mixed_never_drops_alpha.

(** * On the codec models

    The two codec hypotheses discharged: the VP8L frame codec is decode-after-emit of
    Vp8l/Vp8lRoundtrip.v for any valid encoder choices (lossless_roundtrip_pixels), the lossy
    frame codec is any colour decode of the right size with the alpha plane decoded from the
    ALPH chunk the encoder writes, for any filter and any valid plan of the lossless alpha
    coder (Conform/ConformAlpha.alpha_lossless_chunk_exact, the chunk-level fact behind
    ConformEndToEndLossy.lossy_alpha_file_conformant). *)
Theorem C18_codec_lossless_model : forall o choose,
  ll_choices_valid o choose -> codec_lossless (rt_ll_model o choose).
Proof. exact codec_lossless_model. Qed.
Print Assumptions C18_codec_lossless_model.

Theorem C18_codec_alpha_exact_model : forall colour achoose,
  colour_ok colour -> alpha_choices_valid achoose -> codec_alpha_exact (rt_ly_model colour achoose).
Proof. exact codec_alpha_exact_model. Qed.
Print Assumptions C18_codec_alpha_exact_model.

Theorem C18_anim_alpha_preserved_on_models :
  forall o choose colour achoose,
    ll_choices_valid o choose -> colour_ok colour -> alpha_choices_valid achoose ->
  forall (W H : Z) (opts : eopts) (frames : list (img * Z))
         (oracle : nat -> orc) (has_meta simple : bool) (st0 : est) (out : output),
    wf_canvas_dims W H -> alpha_opts opts -> frames <> [] -> Forall wf_input frames ->
    new_encoder W H opts = Some st0 ->
    close has_meta simple (run_frames repaired oracle st0 frames) = Some out ->
    same_show_by alpha_only W H (eo_loop opts) out
      (playback (rt_ll_model o choose) (rt_ly_model colour achoose) repaired out) (inputs_of W H frames).
Proof. exact anim_alpha_preserved_on_models. Qed.
Print Assumptions C18_anim_alpha_preserved_on_models.

Theorem C18_anim_mixed_alpha_on_models :
  forall o choose colour achoose,
    ll_choices_valid o choose -> colour_ok colour -> alpha_choices_valid achoose ->
  forall (W H : Z) (opts : eopts) (ops : list op)
         (oracle : nat -> orc) (fails : nat -> efail) (maxf : Z) (has_meta simple : bool)
         (st0 stf : est) (acc : list op) (out : output),
    wf_canvas_dims W H -> alpha_opts opts -> Forall (AnimEncSpec.wf_op W H) ops ->
    new_encoder W H opts = Some st0 ->
    run_ops repaired maxf oracle fails st0 ops = (stf, acc) ->
    lone_small_raw_ok W H has_meta acc ->
    close has_meta simple stf = Some out ->
    same_show_by alpha_only W H (eo_loop opts) out
      (playback (rt_ll_model o choose) (rt_ly_model colour achoose) repaired out)
      (ref_show W H (blank W H, None) acc).
Proof. exact anim_mixed_alpha_on_models. Qed.
Print Assumptions C18_anim_mixed_alpha_on_models.
