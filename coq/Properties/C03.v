(** C03 — VP8L decoding returns the pixels the format defines for every valid
    stream.  Only statements, each closed by [exact <lemma>] and followed by
    [Print Assumptions]. *)
From Coq Require Import List ZArith.
From Webp Require Import Base.Res Vp8l.Vp8lPixel Vp8l.Vp8lArr Vp8l.Vp8lPrefix Vp8l.Vp8lTransforms Vp8l.Vp8lSpec
  Vp8l.Vp8lCanon Vp8l.Vp8lLut Vp8l.Vp8lLut2 Vp8l.Vp8lPacked Vp8l.Vp8lPackedSpec Vp8l.Vp8lBitReader Vp8l.Vp8lBitReaderProof Vp8l.Vp8lBitReaderFill Vp8l.Vp8lEmit Vp8l.Vp8lEntropy Vp8l.Vp8lCodeLens Vp8l.Vp8lEmitDecode Vp8l.Vp8lWf Vp8l.Vp8lInPlace Vp8l.Vp8lKernels Vp8l.Vp8lTables Vp8l.Vp8lCacheDefer.
From WebpGen Require Consts Tables Vp8lRoles.
Import ListNotations.
Open Scope Z_scope.

(** ** The four inverse transforms undo the forward transforms *)

Theorem C03_inv_subtract_green_fwd : forall img,
  Forall wf_px img -> subtract_green_inv (subtract_green_fwd img) = img.
Proof. exact inv_subtract_green_fwd. Qed.
Print Assumptions C03_inv_subtract_green_fwd.

(** Any multiplier image (so every int8 triple in every tile), any tile size, any width. *)
Theorem C03_inv_cross_color_fwd : forall (mult : Z -> Z -> px) (w : Z) img,
  Forall wf_px img -> cross_color_inv mult w (cross_color_fwd mult w img) = img.
Proof. exact inv_cross_color_fwd_gen. Qed.
Print Assumptions C03_inv_cross_color_fwd.

(** Any assignment of the 14 modes to positions (so any tile bits and any mode
    image), any width including 1; the edge rules and the right-edge TR rule are
    part of [pred_px]. *)
Theorem C03_inv_predictor_fwd : forall (mode_at : Z -> Z -> Z) (w : Z) (wn : nat) img,
  Forall wf_px img -> predictor_inv mode_at w wn (predictor_fwd mode_at w wn img) = img.
Proof. exact inv_predictor_fwd_gen. Qed.
Print Assumptions C03_inv_predictor_fwd.

(** All four packings (exponent 0..3), widths that are not a multiple of the
    packing, any height; [find]/[look] are the two directions of a palette. *)
Theorem C03_inv_color_index_fwd : forall (look : Z -> px) (find : px -> Z) (wb : Z) (w h : nat) img,
  0 <= wb <= 3 -> (0 < w)%nat -> length img = (h * w)%nat ->
  Forall (fun p => 0 <= find p < bmod wb /\ look (find p) = p) img ->
  color_index_inv look wb w h (color_index_fwd find wb w h img) = img.
Proof. intros look find wb w h img Hwb Hw. exact (inv_color_index_fwd_gen look find wb w Hwb Hw h img). Qed.
Print Assumptions C03_inv_color_index_fwd.

(** ** Buffer discipline of applyInverseTransforms *)

(** The pinned tree (before commit 56944c7) ran every inverse after the first in
    place; for the pixel-packing colour-indexing inverse that is wrong.  Witness:
    2 colours, width 9, transforms [colour-indexing (8 indices per word); predictor]. *)
Theorem C03_inplace_inverse_refuted :
  exists ts coded, pinned_apply_inverse ts coded <> Ok (apply_inverse ts coded).
Proof. exact inplace_inverse_refuted. Qed.
Print Assumptions C03_inplace_inverse_refuted.

(** The repaired dataflow (the two buffers are swapped after every inverse, so
    input and output never alias) yields the specified pixels for every transform
    list whose sizes chain, whatever stale words the two buffers hold. *)
Theorem C03_pingpong_inverse_eq : forall ts coded sa sb,
  chain_ok (rev ts) coded ->
  firstn (length (apply_inverse ts coded)) (apply_inverse_pingpong ts coded sa sb) = apply_inverse ts coded.
Proof. exact pingpong_inverse_eq. Qed.
Print Assumptions C03_pingpong_inverse_eq.

(** ** LZ77 backward references *)

(** copyBlock32 (one memmove when the ranges do not overlap, a fill for distance 1,
    otherwise the first period followed by doubling) = the pixel-by-pixel
    definition of the format, for every element type, buffer and in-range
    (pos, dist, len). *)
Theorem C03_copy_block_eq : forall (A : Type) (d : A) (data : list A) pos dist len,
  (1 <= dist <= pos)%nat -> (pos + len <= length data)%nat ->
  copy_block d data pos dist len = copy_fwd d len data pos dist.
Proof. exact (@copy_block_eq). Qed.
Print Assumptions C03_copy_block_eq.

(** ** Colour cache: the decoder inserts pixels into the cache lazily (cursor
    lastCached; flushes at row ends, after copies, before lookups).  For every
    flush schedule — one boolean per token — in which a lookup flushes first, the
    decoded pixels are those of immediate insertion. *)
Theorem C03_cache_deferred_eq_immediate : forall cb w (toks : list (token * bool)),
  replay_deferred cb w toks arr_empty [] [] = replay cb w (map fst toks) arr_empty [].
Proof. exact cache_deferred_eq_immediate. Qed.
Print Assumptions C03_cache_deferred_eq_immediate.

(** ** Colour table *)
Theorem C03_expand_color_map_eq : forall ncolors bits pal idx,
  0 <= bits <= 3 -> Z.of_nat (length pal) = ncolors -> ncolors <= 2 ^ (8 / 2 ^ bits) ->
  0 <= idx < 2 ^ (8 / 2 ^ bits) ->
  nth (Z.to_nat idx) (expand_color_map ncolors bits pal) px_zero =
  arr_get px_zero (arr_of_list (undelta px_zero pal)) idx.
Proof. exact expand_color_map_eq. Qed.
Print Assumptions C03_expand_color_map_eq.

(** ** Bit and prefix-code layer *)

Theorem C03_read_put_bits : forall n v rest, 0 <= v < 2 ^ Z.of_nat n ->
  read_bits n (put_bits n v ++ rest) = Ok (v, rest).
Proof. exact read_put_bits. Qed.
Print Assumptions C03_read_put_bits.

(** Implementation model of the 64-bit window bit reader (LosslessReader: window,
    byte shifting after every read, sticky end-of-stream flag) vs the bit-list
    reader of the specification: for every byte string and every sequence of
    ReadBits(n), 0 <= n <= 24, that stays inside the data, the values are exactly
    the specification's and the flag stays clear.  (Named _partial because it covers ReadBits
    only; FillBitWindow / PrefetchBits / SetBitPos are covered by
    [C03_bitreader_script_refines] below.) *)
Theorem C03_bitreader_window_refines_partial : forall data ns,
  bytes_ok data -> Forall (fun n => 0 <= n <= 24) ns -> total ns <= 8 * Z.of_nat (length data) ->
  br_run ns (br_new data) = map (fun v => (v, false)) (spec_reads ns (bits_of_bytes data)).
Proof. exact bitreader_window_refines. Qed.
Print Assumptions C03_bitreader_window_refines_partial.

(** The symbol decoder's path through the bit reader: every script of ReadBits(n <= 24), FillBitWindow +
    PrefetchBits and SetBitPos(BitPos + k) that keeps the decoder's discipline (at most
    [slack] bits consumed before the next refill: 56 after a ReadBits, at least 32 after a
    FillBitWindow; nothing consumed beyond the data; prefetch strictly inside the data)
    returns the fields (V / 2^p) mod 2^n of the byte string read as one little-endian integer
    V (= the LSB-first bit order of the format), PrefetchBits returns the 32 bits at the
    current offset zero-extended beyond the end, and the flag stays clear.  Covers the fast
    four-byte refill and the byte-wise refill near the end of the buffer. *)
Theorem C03_bitreader_script_refines : forall data ops,
  bytes_ok data -> wf_script (8 * Z.of_nat (length data)) ops 0 56 ->
  br_run ops (br_new data) = spec_script (le_value data) ops 0.
Proof. exact bitreader_script_refines. Qed.
Print Assumptions C03_bitreader_script_refines.

(** The discipline has a sound boolean checker, which the runner evaluates on every script of
    the correspondence run; on the scripts it accepts the specification side is compared too. *)
Theorem C03_bitreader_script_refines_checked : forall data ops,
  bytes_ok data -> wf_scriptb (8 * Z.of_nat (length data)) ops 0 56 = true ->
  br_run ops (br_new data) = spec_script (le_value data) ops 0.
Proof. exact bitreader_script_refines_checked. Qed.
Print Assumptions C03_bitreader_script_refines_checked.

(** The read that crosses the end of a buffer of at least 8 bytes raises the
    end-of-stream flag (shorter buffers: only beyond bit 64, as the code tests
    bitPos > 64). *)
Theorem C03_read_past_end_sets_eos : forall data, bytes_ok data -> 8 <= Z.of_nat (length data) ->
  forall r p n, inv data r p -> 0 <= n <= 24 -> 8 * Z.of_nat (length data) < p + n ->
  br_is_eos (snd (br_read_bits n r)) = true.
Proof. exact read_past_end_sets_eos. Qed.
Print Assumptions C03_read_past_end_sets_eos.

(** Canonical prefix codes: for every length vector the decoder accepts (one used
    symbol, or Kraft-complete with lengths <= 15; both simple-code shapes are
    instances) and every used symbol, decoding the symbol's canonical code word
    (value = cumulative Kraft weight of the earlier symbols in (length, symbol)
    order, i.e. the RFC 1951 numbering, most significant bit first) returns the
    symbol and consumes exactly the code word. *)
Theorem C03_prefix_roundtrip : forall lens t s rest,
  tree_of_lens lens = Ok t ->
  0 <= s < Z.of_nat (length lens) -> nth (Z.to_nat s) lens 0 <> 0 ->
  read_symbol t (code_bits lens s ++ rest) = Ok (s, rest).
Proof. exact prefix_roundtrip. Qed.
Print Assumptions C03_prefix_roundtrip.

Theorem C03_complete_code_accepted : forall lens,
  lens_in_range lens = true -> kraft_sum lens = 32768 -> exists t, tree_of_lens lens = Ok t.
Proof. exact tree_of_lens_complete. Qed.
Print Assumptions C03_complete_code_accepted.

(** Implementation model of the decoder's Huffman lookup tables (BuildHuffmanTable:
    symbols sorted by (length, symbol), bit-reversed running key advanced by
    getNextKey, replicate step, second-level tables sized by nextTableBitSize and
    linked from the root slot; ReadSymbol: root lookup and optional second-level
    lookup) vs the canonical code: for every length vector the decoder accepts,
    every root size 1..15 (the code uses 8 and 7) and every bit window, the table
    lookup returns the symbol and the length that walking the canonical code tree
    along the window gives ([walk]; see [C03_walk_read_symbol]). *)
Theorem C03_lut_decode_eq_canonical : forall root lens t tab w, 1 <= root <= 15 ->
  tree_of_lens lens = Ok t -> lut_build root lens = Ok tab -> 0 <= w ->
  exists v n, walk t w = Some (v, n) /\ lut_read root tab w = (v, n).
Proof. exact lut_decode_eq_canonical. Qed.
Print Assumptions C03_lut_decode_eq_canonical.

(** The packed-table fast path (buildPackedTable / accumulateHCode / readPackedSymbols,
    selected by readHuffmanCodes when the maximal code lengths of the green, red, blue and
    alpha codes sum to less than HuffmanPackedBits = 6; proved for sums up to 6, all the 64-entry
    table can hold): for all four length vectors with
    maxima mg..ma, their root-8 lookup tables and every prefetched window, the 64-entry
    packed table returns the same symbol(s) and consumes the same number of bits as walking
    the four canonical code trees one after the other (a non-literal green symbol alone; a
    literal green followed by red, blue, alpha assembled as a<<24 | r<<16 | g<<8 | b). *)
Theorem C03_packed_read_eq_sequential :
  forall lg lr lb la mg mr mb ma tg tr tb ta g r b a w,
  table_of lg mg tg g -> table_of lr mr tr r -> table_of lb mb tb b -> table_of la ma ta a ->
  mg + mr + mb + ma <= 6 -> 0 <= w ->
  seq_read tg tr tb ta w = Some (packed_read (packed_build g r b a) w).
Proof. exact packed_read_eq_sequential. Qed.
Print Assumptions C03_packed_read_eq_sequential.

(** The two branches of the pixel loop of decodeImageData read the same thing: on every
    group marked UsePackedTable the packed read equals the four ReadSymbol calls (green, then for
    a literal red, blue, alpha on the successively advanced window) of the other branch. *)
Theorem C03_packed_read_eq_lut_reads :
  forall lg lr lb la mg mr mb ma tg tr tb ta g r b a w,
  table_of lg mg tg g -> table_of lr mr tr r -> table_of lb mb tb b -> table_of la ma ta a ->
  mg + mr + mb + ma <= 6 -> 0 <= w ->
  packed_read (packed_build g r b a) w = seq_read_lut g r b a w.
Proof. exact packed_read_eq_lut_reads. Qed.
Print Assumptions C03_packed_read_eq_lut_reads.

(** Both are the pixel read of the SPECIFICATION decoder ([spec_read_pixel] = the first step of an
    iteration of Vp8lSpec.pixels_loop: read_symbol on the green code, then on
    red, blue, alpha, pixel assembled by mkpx) on the bit list of the window: same symbol or same
    ARGB word (the shifts-and-ors word of accumulateHCode = argb_of_px, channels < 256 because
    the three alphabets have 256 symbols), same bits consumed. *)
Theorem C03_packed_read_eq_spec_pixel :
  forall lg lr lb la mg mr mb ma tg tr tb ta g r b a w res n k rest,
  table_of lg mg tg g -> table_of lr mr tr r -> table_of lb mb tb b -> table_of la ma ta a ->
  length lr = 256%nat -> length lb = 256%nat -> length la = 256%nat ->
  mg + mr + mb + ma <= 6 -> 0 <= w ->
  packed_read (packed_build g r b a) w = (res, n) -> (Z.to_nat n <= k)%nat ->
  spec_read_pixel tg tr tb ta (put_bits k w ++ rest) = Ok (res, put_bits (k - Z.to_nat n) (w / 2 ^ n) ++ rest).
Proof. exact packed_read_eq_spec_pixel. Qed.
Print Assumptions C03_packed_read_eq_spec_pixel.

(** Walking the tree along a window ([walk]) is reading the symbol from the
    window's bit list (so [C03_prefix_roundtrip] applies to it). *)
Theorem C03_walk_read_symbol : forall t w v n k rest, walk t w = Some (v, n) -> (Z.to_nat n <= k)%nat ->
  read_symbol t (put_bits k w ++ rest) = Ok (v, put_bits (k - Z.to_nat n) (w / 2 ^ n) ++ rest).
Proof. exact walk_read_symbol. Qed.
Print Assumptions C03_walk_read_symbol.

(** Basis of the decoder's trivial-literal shortcut: one-symbol red/blue/alpha codes
    are read without consuming bits and yield the group's constants. *)
Theorem C03_trivial_literal_eq : forall lr lb la tr tb ta l1 r l2 b l3 a,
  tree_of_lens lr = Ok tr -> tree_of_lens lb = Ok tb -> tree_of_lens la = Ok ta ->
  lens_items lr = [(l1, r)] -> lens_items lb = [(l2, b)] -> lens_items la = [(l3, a)] ->
  forall s,
  ('(r', s1) <- read_symbol tr s ;; '(b', s2) <- read_symbol tb s1 ;; '(a', s3) <- read_symbol ta s2 ;;
   Ok (a', r', b', s3)) = Ok (a, r, b, s).
Proof. exact trivial_literal_eq. Qed.
Print Assumptions C03_trivial_literal_eq.

(** the textbook recurrence of the code values: +1, then shift by the length increase *)
Theorem C03_canonical_recurrence : forall W l1 l2, l1 <= l2 <= 15 -> (wt l1 | W) ->
  (W + wt l1) / wt l2 = (W / wt l1 + 1) * 2 ^ (l2 - l1).
Proof. exact codes_step. Qed.
Print Assumptions C03_canonical_recurrence.

(** ** Ties to the source (regenerated on every run) *)

Theorem C03_code_to_plane_matches_spec :
  map unpack_plane WebpGen.Tables.lossless_CodeToPlane = plane_lut.
Proof. exact code_to_plane_matches_spec. Qed.
Print Assumptions C03_code_to_plane_matches_spec.

Theorem C03_plane_lut_is_the_neighbourhood :
  length plane_lut = 120%nat /\ forallb in_neighbourhood plane_lut = true /\ nodupb plane_lut = true
  /\ sorted_by (fun p => fst p * fst p + snd p * snd p) plane_lut = true.
Proof. exact plane_lut_is_the_neighbourhood. Qed.
Print Assumptions C03_plane_lut_is_the_neighbourhood.

Theorem C03_format_constants_match_spec :
  WebpGen.Consts.lossless_NumLiteralCodes = 256 /\ WebpGen.Consts.lossless_NumLengthCodes = 24 /\
  WebpGen.Consts.lossless_NumDistanceCodes = 40 /\ WebpGen.Consts.lossless_CodeLengthCodes = 19 /\
  WebpGen.Consts.lossless_MaxAllowedCodeLength = 15 /\ WebpGen.Consts.lossless_DefaultCodeLength = 8 /\
  WebpGen.Consts.lossless_MaxCacheBits = 11 /\ WebpGen.Vp8lRoles.lossless_role_colorcache_mul = 506832829 /\
  WebpGen.Consts.lossless_VP8LMagicByte = 47 /\ WebpGen.Consts.lossless_VP8LImageSizeBits = 14 /\
  WebpGen.Consts.lossless_VP8LVersionBits = 3 /\ WebpGen.Consts.lossless_VP8LVersion = 0 /\
  WebpGen.Consts.lossless_MinTransformBits = 2 /\ WebpGen.Consts.lossless_NumTransformBits = 3 /\
  WebpGen.Consts.lossless_MinHuffmanBits = 2 /\ WebpGen.Consts.lossless_NumHuffmanBits = 3 /\
  WebpGen.Consts.lossless_CodeToPlaneCodesCount = 120 /\ WebpGen.Consts.lossless_ARGBBlack = argb_of_px px_black /\
  WebpGen.Consts.lossless_PredictorTransform = 0 /\ WebpGen.Consts.lossless_CrossColorTransform = 1 /\
  WebpGen.Consts.lossless_SubtractGreenTransform = 2 /\ WebpGen.Consts.lossless_ColorIndexingTransform = 3 /\
  WebpGen.Tables.lossless_CodeLengthCodeOrder = code_length_order /\
  WebpGen.Tables.lossless_CodeLengthExtraBits = [2; 3; 7] /\
  WebpGen.Tables.lossless_CodeLengthRepeatOffsets = [3; 3; 11] /\
  WebpGen.Vp8lRoles.lossless_role_base_alphabet_sizes = [256 + 24; 256; 256; 256; 40].
Proof. exact format_constants_match_spec. Qed.
Print Assumptions C03_format_constants_match_spec.

(** The sizes the table models are written with (root size 8, mask 255, 64 packed slots of 6
    window bits, eligibility bound 6) are the code's. *)
Theorem C03_table_constants_match_models :
  WebpGen.Consts.lossless_HuffmanTableBits = 8 /\ WebpGen.Consts.lossless_HuffmanTableMask = 2 ^ 8 - 1 /\
  WebpGen.Consts.lossless_HuffmanPackedBits = 6 /\ WebpGen.Consts.lossless_HuffmanPackedTableSize = 2 ^ 6.
Proof. exact table_constants_match_models. Qed.
Print Assumptions C03_table_constants_match_models.

(** ** Emitter / decoder *)

(** Length / distance prefix coding with extra bits. *)
Theorem C03_lz_roundtrip : forall v rest, 1 <= v ->
  let '(sym, eb, ev) := lz_prefix v in lz_value sym (putZ eb ev ++ rest) = Ok (v, rest).
Proof. exact lz_roundtrip. Qed.
Print Assumptions C03_lz_roundtrip.

(** Transmission of one prefix code (simple codes; code-length code, max_symbol,
    16/17/18 repeat tokens). *)
Theorem C03_code_roundtrip : forall alphabet cp t rest,
  wf_code alphabet cp -> tree_of_lens (code_lens alphabet cp) = Ok t ->
  read_code alphabet (emit_code cp ++ rest) = Ok (t, rest).
Proof. exact code_roundtrip. Qed.
Print Assumptions C03_code_roundtrip.

(** Token level, one prefix-code group with colour cache: literal, cache and copy
    tokens (plane codes included) decode to the pixels the token list denotes. *)
Theorem C03_entropy_roundtrip : forall lg lr lb la ld tg tr tb ta td,
  tree_of_lens lg = Ok tg -> tree_of_lens lr = Ok tr -> tree_of_lens lb = Ok tb ->
  tree_of_lens la = Ok ta -> tree_of_lens ld = Ok td ->
  forall cb w total toks h rest,
  total = w * h -> 0 <= total -> tokens_ok lg lr lb la ld w total 0 toks -> Z.of_nat (length toks) <= total ->
  decode_pixels (ctx1 tg tr tb ta td cb w) w h
                (emit_tokens w (fun _ _ => 0) (arr_of_list [gtabs lg lr lb la ld]) toks 0 ++ rest)
  = Ok (frev (replay cb w toks arr_empty []), rest).
Proof. exact entropy_roundtrip. Qed.
Print Assumptions C03_entropy_roundtrip.

(** Token level with a meta prefix image: several prefix-code groups, the group of
    a token being that of the tile its first pixel lies in. *)
Theorem C03_entropy_roundtrip_groups : forall gls gs, Forall2 grp_ok gls gs ->
  forall cb w total mb mw meta, 1 <= w -> forall toks h rest,
  total = w * h -> 0 <= total -> tokens_ok_m gls w total mb mw meta 0 toks ->
  decode_pixels (ctxm gs cb w mb mw meta) w h (emit_tokens w (gidx mb mw meta) (tabsm gls) toks 0 ++ rest)
  = Ok (frev (replay cb w toks arr_empty []), rest).
Proof. exact entropy_roundtrip_m. Qed.
Print Assumptions C03_entropy_roundtrip_groups.

(** emit_decode: the specification decoder applied to the emitter's bytes returns
    the pixels the plan denotes, for every well-formed plan: any transform list
    (each type at most once, any order, any tile bits / palette size; sub-images
    with their own cache and codes), with or without a meta prefix image (any
    number of groups), any colour cache, any mix of simple and normal codes
    (code-length code, max_symbol, 16/17/18 repeats), any valid token list. *)
Theorem C03_emit_decode : forall p, wf_plan p -> decode (emit p) = Ok (sem p).
Proof. exact emit_decode. Qed.
Print Assumptions C03_emit_decode.

(** [wf_plan] is decided soundly by the boolean checker the harness runs on every
    plan it generates. *)
Theorem C03_emit_decode_checked : forall p, wf_planb p = true -> decode (emit p) = Ok (sem p).
Proof. exact emit_decode_checked. Qed.
Print Assumptions C03_emit_decode_checked.

(** [wf_planb] is satisfiable non-trivially: a generated plan with three transforms, a
    meta prefix image with several groups, colour cache, cache and copy tokens,
    normal codes with repeat tokens. *)
Theorem C03_wf_plan_example : wf_planb ex_plan = true.
Proof. exact ex_plan_wf. Qed.
Print Assumptions C03_wf_plan_example.
