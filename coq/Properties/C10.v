(** C10 — Results do not depend on goroutine scheduling or concurrent use.
    Only statements, each closed by [exact <lemma>] (the ties to the regenerated source by
    computation) and followed by [Print Assumptions].  A schedule is a list of labels;
    [run] follows it while each label is enabled; the per-macroblock computation [f] and
    its value type are arbitrary. *)
From Coq Require Import String List Arith ZArith.
From Webp Require Import Conc.ConcRowSync Conc.ConcRowSyncProofs.
From Webp Require Conc.ConcWaitSignal Conc.ConcWaitSignalProofs.
From Webp Require Conc.ConcPartition Conc.ConcPartitionProofs.
From WebpGen Require PhaseB.
From Webp Require Conc.ConcPhaseB.
From Webp Require Conc.ConcDetailed Conc.ConcDetailedProofs.
From Webp Require Conc.ConcDetailedLive.
From Webp Require Conc.ConcDetailedTerm.
From Webp Require Conc.PoolModel Conc.ConcPoolShare.
From Webp Require Conc.ConcWaitSignalNoLock.
From WebpGen Require RowSyncSrc.
From WebpGen Require Sites Consts PartShapes.
From Webp Require Conc.ConcPartExpr.
Import ListNotations.

(** Every reachable state: row y+1 is strictly behind row y unless row y is complete;
    the single shared top-context row holds, in cell x, the value of the lowest row
    that has passed x (or the initial fill); a row is never held by two workers. *)
Theorem C10_rowsync_inv :
  forall (V : Type) (v0 : V) (f : nat -> nat -> V -> V -> V -> V -> V) (mbW mbH : nat),
  1 <= mbW ->
  forall (n : nat) (sched : list label) (s : state V),
  run V v0 f mbW mbH (init V v0 n) sched = Some s ->
  (forall y, done V s (S y) = 0 \/ done V s (S y) < done V s y \/ done V s y = mbW) /\
  (forall y x, x < done V s y -> done V s (S y) <= x -> top V s x = (Some y, P V v0 f mbW (S y) x)) /\
  (forall x, done V s 0 <= x -> top V s x = (None, v0)) /\
  (forall i j y x x' (tl tl' l l' : V),
      nth_error (workers V s) i = Some (AtMB y x tl l) ->
      nth_error (workers V s) j = Some (AtMB y x' tl' l') -> i = j).
Proof. exact rowsync_inv_pipeline. Qed.
Print Assumptions C10_rowsync_inv.

(** Whenever the worker of row y may process macroblock x (its wait is over), the
    cells it reads, top[x] and top[x+1], were last written by row y-1 (writer tag)
    and hold exactly the values the serial row-major order has there; its local left
    / top-left contexts are the serial ones too. *)
Theorem C10_rowsync_reads_serial :
  forall (V : Type) (v0 : V) (f : nat -> nat -> V -> V -> V -> V -> V) (mbW mbH : nat),
  1 <= mbW ->
  forall (n : nat) (sched : list label) (s : state V) (i y x : nat) (tl l : V),
  run V v0 f mbW mbH (init V v0 n) sched = Some s ->
  nth_error (workers V s) i = Some (AtMB y x tl l) ->
  guard V mbW s y x = true ->
  top V s x = ((if y =? 0 then None else Some (y - 1)), P V v0 f mbW y x) /\
  (S x < mbW -> top V s (S x) = ((if y =? 0 then None else Some (y - 1)), P V v0 f mbW y (S x))) /\
  tl = (if x =? 0 then v0 else P V v0 f mbW y (x - 1)) /\
  l = (if x =? 0 then v0 else P V v0 f mbW (S y) (x - 1)).
Proof. exact rowsync_reads_serial. Qed.
Print Assumptions C10_rowsync_reads_serial.

(** Every run that reaches a final state — any worker count, any schedule — ends
    with the serial (one worker, row-major) macroblock results and token stream. *)
Theorem C10_rowsync_deterministic :
  forall (V : Type) (v0 : V) (f : nat -> nat -> V -> V -> V -> V -> V) (mbW mbH : nat),
  1 <= mbW ->
  forall (n : nat) (sched : list label) (s : state V),
  run V v0 f mbW mbH (init V v0 n) sched = Some s -> final V mbH s = true ->
  (forall y x, y < mbH -> x < mbW -> out V s y x = Some (serial_out V v0 f mbW y x)) /\
  tokens V s = serial_tokens V v0 f mbW mbH.
Proof. exact rowsync_deterministic. Qed.
Print Assumptions C10_rowsync_deterministic.

Theorem C10_rowsync_schedule_independent :
  forall (V : Type) (v0 : V) (f : nat -> nat -> V -> V -> V -> V -> V) (mbW mbH : nat),
  1 <= mbW ->
  forall (n1 n2 : nat) (sched1 sched2 : list label) (s1 s2 : state V),
  run V v0 f mbW mbH (init V v0 n1) sched1 = Some s1 -> final V mbH s1 = true ->
  run V v0 f mbW mbH (init V v0 n2) sched2 = Some s2 -> final V mbH s2 = true ->
  (forall y x, y < mbH -> x < mbW -> out V s1 y x = out V s2 y x) /\ tokens V s1 = tokens V s2.
Proof. exact rowsync_schedule_independent. Qed.
Print Assumptions C10_rowsync_schedule_independent.

(** No deadlock: every reachable non-final state has an enabled transition ... *)
Theorem C10_rowsync_deadlock_free :
  forall (V : Type) (v0 : V) (f : nat -> nat -> V -> V -> V -> V -> V) (mbW mbH : nat),
  1 <= mbW ->
  forall (n : nat) (sched : list label) (s : state V),
  1 <= n -> run V v0 f mbW mbH (init V v0 n) sched = Some s -> final V mbH s = false ->
  exists l, step V v0 f mbW mbH s l <> None.
Proof. exact rowsync_deadlock_free. Qed.
Print Assumptions C10_rowsync_deadlock_free.

(** ... hence every maximal run is final and carries the serial result. *)
Theorem C10_rowsync_maximal_runs_serial :
  forall (V : Type) (v0 : V) (f : nat -> nat -> V -> V -> V -> V -> V) (mbW mbH : nat),
  1 <= mbW ->
  forall (n : nat) (sched : list label) (s : state V),
  1 <= n -> run V v0 f mbW mbH (init V v0 n) sched = Some s ->
  (forall l, step V v0 f mbW mbH s l = None) ->
  (forall y x, y < mbH -> x < mbW -> out V s y x = Some (serial_out V v0 f mbW y x)) /\
  tokens V s = serial_tokens V v0 f mbW mbH.
Proof. exact rowsync_maximal_runs_serial. Qed.
Print Assumptions C10_rowsync_maximal_runs_serial.

(** No conflicting accesses: two macroblock steps enabled in the same reachable state
    belong to different rows and are at least two columns apart, so the cells they
    read ({x, x+1}) and write ({x}) in the shared context row are disjoint — no data
    race on the shared top arrays in the model, and the atomic macroblock step is justified. *)
Theorem C10_rowsync_no_conflict :
  forall (V : Type) (v0 : V) (f : nat -> nat -> V -> V -> V -> V -> V) (mbW mbH : nat),
  1 <= mbW ->
  forall (n : nat) (sched : list label) (s : state V) (i j y x : nat) (tl l : V) (y' x' : nat) (tl' l' : V),
  run V v0 f mbW mbH (init V v0 n) sched = Some s -> i <> j ->
  nth_error (workers V s) i = Some (AtMB y x tl l) -> guard V mbW s y x = true ->
  nth_error (workers V s) j = Some (AtMB y' x' tl' l') -> guard V mbW s y' x' = true ->
  y <> y' /\ x' <> x /\ x' <> S x /\ x <> S x'.
Proof. exact rowsync_no_conflict. Qed.
Print Assumptions C10_rowsync_no_conflict.

(** Every schedule is finite (no livelock): a run has at most
    mbH*mbW + 2*mbH + n steps, so every run can be extended to a maximal one. *)
Theorem C10_rowsync_terminates :
  forall (V : Type) (v0 : V) (f : nat -> nat -> V -> V -> V -> V -> V) (mbW mbH : nat),
  1 <= mbW ->
  forall (n : nat) (sched : list label) (s : state V),
  run V v0 f mbW mbH (init V v0 n) sched = Some s -> length sched <= mbH * mbW + 2 * mbH + n.
Proof. exact rowsync_terminates. Qed.
Print Assumptions C10_rowsync_terminates.

(** Phase B records a row only when it is complete, in row order, with the serial values. *)
Theorem C10_recorder_order :
  forall (V : Type) (v0 : V) (f : nat -> nat -> V -> V -> V -> V -> V) (mbW mbH : nat),
  1 <= mbW ->
  forall (n : nat) (sched : list label) (s s' : state V),
  run V v0 f mbW mbH (init V v0 n) sched = Some s -> step V v0 f mbW mbH s LRec = Some s' ->
  done V s (recRow V s) = mbW /\ recRow V s' = S (recRow V s) /\
  tokens V s' = tokens V s ++ map (serial_out V v0 f mbW (recRow V s)) (seq 0 mbW).
Proof. exact recorder_order. Qed.
Print Assumptions C10_recorder_order.

(** The extracted trace checker is sound: an event trace of the Go encoder that it
    accepts is a maximal run of the L1 system. *)
Theorem C10_check_trace_sound :
  forall (V : Type) (v0 : V) (f : nat -> nat -> V -> V -> V -> V -> V) (mbW mbH : nat),
  1 <= mbW ->
  forall (n : nat) (evs : list event),
  check_trace V v0 f mbW mbH n evs = None ->
  exists s, run V v0 f mbW mbH (init V v0 n) (flat_map label_of evs) = Some s /\
    final V mbH s = true /\
    (forall y x, y < mbH -> x < mbW -> out V s y x = Some (serial_out V v0 f mbW y x)) /\
    tokens V s = serial_tokens V v0 f mbW mbH.
Proof. exact check_trace_sound. Qed.
Print Assumptions C10_check_trace_sound.

(** Phase A / Phase B field disjointness, on the field sets regenerated from the
    current source (tools/gosrc2v/phaseb.go): what the overlapped recorder writes is
    disjoint from everything the row workers touch, and what the workers write from
    everything the recorder touches, except the row-synchronised mbInfo.  (Re-enabling
    the probability refresh in overlapped mode puts "proba" into the recorder's write set
    and breaks this statement.) *)
Theorem C10_phaseB_disjoint :
  (forall fld, In fld WebpGen.PhaseB.phaseB_writes ->
     In fld WebpGen.PhaseB.phaseA_reads \/ In fld WebpGen.PhaseB.phaseA_writes ->
     In fld Conc.ConcPhaseB.synchronised) /\
  (forall fld, In fld WebpGen.PhaseB.phaseA_writes ->
     In fld WebpGen.PhaseB.phaseB_reads \/ In fld WebpGen.PhaseB.phaseB_writes ->
     In fld Conc.ConcPhaseB.synchronised).
Proof. apply Conc.ConcPhaseB.phases_disjoint_spec. vm_compute. reflexivity. Qed.
Print Assumptions C10_phaseB_disjoint.


(** L2: waitFor / signal of one row with its atomics, mutex and condition variable;
    any row width, any number of waiters with any lists of [needed] <= mbW, any schedule. *)
Module W := Conc.ConcWaitSignal.
Module WP := Conc.ConcWaitSignalProofs.

(** waitFor returns only when done >= needed. *)
Theorem C10_waitfor_returns_only_when_done :
  forall (mbW : nat) (calls : list (list nat)) (sched : list W.label) (s : W.st) (j : nat) (s' : W.st) (w w' : W.wproc),
  Forall (Forall (fun nd => nd <= mbW)) calls ->
  W.run mbW (W.init mbW calls) sched = Some s -> W.step mbW s (W.LWt j) = Some s' ->
  nth_error (W.ws s) j = Some w -> nth_error (W.ws s') j = Some w' ->
  WP.in_call (W.pc w) = true -> W.pc w' = W.WIdle ->
  WP.pc_nd (W.pc w) <= W.done s'.
Proof. exact WP.waitfor_returns_only_when_done. Qed.
Print Assumptions C10_waitfor_returns_only_when_done.

(** No lost wake-up: in every reachable state, a waiter that sleeps in cond.Wait
    while done >= needed has a Broadcast pending (the signaller is between its
    waiters load and its Broadcast), and a waiter that is committed to cond.Wait
    (checked done < needed, still holds the mutex) while done >= needed finds the
    signaller before its Lock — so the Broadcast comes after the waiter sleeps. *)
Theorem C10_no_lost_wakeup :
  forall (mbW : nat) (calls : list (list nat)) (sched : list W.label) (s : W.st) (j : nat) (w : W.wproc) (nd : nat),
  Forall (Forall (fun nd => nd <= mbW)) calls ->
  W.run mbW (W.init mbW calls) sched = Some s -> nth_error (W.ws s) j = Some w ->
  nd <= W.done s ->
  (W.pc w = W.WSleep nd -> WP.pending (W.sig s) = true) /\
  (W.pc w = W.WWaitCall nd -> WP.load_lock (W.sig s) = true /\ W.mu s = Some (W.OW j)).
Proof. exact WP.no_lost_wakeup. Qed.
Print Assumptions C10_no_lost_wakeup.

Theorem C10_broadcast_wakes_all :
  forall (mbW : nat) (s : W.st) (d : nat) (s' : W.st), W.sig s = W.SBcast d -> W.step mbW s W.LS = Some s' ->
  forall j w', nth_error (W.ws s') j = Some w' -> forall nd, W.pc w' <> W.WSleep nd.
Proof. exact WP.broadcast_wakes_all. Qed.
Print Assumptions C10_broadcast_wakes_all.

(** The protocol never deadlocks: until the signaller has finished and every waiter
    has returned from all its calls, some step is enabled. *)
Theorem C10_waitsignal_deadlock_free :
  forall (mbW : nat) (calls : list (list nat)) (sched : list W.label) (s : W.st),
  Forall (Forall (fun nd => nd <= mbW)) calls ->
  W.run mbW (W.init mbW calls) sched = Some s -> W.finished s = false ->
  exists l, W.step mbW s l <> None.
Proof. exact WP.l2_deadlock_free. Qed.
Print Assumptions C10_waitsignal_deadlock_free.

(** The detailed system (ConcDetailed.v): the whole pipeline with every worker executing
    the real waitFor / signal steps (fast-path load, waiters counter, mutex, cond.Wait,
    Broadcast) around each macroblock, the macroblock body split into a read-neighbour and a
    write-own sub-step, and the recorder doing the same per row.
    Refinement: every run of the detailed system projects (abstraction [abs]: a worker
    inside waitFor has not started its macroblock, a worker inside signal has finished
    it) to a run of the L1 system ending in the abstraction of its last state. *)
Module D := Conc.ConcDetailed.
Theorem C10_detailed_refines_rowsync :
  forall (V : Type) (v0 : V) (f : nat -> nat -> V -> V -> V -> V -> V) (mbW mbH : nat),
  1 <= mbW ->
  forall (n : nat) (sched : list label) (s : D.dstate V),
  D.drun V v0 f mbW mbH (D.dinit V v0 n) sched = Some s ->
  exists sched1, run V v0 f mbW mbH (init V v0 n) sched1 = Some (D.abs V mbW s).
Proof. exact Conc.ConcDetailedProofs.detailed_refines_rowsync. Qed.
Print Assumptions C10_detailed_refines_rowsync.

(** so the L1 results transfer: a detailed run that reaches a final state ends with the
    serial macroblock results and token stream, whatever the schedule ... *)
Theorem C10_detailed_final_runs_serial :
  forall (V : Type) (v0 : V) (f : nat -> nat -> V -> V -> V -> V -> V) (mbW mbH : nat),
  1 <= mbW ->
  forall (n : nat) (sched : list label) (s : D.dstate V),
  D.drun V v0 f mbW mbH (D.dinit V v0 n) sched = Some s -> D.dfinal V mbH s = true ->
  (forall y x, y < mbH -> x < mbW -> D.d_out V s y x = Some (serial_out V v0 f mbW y x)) /\
  D.d_tokens V s = serial_tokens V v0 f mbW mbH.
Proof. exact Conc.ConcDetailedProofs.detailed_deterministic. Qed.
Print Assumptions C10_detailed_final_runs_serial.

(** ... and whenever a macroblock body runs in the detailed system, the shared context
    cells it reads hold the serial values (row y-1's). *)
Theorem C10_detailed_reads_serial :
  forall (V : Type) (v0 : V) (f : nat -> nat -> V -> V -> V -> V -> V) (mbW mbH : nat),
  1 <= mbW ->
  forall (n : nat) (sched : list label) (s : D.dstate V) (i y x : nat) (tl l : V),
  D.drun V v0 f mbW mbH (D.dinit V v0 n) sched = Some s ->
  nth_error (D.d_workers V s) i = Some (D.DCompute y x tl l) ->
  D.d_top V s x = ((if y =? 0 then None else Some (y - 1)), P V v0 f mbW y x) /\
  (S x < mbW -> D.d_top V s (S x) = ((if y =? 0 then None else Some (y - 1)), P V v0 f mbW y (S x))).
Proof. exact Conc.ConcDetailedProofs.detailed_reads_serial. Qed.
Print Assumptions C10_detailed_reads_serial.

(** The macroblock body is TWO steps in the detailed system — read the neighbour contexts
    top[x], top[x+1]; later compute and write top[x] and the output.  The values a worker
    holds in between are still the serial ones when it writes (no other worker writes the
    cells it read), and what it then writes is the serial result. *)
Theorem C10_detailed_held_values_serial :
  forall (V : Type) (v0 : V) (f : nat -> nat -> V -> V -> V -> V -> V) (mbW mbH : nat),
  1 <= mbW ->
  forall (n : nat) (sched : list label) (s : D.dstate V) (i y x : nat) (tl l t tr : V),
  D.drun V v0 f mbW mbH (D.dinit V v0 n) sched = Some s ->
  nth_error (D.d_workers V s) i = Some (D.DHold y x tl l t tr) ->
  t = P V v0 f mbW y x /\ (S x < mbW -> tr = P V v0 f mbW y (S x)) /\
  f y x tl t tr l = serial_out V v0 f mbW y x.
Proof. exact Conc.ConcDetailedProofs.detailed_held_values_serial. Qed.
Print Assumptions C10_detailed_held_values_serial.

(** The detailed system never deadlocks: every reachable state that is not final has an
    enabled transition (multi-row version of the L2 invariant: waiters counter = number
    of counted waiters, mutex owner = the process in a holding phase, a waiter asleep or
    committed to cond.Wait while its row is ready has the row's signaller before its
    Broadcast). *)
Module DL := Conc.ConcDetailedLive.
Theorem C10_detailed_deadlock_free :
  forall (V : Type) (v0 : V) (f : nat -> nat -> V -> V -> V -> V -> V) (mbW mbH : nat),
  1 <= mbW ->
  forall (n : nat) (sched : list label) (s : D.dstate V), 1 <= n ->
  D.drun V v0 f mbW mbH (D.dinit V v0 n) sched = Some s -> D.dfinal V mbH s = false ->
  exists l, D.dstep V v0 f mbW mbH s l <> None.
Proof. exact DL.detailed_deadlock_free. Qed.
Print Assumptions C10_detailed_deadlock_free.

(** Every maximal run of the detailed system — real waitFor / signal steps, any frame
    size, any number of workers, any schedule — ends with the serial macroblock results
    and token stream. *)
Theorem C10_detailed_system_deterministic :
  forall (V : Type) (v0 : V) (f : nat -> nat -> V -> V -> V -> V -> V) (mbW mbH : nat),
  1 <= mbW ->
  forall (n : nat) (sched : list label) (s : D.dstate V), 1 <= n ->
  D.drun V v0 f mbW mbH (D.dinit V v0 n) sched = Some s ->
  (forall l, D.dstep V v0 f mbW mbH s l = None) ->
  (forall y x, y < mbH -> x < mbW -> D.d_out V s y x = Some (serial_out V v0 f mbW y x)) /\
  D.d_tokens V s = serial_tokens V v0 f mbW mbH.
Proof. exact DL.detailed_system_deterministic. Qed.
Print Assumptions C10_detailed_system_deterministic.

(** No lost wake-up in the detailed system. *)
Theorem C10_detailed_no_lost_wakeup :
  forall (V : Type) (v0 : V) (f : nat -> nat -> V -> V -> V -> V -> V) (mbW mbH : nat),
  1 <= mbW ->
  forall (n : nat) (sched : list label) (s : D.dstate V) (i y x : nat) (tl l : V) (ph : D.wph),
  D.drun V v0 f mbW mbH (D.dinit V v0 n) sched = Some s ->
  nth_error (D.d_workers V s) i = Some (D.DWait y x tl l ph) ->
  needed mbW x <= D.d_done V s (y - 1) -> ph = D.PWaitCall \/ ph = D.PSleep ->
  exists j x' tl' l' sp, nth_error (D.d_workers V s) j = Some (D.DSig (y - 1) x' tl' l' sp) /\
                         DL.okphase ph sp = true.
Proof. exact DL.detailed_no_lost_wakeup. Qed.
Print Assumptions C10_detailed_no_lost_wakeup.

(** Liveness without any fairness assumption: every run of the detailed system is finite,
    with an explicit bound (no process can spin: a blocked process is disabled) ... *)
Module DT := Conc.ConcDetailedTerm.
Theorem C10_detailed_terminates :
  forall (V : Type) (v0 : V) (f : nat -> nat -> V -> V -> V -> V -> V) (mbW mbH : nat),
  1 <= mbW ->
  forall (n : nat) (sched : list label) (s : D.dstate V),
  D.drun V v0 f mbW mbH (D.dinit V v0 n) sched = Some s -> length sched <= DT.run_bound mbW mbH n.
Proof. exact DT.detailed_terminates. Qed.
Print Assumptions C10_detailed_terminates.

(** ... so under EVERY scheduler an execution that is continued as long as a step is
    enabled reaches the final state (all rows encoded, all tokens recorded) within the
    bound: at any point of any run either the state is final or some step is enabled. *)
Theorem C10_detailed_always_reaches_final :
  forall (V : Type) (v0 : V) (f : nat -> nat -> V -> V -> V -> V -> V) (mbW mbH : nat),
  1 <= mbW ->
  forall (n : nat) (sched : list label) (s : D.dstate V), 1 <= n ->
  D.drun V v0 f mbW mbH (D.dinit V v0 n) sched = Some s ->
  length sched <= DT.run_bound mbW mbH n /\
  (D.dfinal V mbH s = true \/ exists l, D.dstep V v0 f mbW mbH s l <> None).
Proof. exact DT.detailed_always_reaches_final. Qed.
Print Assumptions C10_detailed_always_reaches_final.

(** sync.Pool shared by concurrent public-API calls (ConcPoolShare.v), composed with C11's
    pool model: any number of goroutines, Get / Put events interleaved arbitrarily, the
    runtime free to drop pooled objects, to hand out any pooled object or none, to keep a
    returned object or not.  Under the hypotheses of C11's history_independent (reset
    completeness — a regenerated, machine-checked fact per pooled type —, frame condition,
    dimension gate, ConstZero fields) every call returns what it returns on a fresh object ... *)
Module PM := Conc.PoolModel.
Module PS := Conc.ConcPoolShare.
Theorem C10_pool_share_outputs_fresh :
  forall (Args Out Val Shape : Type) (shape : Args -> Val -> Shape)
         (fields : list String.string) (cls : list (String.string * PM.fclass))
         (assigned released : list String.string) (init : Args -> String.string -> Val) (nilv zerov : Val)
         (gate : Args -> PM.obj Val -> bool) (run : Args -> PM.obj Val -> Out * PM.obj Val),
  PM.reset_complete_b fields cls assigned released = true ->
  PM.frame_condition Args Out Val Shape shape fields cls run ->
  PM.dimension_gate_condition Args Val Shape shape fields cls assigned init gate ->
  (forall a, PM.czero_inv Val fields cls zerov (PM.fresh Args Val init a)) ->
  (forall a o, PM.czero_inv Val fields cls zerov o -> PM.czero_inv Val fields cls zerov (snd (run a o))) ->
  forall (es : list (PS.event Args)) (st : PS.pstate Args Out Val) (g : nat) (a : Args) (out : Out),
  PS.prun Args Out Val assigned released init nilv gate run (PS.pinit Args Out Val) es = Some st ->
  In (g, a, out) (PS.outs Args Out Val st) -> out = fst (run a (PM.fresh Args Val init a)).
Proof. exact PS.pool_share_outputs_fresh. Qed.
Print Assumptions C10_pool_share_outputs_fresh.

(** ... and ownership is exclusive: the objects in the pool and the objects held by
    goroutines always have pairwise different identities, a goroutine holds at most one. *)
Theorem C10_pool_share_exclusive :
  forall (Args Out Val Shape : Type) (shape : Args -> Val -> Shape)
         (fields : list String.string) (cls : list (String.string * PM.fclass))
         (assigned released : list String.string) (init : Args -> String.string -> Val) (nilv zerov : Val)
         (gate : Args -> PM.obj Val -> bool) (run : Args -> PM.obj Val -> Out * PM.obj Val),
  PM.reset_complete_b fields cls assigned released = true ->
  PM.frame_condition Args Out Val Shape shape fields cls run ->
  PM.dimension_gate_condition Args Val Shape shape fields cls assigned init gate ->
  (forall a, PM.czero_inv Val fields cls zerov (PM.fresh Args Val init a)) ->
  (forall a o, PM.czero_inv Val fields cls zerov o -> PM.czero_inv Val fields cls zerov (snd (run a o))) ->
  forall (es : list (PS.event Args)) (st : PS.pstate Args Out Val),
  PS.prun Args Out Val assigned released init nilv gate run (PS.pinit Args Out Val) es = Some st ->
  NoDup (map fst (PS.pool Args Out Val st) ++ map (PS.h_id Args Val) (PS.held Args Out Val st)) /\
  NoDup (map (PS.h_g Args Val) (PS.held Args Out Val st)).
Proof. exact PS.pool_share_exclusive. Qed.
Print Assumptions C10_pool_share_exclusive.

(** Why signal takes and releases the row mutex before Broadcast: the variant without that
    pair loses a wake-up (a waiter committed to cond.Wait is overtaken by store + load +
    Broadcast-to-nobody and sleeps for ever) ... *)
Module NL := Conc.ConcWaitSignalNoLock.
Theorem C10_nolock_lost_wakeup_refuted : ~ NL.nolock_no_lost_wakeup.
Proof. exact NL.nolock_lost_wakeup_refuted. Qed.
Print Assumptions C10_nolock_lost_wakeup_refuted.

Theorem C10_nolock_deadlock_witness :
  exists s, NL.run_nolock 1 (W.init 1 [[1]]) NL.lost_wakeup_schedule = Some s /\
            W.finished s = false /\ forall l, NL.step_nolock 1 s l = None.
Proof. exact NL.nolock_deadlock_witness. Qed.
Print Assumptions C10_nolock_deadlock_witness.

(** ... and the code has the pair: the sequences of synchronisation operations of waitFor and
    signal (operations on done / waiters / mu / cond with the blocks around them; identifiers,
    hook lines and all other statements abstracted away), regenerated from the source, are
    those the L2 model has one transition for, and encodeRow's macroblock loop waits before it
    signals. *)
Theorem C10_rowsync_source_matches_model :
  WebpGen.RowSyncSrc.waitFor_ops = NL.modelled_waitFor_ops /\
  WebpGen.RowSyncSrc.signal_ops = NL.modelled_signal_ops /\
  WebpGen.RowSyncSrc.encodeRow_sync_calls = NL.modelled_encodeRow_sync_calls.
Proof. repeat split; reflexivity. Qed.
Print Assumptions C10_rowsync_source_matches_model.

(** Fork–join sections (shared with C12): disjoint writes + join make the result
    independent of the interleaving, the worker count and the partition; work-queue
    sections (DecodeFramesParallel) are independent of the order in which items are taken. *)
Module Pt := Conc.ConcPartition.
Module PtP := Conc.ConcPartitionProofs.
Open Scope Z_scope.

Theorem C10_forkjoin_deterministic :
  forall (A : Type) (f : Z -> A) total (init : list A) rs1 rs2 ops1 ops2,
  PtP.exact_partition rs1 0 total -> PtP.exact_partition rs2 0 total ->
  length init = Z.to_nat total ->
  Pt.Shuffle (map Pt.indices rs1) ops1 -> Pt.Shuffle (map Pt.indices rs2) ops2 ->
  Pt.run_writes f ops1 init = Pt.run_writes f ops2 init.
Proof. exact PtP.forkjoin_deterministic. Qed.
Print Assumptions C10_forkjoin_deterministic.

Theorem C10_queue_site_independent :
  forall (A : Type) (f : Z -> A) total (init : list A) ops,
  Permutation.Permutation ops (Pt.zrange total) -> length init = Z.to_nat total ->
  Pt.run_writes f ops init = map f (Pt.zrange total).
Proof. exact PtP.queue_site_independent. Qed.
Print Assumptions C10_queue_site_independent.

(** Tie to the source (regenerated on every run): every [go] statement of the library —
    whatever its file or function is called — is a spawn loop `for w := 0; w < N; w++` handing
    out ranges, a set of workers draining a queue, or a single goroutine (the one that closes
    the result channel after the join).  Only the goroutine STRUCTURE is stated here; whether
    the ranges cover is C12's subject (a change of the partition arithmetic cannot break this
    statement).  And the trace points the checker relies on are the hook's constants. *)
Theorem C10_go_statements_modelled :
  forallb Conc.ConcPartExpr.structure_understood WebpGen.PartShapes.sites = true /\
  WebpGen.PartShapes.sites <> [].
Proof. split; [vm_compute; reflexivity | discriminate]. Qed.
Print Assumptions C10_go_statements_modelled.

Theorem C10_trace_points :
  [WebpGen.Consts.verifhook_PointClaim; WebpGen.Consts.verifhook_PointMBBegin;
   WebpGen.Consts.verifhook_PointWaitEnter; WebpGen.Consts.verifhook_PointWaitSlow;
   WebpGen.Consts.verifhook_PointCondWait; WebpGen.Consts.verifhook_PointMBStart;
   WebpGen.Consts.verifhook_PointExport; WebpGen.Consts.verifhook_PointSignal;
   WebpGen.Consts.verifhook_PointSignalSlow; WebpGen.Consts.verifhook_PointRecordRow]
  = [0; 1; 2; 3; 4; 5; 6; 7; 8; 9].
Proof. reflexivity. Qed.
Print Assumptions C10_trace_points.
