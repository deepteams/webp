(** C19 — Encode depends on the picture, not on how the pixels are stored.
    Models: Place/PlaceModel.v (index arithmetic of every *image.NRGBA fast path, with Panic,
    and of the generic At() path); proofs: Place/PlaceProof.v.
    [valid pl] = Bounds() = Rect (as *image.NRGBA guarantees), w, h >= 1 (Encode rejects empty
    images) and validNRGBA(img, w, h).  Placements range over every Pix, Stride, Rect:
    origin placement, sub-image views with non-zero (also negative) Rect.Min and larger
    stride, extra stride padding (also not a multiple of 4), trailing bytes. *)
From Coq Require Import List ZArith Bool.
From Webp Require Import Base.Res Place.PlaceModel Place.PlaceProof Place.PlaceEdge Place.PlaceFactor Place.PlaceSites.
Import ListNotations.
Open Scope Z_scope.

(** The generic At() path never panics on a valid placement; it defines the picture. *)
Theorem C19_generic_path_total : forall pl, valid pl -> exists p, picture pl = Ok p.
Proof. intros pl V. eexists. exact (picture_ok pl V). Qed.
Print Assumptions C19_generic_path_total.

(** For each fast path, two statements: on a valid placement it never panics and equals the generic
    path's result; two valid placements of one picture give the same result.
    Lossless import of encodeLossless / encodeLosslessToWriter (ARGB words). *)
Theorem C19_fast_eq_generic_argb : forall pl p, valid pl -> picture pl = Ok p -> fast_argb pl = Ok (gen_argb p).
Proof. exact (through_picture_generic fast_argb_ok). Qed.
Print Assumptions C19_fast_eq_generic_argb.

Theorem C19_import_placement_independent_argb : forall pl1 pl2, valid pl1 -> valid pl2 ->
  picture pl1 = picture pl2 -> fast_argb pl1 = fast_argb pl2.
Proof. exact (through_picture_indep fast_argb_ok). Qed.
Print Assumptions C19_import_placement_independent_argb.

(** encode.go imageHasAlpha. *)
Theorem C19_fast_eq_generic_root_has_alpha : forall pl p, valid pl -> picture pl = Ok p -> fast_root_has_alpha pl = Ok (gen_has_alpha p).
Proof. exact (through_picture_generic fast_root_has_alpha_ok). Qed.
Print Assumptions C19_fast_eq_generic_root_has_alpha.

Theorem C19_import_placement_independent_root_has_alpha : forall pl1 pl2, valid pl1 -> valid pl2 ->
  picture pl1 = picture pl2 -> fast_root_has_alpha pl1 = fast_root_has_alpha pl2.
Proof. exact (through_picture_indep fast_root_has_alpha_ok). Qed.
Print Assumptions C19_import_placement_independent_root_has_alpha.

(** lossy.imageHasAlpha (no validNRGBA guard). *)
Theorem C19_fast_eq_generic_lossy_has_alpha : forall pl p, valid pl -> picture pl = Ok p -> fast_lossy_has_alpha pl = Ok (gen_has_alpha p).
Proof. exact (through_picture_generic fast_lossy_has_alpha_ok). Qed.
Print Assumptions C19_fast_eq_generic_lossy_has_alpha.

Theorem C19_import_placement_independent_lossy_has_alpha : forall pl1 pl2, valid pl1 -> valid pl2 ->
  picture pl1 = picture pl2 -> fast_lossy_has_alpha pl1 = fast_lossy_has_alpha pl2.
Proof. exact (through_picture_indep fast_lossy_has_alpha_ok). Qed.
Print Assumptions C19_import_placement_independent_lossy_has_alpha.

(** extractAlphaWith. *)
Theorem C19_fast_eq_generic_extract_alpha : forall pl p, valid pl -> picture pl = Ok p -> fast_extract_alpha pl = Ok (gen_alpha p).
Proof. exact (through_picture_generic fast_extract_alpha_ok). Qed.
Print Assumptions C19_fast_eq_generic_extract_alpha.

Theorem C19_import_placement_independent_extract_alpha : forall pl1 pl2, valid pl1 -> valid pl2 ->
  picture pl1 = picture pl2 -> fast_extract_alpha pl1 = fast_extract_alpha pl2.
Proof. exact (through_picture_indep fast_extract_alpha_ok). Qed.
Print Assumptions C19_import_placement_independent_extract_alpha.

(** Row copy of cleanupTransparentAreaLossyWith. *)
Theorem C19_fast_eq_generic_cleanup_copy : forall pl p, valid pl -> picture pl = Ok p -> fast_cleanup_copy pl = Ok (p).
Proof. exact (through_picture_generic fast_cleanup_copy_ok). Qed.
Print Assumptions C19_fast_eq_generic_cleanup_copy.

Theorem C19_import_placement_independent_cleanup_copy : forall pl1 pl2, valid pl1 -> valid pl2 ->
  picture pl1 = picture pl2 -> fast_cleanup_copy pl1 = fast_cleanup_copy pl2.
Proof. exact (through_picture_indep fast_cleanup_copy_ok). Qed.
Print Assumptions C19_import_placement_independent_cleanup_copy.

(** RGB import of sharpYUVConvert. *)
Theorem C19_fast_eq_generic_sharp_rgb : forall pl p, valid pl -> picture pl = Ok p -> fast_sharp_rgb pl = Ok (gen_sharp_rgb p).
Proof. exact (through_picture_generic fast_sharp_rgb_ok). Qed.
Print Assumptions C19_fast_eq_generic_sharp_rgb.

Theorem C19_import_placement_independent_sharp_rgb : forall pl1 pl2, valid pl1 -> valid pl2 ->
  picture pl1 = picture pl2 -> fast_sharp_rgb pl1 = fast_sharp_rgb pl2.
Proof. exact (through_picture_indep fast_sharp_rgb_ok). Qed.
Print Assumptions C19_import_placement_independent_sharp_rgb.

(** lossy.importImage, direct non-dithered paths (Y plane with F = RGBToY; the R,G,B,A rows fed
    to the chroma accumulation with F = id): rows clamped to h-1, pixels x < w read, last value
    replicated to the padded width; for every stored function F. *)
Theorem C19_fast_eq_generic_import_rows : forall (T : Type) (F : px -> T) d pl p, valid pl -> picture pl = Ok p ->
  fast_import_rows F d pl = Ok (gen_import_rows F d (pw pl) (ph pl) p).
Proof. intros T F d. exact (through_picture_generic (fast_import_rows_ok F d)). Qed.
Print Assumptions C19_fast_eq_generic_import_rows.

Theorem C19_import_placement_independent_import_rows : forall (T : Type) (F : px -> T) d pl1 pl2, valid pl1 -> valid pl2 ->
  picture pl1 = picture pl2 -> fast_import_rows F d pl1 = fast_import_rows F d pl2.
Proof. intros T F d. exact (through_picture_indep (fast_import_rows_ok F d)). Qed.
Print Assumptions C19_import_placement_independent_import_rows.

(** lossy.importImage, serial path (extractRow: dithering): both coordinates clamped. *)
Theorem C19_fast_eq_generic_import_rows_serial : forall (T : Type) (F : px -> T) pl p, valid pl -> picture pl = Ok p ->
  fast_import_rows_serial F pl = Ok (gen_import_rows_serial F (pw pl) (ph pl) p).
Proof. intros T F. exact (through_picture_generic (fast_import_rows_serial_ok F)). Qed.
Print Assumptions C19_fast_eq_generic_import_rows_serial.

Theorem C19_import_placement_independent_import_rows_serial : forall (T : Type) (F : px -> T) pl1 pl2, valid pl1 -> valid pl2 ->
  picture pl1 = picture pl2 -> fast_import_rows_serial F pl1 = fast_import_rows_serial F pl2.
Proof. intros T F. exact (through_picture_indep (fast_import_rows_serial_ok F)). Qed.
Print Assumptions C19_import_placement_independent_import_rows_serial.

(** Bytes of the backing buffer outside the bounds' rows/columns (parent pixels, stride padding,
    trailing bytes) never influence the picture, hence (by the theorems above) no extraction. *)
Theorem C19_outside_bounds_irrelevant : forall pl1 pl2,
  valid pl1 -> valid pl2 -> same_geometry pl1 pl2 -> agree_in_bounds pl1 pl2 -> picture pl1 = picture pl2.
Proof. exact outside_bounds_irrelevant. Qed.
Print Assumptions C19_outside_bounds_irrelevant.

(** Non-vacuity: an origin placement and a sub-image view at (3,5) of a noisy parent with a
    larger stride are both valid, show the same picture and have different buffers. *)
Theorem C19_hypotheses_satisfiable :
  valid ex_origin /\ valid ex_sub /\ picture ex_origin = picture ex_sub /\ pPix ex_origin <> pPix ex_sub.
Proof. exact ex_valid. Qed.
Print Assumptions C19_hypotheses_satisfiable.

(** Sharpness of the validity hypothesis: the lossy package's paths have no validNRGBA guard,
    a placement whose Pix is one row short makes them index out of range; the guarded
    extractAlphaWith then takes the generic At() path, which indexes out of range as well. *)
Theorem C19_unguarded_paths_panic_on_invalid_placement :
  validb ex_short = false /\ fast_lossy_has_alpha ex_short = Panic /\ fast_import_rows rgb_to_y 0 ex_short = Panic /\
  fast_extract_alpha ex_short = Panic.
Proof. exact short_placement_panics. Qed.
Print Assumptions C19_unguarded_paths_panic_on_invalid_placement.

(** Edge replication: the direct path's padding (replicate the last value of the row) equals the
    serial path's clamped reads, for every valid placement and stored function. *)
Theorem C19_edge_replication : forall (T : Type) (F : px -> T) d pl, valid pl ->
  fast_import_rows F d pl = fast_import_rows_serial F pl.
Proof. intros T F d pl V. exact (edge_replication F d pl V). Qed.
Print Assumptions C19_edge_replication.

(** The source (regenerated list of every use of every image.Image parameter in the root and
    lossy packages) lets the image reach pixels-reading code only through the modelled import
    functions; drivers use the geometry only; in encodeLossless / encodeLosslessToWriter the single
    import statement precedes the codec call and is the last use of the image. *)
Theorem C19_source_factors_through_import : factors_through_import = true.
Proof. exact source_factors_through_import. Qed.
Print Assumptions C19_source_factors_through_import.

(** Hence, for every "rest of the encoder" (any function of options, dimensions and the
    extracted arrays: analysis, heuristics, token emission, container writing), the output is a
    function of the logical picture: two valid placements of the same picture give the same
    output, and bytes outside the bounds never matter. *)
Theorem C19_encode_factors_through_import : forall (Cfg Out : Type) (rest : Cfg -> Z -> Z -> imports -> Out) cfg pl1 pl2,
  valid pl1 -> valid pl2 -> picture pl1 = picture pl2 ->
  encode_model Cfg Out rest cfg pl1 = encode_model Cfg Out rest cfg pl2.
Proof. exact encode_factors_through_import. Qed.
Print Assumptions C19_encode_factors_through_import.

Theorem C19_encode_ignores_bytes_outside_bounds : forall (Cfg Out : Type) (rest : Cfg -> Z -> Z -> imports -> Out) cfg pl1 pl2,
  valid pl1 -> valid pl2 -> same_geometry pl1 pl2 -> agree_in_bounds pl1 pl2 ->
  encode_model Cfg Out rest cfg pl1 = encode_model Cfg Out rest cfg pl2.
Proof. exact encode_ignores_bytes_outside_bounds. Qed.
Print Assumptions C19_encode_ignores_bytes_outside_bounds.

(** The set of pixel-reading signatures (sorted kinds of pixel uses per reading function: Pix fast
    paths = type assertions, generic At() loops) is the one the models and the harness' placement x
    type x configuration product were written against, whichever function holds the loops; a new
    kind of reader breaks this obligation. *)
Theorem C19_import_sites_match_model : WebpGen.ImgUse.img_pixel_signatures = doc_pixel_signatures.
Proof. exact import_sites_match_model. Qed.
Print Assumptions C19_import_sites_match_model.

(** "The caller's image is never modified", as a regenerated fact: in the import functions no
    element of the concrete image's Pix (or of a variable assigned from it) is assigned to,
    incremented, or used as the destination of copy; Pix is never passed on (except to len) and
    the concrete image is only passed to validNRGBA / validRGBA and read through
    Pix / Stride / Rect / Bounds / Opaque / PixOffset (the translator REFUSES anything else). *)
Theorem C19_source_never_writes_callers_buffer : WebpGen.ImgUse.pix_stores = [].
Proof. exact (proj2 (proj2 (proj2 pix_sites_match_model_holds))). Qed.
Print Assumptions C19_source_never_writes_callers_buffer.

(** The index expressions of every direct Pix read, the slice read of the clean-up copy and all
    assignments feeding them are exactly the ones PlaceModel.v transcribes (frozen in
    Place/PlaceSites.v). *)
Theorem C19_pix_sites_match_model : pix_sites_match_model.
Proof. exact pix_sites_match_model_holds. Qed.
Print Assumptions C19_pix_sites_match_model.

(** "Nothing outside the bounds is read": for every valid placement (any Pix, Stride, Rect) the
    offset of byte c of logical pixel (x, y) - the only offsets the modelled fast paths read, by
    the fast = generic theorems above - lies inside the buffer, inside row y and inside the
    columns of the bounds. *)
Theorem C19_in_bounds_offsets_in_range : forall pl, wf pl -> validb pl = true ->
  forall x y c, 0 <= x < pw pl -> 0 <= y < ph pl -> 0 <= c < 4 ->
  0 <= off pl x y c < plen pl /\ y * pStride pl <= off pl x y c < y * pStride pl + pw pl * 4.
Proof. exact in_bounds_offsets_in_range. Qed.
Print Assumptions C19_in_bounds_offsets_in_range.
