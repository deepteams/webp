(** C12 — Results do not depend on GOMAXPROCS.
    Only statements, each closed by [exact <lemma>] or by evaluation of a generated table,
    and followed by [Print Assumptions]. *)
From Coq Require Import String List ZArith Permutation.
From Webp Require Import Conc.ConcPartition Conc.ConcPartitionProofs.
From Webp Require Conc.ConcAnalysis Conc.ConcUVScratch Conc.ConcScratchRegion Conc.ConcPartExpr Conc.ConcQueue.
From WebpGen Require Sites Consts Analysis UVScratch ScratchRegion PartShapes.
Import ListNotations.
Open Scope Z_scope.

(** [exact_partition rs lo hi] (ConcPartitionProofs): the ranges [rs] lie within
    [lo,hi), cover it, and are pairwise disjoint.  The following hold for EVERY worker
    count n >= 1 (what GOMAXPROCS returned) and EVERY size. *)

(** lossy importImage: Y rows (total = padH) and UV row pairs (total = padH/2). *)
Theorem C12_partition_exact_import : forall n total, 1 <= n -> 0 <= total ->
  exact_partition (ranges_prop n total) 0 total.
Proof. exact partition_exact_prop. Qed.
Print Assumptions C12_partition_exact_import.

(** lossless ResidualImage / ColorSpaceTransform (tile rows), histogramRemap,
    parallelComputeHistogramCost (histograms): ceil-sized clipped chunks, possibly
    empty or inverted ranges at the end. *)
Theorem C12_partition_exact_ceil_chunks : forall n total, 1 <= n -> 1 <= total ->
  exact_partition (ranges_ceil n total) 0 total.
Proof. exact partition_exact_ceil. Qed.
Print Assumptions C12_partition_exact_ceil_chunks.

Theorem C12_partition_exact_inv_cross_color : forall n ystart yend, 1 <= n -> ystart < yend ->
  exact_partition (ranges_inv_cross_color n ystart yend) ystart yend.
Proof. exact partition_exact_inv_cross_color. Qed.
Print Assumptions C12_partition_exact_inv_cross_color.

Theorem C12_partition_exact_argb_to_nrgba : forall n height, 1 <= n -> 0 <= height ->
  exact_partition (ranges_argb_to_nrgba n height) 0 height.
Proof. exact partition_exact_argb_to_nrgba. Qed.
Print Assumptions C12_partition_exact_argb_to_nrgba.

Theorem C12_partition_exact_hashchain : forall n size, 1 <= n -> 2 <= size ->
  exact_partition (ranges_hashchain n size) 1 (size - 1).
Proof. exact partition_exact_hashchain. Qed.
Print Assumptions C12_partition_exact_hashchain.

Theorem C12_partition_exact_compute_alphas : forall n mbW mbH, 1 <= n -> 1 <= mbW -> 1 <= mbH ->
  exact_partition (ranges_compute_alphas n mbW mbH) 0 mbH.
Proof. exact partition_exact_compute_alphas. Qed.
Print Assumptions C12_partition_exact_compute_alphas.

Theorem C12_workers_encode_parallel_bounds : forall n mbH, 1 <= mbH ->
  1 <= workers_encode_parallel n mbH <= 6 /\ workers_encode_parallel n mbH <= mbH.
Proof. exact workers_encode_parallel_bounds. Qed.
Print Assumptions C12_workers_encode_parallel_bounds.

(** A fork–join over an exact partition, one goroutine per range, under ANY
    interleaving of the workers' steps ([Shuffle]), computes the serial loop's result:
    sites whose per-item function only reads shared inputs ... *)
Theorem C12_map_site_independent : forall (A : Type) (f : Z -> A) rs total (init : list A) ops,
  exact_partition rs 0 total -> length init = Z.to_nat total ->
  Shuffle (map indices rs) ops ->
  run_writes f ops init = map f (zrange total).
Proof. exact map_site_independent. Qed.
Print Assumptions C12_map_site_independent.

(** ... sites whose items transform their own cell in place (each exactly once) ... *)
Theorem C12_inplace_site_independent : forall (A : Type) (g : Z -> A -> A) (d : A) rs total st ops,
  exact_partition rs 0 total -> length st = Z.to_nat total ->
  Shuffle (map indices rs) ops ->
  run_inplace g d ops st = map (fun i => g i (nth (Z.to_nat i) st d)) (zrange total).
Proof. exact inplace_site_independent. Qed.
Print Assumptions C12_inplace_site_independent.

(** ... and the integer accumulation of computeAlphas (workers add their local sums
    in any completion order). *)
Theorem C12_sum_site_independent : forall (h : Z -> Z) rs total order,
  exact_partition rs 0 total -> Permutation order rs ->
  sum_list (map (fun r => sum_list (map h (indices r))) order) = sum_list (map h (zrange total)).
Proof. exact sum_site_independent. Qed.
Print Assumptions C12_sum_site_independent.

(** Which algorithm runs never depends on the CPU count (after the fixes of
    lossy EncodeFrame.useParallel and lossless hashchain.Fill). *)
Theorem C12_algorithm_choice_independent : algorithm_choice_independent.
Proof. exact algorithm_choice_independent_holds. Qed.
Print Assumptions C12_algorithm_choice_independent.

Theorem C12_algorithm_choice_is_by_size_and_method : forall n,
  (forall size lowEffort, hashchain_uses_parallel n size lowEffort = hashchain_uses_parallel_fixed size lowEffort) /\
  (forall mbH method doSearch, encodeframe_uses_parallel n mbH method doSearch = encodeframe_uses_parallel_fixed mbH method doSearch).
Proof. exact algorithm_choice_is_by_size_and_method. Qed.
Print Assumptions C12_algorithm_choice_is_by_size_and_method.

(** computeAlphas: the per-worker body and the serial body (worker count 1) write the
    same [alphas] and return the same uvAlphaSum/total, for EVERY exact partition of the
    macroblock rows, every interleaving of the workers' writes and every completion
    order of their atomic adds; [luma], [uv] (the per-macroblock kernels) are arbitrary. *)
Module An := Conc.ConcAnalysis.
Theorem C12_analysis_worker_eq_serial :
  forall (luma uv : Z -> Z -> Z) (mbW mbH : Z), 1 <= mbW -> 1 <= mbH ->
  forall rs alphas0 inter order,
  exact_partition rs 0 mbH ->
  length alphas0 = Z.to_nat (mbH * mbW) ->
  Shuffle (map (An.mbs_of_rows luma uv mbW) rs) inter ->
  Permutation order rs ->
  An.parallel luma uv mbW mbH alphas0 inter order = An.serial luma uv mbW mbH alphas0 /\
  fst (An.serial luma uv mbW mbH alphas0) = map (An.alpha_at luma uv mbW) (zrange (mbH * mbW)).
Proof. exact An.analysis_worker_eq_serial. Qed.
Print Assumptions C12_analysis_worker_eq_serial.

(** ... in particular for the code's own partition and every worker count n >= 1. *)
Theorem C12_analysis_worker_eq_serial_all_n :
  forall (luma uv : Z -> Z -> Z) (mbW mbH : Z), 1 <= mbW -> 1 <= mbH ->
  forall n alphas0 inter order, 1 <= n ->
  length alphas0 = Z.to_nat (mbH * mbW) ->
  Shuffle (map (An.mbs_of_rows luma uv mbW) (ranges_compute_alphas n mbW mbH)) inter ->
  Permutation order (ranges_compute_alphas n mbW mbH) ->
  An.parallel luma uv mbW mbH alphas0 inter order = An.serial luma uv mbW mbH alphas0.
Proof. exact An.analysis_worker_eq_serial_all_n. Qed.
Print Assumptions C12_analysis_worker_eq_serial_all_n.

(** Source tie for the two loop bodies (regenerated, relative): the worker loop body and the
    serial loop body are the same code up to the names of locals, the wrapper called and the
    accumulator; each serial / worker wrapper pair returns the same kernel on the same
    leading arguments and the worker passes only scratch of its own parameter. *)
Theorem C12_analysis_bodies_match :
  WebpGen.Analysis.worker_body = WebpGen.Analysis.serial_body.
Proof. reflexivity. Qed.
Print Assumptions C12_analysis_bodies_match.

Theorem C12_analysis_wrappers_same_kernel :
  An.wrappers_ok WebpGen.Analysis.wrappers = true /\ WebpGen.Analysis.wrappers <> [].
Proof. split; [vm_compute; reflexivity | discriminate]. Qed.
Print Assumptions C12_analysis_wrappers_same_kernel.

(** importImage UV workers: whatever a pooled importUVWorker (possibly from a wider image)
    held, every U / V sample of a row pair is computed from scratch cells written in the
    same call.  The index facts of dsp.AccumulateRGBA and dsp.ConvertRGBA32ToUV are
    REGENERATED from the source (Gen/UVScratch.v): the theorem is instantiated with them
    and their admissibility check is discharged by computation. *)
Module UV := Conc.ConcUVScratch.
Module GU := WebpGen.UVScratch.
Theorem C12_uv_worker_scratch_overwritten :
  forall (w mbW L : nat) (hasAlpha : bool) (pooledRow0 pooledRow1 pooledPlanar pooledTmp : UV.arr) (i : nat),
  (1 <= w)%nat -> (w <= 16 * mbW)%nat -> (16 * mbW <= L)%nat -> (i < (16 * mbW + 1) / 2)%nat ->
  UV.uv_output_fresh_gen w (16 * mbW) L hasAlpha pooledRow0 pooledRow1 pooledPlanar pooledTmp
      GU.acc_j_step GU.acc_reads GU.acc_dst_step GU.acc_dst_writes GU.conv_mult GU.conv_reads i = true.
Proof.
  intros. apply UV.uv_worker_scratch_overwritten_gen; try assumption. vm_compute. reflexivity.
Qed.
Print Assumptions C12_uv_worker_scratch_overwritten.

(** Source tie for the rest of the UV model (regenerated): the loop bounds of the two
    kernels, the definition of uvWidth, the statements of the UV goroutine before the
    row-pair loop (pooled worker, 0xff fill of planarA without alpha) and the row-pair loop
    body (row fill, edge replication, copies, call arguments) are the texts the model
    transcribes. *)
Theorem C12_uv_loop_text_matches_model :
  GU.acc_loop_bound = "i < (width >> 1)"%string /\ GU.conv_loop_bound = "i < width"%string /\
  GU.uv_width_def = "(padW + 1) >> 1"%string /\
  GU.uv_goroutine_prelude = UV.modelled_goroutine_prelude /\
  GU.uv_pair_loop_body = UV.modelled_pair_loop_body.
Proof. repeat split; reflexivity. Qed.
Print Assumptions C12_uv_loop_text_matches_model.

(** Regenerated: in both analysis kernels the first access, in program order, to every
    scratch parameter (through loops, branches, switch alternatives and package-local
    callees; dsp.FTransformDirect's third argument is its output) is a store — supports
    the assumption that their results do not depend on what the scratch held. *)
Theorem C12_analysis_kernels_write_scratch_first :
  forallb (fun kpa => String.eqb (snd kpa) "write") WebpGen.Analysis.kernel_scratch_first_access = true /\
  WebpGen.Analysis.kernel_scratch_first_access <> [].
Proof. split; [reflexivity | discriminate]. Qed.
Print Assumptions C12_analysis_kernels_write_scratch_first.

(** Regenerated (Gen/ScratchRegion.v, symbolic evaluation of the kernel bodies): in both
    analysis kernels every scratch cell that is read is a cell the same call stores, for
    every scratch parameter; distinct cells are distinct buffer elements (column < BPS).
    The switch of generateI16Prediction is taken as a set of alternatives; its clauses
    0 and 1 are exactly the range of the mode loop (maxIntra16Mode = 2). *)
Module SR := Conc.ConcScratchRegion.
Module GS := WebpGen.ScratchRegion.
Theorem C12_analysis_kernels_scratch_covered :
  forall k p w r, In (k, p, w, r) GS.kernel_regions ->
  (forall c, In c r -> In c w) /\
  (forall c1 c2, In c1 (w ++ r) -> In c2 (w ++ r) -> SR.index_of GS.bps c1 = SR.index_of GS.bps c2 -> c1 = c2) /\
  r <> [].
Proof. intros k p w r H. apply (SR.regions_covered_spec GS.bps GS.kernel_regions k p w r); [vm_compute; reflexivity|exact H]. Qed.
Print Assumptions C12_analysis_kernels_scratch_covered.

Theorem C12_analysis_kernels_regions_listed :
  GS.kernel_regions <> [] /\
  GS.region_switches = ["generateI16Prediction|pred|mode|0,1"]%string /\ GS.max_intra16_mode = 2%nat /\
  GS.bps = Z.to_nat WebpGen.Consts.dsp_BPS.
Proof. repeat split; try reflexivity. discriminate. Qed.
Print Assumptions C12_analysis_kernels_regions_listed.

(** Spawn arithmetic of every go statement, EVALUATED (Gen/PartShapes.v: the statements on the
    path to each go statement are evaluated symbolically by the translator — assignments
    substituted, `if c { x = e }` as a conditional, min / max, helper functions inlined — into
    three expressions per site: number of spawn-loop iterations, start and end of worker #w's
    range; ConcPartExpr.v gives them a semantics).  Nothing about how the code is written is
    compared: variable names, helpers, `if e > T { e = T }` versus min, the spelling of a ceiling
    division do not matter.
    (1) every go statement is a spawn loop with ranges, a set of queue workers, or a single
        goroutine, and its expressions could be formed;
    (2) BOUNDED, for every site: for all values of the free variables from [grid_for] and all n
        in [sweep_ns] the ranges tile, exactly once, the interval that ONE worker (n = 1) covers;
    (3) UNBOUNDED, for every site the certifier accepts (clipped chunks whose size is a ceiling
        of the length over the worker count, floor chunks whose last worker takes the remainder,
        proportional bounds — recognised by an affine decomposition in #w, not by syntax): exact
        cover for ALL values of the free variables and ALL n with at least one worker and a
        non-negative length. *)
Module PE := Conc.ConcPartExpr.
Theorem C12_go_statements_understood : forallb PE.kind_understood WebpGen.PartShapes.sites = true.
Proof. vm_compute. reflexivity. Qed.
Print Assumptions C12_go_statements_understood.

Theorem C12_site_partitions_tile_bounded :
  forall s, In s WebpGen.PartShapes.sites -> PE.s_kind s = "ranges"%string ->
  forall vals n, List.length vals = List.length (PE.s_vars s) ->
  Forall (fun z => In z (PE.grid_for s)) vals -> In n PE.sweep_ns ->
  let e := combine (PE.s_vars s) vals in
  exact_partition (PE.site_ranges s e n) (fst (PE.domain1 s e)) (snd (PE.domain1 s e)).
Proof.
  apply PE.sweep_all_certified_sound. vm_compute. reflexivity.
Qed.
Print Assumptions C12_site_partitions_tile_bounded.

Theorem C12_site_partitions_tile_all_n :
  forall s c, In s WebpGen.PartShapes.sites -> PE.certify s = Some c ->
  forall e n, let en := (PE.vN, n) :: e in
  1 <= PE.eval en (PE.s_nw s) -> 0 <= PE.eval en (PE.c_nonneg c) ->
  exact_partition (PE.site_ranges s e n) (PE.eval en (PE.c_lo c)) (PE.eval en (PE.c_hi c)).
Proof. intros s c _ H e n. exact (PE.certify_sound s e n c H). Qed.
Print Assumptions C12_site_partitions_tile_all_n.

(** animation.DecodeFramesParallel (work queue + collection of results in arrival order,
    ConcQueue.v; [dec] = the frame decoder, arbitrary; [collect] = the current loop, which
    keeps the error of the lowest frame index, fix 8f1f7ab): the decoded frames are the
    decodable frames, whatever the arrival order ... *)
Module Q := Conc.ConcQueue.
Theorem C12_queue_frames_independent :
  forall (A E : Type) (dec : Z -> A + E) total arrival,
  Permutation arrival (zrange total) ->
  fst (Q.collect A E dec arrival (repeat None (Z.to_nat total))) = map (Q.slot A E dec) (zrange total).
Proof. exact Q.queue_frames_independent. Qed.
Print Assumptions C12_queue_frames_independent.

(** ... the returned error is nil iff no frame fails and otherwise the error of the lowest
    failing frame index ... *)
Theorem C12_queue_min_index_error_independent :
  forall (A E : Type) (dec : Z -> A + E) total arrival fr,
  Permutation arrival (zrange total) ->
  match snd (Q.collect A E dec arrival fr) with
  | None => forall i, 0 <= i < total -> ~ Q.fails A E dec i
  | Some (j, e) => Q.is_min_fail A E dec total j e
  end.
Proof. exact Q.queue_min_index_error_independent. Qed.
Print Assumptions C12_queue_min_index_error_independent.

(** ... so frames AND error are the same for any two arrival orders, i.e. for every worker
    count and schedule. *)
Theorem C12_queue_result_order_independent :
  forall (A E : Type) (dec : Z -> A + E) total arr1 arr2,
  Permutation arr1 (zrange total) -> Permutation arr2 (zrange total) ->
  Q.collect A E dec arr1 (repeat None (Z.to_nat total)) = Q.collect A E dec arr2 (repeat None (Z.to_nat total)).
Proof. exact Q.queue_result_order_independent. Qed.
Print Assumptions C12_queue_result_order_independent.

(** About the PINNED loop ([pinned_collect]: first error to arrive) only: its returned
    error depended on the arrival order (the defect fixed by 8f1f7ab). *)
Theorem C12_pinned_queue_first_error_order_independent_refuted :
  ~ Q.pinned_queue_first_error_order_independent.
Proof. exact Q.pinned_queue_first_error_order_independent_refuted. Qed.
Print Assumptions C12_pinned_queue_first_error_order_independent_refuted.

(** Tie to the source (regenerated on every run): every read of the CPU count
    (runtime.GOMAXPROCS / NumCPU, whatever the file or function is called) is followed, in
    the same function, by its verification hook — so the per-site runs and the "all sites
    forced to k" simulation reach every such read. *)
Theorem C12_every_site_hooked :
  map (fun x => fst x) WebpGen.Sites.hook_sites = WebpGen.Sites.gomaxprocs_sites.
Proof. reflexivity. Qed.
Print Assumptions C12_every_site_hooked.

(** The decision procedure the range correspondence runs (extracted): ranges that pass it
    form an exact partition, the premise of the fork-join theorems above.  The harness applies
    it to the ranges each site handed out, for every worker count, against ONE interval per
    (workload, site, invocation) — no formula of the code is compared. *)
Theorem C12_is_tiling_sound : forall rs lo hi, is_tiling rs lo hi = true -> exact_partition rs lo hi.
Proof. exact is_tiling_sound. Qed.
Print Assumptions C12_is_tiling_sound.

