(** C09 — Animation playback implements the container's compositing rules.
    Only statements, each closed by [exact <lemma>] and followed by
    [Print Assumptions]. *)
From Coq Require Import List ZArith.
From Webp Require Import Anim.Blend Anim.Canvas Anim.AnimDec Anim.AnimDecProof Anim.AnimDecOps Anim.AnimDecLoops.
Open Scope Z_scope.

(** For every canvas size up to the area cap and every list of frames (offsets anywhere in the
    int64 range, so rectangles may lie outside the canvas or overflow; sizes below 2^62; every
    blend, dispose and HasAlpha setting; any pixels) the snapshots produced by the
    AnimDecoder model (key-frame shortcut, dual buffers, Go rectangle arithmetic,
    uint32 blend) are exactly the canvases the container specification defines. *)
Theorem C09_animdec_refines_spec : forall W H fs,
  wf_dims W H -> Forall wf_frame fs ->
  impl_run W H fs = spec_run W H fs.
Proof. exact animdec_refines_spec. Qed.
Print Assumptions C09_animdec_refines_spec.

(** The same with the loops as the Go code runs them: compositeFrame's and
    fillRect's nested in-place loops over the clipped rectangle (NRGBAAt /
    SetNRGBA on the live canvas), clearCanvas / copy, the key-frame shortcut. *)
Theorem C09_animdec_loops_refine_spec : forall W H fs,
  wf_dims W H -> Forall wf_frame fs -> impl_run_loops W H fs = spec_run W H fs.
Proof. exact animdec_loops_refine_spec. Qed.
Print Assumptions C09_animdec_loops_refine_spec.

(** Histories: for every interleaving of NextFrame and Reset calls, every
    snapshot handed out is the specification's canvas for the frame index it was
    produced for; Reset restarts the sequence identically; calls past the end
    return no picture. *)
Theorem C09_history_refines_spec : forall W H fs ops,
  wf_dims W H -> Forall wf_frame fs ->
  prun W H fs (pinit W H) ops = srun (spec_run W H fs) 0 ops.
Proof. exact history_refines_spec. Qed.
Print Assumptions C09_history_refines_spec.

(** Treating some frames as key frames never changes a result: the decoder with
    the key-frame shortcut equals the decoder that never uses it. *)
Theorem C09_keyframes_never_change_result : forall W H fs,
  wf_dims W H -> Forall wf_frame fs ->
  impl_run W H fs = impl_go_nokey W H (dinit W H) fs.
Proof. exact keyframes_never_change_result. Qed.
Print Assumptions C09_keyframes_never_change_result.

(** The uint32 blend arithmetic of alphaBlendNRGBA never overflows and equals
    the reference formula on all 2^64 pixel pairs. *)
Theorem C09_blend_impl_eq_spec : forall src dst,
  wf_px src -> wf_px dst -> blend_impl src dst = blend_spec src dst.
Proof. exact blend_impl_eq_spec. Qed.
Print Assumptions C09_blend_impl_eq_spec.

Theorem C09_blend_result_is_a_pixel : forall src dst,
  wf_px src -> wf_px dst -> wf_px (blend_spec src dst).
Proof. exact blend_spec_wf. Qed.
Print Assumptions C09_blend_result_is_a_pixel.

Theorem C09_blend_src_transparent : forall src dst, pa src = 0 -> blend_spec src dst = dst.
Proof. exact blend_src_transparent. Qed.
Print Assumptions C09_blend_src_transparent.

Theorem C09_blend_src_opaque : forall src dst, pa src = 255 -> blend_spec src dst = src.
Proof. exact blend_src_opaque. Qed.
Print Assumptions C09_blend_src_opaque.

(** Tie to the source: the canvas-area cap the model assumes ([wf_dims]) is the
    constant the code enforces in NewAnimDecoder (regenerated on every run). *)
From WebpGen Require Consts.
Theorem C09_canvas_cap_matches_model : WebpGen.Consts.animation_maxCanvasArea = 2^30.
Proof. reflexivity. Qed.
Print Assumptions C09_canvas_cap_matches_model.
