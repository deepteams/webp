(** C07 — Lossy encoding preserves the alpha channel exactly by default.
    Only statements, each closed by [exact <lemma>] and followed by
    [Print Assumptions]. *)
From Coq Require Import List ZArith.
From Webp Require Import Base.Res Alpha.AlphaModel Alpha.AlphaProofs.
From Webp Require Import Vp8l.Vp8lEmit Vp8l.Vp8lEmitDecode Conform.ConformFile Conform.ConformAlpha.
From Webp Require Conform.ConformEndToEndLossy.
Open Scope Z_scope.

(** Every prediction filter is undone exactly by its inverse, for every plane
    (any width >= 0, any height, any byte content). *)
Theorem C07_unfilter_filter : forall w rs f,
  wf_plane w rs -> apply_unfilter f (apply_filter f rs) = rs.
Proof. exact unfilter_filter. Qed.
Print Assumptions C07_unfilter_filter.

(** The ALPH chunk written by encodeAlphaInternal decodes (DecodeAlpha) to the
    plane that was given, for raw and lossless compression, every filter, with
    or without the pre-processing flag, every effort, including the raw fallback
    taken when the compressed payload is larger — for every lossless coder whose
    own round trip is exact (property C01; [lenc]/[ldec] are parameters). *)
Theorem C07_alpha_chunk_roundtrip :
  forall (lenc : Z -> Z -> Z -> Z -> list Z -> list Z) (ldec : Z -> Z -> list Z -> option (list Z)),
  (forall q m w h p, Z.of_nat (length p) = w * h -> Forall is_byte p ->
                     ldec w h (lenc q m w h p) = Some p) ->
  forall rs w h method filter reduce effort,
    1 <= w -> 1 <= h -> w * h <= 2^30 ->
    wf_plane (Z.to_nat w) rs -> Z.of_nat (length rs) = h ->
    (method = 0 \/ method = 1) -> 0 <= filter <= 3 ->
    decode ldec (encode_internal lenc rs w h method filter reduce effort) w h = Ok (concat rs).
Proof. exact alpha_chunk_roundtrip. Qed.
Print Assumptions C07_alpha_chunk_roundtrip.

(** The same for whichever filter the size competition in applyFiltersAndEncode picks. *)
Theorem C07_alpha_exact_any_filter_choice :
  forall (lenc : Z -> Z -> Z -> Z -> list Z -> list Z) (ldec : Z -> Z -> list Z -> option (list Z)),
  (forall q m w h p, Z.of_nat (length p) = w * h -> Forall is_byte p ->
                     ldec w h (lenc q m w h p) = Some p) ->
  forall rs w h method reduce effort pick,
    1 <= w -> 1 <= h -> w * h <= 2^30 ->
    wf_plane (Z.to_nat w) rs -> Z.of_nat (length rs) = h ->
    (method = 0 \/ method = 1) ->
    decode ldec (encode_with_choice lenc rs w h method reduce effort pick) w h = Ok (concat rs).
Proof. exact alpha_exact_any_choice. Qed.
Print Assumptions C07_alpha_exact_any_filter_choice.

(** DecodeAlpha never panics, rejects compression methods 2/3 and truncated raw data. *)
Theorem C07_decode_alpha_total : forall ldec data w h, decode ldec data w h <> Panic.
Proof. exact decode_total. Qed.
Print Assumptions C07_decode_alpha_total.

Theorem C07_decode_rejects_unknown_compression : forall ldec hd payload w h,
  2 <= hd mod 4 -> 1 <= w -> 1 <= h -> w * h <= 2^30 -> exists e, decode ldec (hd :: payload) w h = Err e.
Proof. exact decode_rejects_unknown_compression. Qed.
Print Assumptions C07_decode_rejects_unknown_compression.

Theorem C07_decode_raw_truncated : forall ldec hd payload w h,
  hd mod 4 = 0 -> 1 <= w -> 1 <= h -> w * h <= 2^30 -> Z.of_nat (length payload) < w * h ->
  exists e, decode ldec (hd :: payload) w h = Err e.
Proof. exact decode_raw_truncated. Qed.
Print Assumptions C07_decode_raw_truncated.

(** AlphaQuality < 100: the number of levels is in 2..256 and the quantised plane
    takes at most that many distinct values, whatever the float k-means computed. *)
Theorem C07_alpha_levels_range : forall q, 0 <= q < 100 -> 2 <= alpha_levels q <= 256.
Proof. exact alpha_levels_range. Qed.
Print Assumptions C07_alpha_levels_range.

Theorem C07_quantize_levels_bound : forall qlevel centroid data n,
  (forall v, In v data -> 0 <= qlevel v < n) ->
  incl (quantize qlevel centroid data) (map centroid (zseq n)) /\
  length (map centroid (zseq n)) = Z.to_nat n.
Proof. exact quantize_levels_bound. Qed.
Print Assumptions C07_quantize_levels_bound.

(** Smallest / largest alpha are kept, given the three facts the float k-means
    guarantees (stated as hypotheses; checked on the implementation per run). *)
Theorem C07_quantize_keeps_min_max_partial : forall qlevel centroid data lo hi,
  In lo data -> In hi data -> (forall v, In v data -> lo <= v <= hi) ->
  centroid (qlevel lo) = lo -> centroid (qlevel hi) = hi ->
  (forall v, In v data -> lo <= centroid (qlevel v) <= hi) ->
  In lo (quantize qlevel centroid data) /\ In hi (quantize qlevel centroid data) /\
  (forall y, In y (quantize qlevel centroid data) -> lo <= y <= hi).
Proof. exact quantize_keeps_min_max. Qed.
Print Assumptions C07_quantize_keeps_min_max_partial.

(** The same round trip with the lossless coder instantiated — no hypothesis left
    about it: DecodeAlpha's rebuilt 5-byte header in front of the payload, decoded
    by the VP8L SPECIFICATION decoder, for EVERY well-formed plan (choice of
    transforms, codes, tokens …) the lossless encoder may emit for the green image
    of the filtered plane; proved from C03's emit_decode and the header-bytes
    lemma. *)
Theorem C07_alpha_lossless_chunk_exact_with_spec_decoder : forall rs w h filter r16 (p : plan),
  1 <= w -> 1 <= h -> w * h <= 2^30 ->
  wf_plane (Z.to_nat w) rs -> Z.of_nat (length rs) = h -> 0 <= filter <= 3 ->
  (r16 = 0 \/ r16 = 16) ->
  wf_plan p -> p_alpha p = 0 -> p_w p = w -> p_h p = h ->
  green_of p = concat (apply_filter filter rs) ->
  alpha_decode ((1 + 4 * filter + r16) :: skipn 5 (emit p)) w h = Ok (concat rs).
Proof. exact alpha_lossless_chunk_exact. Qed.
Print Assumptions C07_alpha_lossless_chunk_exact_with_spec_decoder.

(** End to end: the whole lossy file with the ALPH chunk written at AlphaQuality
    100 — VP8 frame emitted from any well-formed set of encoder choices, any
    prediction filter, any well-formed plan of the lossless coder for the
    filtered plane, any metadata within the size guard, the container written
    by the writer model — is a well-formed WebP file from which the independent
    analysis (chunk walk + ALPH model with the VP8L specification decoder inside)
    reads back exactly the alpha plane that was given.  Statement:
    Conform.ConformEndToEndLossy.lossy_alpha_file_conformant_statement. *)
Theorem C07_alpha_exact_in_written_file : ConformEndToEndLossy.lossy_alpha_file_conformant_statement.
Proof. exact ConformEndToEndLossy.lossy_alpha_file_conformant. Qed.
Print Assumptions C07_alpha_exact_in_written_file.
