(** C16 — Header queries agree with what a full decode returns (container /
    glue layer).  The pixel codecs are parameters; the only thing assumed
    of them is [codec_dims_from_header] (stated in the theorem). *)
From Coq Require Import List ZArith.
From Webp Require Import Base.Res Base.Bytes Riff.ParserModel Riff.ParserSpec Riff.FeaturesModel
     Riff.PrefixProofs Riff.FeaturesProofs Riff.MetadataProofs Riff.ParserSpecProofs Riff.WriterModel
     Riff.WriterTheorems Riff.ParserGrammar Riff.ParserDemuxAgree Riff.ParserDemuxAnim Riff.FeaturesAlphaLossless.
From Webp Require Riff.FeaturesLimits Riff.ParserLimits Riff.RiffGrammar Riff.DemuxModel Vp8l.Vp8lSpec Vp8l.Vp8lEmit Vp8l.Vp8lRoundtrip Vp8l.Vp8lPixel.
Import ListNotations.
Open Scope Z_scope.

(** Repaired DecodeConfig ([len(AlphaData) == 0]), either parser variant, every
    choice of codecs whose picture size is the one the bitstream header declares:
    whenever the Decode glue accepts a still file, DecodeConfig succeeds with the
    decoded image's colour model, width and height, and GetFeatures succeeds with
    the same width and height, FrameCount 1, no animation, a known format name. *)
Theorem C16_config_agrees_with_decode :
  forall (Pix : Type) (lossy_dec lossless_dec : list Z -> Res (Z * Z * Pix))
         (alpha_dec : list Z -> Z -> Z -> Res Pix),
    codec_dims_from_header lossy_dec lossless_dec ->
    forall fx bs r img,
      parse_ex fx bs = Ok (r, KStill) ->
      decode_bytes lossy_dec lossless_dec alpha_dec fx bs = Ok img ->
      decode_config true fx bs = Ok (mkConfig (iModel img) (iW img) (iH img)) /\
      exists g, get_features fx bs = Ok g /\ gW g = iW img /\ gH g = iH img /\
                gFrames g = 1 /\ gHasAnim g = false /\ 1 <= gFormat g <= 3.
Proof. exact @config_agrees_with_decode. Qed.
Print Assumptions C16_config_agrees_with_decode.

(** Pinned DecodeConfig ([AlphaData == nil], before commit f5aa050): false.  VP8X + zero-length ALPH +
    VP8: Decode returns YCbCr, DecodeConfig announces NRGBA. *)
Theorem C16_zero_len_alph_refuted :
  ~ pinned_config_agrees_statement hdr_lossy hdr_lossless any_alpha.
Proof. exact zero_len_alph_refuted. Qed.
Print Assumptions C16_zero_len_alph_refuted.

Theorem C16_zero_len_alph_witness :
  exists img c,
    decode_bytes hdr_lossy hdr_lossless any_alpha false wit_empty_alph = Ok img /\
    pinned_decode_config wit_empty_alph = Ok c /\
    iModel img = CM_YCbCr /\ cModel c = CM_NRGBA /\
    decode_config true false wit_empty_alph = Ok (mkConfig CM_YCbCr 1 1).
Proof. exact zero_len_alph_witness. Qed.
Print Assumptions C16_zero_len_alph_witness.

(** What the parser guarantees about every still it accepts: exactly one frame,
    reported size = size declared by the image bitstream header (not the VP8X
    canvas), animation flag clear, format VP8 / VP8L / VP8X. *)
Theorem C16_still_shape : forall fx bs r, parse_ex fx bs = Ok (r, KStill) ->
  (exists f, pFrames r = [f] /\ fWidth (pFeat r) = frW f /\ fHeight (pFeat r) = frH f /\ header_ok f) /\
  fHasAnim (pFeat r) = false /\ 1 <= fFormat (pFeat r) <= 3.
Proof. exact still_shape. Qed.
Print Assumptions C16_still_shape.

(** LoopCount of a still, exactly: container.Parser (hence GetFeatures) reports 1
    on the VP8X layout and 0 on the simple layouts; there is no ANIM chunk in a
    still.  mux.Demuxer reports 0 for every still (C16_views_agree_still).  The
    field is documented as meaningful only when HasAnimation is set. *)
Theorem C16_still_loop_count : forall fx bs r, parse_ex fx bs = Ok (r, KStill) ->
  fLoopCount (pFeat r) = (if fFormat (pFeat r) =? FormatVP8X then 1 else 0).
Proof. exact FeaturesLimits.still_loop_count. Qed.
Print Assumptions C16_still_loop_count.

Theorem C16_get_features_still_loop : forall fx bs r g,
  parse_ex fx bs = Ok (r, KStill) -> get_features fx bs = Ok g ->
  gLoop g = (if gFormat g =? 3 then 1 else 0) /\ gHasAnim g = false.
Proof. exact FeaturesLimits.get_features_still_loop. Qed.
Print Assumptions C16_get_features_still_loop.

(** Alpha flag, files written by this package's RIFF writer: whenever the Decode
    glue attaches a separately decoded alpha plane to the picture (the only way a
    lossy picture gets a non-opaque pixel), GetFeatures reports HasAlpha. *)
Theorem C16_alpha_flag_sound_lossy :
  forall (Pix : Type) (ld ll : list Z -> Res (Z * Z * Pix)) (ad : list Z -> Z -> Z -> Res Pix)
         fourcc bs alpha w h icc exif xmp a fx file img,
    writer_inputs_ok fourcc bs alpha w h icc exif xmp a -> len icc <= MaxMetadataSize ->
    write_riff fourcc bs alpha w h icc exif xmp = Ok file ->
    decode_bytes ld ll ad fx file = Ok img -> iAlpha img <> None ->
    exists g, get_features fx file = Ok g /\ gHasAlpha g = true.
Proof. exact alpha_flag_sound_lossy. Qed.
Print Assumptions C16_alpha_flag_sound_lossy.

(** Alpha flag, LOSSLESS files written by this package: for every source picture,
    options and valid encoder choices (Vp8lRoundtrip.valid, the C01 theorem's
    hypothesis) where the alpha_is_used bit is chosen as the Go encoder chooses it
    (encodeStream(argbHasAlpha(argb)), commit 552ea86), and every metadata, the
    written file's GetFeatures.HasAlpha is true IF AND ONLY IF some pixel of the
    picture the VP8L specification decoder returns is not opaque; width/height
    agree as well.  (Composition of C01_lossless_roundtrip, the emitted header
    bytes, the writer/parser round trip and the GetFeatures glue.) *)
Theorem C16_alpha_flag_sound_lossless :
  forall img o c icc exif xmp fx file,
    Vp8lRoundtrip.valid img o c -> go_alpha_choice img o c ->
    sizes_ok (Vp8lEmit.emit (Vp8lRoundtrip.plan_of img o c)) [] icc exif xmp -> len icc <= MaxMetadataSize ->
    write_riff FourCCVP8L (Vp8lEmit.emit (Vp8lRoundtrip.plan_of img o c)) []
               (Vp8lRoundtrip.s_w img) (Vp8lRoundtrip.s_h img) icc exif xmp = Ok file ->
    exists im g,
      Vp8lSpec.decode (Vp8lEmit.emit (Vp8lRoundtrip.plan_of img o c)) = Ok im /\
      get_features fx file = Ok g /\
      gW g = Vp8lSpec.i_w im /\ gH g = Vp8lSpec.i_h im /\
      (gHasAlpha g = true <-> Exists (fun p => Vp8lPixel.pa p <> 255) (Vp8lSpec.i_px im)).
Proof. exact alpha_flag_sound_lossless. Qed.
Print Assumptions C16_alpha_flag_sound_lossless.

(** Specification view vs parser view: every byte file (up to the metadata cap)
    that the specification-side RIFF walker judges a well-formed still -- sizes,
    padding, chunk order, flags = chunks present, canvas = image size; any blobs,
    also an ALPH chunk with an empty payload -- is accepted by the parser (either
    variant) as a still whose single frame holds exactly the image and ALPH
    payloads the walker finds, with width/height = canvas = the size the bitstream
    header declares, and no animation flag. *)
Theorem C16_wf_still_accepted :
  forall fx file,
    bytes_ok file -> len file <= MaxMetadataSize -> riff_wf file = true ->
    exists r f id w h a,
      parse_ex fx file = Ok (r, KStill) /\ pFrames r = [f] /\
      image_fourcc id /\ frLossless f = (id =? FourCCVP8L) /\
      spec_get_chunk file id = Some (frPayload f) /\
      (frLossless f = false -> frAlpha f = spec_get_chunk file FourCCALPH) /\
      image_dims id (frPayload f) = Some (w, h, a) /\
      fWidth (pFeat r) = w /\ fHeight (pFeat r) = h /\ fCanvasW (pFeat r) = w /\ fCanvasH (pFeat r) = h /\
      fHasAnim (pFeat r) = false.
Proof. exact wf_still_accepted. Qed.
Print Assumptions C16_wf_still_accepted.

(** views_agree across the TWO container parsers (stills): for every byte file
    accepted by the independent grammar Riff.RiffGrammar.wf whose animation flag is
    clear (up to the metadata cap), the model of internal/container.Parser and the
    model of mux.Demuxer (Riff.DemuxModel.parse true) both succeed
    and agree on canvas size, animation flag, frame count (1) and the frame's
    payload, alpha payload, size, offsets, duration, blend and dispose.  Loop count
    is not part of the agreement for stills: the parser reports 1 (extended) or 0
    (simple), the demuxer 0; Features.LoopCount is documented as meaningful only
    for animations. *)
Theorem C16_views_agree_still :
  forall fx bs,
    RiffGrammar.wf bs = true -> g_is_anim bs = false -> len bs <= MaxMetadataSize ->
    exists r d,
      parse fx bs = Ok r /\ DemuxModel.parse true bs = Ok d /\
      Forall2 frame_agrees (pFrames r) (DemuxModel.d_frames d) /\ length (pFrames r) = 1%nat /\
      fCanvasW (pFeat r) = DemuxModel.ft_w (DemuxModel.d_feat d) /\
      fCanvasH (pFeat r) = DemuxModel.ft_h (DemuxModel.d_feat d) /\
      fWidth (pFeat r) = DemuxModel.ft_w (DemuxModel.d_feat d) /\
      fHeight (pFeat r) = DemuxModel.ft_h (DemuxModel.d_feat d) /\
      fHasAnim (pFeat r) = false /\ DemuxModel.ft_anim (DemuxModel.d_feat d) = false /\
      DemuxModel.d_loop d = 0 /\ (fLoopCount (pFeat r) = 1 \/ fLoopCount (pFeat r) = 0).
Proof. exact views_agree_still. Qed.
Print Assumptions C16_views_agree_still.

(** views_agree across the two container parsers (animations): for every byte
    file accepted by Riff.RiffGrammar.wf whose animation flag is set -- VP8X [ICCP]
    ANIM ANMF+ [EXIF] [XMP], every ANMF a 16-byte header plus [ALPH] VP8 | VP8L inside
    the canvas -- up to the limits both implementations enforce (metadata cap,
    canvas area below MaxImageArea = 2^30, at most
    MaxFrames = 10000 frames), both models succeed and agree on canvas size,
    animation flag, LOOP COUNT, frame count and every frame's payload, alpha
    payload, size, offsets, duration, blend and dispose. *)
Theorem C16_views_agree_anim :
  forall fx bs,
    RiffGrammar.wf bs = true -> g_is_anim bs = true -> len bs <= MaxMetadataSize ->
    g_canvas_area bs < MaxImageArea -> anmf_count bs <= MaxFrames ->
    exists r d,
      parse fx bs = Ok r /\ DemuxModel.parse true bs = Ok d /\
      Forall2 frame_agrees (pFrames r) (DemuxModel.d_frames d) /\ (0 < length (pFrames r))%nat /\
      fCanvasW (pFeat r) = DemuxModel.ft_w (DemuxModel.d_feat d) /\
      fCanvasH (pFeat r) = DemuxModel.ft_h (DemuxModel.d_feat d) /\
      fWidth (pFeat r) = DemuxModel.ft_w (DemuxModel.d_feat d) /\
      fHeight (pFeat r) = DemuxModel.ft_h (DemuxModel.d_feat d) /\
      fHasAnim (pFeat r) = true /\ DemuxModel.ft_anim (DemuxModel.d_feat d) = true /\
      fLoopCount (pFeat r) = DemuxModel.d_loop d.
Proof. exact views_agree_anim. Qed.
Print Assumptions C16_views_agree_anim.

(** Canvas area at or above MaxImageArea (2^30): both parsers reject the file
    (the demuxer since commit 07b7141), so the views still agree. *)
Theorem C16_big_canvas_both_reject :
  forall fx bs,
    RiffGrammar.wf bs = true -> g_is_anim bs = true -> len bs <= MaxMetadataSize ->
    MaxImageArea <= g_canvas_area bs ->
    parse fx bs = Err EInvalidImage /\ DemuxModel.parse true bs = Err DemuxModel.E_vp8x.
Proof. exact big_canvas_both_reject. Qed.
Print Assumptions C16_big_canvas_both_reject.

(** The shared limits as explicit both-reject statements, on the chunk shapes the
    grammar prescribes (anim_file = RIFF header, VP8X, [ICCP], ANIM, the ANMF frames,
    [EXIF], [XMP]; the shape C16_views_agree_anim reduces every well-formed animated
    file to).  More than MaxFrames frames: container.Parser refuses the 10001st ANMF
    chunk before parsing it, mux.Demuxer after parsing it. *)
Theorem C16_too_many_frames_both_reject :
  forall fx flags cw ch icc b0 b1 b2 b3 b4 b5 fs exif xmp,
    0 <= flags < 64 -> Z.land flags 4294967233 = 0 -> Z.testbit flags 1 = true ->
    Z.testbit flags 5 = is_some icc -> 1 <= cw <= 16777216 -> 1 <= ch <= 16777216 ->
    cw * ch < MaxImageArea -> Forall (af_ok cw ch) fs ->
    (forall x, icc = Some x -> len x <= 104857600) ->
    4 + len (anim_body flags cw ch icc b0 b1 b2 b3 b4 b5 fs exif xmp) <= 4294967286 ->
    MaxFrames < len fs ->
    parse fx (anim_file flags cw ch icc b0 b1 b2 b3 b4 b5 fs exif xmp) = Err EInvalidChunk /\
    DemuxModel.parse true (anim_file flags cw ch icc b0 b1 b2 b3 b4 b5 fs exif xmp) = Err DemuxModel.E_toomany.
Proof. exact ParserLimits.too_many_frames_shape. Qed.
Print Assumptions C16_too_many_frames_both_reject.

(** The same from the grammar: every RiffGrammar.wf animated file (within the size and
    canvas caps) with more than MaxFrames ANMF chunks is rejected by both parsers. *)
Theorem C16_too_many_frames_wf_both_reject : forall fx bs,
  RiffGrammar.wf bs = true -> g_is_anim bs = true -> len bs <= MaxMetadataSize ->
  g_canvas_area bs < MaxImageArea -> MaxFrames < anmf_count bs ->
  parse fx bs = Err EInvalidChunk /\ DemuxModel.parse true bs = Err DemuxModel.E_toomany.
Proof. exact ParserLimits.too_many_frames_both_reject. Qed.
Print Assumptions C16_too_many_frames_wf_both_reject.

(** An ICCP chunk above MaxMetadataSize (100 MB) directly after VP8X (where the
    grammar puts it), whatever follows: both parsers reject the file.  (EXIF / XMP
    above the cap are NOT a shared limit for stills: they follow the image chunk,
    where container.Parser has already returned; see the notes of this property.) *)
Theorem C16_big_iccp_both_reject :
  forall fx flags cw ch ic rest,
    0 <= flags < 64 -> Z.land flags 4294967233 = 0 -> Z.testbit flags 5 = true ->
    1 <= cw <= 16777216 -> 1 <= ch <= 16777216 -> cw * ch < MaxImageArea ->
    MaxMetadataSize < len ic ->
    4 + len (ParserLimits.big_body flags cw ch ic rest) <= 4294967286 ->
    parse fx (ParserLimits.big_file flags cw ch ic rest) = Err EInvalidChunk /\
    DemuxModel.parse true (ParserLimits.big_file flags cw ch ic rest) = Err DemuxModel.E_meta.
Proof. exact ParserLimits.big_iccp_both_reject. Qed.
Print Assumptions C16_big_iccp_both_reject.

(** Both layouts in one statement. *)
Theorem C16_views_agree_two_parsers : forall fx bs,
  RiffGrammar.wf bs = true -> len bs <= MaxMetadataSize ->
  g_canvas_area bs < MaxImageArea -> anmf_count bs <= MaxFrames ->
  exists r d,
    parse fx bs = Ok r /\ DemuxModel.parse true bs = Ok d /\
    Forall2 frame_agrees (pFrames r) (DemuxModel.d_frames d) /\ (0 < length (pFrames r))%nat /\
    fCanvasW (pFeat r) = DemuxModel.ft_w (DemuxModel.d_feat d) /\
    fCanvasH (pFeat r) = DemuxModel.ft_h (DemuxModel.d_feat d) /\
    fHasAnim (pFeat r) = DemuxModel.ft_anim (DemuxModel.d_feat d) /\
    (fHasAnim (pFeat r) = true -> fLoopCount (pFeat r) = DemuxModel.d_loop d).
Proof. exact views_agree_two_parsers. Qed.
Print Assumptions C16_views_agree_two_parsers.

(** Parser-level views (GetFeatures, DecodeConfig, Parser.Features/Frames) fail
    together and agree on size, animation flag, frame count and loop count. *)
Theorem C16_views_agree : forall fa fx bs,
  match get_features fx bs, decode_config fa fx bs with
  | Ok g, Ok c => gW g = cW c /\ gH g = cH c /\
                  (forall r, parse_ex fx bs = Ok (r, KStill) -> gFrames g = 1 /\ gHasAnim g = false) /\
                  (forall r k, parse_ex fx bs = Ok (r, k) ->
                     gFrames g = len (pFrames r) /\ gHasAnim g = fHasAnim (pFeat r) /\
                     gLoop g = fLoopCount (pFeat r))
  | Err e, Err e' => e = e'
  | Panic, Panic => True
  | _, _ => False
  end.
Proof. exact views_agree. Qed.
Print Assumptions C16_views_agree.

(** image.RegisterFormat("webp", "RIFF????WEBP"): the sniffer accepts exactly the
    byte strings with "RIFF" at 0..3 and "WEBP" at 8..11 (12 bytes needed), and
    every byte file the parser accepts is among them. *)
Theorem C16_registered_format : forall bs, sniff bs = true <->
  exists s0 s1 s2 s3 tl, bs = [82; 73; 70; 70; s0; s1; s2; s3; 87; 69; 66; 80] ++ tl.
Proof. exact registered_format. Qed.
Print Assumptions C16_registered_format.

Theorem C16_accepted_files_are_dispatched : forall fx bs r,
  bytes_ok bs -> parse fx bs = Ok r -> sniff bs = true.
Proof. exact accepted_files_are_dispatched. Qed.
Print Assumptions C16_accepted_files_are_dispatched.
