(** C20 — option handling is total and matches its documentation.
    Model: Opts/OptsModel.v (interprets the tables tools/gosrc2v regenerates from
    validateConfig, DefaultOptions, OptionsForPreset, resolve*, the propagation block of
    encodeLossyWithAlpha, lossy.DefaultConfig); documented values: Opts/OptsDoc.v. *)
From Coq Require Import List ZArith Bool.
From WebpGen Require Consts Funcs.
From Webp Require Import Base.Res Opts.OptsModel Opts.OptsDoc Opts.OptsProof Opts.OptsAnim.
Import ListNotations.
Open Scope Z_scope.

(** Every bound of validateConfig, every default of DefaultOptions, every preset row,
    every resolve* default, lossy.DefaultConfig, every propagation condition (>= 0 vs > 0),
    the dimension limits and the struct shapes, as extracted from the source on this run,
    equal the documented values; and the verif hook replicates encode.go verbatim. *)
Theorem C20_source_matches_documentation : source_matches_documentation.
Proof. exact source_matches_documentation_holds. Qed.
Print Assumptions C20_source_matches_documentation.

(** Encode never panics: for every writer/image nil-ness, nil or arbitrary options (all of
    Z for every int field, every float32 class incl. NaN, +-Inf, -0, subnormals), any
    dimensions. *)
Theorem C20_encode_total : forall writer_nil image_nil oo w h has_alpha,
  encode_outcome writer_nil image_nil oo w h has_alpha <> Panic.
Proof. exact encode_total. Qed.
Print Assumptions C20_encode_total.

Theorem C20_encode_errors_exactly_documented : forall wn inl oo w h ha,
  (exists e, encode_outcome wn inl oo w h ha = Err e) <->
  (wn = true \/ inl = true \/ ~ doc_valid (opts_or_default oo) \/ w <= 0 \/ h <= 0 \/ w > 16383 \/ h > 16383).
Proof. exact encode_errors_exactly_documented. Qed.
Print Assumptions C20_encode_errors_exactly_documented.

(** Every configuration handed to a codec satisfies the codec's own preconditions. *)
Theorem C20_validate_complete : forall oo w h ha e,
  effective oo w h ha = Ok e -> codec_pre w h e.
Proof. exact validate_complete. Qed.
Print Assumptions C20_validate_complete.

Theorem C20_nil_is_default : forall w h ha,
  effective None w h ha = effective (Some default_options) w h ha.
Proof. exact nil_is_default. Qed.
Print Assumptions C20_nil_is_default.

Theorem C20_default_resolves_to_documented_defaults : forall w h ha, 1 <= w <= 16383 -> 1 <= h <= 16383 ->
  effective None w h ha =
  Ok (ELossy (mkL 75 0 (FFin 0) 4 50 60 0 1 0 4 1 0 None 0 100 (if ha then 1 else 0)) (mkA 100 1 4 4) false false (0, 0, 0)).
Proof. exact default_resolves_to_documented_defaults. Qed.
Print Assumptions C20_default_resolves_to_documented_defaults.

(** One theorem per documented sentinel: for every other option value, dimensions and
    alpha-ness, the sentinel behaves as the documented default. *)
Theorem C20_sentinel_SNSStrength : forall o w h ha s, s < 0 ->
  effective (Some (set_int F.fld_SNSStrength s o)) w h ha = effective (Some (set_int F.fld_SNSStrength 50 o)) w h ha.
Proof. exact (sentinel_resolves 0). Qed.
Print Assumptions C20_sentinel_SNSStrength.

Theorem C20_sentinel_FilterStrength : forall o w h ha s, s < 0 ->
  effective (Some (set_int F.fld_FilterStrength s o)) w h ha = effective (Some (set_int F.fld_FilterStrength 60 o)) w h ha.
Proof. exact (sentinel_resolves 1). Qed.
Print Assumptions C20_sentinel_FilterStrength.

Theorem C20_sentinel_FilterType : forall o w h ha s, s < 0 ->
  effective (Some (set_int F.fld_FilterType s o)) w h ha = effective (Some (set_int F.fld_FilterType 1 o)) w h ha.
Proof. exact (sentinel_resolves 2). Qed.
Print Assumptions C20_sentinel_FilterType.

Theorem C20_sentinel_Segments : forall o w h ha s, s <= 0 ->
  effective (Some (set_int F.fld_Segments s o)) w h ha = effective (Some (set_int F.fld_Segments 4 o)) w h ha.
Proof. exact (sentinel_resolves 3). Qed.
Print Assumptions C20_sentinel_Segments.

Theorem C20_sentinel_Pass : forall o w h ha s, s <= 0 ->
  effective (Some (set_int F.fld_Pass s o)) w h ha = effective (Some (set_int F.fld_Pass 1 o)) w h ha.
Proof. exact (sentinel_resolves 4). Qed.
Print Assumptions C20_sentinel_Pass.

Theorem C20_sentinel_QMax : forall o w h ha s, s < 0 ->
  effective (Some (set_int F.fld_QMax s o)) w h ha = effective (Some (set_int F.fld_QMax 100 o)) w h ha.
Proof. exact (sentinel_resolves 5). Qed.
Print Assumptions C20_sentinel_QMax.

Theorem C20_sentinel_AlphaCompression : forall o w h ha s, s < 0 ->
  effective (Some (set_int F.fld_AlphaCompression s o)) w h ha = effective (Some (set_int F.fld_AlphaCompression 1 o)) w h ha.
Proof. exact (sentinel_resolves 6). Qed.
Print Assumptions C20_sentinel_AlphaCompression.

Theorem C20_sentinel_AlphaFiltering : forall o w h ha s, s < 0 ->
  effective (Some (set_int F.fld_AlphaFiltering s o)) w h ha = effective (Some (set_int F.fld_AlphaFiltering 1 o)) w h ha.
Proof. exact (sentinel_resolves 7). Qed.
Print Assumptions C20_sentinel_AlphaFiltering.

Theorem C20_sentinel_AlphaQuality : forall o w h ha s, s < 0 ->
  effective (Some (set_int F.fld_AlphaQuality s o)) w h ha = effective (Some (set_int F.fld_AlphaQuality 100 o)) w h ha.
Proof. exact (sentinel_resolves 8). Qed.
Print Assumptions C20_sentinel_AlphaQuality.

(** Two valid lossless requests that agree on Quality, Method, Exact and the metadata
    resolve to the same configuration whatever the lossy-only options (SNS, filter*,
    partitions, segments, pass, QMin/QMax, alpha*, UseSharpYUV, Preprocessing,
    TargetSize/PSNR, Preset, EmulateJpegSize) and the image's alpha-ness are. *)
Theorem C20_lossy_only_ignored_by_lossless : forall o o' w h ha ha',
  oLossless o = true -> oLossless o' = true -> lossless_view o = lossless_view o' ->
  validate o = false -> validate o' = false ->
  effective (Some o) w h ha = effective (Some o') w h ha'.
Proof. exact lossy_only_ignored_by_lossless. Qed.
Print Assumptions C20_lossy_only_ignored_by_lossless.

Theorem C20_no_effect_EmulateJpegSize : forall o b w h ha,
  effective (Some (set_bool F.fld_EmulateJpegSize b o)) w h ha = effective (Some o) w h ha.
Proof. exact no_effect_EmulateJpegSize. Qed.
Print Assumptions C20_no_effect_EmulateJpegSize.

Theorem C20_no_effect_Preset : forall o p w h ha, 0 <= p <= 5 -> 0 <= oPreset o <= 5 ->
  effective (Some (set_int F.fld_Preset p o)) w h ha = effective (Some o) w h ha.
Proof. exact no_effect_Preset. Qed.
Print Assumptions C20_no_effect_Preset.

Theorem C20_preset_table : forall p q, options_for_preset p q = doc_preset p q.
Proof. exact preset_table. Qed.
Print Assumptions C20_preset_table.

(** The rate control (lossy.initPassStats) resolves QMax a third time; positive values are honoured
    whatever comparison its rule uses. *)
Theorem C20_ratectl_qmax_positive_honoured_partial : forall v, 0 < v <= 100 -> ratectl_qmax v = v.
Proof. exact ratectl_qmax_positive_honoured. Qed.
Print Assumptions C20_ratectl_qmax_positive_honoured_partial.

(** Every explicit value in 0..100 is honoured (holds since 17c8929; breaks if the source rule
    changes back to [<= 0]). *)
Theorem C20_ratectl_honours_explicit_qmax : forall v, 0 <= v <= 100 -> ratectl_qmax v = v.
Proof. exact ratectl_honours_explicit_qmax_holds. Qed.
Print Assumptions C20_ratectl_honours_explicit_qmax.

(** The historic defect, about a pinned definition (no run selects it). *)
Theorem C20_pinned_ratectl_le_rule_refuted : exists v, 0 <= v <= 100 /\ pinned_ratectl_qmax_le_rule v <> v.
Proof. exact pinned_ratectl_le_rule_refuted. Qed.
Print Assumptions C20_pinned_ratectl_le_rule_refuted.

(** QMin / QMax are documented as the minimum / maximum quantizer value.  On the faithful model
    the quality handed to the lossy codec is NOT always inside [QMin, QMax]: without TargetSize /
    TargetPSNR the range is ignored (witness: Quality 90, QMin = QMax = 30 -> 90).
    Known finding qrange-ignored:none. *)
Theorem C20_quality_in_range_refuted :
  exists o c a e s m, validate o = false /\ effective (Some o) 16 16 false = Ok (ELossy c a e s m) /\
                      cTargetSize c = 0 /\ cQMax c < cQuality c.
Proof. exact quality_in_range_refuted. Qed.
Print Assumptions C20_quality_in_range_refuted.

(** With a target (TargetSize or TargetPSNR) the quality handed to the codec lies in [QMin, QMax]
    for every option value (holds since d401cf2; breaks if the clamps leave the propagation block). *)
Theorem C20_quality_in_range_when_target : forall oo w h ha c a e s m,
  effective oo w h ha = Ok (ELossy c a e s m) ->
  (cTargetSize c >? 0) || fl_gt (cTargetPSNR c) 0 = true -> cQMin c <= cQuality c <= cQMax c.
Proof. exact quality_in_range_when_target_holds. Qed.
Print Assumptions C20_quality_in_range_when_target.

(** The historic defect, about the pinned unclamped configuration. *)
Theorem C20_pinned_unclamped_config_out_of_range :
  let c := lossy_config_pre (ex_q90_range30 600) 90 false in
  cTargetSize c = 600 /\ cQMax c = 30 /\ cQuality c = 90.
Proof. exact pinned_unclamped_config_out_of_range. Qed.
Print Assumptions C20_pinned_unclamped_config_out_of_range.

(** Every non-bool field of EncoderOptions (int, float32, Preset, blob) is constrained by at
    least one check of validateConfig. *)
Theorem C20_every_numeric_field_validated :
  forallb (fun f => (kind_of f =? 0) || negb (match field_atoms f with [] => true | _ => false end)) field_ids = true.
Proof. exact every_numeric_field_validated. Qed.
Print Assumptions C20_every_numeric_field_validated.

(** Every float32 field is checked for NaN, for +-Inf and for negative values. *)
Theorem C20_every_float_field_rejects_nan_inf_negative :
  forallb (fun f => negb (kind_of f =? 1) ||
                    (has_atom (fun a => match a with F.VNaN _ => true | _ => false end) f &&
                     has_atom (fun a => match a with F.VInf _ => true | _ => false end) f &&
                     has_atom (fun a => match a with F.VLt _ 0 => true | _ => false end) f)) field_ids = true.
Proof. exact every_float_field_rejects_nan_inf_negative. Qed.
Print Assumptions C20_every_float_field_rejects_nan_inf_negative.

(** Every int field except TargetSize ("target size in bytes") has an upper bound. *)
Theorem C20_every_int_field_bounded_above :
  forallb (fun f => negb ((kind_of f =? 2) || (kind_of f =? 4)) || (f =? F.fld_TargetSize) ||
                    has_atom (fun a => match a with F.VGt _ _ | F.VResGt _ _ _ _ | F.VGtRes _ _ _ _ => true | _ => false end) f) field_ids = true.
Proof. exact every_int_field_bounded_above_except_target_size. Qed.
Print Assumptions C20_every_int_field_bounded_above.

(** A field left at its DefaultOptions() value resolves to the documented default whatever the
    other fields are (SNS 50, filter strength 60, strong filter, 4 segments, 1 pass, QMax 100,
    QMin 0, 1 partition, sharpness 0, method 4, lossless fast-filtered alpha at quality 100). *)
Theorem C20_default_resolves_to_documented : forall o q ha,
  (oSNSStrength o = -1 -> cSNS (lossy_config o q ha) = 50) /\
  (oFilterStrength o = -1 -> cFStrength (lossy_config o q ha) = 60) /\
  (oFilterType o = -1 -> cFType (lossy_config o q ha) = 1) /\
  (oSegments o = -1 -> cSegments (lossy_config o q ha) = 4) /\
  (oPass o = -1 -> cPass (lossy_config o q ha) = 1) /\
  (oQMax o = -1 -> cQMax (lossy_config o q ha) = 100) /\
  (oQMin o = 0 -> cQMin (lossy_config o q ha) = 0) /\
  (oPartitions o = 0 -> cPartitions (lossy_config o q ha) = 0) /\
  (oFilterSharpness o = 0 -> cFSharpness (lossy_config o q ha) = 0) /\
  (oMethod o = 4 -> cMethod (lossy_config o q ha) = 4) /\
  (oAlphaCompression o = -1 -> aMethod (alpha_config o) = 1) /\
  (oAlphaFiltering o = -1 -> aFilter (alpha_config o) = 4) /\
  (oAlphaQuality o = -1 -> aQuality (alpha_config o) = 100).
Proof. exact default_resolves_to_documented. Qed.
Print Assumptions C20_default_resolves_to_documented.

(** The zero value EncoderOptions{} is accepted and is not DefaultOptions(). *)
Theorem C20_zero_value_options_resolve_to : forall w h ha, 1 <= w <= 16383 -> 1 <= h <= 16383 ->
  effective (Some zero_opts) w h ha =
  Ok (ELossy (mkL 0 0 (FFin 0) 0 0 0 0 0 0 4 1 0 None 0 0 (if ha then 1 else 0)) (mkA 0 0 0 0) false false (0, 0, 0)).
Proof. exact zero_value_options_resolve_to. Qed.
Print Assumptions C20_zero_value_options_resolve_to.

(** animation.EncodeOptions is never validated: what follows holds for every int value of its fields. *)

Theorem C20_anim_source_matches_model : anim_source_matches_model.
Proof. exact anim_source_matches_model_holds. Qed.
Print Assumptions C20_anim_source_matches_model.

Theorem C20_anim_loop_count_total : forall v, 0 <= clamp_loop_count v <= 65535.
Proof. exact loop_count_total. Qed.
Print Assumptions C20_anim_loop_count_total.

Theorem C20_anim_sanitize_keyframes_total : forall kmin kmax, is_int kmin -> is_int kmax ->
  is_int (fst (sanitize_keyframes kmin kmax)) /\ is_int (snd (sanitize_keyframes kmin kmax)) /\
  (sanitize_keyframes kmin kmax = (0, 0) \/
   (fst (sanitize_keyframes kmin kmax) < snd (sanitize_keyframes kmin kmax) /\ 2 <= snd (sanitize_keyframes kmin kmax))).
Proof. exact sanitize_keyframes_total. Qed.
Print Assumptions C20_anim_sanitize_keyframes_total.

(** "at most 30 cached frames": for kmin >= 0; refuted for kmin = MinInt, kmax = 2 (the
    subtraction kmax - kmin wraps).  Without behavioural effect: Kmin is never read (last theorem of this group). *)
Theorem C20_anim_keyframe_window_partial : forall kmin kmax, 0 <= kmin -> is_int kmin -> is_int kmax -> 2 <= kmax ->
  snd (sanitize_keyframes kmin kmax) - fst (sanitize_keyframes kmin kmax) <= 30.
Proof. exact sanitize_keyframes_window. Qed.
Print Assumptions C20_anim_keyframe_window_partial.

Theorem C20_anim_keyframe_window_refuted :
  exists kmin kmax, is_int kmin /\ is_int kmax /\ 2 <= kmax /\
    snd (sanitize_keyframes kmin kmax) - fst (sanitize_keyframes kmin kmax) > 30.
Proof. exact sanitize_keyframes_window_refuted. Qed.
Print Assumptions C20_anim_keyframe_window_refuted.

(** Frames of an animation are encoded without validateConfig.  Lossy: for EVERY int quality
    the configuration is inside the codec's ranges (lossy.DefaultConfig clamps). *)
Theorem C20_anim_lossy_frame_config_total : forall q ha c a e s m,
  anim_frame_config false q ha = ELossy c a e s m -> lossy_pre c /\ alpha_pre a.
Proof. exact anim_lossy_frame_config_total. Qed.
Print Assumptions C20_anim_lossy_frame_config_total.

(** Lossless: the VP8L configuration is inside the codec's range for EVERY int quality (holds
    since 09c6c50; breaks if encodeFrameForAnimation stops clamping). *)
Theorem C20_anim_lossless_frame_total : forall q l m,
  anim_frame_config true q false = ELossless l m -> lossless_pre l.
Proof. exact anim_lossless_frame_total_holds. Qed.
Print Assumptions C20_anim_lossless_frame_total.

(** The historic defect, about a pinned definition (no run selects it). *)
Theorem C20_pinned_anim_lossless_unclamped_refuted : exists q, ~ lossless_pre (pinned_anim_lossless_config_unclamped q).
Proof. exact pinned_anim_lossless_unclamped_refuted. Qed.
Print Assumptions C20_pinned_anim_lossless_unclamped_refuted.


Theorem C20_anim_lossless_frame_config_in_range_partial : forall q l m, 0 <= q <= 100 ->
  anim_frame_config true q false = ELossless l m -> lossless_pre l.
Proof. intros q l m _. exact (anim_lossless_frame_total_holds q l m). Qed.
Print Assumptions C20_anim_lossless_frame_config_in_range_partial.

(** Kmin is sanitized but is the one option field the encoder never reads (regenerated read
    counts).  The documentation only constrains frames closer than Kmin ("always sub-frames"). *)
Theorem C20_anim_kmin_is_the_only_unused_field : anim_unused_fields = [F.afld_Kmin].
Proof. exact anim_kmin_is_the_only_unused_field. Qed.
Print Assumptions C20_anim_kmin_is_the_only_unused_field.

(** The lossy package reads the bit set only through `Preprocessing & 1 != 0` (regenerated list of
    every read; another shape, e.g. a comparison with a constant, REFUSES), the propagation block
    tests `& 2` for the dithering. *)
Theorem C20_preprocessing_tests_match_doc : F.lossy_preprocessing_tests = doc_preprocessing_tests /\ F.dither_mask = 2.
Proof. exact preprocessing_tests_match_doc. Qed.
Print Assumptions C20_preprocessing_tests_match_doc.

(** Each bit acts whatever the other bit is: for every accepted lossy request the segment map is
    smoothed iff Preprocessing is 1 or 3 (and several segments are used) and dithering is on iff it
    is 2 or 3 - the documented table 0 none, 1 segment smooth, 2 dithering, 3 both. *)
Theorem C20_preprocessing_bits_meaning : forall oo w h ha c a e s m,
  effective oo w h ha = Ok (ELossy c a e s m) ->
  0 <= cPreprocessing c <= 3 /\
  segment_smooth_on c = ((cSegments c >? 1) && ((cPreprocessing c =? 1) || (cPreprocessing c =? 3))) /\
  dither_on c = ((cPreprocessing c =? 2) || (cPreprocessing c =? 3)).
Proof. exact preprocessing_bits_meaning. Qed.
Print Assumptions C20_preprocessing_bits_meaning.
