(** C08 — lossless animations play back as exactly the pictures that were added.
    Only statements, closed by [exact <lemma>] (the comparison of constants with the
    translated source by evaluation) and followed by [Print Assumptions]. *)
From Coq Require Import List ZArith.
From Webp Require Import Anim.Blend Anim.Canvas Anim.AnimDec Anim.AnimEncModel Anim.AnimEncSpec
  Anim.AnimEncLemmas Anim.AnimEncProofs Anim.AnimEncMain Anim.AnimEncWitness Anim.AnimEncLoops Anim.AnimDecProof Anim.AnimDecLoops Anim.AnimEncCodec.
From WebpGen Require Consts.
Import ListNotations.
Open Scope Z_scope.

(** For every lossless frame codec (decode after encode is the identity up to
    the colour of fully transparent pixels), canvas size, option record (any
    Kmin/Kmax, loop count 0..65535), non-empty list of frames (any sizes, any
    pixels, durations 0..2^24-1), every outcome of the encoder's size comparisons
    ([oracle], [simple]): what the decoder plays from the file written by
    NewEncoder / AddFrame* / Close is the show that was added — same canvas size;
    the same sequence of distinct pictures (fully transparent pixels compare equal);
    and, when there are at least two distinct pictures, the same display time for
    every picture (merged repeats and overflow filler frames included), the same
    loop count, and a real animation (not a still).
    Model of the code under test: [repaired]. *)
Theorem C08_anim_lossless_roundtrip :
  forall (rt_ll rt_ly : img -> img) (W H : Z) (opts : eopts) (frames : list (img * Z))
         (oracle : nat -> orc) (has_meta simple : bool) (st0 : est) (out : output),
    codec_lossless rt_ll ->
    wf_canvas_dims W H -> lossless_opts opts -> frames <> [] -> Forall wf_input frames ->
    new_encoder W H opts = Some st0 ->
    close has_meta simple (run_frames repaired oracle st0 frames) = Some out ->
    same_show W H (eo_loop opts) out (playback rt_ll rt_ly repaired out) (inputs_of W H frames).
Proof. exact anim_lossless_roundtrip. Qed.
Print Assumptions C08_anim_lossless_roundtrip.

(** The hypotheses are satisfiable and the conclusion is not trivial: the
    two sessions that fail on the pinned code, on the repaired model. *)
Theorem C08_example_semitransparent_kept :
  option_map (map (fun e => nth 0 (fst e) px0)) (w1_played repaired)
  = Some [mkpx 10 20 30 128; mkpx 10 20 30 128].
Proof. exact w1_repaired_shows_128. Qed.
Print Assumptions C08_example_semitransparent_kept.

Theorem C08_example_filler_then_dispose :
  w2_last repaired = Some ([G;T;T;T; T;T;T;T; T;T;T;T; T;T;T;T], 10).
Proof. exact w2_repaired_clears_block. Qed.
Print Assumptions C08_example_filler_then_dispose.

Theorem C08_changed_rect_covers_diff : forall W H prev curr x y,
  0 < W -> 0 < H -> 0 <= x < W -> 0 <= y < H ->
  px_diff W prev curr x y = true -> in_rect (find_changed_rect W H prev curr) x y = true.
Proof. exact changed_rect_covers_diff. Qed.
Print Assumptions C08_changed_rect_covers_diff.

(** findChangedRect as the code runs it (first / last differing row, then the progressive
    narrowing loop over the changed rows with its early exit) computes the declarative
    bounding box the theorems above are stated about. *)
Theorem C08_find_changed_rect_loops_eq : forall W H prev curr,
  0 <= W -> find_changed_rect_loops W H prev curr = find_changed_rect W H prev curr.
Proof. exact find_changed_rect_loops_eq. Qed.
Print Assumptions C08_find_changed_rect_loops_eq.

(** The dispose-to-background simulation of encodeSubFrame (fillRect on a copy of the
    previous canvas) as the nested loops the code runs equals the pointwise [fill_impl]
    of the model (shared with the decoder, Anim/AnimDecLoops.v). *)
Theorem C08_dispose_fill_loops_eq : forall W H c r,
  wf_dims W H -> length c = Z.to_nat (W * H) -> fill_loops W H c r = fill_impl W H c r.
Proof. exact fill_loops_eq. Qed.
Print Assumptions C08_dispose_fill_loops_eq.

(** isCanvasIdentical: the pixel-by-pixel scan with early exit decides equality. *)
Theorem C08_canvas_identical_scan : forall a b, canvas_eqb a b = true <-> a = b.
Proof. exact canvas_eqb_eq. Qed.
Print Assumptions C08_canvas_identical_scan.

(** The cell-by-cell pixel loops of the encoder as the code runs them (nested index loops
    with in-place writes), equal to the pointwise definitions of the model:
    extractSubImage (fix 7a3566f), clearKeptPixels (fix 79df971, conditional in-place write
    bounded by picture and rectangle), the padding copy of addOptimizedFrame. *)
Theorem C08_extract_sub_loops_eq : forall W c r, extract_sub_loops W c r = extract_sub W c r.
Proof. exact extract_sub_loops_eq. Qed.
Print Assumptions C08_extract_sub_loops_eq.

Theorem C08_clear_kept_loops_eq : forall W sub base r,
  0 < iw sub -> 0 <= ih sub -> length (ipix sub) = Z.to_nat (iw sub * ih sub) ->
  clear_kept_loops W sub base r = clear_kept W sub base r.
Proof. exact clear_kept_loops_eq. Qed.
Print Assumptions C08_clear_kept_loops_eq.

Theorem C08_pad_loops_eq : forall W H i, 0 < W -> 0 <= H -> pad_loops W H i = pad W H i.
Proof. exact pad_loops_eq. Qed.
Print Assumptions C08_pad_loops_eq.

(** The blend-test scans (isLosslessBlendingPossible / isLossyBlendingPossible: row loop,
    column loop, return false at the first failing pixel) decide the pointwise condition. *)
Theorem C08_blend_scan_spec : forall r P,
  rect_forall r P = true <-> (forall x y, in_rect r x y = true -> P x y = true).
Proof. exact rect_forall_spec. Qed.
Print Assumptions C08_blend_scan_spec.

(** snapToEven + clipping: still inside the canvas, non-empty, covers the changed
    rectangle, and both offsets are even (so that the container's halved offsets
    read back exactly). *)
Theorem C08_snap_even_covers_and_offsets_even : forall W H r, good_rect W H r ->
  let r2 := intersect (snap_to_even r) (canvas_bounds W H) in
  good_rect W H r2 /\ rx0 r2 mod 2 = 0 /\ ry0 r2 mod 2 = 0 /\
  (forall x y, in_rect r x y = true -> in_rect r2 x y = true).
Proof. exact snap_clip_good. Qed.
Print Assumptions C08_snap_even_covers_and_offsets_even.

(** A pixel the blending test accepts is reproduced by blending the (possibly
    cleared, clearKeptPixels) sub-frame pixel over the canvas pixel. *)
Theorem C08_blend_candidate_sound : forall b t,
  lossless_px_ok b t = true -> norm_px (blend_spec (kept b t) b) = norm_px t.
Proof. exact (lossless_ok_sound norm_px). Qed.
Print Assumptions C08_blend_candidate_sound.

(** The defects of the code as pinned, as statements about the explicitly named
    variants [pinned] / [mkfixes true false false] of the model. *)
Theorem C08_anim_lossless_roundtrip_refuted_blend :
  ~ anim_lossless_roundtrip_statement pinned.
Proof. exact anim_lossless_roundtrip_refuted_blend. Qed.
Print Assumptions C08_anim_lossless_roundtrip_refuted_blend.

Theorem C08_blend_candidate_sound_refuted :
  exists s d, wf_px s /\ wf_px d /\ lossless_px_ok s d = true /\ blend_spec d s <> d.
Proof. exact blend_candidate_sound_refuted. Qed.
Print Assumptions C08_blend_candidate_sound_refuted.

Theorem C08_anim_lossless_roundtrip_refuted_filler :
  ~ anim_lossless_roundtrip_statement (mkfixes true false false).
Proof. exact anim_lossless_roundtrip_refuted_filler. Qed.
Print Assumptions C08_anim_lossless_roundtrip_refuted_filler.

(** AddFrame calls may fail: a failing frame encoder at any chosen calls ([fails]: the first
    encodeFrame of a step, the dispose-background candidate, the key-frame candidate, the
    re-encode inside encodeKeyframe) and the muxer's frame limit ([maxf], any value).  The
    file then plays back exactly the frames of the AddFrame calls that returned nil
    ([acc]), with their display times; a refused call leaves the animation as it was. *)
Theorem C08_anim_error_roundtrip :
  forall (rt_ll rt_ly : img -> img) (W H : Z) (opts : eopts) (frames : list (img * Z))
         (oracle : nat -> orc) (fails : nat -> efail) (maxf : Z) (has_meta simple : bool)
         (st0 stf : est) (acc : list (img * Z)) (out : output),
    codec_lossless rt_ll ->
    wf_canvas_dims W H -> lossless_opts opts -> Forall wf_input frames ->
    new_encoder W H opts = Some st0 ->
    run_e repaired true maxf oracle fails st0 frames = (stf, acc) ->
    close has_meta simple stf = Some out ->
    same_show W H (eo_loop opts) out (playback rt_ll rt_ly repaired out) (inputs_of W H acc).
Proof. exact anim_error_roundtrip. Qed.
Print Assumptions C08_anim_error_roundtrip.

(** The other order of operations ([keep_dur] = false: cap the previous frame's duration, then
    encode the overflow filler; the code before fix 60cfee7) does not have this property. *)
Theorem C08_anim_error_roundtrip_refuted_cap_first : ~ anim_error_roundtrip_statement false.
Proof. exact anim_error_roundtrip_refuted_cap_first. Qed.
Print Assumptions C08_anim_error_roundtrip_refuted_cap_first.

Theorem C08_example_failed_addframe :
  w4_show true = Some ([(mkimg 1 1 [R], 10); (mkimg 1 1 [G], 16777210)],
                       [([R], 10); ([G], 16777210)]).
Proof. exact w4_kept. Qed.
Print Assumptions C08_example_failed_addframe.

(** Histories that mix AddFrame with pre-encoded frames (AddRawFrame: a VP8L bitstream
    given by the picture it was encoded from, an even offset inside the canvas, blend,
    dispose, duration), with failing encoder calls and the muxer frame limit as above:
    the file plays back the reference show [ref_show] of the accepted calls (an AddFrame
    picture is the whole canvas; a raw frame is composited by the container rules), outside
    the class of the observation raw-frames:canvas-size ([lone_small_raw_ok]). *)
Theorem C08_anim_mixed_roundtrip :
  forall (rt_ll rt_ly : img -> img) (W H : Z) (opts : eopts) (ops : list op)
         (oracle : nat -> orc) (fails : nat -> efail) (maxf : Z) (has_meta simple : bool)
         (st0 stf : est) (acc : list op) (out : output),
    codec_lossless rt_ll ->
    wf_canvas_dims W H -> lossless_opts opts -> Forall (AnimEncSpec.wf_op W H) ops ->
    new_encoder W H opts = Some st0 ->
    run_ops repaired maxf oracle fails st0 ops = (stf, acc) ->
    (true = true -> lone_small_raw_ok W H has_meta acc) ->
    close has_meta simple stf = Some out ->
    same_show W H (eo_loop opts) out (playback rt_ll rt_ly repaired out)
              (ref_show W H (blank W H, None) acc).
Proof. exact anim_mixed_roundtrip. Qed.
Print Assumptions C08_anim_mixed_roundtrip.

(** Without that hypothesis the statement is false (observation raw-frames:canvas-size):
    a single 1x1 pre-encoded frame of duration 0 on a 4x2 canvas is written as a simple
    file whose canvas is 1x1. *)
Theorem C08_anim_mixed_roundtrip_refuted_lone_small_raw : ~ anim_mixed_roundtrip_statement false.
Proof. exact anim_mixed_roundtrip_refuted_lone_small_raw. Qed.
Print Assumptions C08_anim_mixed_roundtrip_refuted_lone_small_raw.

Theorem C08_example_mixed_history :
  w6_show = Some ([([R;R;R;R; R;R;R;R], 10); ([R;R;G;G; R;R;G;G], 20); ([R;R;T;R; R;R;R;G], 30)],
                  [([R;R;R;R; R;R;R;R], 10); ([R;R;G;G; R;R;G;G], 20); ([R;R;T;R; R;R;R;G], 30)]).
Proof. exact w6_mixed_history_plays_the_reference_show. Qed.
Print Assumptions C08_example_mixed_history.

(** Tie to the source: the limits the model uses are the constants of the code
    (regenerated on every run). *)
Theorem C08_limits_match_source :
  max_duration = WebpGen.Consts.animation_maxDuration /\
  max_loop_count = WebpGen.Consts.animation_maxLoopCount /\
  max_canvas_dimension = WebpGen.Consts.animation_maxCanvasDimension /\
  max_duration = WebpGen.Consts.mux_maxDuration /\
  max_frames = WebpGen.Consts.container_MaxFrames /\
  max_position_off = WebpGen.Consts.container_MaxPositionOff.
Proof. repeat split; reflexivity. Qed.
Print Assumptions C08_limits_match_source.

(** On the VP8L codec model (Vp8l/Vp8lRoundtrip.v, decode after emit for any valid encoder
    choices) instead of the codec hypothesis. *)
Theorem C08_anim_mixed_roundtrip_on_models :
  forall o choose colour achoose, ll_choices_valid o choose ->
  forall (W H : Z) (opts : eopts) (ops : list op)
         (oracle : nat -> orc) (fails : nat -> efail) (maxf : Z) (has_meta simple : bool)
         (st0 stf : est) (acc : list op) (out : output),
    wf_canvas_dims W H -> lossless_opts opts -> Forall (AnimEncSpec.wf_op W H) ops ->
    new_encoder W H opts = Some st0 ->
    run_ops repaired maxf oracle fails st0 ops = (stf, acc) ->
    lone_small_raw_ok W H has_meta acc ->
    close has_meta simple stf = Some out ->
    same_show W H (eo_loop opts) out
      (playback (rt_ll_model o choose) (rt_ly_model colour achoose) repaired out)
      (ref_show W H (blank W H, None) acc).
Proof. exact anim_mixed_roundtrip_on_models. Qed.
Print Assumptions C08_anim_mixed_roundtrip_on_models.
