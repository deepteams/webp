(** C04 — VP8 (lossy) decoding returns the samples RFC 6386 defines.
    Only statements, each closed by [exact <lemma>] (or a closed computation for
    the frozen-table obligations) and followed by [Print Assumptions]. *)
From Coq Require Import List ZArith Bool.
From WebpGen Require Tables Consts.
From Webp Require Import Vp8.Vp8Bool Vp8.Vp8Tables Vp8.Vp8Syntax Vp8.Vp8Kernels Vp8.Vp8KernelProofs Vp8.Vp8Upsample
  Vp8.Vp8BoolAbs Vp8.Vp8BoolEnc Vp8.Vp8SyntaxRT Vp8.Vp8TokenRT Vp8.Vp8ModeRT Vp8.Vp8Recon Vp8.Vp8Filter Vp8.Vp8Spec Vp8.Vp8FrameRT Vp8.Vp8RowOrder Vp8.Vp8GoReader Vp8.Vp8InlineCoeffs Vp8.Vp8InlineTree Vp8.Vp8FlatCache Vp8.Vp8TokenBuf.
From Webp Require Riff.PrefixBitio.
From Webp Require Import Base.Res.
Import ListNotations.
Open Scope Z_scope.

(** ** Boolean coder round trip: for every sequence of (bit, probability) pairs, the bytes
    written by the Go encoder model (BoolWriter: range/value/run/nbBits, carry propagation
    through pending 0xff bytes, PutBit, Finish padding), followed by any number of zero bytes
    (none included: the decoder reads zeros beyond its input), are decoded by the RFC 6386
    decoder to exactly the encoded bits.  No length bound, carries included. *)
Theorem C04_bool_roundtrip : forall ps z, probs_ok ps ->
  rfc_bits (map snd ps) (bd_init (bool_encode ps ++ repeat 0 z)) = map fst ps.
Proof. exact bool_roundtrip. Qed.
Print Assumptions C04_bool_roundtrip.

(** PutBitUniform is PutBit with probability 128 in every reachable encoder state. *)
Theorem C04_put_uniform_eq_put : forall b w R L k, wrel 8 w R L k -> 128 <= R <= 255 ->
  bw_put_uniform b w = bw_put b 128 w.
Proof. exact uniform_eq_put. Qed.
Print Assumptions C04_put_uniform_eq_put.

(** The decoder half on its own: any stream value inside the arithmetic encoder's final
    interval is decoded (by the exact-integer decoder, which the RFC decoder refines:
    Vp8BoolAbs.rfc_refines_abs) to the encoded bits. *)
Theorem C04_abs_roundtrip : forall ps R L k, probs_ok ps -> 128 <= R <= 255 ->
  let '(Rf, Lf, kf) := aenc ps (R, L, k) in
  k <= kf /\ 128 <= Rf <= 255 /\
  forall J X, kf <= J -> Lf * 2 ^ (J - kf) <= X < (Lf + Rf) * 2 ^ (J - kf) ->
  L * 2 ^ (J - k) <= X < (L + R) * 2 ^ (J - k) /\
  adec (map snd ps) (R, X - L * 2 ^ (J - k), J - k) = map fst ps.
Proof. exact abs_roundtrip. Qed.
Print Assumptions C04_abs_roundtrip.

(** ** Header syntax round trip (fixed part: colour space, clamping, segment header, filter
    header, partition count, quantiser header with the signed-value encoding) over
    (bit, probability) streams, and composed with the boolean coder: parsing the Go
    encoder's bytes for these symbols returns the emitted fields.  The probability-update
    and skip-probability fields are not covered (hence _partial). *)
Theorem C04_syntax_roundtrip_partial : forall abs_default upd_seg upd_lf cs ct sg lf lp q d rest,
  wf_seg_hdr abs_default upd_seg sg -> wf_lf_hdr upd_lf lf -> 0 <= lp < 4 -> wf_q_hdr q ->
  sync d (e_fixed_hdr upd_seg upd_lf cs ct sg lf lp q ++ rest) ->
  exists d', parse_fixed_hdr abs_default d = ((cs, ct, sg, lf, lp, q), d') /\ sync d' rest.
Proof. exact syntax_roundtrip_fixed. Qed.
Print Assumptions C04_syntax_roundtrip_partial.

Theorem C04_syntax_roundtrip_bytes_partial : forall abs_default upd_seg upd_lf cs ct sg lf lp q tail z,
  wf_seg_hdr abs_default upd_seg sg -> wf_lf_hdr upd_lf lf -> 0 <= lp < 4 -> wf_q_hdr q ->
  probs_ok (e_fixed_hdr upd_seg upd_lf cs ct sg lf lp q ++ tail) ->
  fst (parse_fixed_hdr abs_default
         (bd_init (bool_encode (e_fixed_hdr upd_seg upd_lf cs ct sg lf lp q ++ tail) ++ repeat 0 z)))
  = (cs, ct, sg, lf, lp, q).
Proof. exact syntax_roundtrip_fixed_bytes. Qed.
Print Assumptions C04_syntax_roundtrip_bytes_partial.

(** The whole first-partition header, probability updates (13.4) and skip probability included:
    every field the parser returns is the emitted one. *)
Theorem C04_syntax_roundtrip : forall abs_default upd_seg upd_lf refresh h d rest,
  wf_frame_hdr abs_default upd_seg upd_lf h ->
  sync d (e_part1_hdr upd_seg upd_lf refresh h ++ rest) ->
  exists d', parse_part1_hdr abs_default (fh_w h) (fh_h h) (fh_xscale h) (fh_yscale h) d = (h, d') /\ sync d' rest.
Proof. exact syntax_roundtrip. Qed.
Print Assumptions C04_syntax_roundtrip.

(** Coefficient tokens of one block (section 13): end-of-block, zero runs (no end-of-block
    check after a zero), literal values, the six categories with extra bits, sign, for every
    probability table, start position, context and level list with magnitudes up to 2114:
    the token reader returns the levels and the end-of-block position; the dequantised
    block is the one computed from them. *)
Theorem C04_tokens_roundtrip : forall tp ls fuel n ctx noeob d acc rest,
  wf_levels n noeob ls -> (length ls < fuel)%nat ->
  sync d (e_tokens tp n ctx noeob ls ++ rest) ->
  exists d', tokens fuel tp n ctx noeob d acc = (acc_of n ls acc, n + Z.of_nat (length ls), d') /\ sync d' rest.
Proof. exact tokens_rt. Qed.
Print Assumptions C04_tokens_roundtrip.

Theorem C04_decode_block_roundtrip : forall tp first ctx dqdc dqac ls d rest,
  wf_levels first false ls -> 0 <= first ->
  sync d (e_tokens tp first ctx false ls ++ rest) ->
  exists d', decode_block tp first ctx dqdc dqac d =
               (dequant_block (acc_of first ls []) dqdc dqac, first + Z.of_nat (length ls), d') /\ sync d' rest.
Proof. exact decode_block_rt. Qed.
Print Assumptions C04_decode_block_roundtrip.

(** Per-macroblock header (19.3, 11.2, 11.3): segment id, skip flag, luma mode, the 16 sub-block
    modes with their above / left contexts, chroma mode; the contexts handed to the next
    macroblocks are the last row / column of sub-block modes, or the mode a 16x16 mode stands for. *)
Theorem C04_mb_header_roundtrip : forall h above_b left_b mh d rest, wf_mb_hdr h above_b left_b mh ->
  sync d (e_mb_hdr h above_b left_b mh ++ rest) ->
  exists d', parse_mb_hdr h above_b left_b d =
               (mh, fst (bctx_after mh above_b left_b), snd (bctx_after mh above_b left_b), d') /\ sync d' rest.
Proof. exact parse_mb_hdr_rt. Qed.
Print Assumptions C04_mb_header_roundtrip.

(** Residual data of a macroblock: Y2 block (16x16 modes), 16 luma, 4 + 4 chroma blocks with the
    "has coefficients" contexts of the left and above blocks, block types 0..3, first coefficient
    1 after Y2: the parser returns the dequantised blocks of the emitted levels, the
    "any coefficient" flag and the contexts for the next macroblocks. *)
Theorem C04_residuals_roundtrip : forall probs q (is4 : bool) above left y2 ys us vs d rest,
  length (nz_y above) = 4%nat -> length (nz_y left) = 4%nat ->
  length (nz_u above) = 2%nat -> length (nz_u left) = 2%nat ->
  length (nz_v above) = 2%nat -> length (nz_v left) = 2%nat ->
  wf_levels 0 false y2 -> wf_rows (if is4 then 0 else 1) 4 ys -> wf_rows 0 2 us -> wf_rows 0 2 vs ->
  sync d (e_residuals probs is4 above left y2 ys us vs ++ rest) ->
  exists d', parse_residuals probs q is4 above left d =
    (res_of q is4 y2 ys us vs, fst (nz_after is4 above left y2 ys us vs), snd (nz_after is4 above left y2 ys us vs), d')
    /\ sync d' rest.
Proof. exact parse_residuals_rt. Qed.
Print Assumptions C04_residuals_roundtrip.

(** Whole key frame: an abstract frame (header, per-macroblock header and residual levels in raster
    order) is emitted as symbol lists (first partition; token partitions with macroblock rows
    round-robin), each list through the Go boolean encoder, laid out by assembleFrame with its size
    guards; Vp8Spec.decode_gen (the specification for rfc_quirks, the Go-flavoured model for
    go_quirks) parses the bytes back to the same syntax elements and reconstructs exactly what
    [reconstruct] computes from the syntax, before and after the loop filter.  wf_frame_syn: header
    fields in range, modes valid, levels within +-2114 with proper block ends, context shapes, all
    probabilities bytes. *)
Theorem C04_vp8_emit_decode : forall qk s bs, wf_frame_syn qk s -> emit_key_frame qk s = Ok bs ->
  exists r, decode_gen qk bs = Ok r /\
    dc_w r = fh_w (fs_hdr s) /\ dc_h r = fh_h (fs_hdr s) /\ dc_hdr r = fs_hdr s /\
    dc_unfiltered r = fst (reconstruct qk s) /\ dc_filtered r = snd (reconstruct qk s).
Proof. exact vp8_emit_decode. Qed.
Print Assumptions C04_vp8_emit_decode.

(** The emitted frame never makes the decoder read a bool from beyond the end of a partition
    (BoolWriter.Finish pads at least 8 bits beyond the last symbol's interval): dc_past_end is false,
    so "rejected because it needs bits beyond a partition" never applies to emitter output. *)
Theorem C04_emit_no_past_end : forall qk s bs, wf_frame_syn qk s -> emit_key_frame qk s = Ok bs ->
  exists r, decode_gen qk bs = Ok r /\ dc_past_end r = false.
Proof. exact emit_no_past_end. Qed.
Print Assumptions C04_emit_no_past_end.

(** Filtering row by row right after each macroblock row is reconstructed (from the unfiltered top
    samples kept aside), as parseFrame does, = filtering after the whole frame is reconstructed. *)
Theorem C04_row_filter_order_eq : forall qk h simple rows cols above,
  go_order qk h simple cols above rows =
  filter_rows simple above (fst (fst (rows_syn qk h cols rows))).
Proof. exact row_filter_order_eq. Qed.
Print Assumptions C04_row_filter_order_eq.

(** The Go bit reader as the inlined coefficient reader uses it (64-bit value register, Range = range-1,
    bulk loads of 7 bytes / single bytes near the end, fastBit with the Log2Range / NewRange tables,
    fastSigned): each read refines the exact-integer decoder that the RFC 6386 decoder refines too. *)
Theorem C04_go_reader_bit_refines : forall g R D j p, grel g R D j -> 128 <= R <= 255 -> 0 <= p <= 255 -> 16 <= j ->
  let '(b, (R2, D2, j2)) := aget p (R, D, j) in
  exists g', gr_bit p g = (b, g') /\ grel g' R2 D2 j2 /\ 128 <= R2 <= 254 /\ j - 7 <= j2.
Proof. exact gr_bit_refines. Qed.
Print Assumptions C04_go_reader_bit_refines.

(** getCoeffsInline as the code runs it (hoisted reader state, "if brB < 0 { brLoad }" before every
    inlined read, unrolled value tree, kCat3456 loop with its terminator, prefetched bands[n+1]) =
    the specification's token reader on the RFC decoder, for every probability table (bytes), block
    type, start position, context and EVERY pair of reader states at the same position of the same
    data ([bothp]: the Go reader and the RFC decoder both refine the exact-integer decoder over the
    data followed by zeros) - also within the last bytes of a partition, where the Go reader loads
    byte by byte and then shifts in zeros: if the Go reader has not raised its end-of-input flag when
    the block is done (otherwise decodeMB rejects the frame with errPrematureEOF), the specification
    returns the same dequantised block and end-of-block position and the readers are again at the
    same position.  No look-ahead condition. *)
Theorem C04_inline_coeffs_eq : forall tp first ctx dqdc dqac g d, tp_ok tp -> 0 <= first < 16 ->
  bothp true g d ->
  gr_eof (snd (go_get_coeffs tp first ctx dqdc dqac g)) = false ->
  exists d', Vp8Syntax.decode_block tp first ctx dqdc dqac d =
             (fst (fst (go_get_coeffs tp first ctx dqdc dqac g)),
              snd (fst (go_get_coeffs tp first ctx dqdc dqac g)), d') /\
             bothp true (snd (go_get_coeffs tp first ctx dqdc dqac g)) d'.
Proof. exact Vp8InlineTree.inline_coeffs_eq. Qed.
Print Assumptions C04_inline_coeffs_eq.

(** the relation holds between the freshly created readers of a partition of at least two bytes
    whose first byte is below 255 (every encoder output: the coded value is below the initial
    range), and once raised the Go reader's flag stays raised until decodeMB tests it *)
Theorem C04_inline_readers_start : forall a b rest, is_byte a -> is_byte b -> Forall is_byte rest -> a < 255 ->
  bothp true (PrefixBitio.gr_new (a :: b :: rest)) (bd_init (a :: b :: rest)).
Proof. exact bothp_new. Qed.
Print Assumptions C04_inline_readers_start.

Theorem C04_inline_eof_sticky : forall tp first ctx dqdc dqac g,
  gr_eof g = true -> gr_eof (snd (go_get_coeffs tp first ctx dqdc dqac g)) = true.
Proof. exact go_get_coeffs_eof_mono. Qed.
Print Assumptions C04_inline_eof_sticky.

(** ** Kernel refinements: the Go decoder's short-cuts against the full definitions *)

(** TransformOne (the Go full inverse DCT) is the RFC 14.4 transform, for all inputs. *)
Theorem C04_transform_one_eq_idct : forall c, go_transform_one c = idct c.
Proof. exact go_transform_one_eq_idct. Qed.
Print Assumptions C04_transform_one_eq_idct.

(** DC-only short-cut = full inverse DCT when only coefficient 0 is non-zero. *)
Theorem C04_transform_dc_eq : forall dc,
  go_transform_dc (dc :: repeat 0 15) = idct (dc :: repeat 0 15).
Proof. exact transform_dc_eq. Qed.
Print Assumptions C04_transform_dc_eq.

(** TransformAC3 = full inverse DCT when only coefficients 0, 1 and 4 are non-zero. *)
Theorem C04_transform_ac3_eq : forall c0 c1 c4,
  let c := [c0; c1; 0; 0; c4; 0; 0; 0; 0; 0; 0; 0; 0; 0; 0; 0] in
  go_transform_ac3 c = idct c.
Proof. exact transform_ac3_eq. Qed.
Print Assumptions C04_transform_ac3_eq.

(** The Go inverse WHT is the RFC transform; its DC-only short-cut equals it when only
    coefficient 0 is non-zero (16-bit storage of the outputs included). *)
Theorem C04_wht_eq : forall c, go_wht c = iwht c.
Proof. exact go_wht_eq_iwht. Qed.
Print Assumptions C04_wht_eq.

Theorem C04_wht_dc_only_eq : forall dc,
  go_wht_dc_only (dc :: repeat 0 15) = iwht (dc :: repeat 0 15).
Proof. exact wht_dc_only_eq. Qed.
Print Assumptions C04_wht_dc_only_eq.

(** The 2-bit per-block code chosen from the end-of-block position never selects a
    short-cut that drops a non-zero coefficient. *)
Theorem C04_nz_code_sound : forall c nz, length c = 16%nat -> 0 <= nz <= 16 ->
  (forall n, nz <= n < 16 -> nthZ c (nthZ zigzag n 0) 0 = 0) ->
  go_do_transform (go_nz_code nz (negb (g c 0 =? 0))) c = idct c.
Proof. exact nz_code_sound. Qed.
Print Assumptions C04_nz_code_sound.

(** The clip tables, built as internal/dsp/cliptables.go builds them (one clamp per index) and read
    with their offsets, return the clamp over their complete index range. *)
Theorem C04_clip_tables_eq_clamp :
  (forall v, -893 <= v <= 892 -> tab_get go_sclip1_tab 893 v = Some (clampz (-128) 127 v)) /\
  (forall v, -112 <= v <= 112 -> tab_get go_sclip2_tab 112 v = Some (clampz (-16) 15 v)) /\
  (forall v, -255 <= v <= 511 -> tab_get go_clip1_tab 255 v = Some (clampz 0 255 v)) /\
  (forall v, -255 <= v <= 255 -> tab_get go_abs0_tab 255 v = Some (Z.abs v)).
Proof. exact clip_tables_eq_clamp. Qed.
Print Assumptions C04_clip_tables_eq_clamp.

(** GetBit, the LUT path (GetBitAlt / fastBit, with both copies of the two tables
    in the source, bitio and lossy) and GetSigned / fastSigned compute the RFC 7.3 split,
    new range and shift, for every range, probability and decision. *)
Theorem C04_bool_variants_agree : forall R p b, 128 <= R <= 255 -> 0 <= p <= 255 ->
  go_getbit_step R p b = rfc_step R p b /\
  go_lut_step WebpGen.Tables.lossy_kVP8Log2Range WebpGen.Tables.lossy_kVP8NewRange R p b = rfc_step R p b /\
  go_lut_step WebpGen.Tables.bitio_kVP8Log2Range WebpGen.Tables.bitio_kVP8NewRange R p b = rfc_step R p b /\
  (p = 128 -> R <> 255 -> go_signed_step R b = rfc_step R p b) /\
  snd (fst (rfc_step R p b)) <> 255.
Proof. exact bool_variants_agree. Qed.
Print Assumptions C04_bool_variants_agree.

(** ParseQuant's six factors = 14.1 (y2dc*2, y2ac*155/100 min 8, uvdc max 132), for every
    quantiser index (in or out of range) and every delta. *)
Theorem C04_dequant_matrix_eq : forall qh q, go_dq qh q = dq_of qh q.
Proof. exact dequant_matrix_eq. Qed.
Print Assumptions C04_dequant_matrix_eq.

(** precomputeFilterStrengths = 9.6 / 15.2 (level from segment and deltas, sharpness-dependent
    interior limit, key-frame hev threshold, sub-block edge limit), for every header. *)
Theorem C04_filter_strength_table_eq : forall h seg is4,
  go_fstrength h seg is4 =
  let p := lf_mb_params false h seg is4 in
  if lp_level p =? 0 then (0, 0, 0) else (subedge_limit p, lp_interior p, lp_hev p).
Proof. exact filter_strength_table_eq. Qed.
Print Assumptions C04_filter_strength_table_eq.

(** ... where the level is clamped once; clamping also after the segment adjustment (the
    RFC reference decoder's reading) gives the same level whenever that intermediate
    value is already within 0..63. *)
Theorem C04_filter_level_mid_clamp_agree : forall h seg is4,
  0 <= lf_base_level h seg <= 63 ->
  lf_mb_level true h seg is4 = lf_mb_level false h seg is4.
Proof. exact filter_level_mid_clamp_agree. Qed.
Print Assumptions C04_filter_level_mid_clamp_agree.

(** Loop-filter arithmetic: simple filter, macroblock-edge filter, sub-block-edge filter
    in the Go (unsigned, clip-table) form = RFC 15.2-15.4 (signed form), all samples, all limits. *)
Theorem C04_simple_filter_eq : forall E l, bytes8 l -> go_simple_seg E l = lf_simple E l.
Proof. exact simple_filter_eq. Qed.
Print Assumptions C04_simple_filter_eq.

Theorem C04_mbedge_filter_eq : forall E I T l, bytes8 l -> go_loop26_seg E I T l = lf_mbedge T I E l.
Proof. exact mbedge_filter_eq. Qed.
Print Assumptions C04_mbedge_filter_eq.

Theorem C04_subblock_filter_eq : forall E I T l, bytes8 l -> go_loop24_seg E I T l = lf_subblock T I E l.
Proof. exact subblock_filter_eq. Qed.
Print Assumptions C04_subblock_filter_eq.

(** ** Fancy upsampler and YUV -> RGB: the packed (U and V in one uint32) diamond kernel and
    edge formula give, in each lane, the 9-3-3-1 resp. 3-1 taps; the table clip is the clamp. *)
Theorem C04_upsample_diamond_eq : forall tlu tlv tu tv lu lv cu cv,
  byte tlu -> byte tlv -> byte tu -> byte tv -> byte lu -> byte lv -> byte cu -> byte cv ->
  let '(a, b, c, d) := go_diamond (pack tlu tlv) (pack tu tv) (pack lu lv) (pack cu cv) in
  lo8 a = tap9331 tlu tu lu cu /\ hi8 a = tap9331 tlv tv lv cv /\
  lo8 b = tap9331 tu tlu cu lu /\ hi8 b = tap9331 tv tlv cv lv /\
  lo8 c = tap9331 lu tlu cu tu /\ hi8 c = tap9331 lv tlv cv tv /\
  lo8 d = tap9331 cu tu lu tlu /\ hi8 d = tap9331 cv tv lv tlv.
Proof. exact go_diamond_eq. Qed.
Print Assumptions C04_upsample_diamond_eq.

Theorem C04_upsample_edge_eq : forall au av bu bv, byte au -> byte av -> byte bu -> byte bv ->
  let r := go_edge (pack au av) (pack bu bv) in
  lo8 r = tap31 au bu /\ hi8 r = tap31 av bv.
Proof. exact go_edge_eq. Qed.
Print Assumptions C04_upsample_edge_eq.

Theorem C04_yuv_clip_eq : forall v, go_yuv_clip v = yuv_clip8 v.
Proof. exact go_yuv_clip_eq. Qed.
Print Assumptions C04_yuv_clip_eq.

(** ** Frozen specification values: the tables regenerated from the Go source are the
    ones RFC 6386 prints (a mutated table in /repo breaks one of these). *)
Theorem C04_tables_match_rfc :
  WebpGen.Tables.lossy_KZigzag = rfc_zigzag /\ is_perm16 rfc_zigzag = true /\
  WebpGen.Tables.lossy_KBands = rfc_bands ++ [0] /\
  map (fun i => nthZ rfc_zigzag (nthZ unzig i 0) 0) (zrange 0 16) = zrange 0 16 /\
  WebpGen.Tables.lossy_KDcTable = rfc_DcTable /\ WebpGen.Tables.lossy_KAcTable = rfc_AcTable /\
  sorted_le rfc_DcTable = true /\ sorted_le rfc_AcTable = true /\
  (nthZ rfc_DcTable 0 0, nthZ rfc_DcTable 127 0, nthZ rfc_AcTable 0 0, nthZ rfc_AcTable 127 0) = (4, 157, 4, 284) /\
  nthZ rfc_DcTable 117 0 = 132 /\
  WebpGen.Tables.lossy_KCat3 = pcat3 ++ [0] /\ WebpGen.Tables.lossy_KCat4 = pcat4 ++ [0] /\
  WebpGen.Tables.lossy_KCat5 = pcat5 ++ [0] /\ WebpGen.Tables.lossy_KCat6 = pcat6 ++ [0] /\
  WebpGen.Tables.lossy_KYModesIntra4 = flat_tree bmode_tree 9.
Proof. repeat split; reflexivity. Qed.
Print Assumptions C04_tables_match_rfc.

(** The specification decoder's tables are the literals frozen in Vp8Tables.v (RFC 6386 values; it
    does not read the tables regenerated from the Go source).  One obligation per table: the table
    regenerated from /repo equals the frozen one - a mutated table breaks its obligation here, and
    the Go decoder then disagrees with the specification decoder on streams that reach the entry. *)
Theorem C04_table_zigzag : WebpGen.Tables.lossy_KZigzag = Vp8Tables.zigzag.
Proof. reflexivity. Qed.
Print Assumptions C04_table_zigzag.
Theorem C04_table_bands : WebpGen.Tables.lossy_KBands = Vp8Tables.bands.
Proof. reflexivity. Qed.
Print Assumptions C04_table_bands.
Theorem C04_table_dc : WebpGen.Tables.lossy_KDcTable = Vp8Tables.dc_table.
Proof. reflexivity. Qed.
Print Assumptions C04_table_dc.
Theorem C04_table_ac : WebpGen.Tables.lossy_KAcTable = Vp8Tables.ac_table.
Proof. reflexivity. Qed.
Print Assumptions C04_table_ac.
Theorem C04_table_coeff_probs0 : WebpGen.Tables.lossy_CoeffsProba0 = Vp8Tables.coeff_probs0.
Proof. reflexivity. Qed.
Print Assumptions C04_table_coeff_probs0.
Theorem C04_table_coeff_update_probs : WebpGen.Tables.lossy_CoeffsUpdateProba = Vp8Tables.coeff_update_probs.
Proof. reflexivity. Qed.
Print Assumptions C04_table_coeff_update_probs.
Theorem C04_table_kf_bmode_probs : WebpGen.Tables.lossy_KBModesProba = Vp8Tables.kf_bmode_probs.
Proof. reflexivity. Qed.
Print Assumptions C04_table_kf_bmode_probs.
Theorem C04_table_cat_extra_bits :
  WebpGen.Tables.lossy_KCat3 = pcat3 ++ [0] /\ WebpGen.Tables.lossy_KCat4 = pcat4 ++ [0] /\
  WebpGen.Tables.lossy_KCat5 = pcat5 ++ [0] /\ WebpGen.Tables.lossy_KCat6 = pcat6 ++ [0].
Proof. repeat split; reflexivity. Qed.
Print Assumptions C04_table_cat_extra_bits.
Theorem C04_table_bmode_tree : WebpGen.Tables.lossy_KYModesIntra4 = flat_tree bmode_tree 9.
Proof. reflexivity. Qed.
Print Assumptions C04_table_bmode_tree.

(** shape of the frozen probability tables (4 x 8 x 3 x 11; 10 x 10 x 9) and their checksums *)
Theorem C04_probability_tables_frozen :
  (length (flat4 coeff_probs0), wsum (flat4 coeff_probs0), sumz (flat4 coeff_probs0)) = (1056%nat, 112461, 174918) /\
  (length (flat4 coeff_update_probs), wsum (flat4 coeff_update_probs), sumz (flat4 coeff_update_probs)) = (1056%nat, 2904, 268469) /\
  (length (flat3 kf_bmode_probs), wsum (flat3 kf_bmode_probs), sumz (flat3 kf_bmode_probs)) = (900%nat, 36850, 77557) /\
  forallb (fun t => (Z.of_nat (length t) =? 8) &&
     forallb (fun b => (Z.of_nat (length b) =? 3) && forallb (fun c => Z.of_nat (length c) =? 11) b) t) coeff_probs0 = true.
Proof. repeat split; vm_compute; reflexivity. Qed.
Print Assumptions C04_probability_tables_frozen.

(** Mode numbering used by the models = the constants of the Go source. *)
Theorem C04_mode_constants :
  (WebpGen.Consts.lossy_DCPred, WebpGen.Consts.lossy_TMPred, WebpGen.Consts.lossy_VPred, WebpGen.Consts.lossy_HPred)
    = (DC_PRED, TM_PRED, V_PRED, H_PRED) /\
  [WebpGen.Consts.lossy_BDCPred; WebpGen.Consts.lossy_BTMPred; WebpGen.Consts.lossy_BVEPred;
   WebpGen.Consts.lossy_BHEPred; WebpGen.Consts.lossy_BRDPred; WebpGen.Consts.lossy_BVRPred;
   WebpGen.Consts.lossy_BLDPred; WebpGen.Consts.lossy_BVLPred; WebpGen.Consts.lossy_BHDPred;
   WebpGen.Consts.lossy_BHUPred] = [B_DC; B_TM; B_VE; B_HE; B_RD; B_VR; B_LD; B_VL; B_HD; B_HU] /\
  (WebpGen.Consts.dsp_c1, WebpGen.Consts.dsp_c2) = (cospi8sqrt2minus1, sinpi8sqrt2) /\
  [WebpGen.Consts.dsp_kYScale; WebpGen.Consts.dsp_kRCr; WebpGen.Consts.dsp_kGCb; WebpGen.Consts.dsp_kGCr;
   WebpGen.Consts.dsp_kBCb; WebpGen.Consts.dsp_kRBias; WebpGen.Consts.dsp_kGBias; WebpGen.Consts.dsp_kBBias;
   WebpGen.Consts.dsp_yuvMask; WebpGen.Consts.dsp_yuvFix2] = [19077; 26149; 6419; 13320; 33050; 14234; 8708; 17685; 16383; 6].
Proof. repeat split; reflexivity. Qed.
Print Assumptions C04_mode_constants.

(** ** Flat buffers.  reconstructRow's transfer loops into the output cache
    ("yOut := dec.cacheY[mbX*16 + mbY*16*yStride:]; for j { copy(yOut[j*yStride:...], yDst[j*bps:...]) }",
    8 for U and V; yStride = 16*mbW) as nested counted loops over a flat list with Go's copy:
    after the loops over all macroblocks the flat buffer is the concatenation of the rows of the
    plane the macroblock-grid model assembles (Vp8Filter.plane_rows), i.e. cell y*stride + x holds
    sample (x mod n, y mod n) of macroblock (x / n, y / n). *)
Theorem C04_cache_store_flat_eq : forall n W H sel rows c,
  0 < n -> 0 < W -> 0 < H -> grid_ok n W H sel rows ->
  length c = Z.to_nat (n * W * (n * H)) ->
  store_frame n W H sel rows c = concat (plane_rows sel (Z.to_nat n) rows).
Proof. exact store_frame_eq. Qed.
Print Assumptions C04_cache_store_flat_eq.

(** The work buffer dec.yuvB (stride BPS = 32, 26 rows; luma block at cell (8, 1) with 4 above-right
    samples, U at (8, 18), V at (24, 18): generated constants) and the invariant of reconstructRow's
    macroblock loop, as loops over the flat buffer: start of a row (129 column, corner, 127 row on
    the first row) gives the entry state of macroblock 0; from an entry state, the preparation steps
    (rotation of the 4 left columns for j = -1..n-1, top samples, above-right samples of the next
    macroblock or the repeated last top sample on the right-most one, their copies beside rows 3, 7,
    11) leave in the cells the predictors read exactly the grid model's border values
    (Vp8Recon.mk_edges, cell by cell in C04_mk_edges_y_cells); storing the reconstructed block and
    stashing its last row gives the entry state of the next macroblock. *)
Theorem C04_yuvb_layout :
  WebpGen.Consts.lossy_BPS = 32 /\ WebpGen.Consts.lossy_YUVSize = 32 * 26 /\
  WebpGen.Consts.lossy_YOff = 1 * 32 + 8 /\ WebpGen.Consts.lossy_UOff = 18 * 32 + 8 /\
  WebpGen.Consts.lossy_VOff = 18 * 32 + 24 /\
  geo_ok 32 26 16 4 8 1 /\ geo_ok 32 26 8 0 8 18 /\ geo_ok 32 26 8 0 24 18.
Proof. exact yuvb_layout. Qed.
Print Assumptions C04_yuvb_layout.

Theorem C04_workbuf_row_start : forall S Ht n tr X0 Y0 mby mbW tops c0 abv_row prev,
  geo_ok S Ht n tr X0 Y0 -> 0 <= mby -> length c0 = Z.to_nat (S * Ht) ->
  (0 < mby -> forall k, 0 <= k < mbW ->
     Z.of_nat (length (nth (Z.to_nat k) tops [])) = n /\
     forall i, 0 <= i < n -> fget (nth (Z.to_nat k) tops []) i = abv_row k i) ->
  entry_state S Ht n tr X0 Y0 0 mby mbW tops (init_corner S n tr X0 Y0 mby (init_left S n X0 Y0 c0)) abv_row prev.
Proof. exact workbuf_row_start. Qed.
Print Assumptions C04_workbuf_row_start.

Theorem C04_workbuf_prep_edges : forall S Ht n tr X0 Y0 mbx mby mbW is4 tops c abv_row prev,
  geo_ok S Ht n tr X0 Y0 -> 0 <= mbx < mbW -> 0 <= mby ->
  entry_state S Ht n tr X0 Y0 mbx mby mbW tops c abv_row prev ->
  let P := prep S n tr X0 Y0 mbx mby mbW is4 tops c in
  length P = length c /\ context_cells S n tr X0 Y0 mbx mby mbW is4 P abv_row prev.
Proof. exact workbuf_prep_edges. Qed.
Print Assumptions C04_workbuf_prep_edges.

Theorem C04_workbuf_next_entry : forall S Ht n tr X0 Y0 mbx mby mbW is4 tops tops' c abv_row prev blk,
  geo_ok S Ht n tr X0 Y0 -> 0 <= mbx < mbW -> 0 <= mby ->
  entry_state S Ht n tr X0 Y0 mbx mby mbW tops c abv_row prev ->
  blk_ok n blk ->
  (forall k, mbx < k -> nth (Z.to_nat k) tops' [] = nth (Z.to_nat k) tops []) ->
  entry_state S Ht n tr X0 Y0 (mbx + 1) mby mbW tops'
    (store_block S n (Y0 * S + X0) blk (prep S n tr X0 Y0 mbx mby mbW is4 tops c))
    abv_row (fun i j => fget (nth (Z.to_nat j) blk []) i).
Proof. exact workbuf_next_entry. Qed.
Print Assumptions C04_workbuf_next_entry.

Theorem C04_mk_edges_y_cells : forall above left al ar : option mbpix,
  (forall p, In (Some p) [above; left; al; ar] -> blk_ok 16 (px_y p)) ->
  let e := mk_edges above left al ar in
  (forall i, 0 <= i < 16 ->
     fget (e_above_y e) i = match above with Some p => fget (nth 15 (px_y p) []) i | None => 127 end) /\
  (forall j, 0 <= j < 16 ->
     fget (e_left_y e) j = match left with Some p => fget (nth (Z.to_nat j) (px_y p) []) 15 | None => 129 end) /\
  e_corner_y e = match above with
                 | None => 127
                 | Some _ => match al with Some p => fget (nth 15 (px_y p) []) 15 | None => 129 end
                 end /\
  (forall i, 0 <= i < 4 ->
     fget (e_ar e) i = match above with
                       | None => 127
                       | Some p => match ar with
                                   | Some q => fget (nth 15 (px_y q) []) i
                                   | None => fget (nth 15 (px_y p) []) 15
                                   end
                       end).
Proof. exact mk_edges_y_cells. Qed.
Print Assumptions C04_mk_edges_y_cells.

(** doFilter's horizontal passes over the output cache as loops over the flat buffer
    ("for j := 0; j < n; j++ { off := base + j*bps; ... p[off-4] .. p[off+3] ... }"): at the macroblock
    edge (base = mbY*n*stride + mbX*n, i.e. cell (x0, y0)) the left and the current block of the
    buffer become the grid model's edge_h of the two blocks; the inner passes (base + 4k: windows
    starting 0, 4, 8 samples into the block; chroma one window) turn the current block into
    inner_h.  [f]: any 8-sample edge function (length-preserving). *)
Theorem C04_filter_hpass_edge_h : forall S Ht (f : list Z -> list Z),
  (forall l, length l = 8%nat -> length (f l) = 8%nat) ->
  forall x0 y0 (n : nat) c,
  (4 <= n)%nat -> Z.of_nat n <= x0 -> x0 + Z.of_nat n <= S -> 0 <= y0 -> y0 + Z.of_nat n <= Ht ->
  length c = Z.to_nat (S * Ht) ->
  let c' := hpass S f x0 y0 (Z.of_nat n) c in
  (block_at S c' (x0 - Z.of_nat n) y0 n, block_at S c' x0 y0 n) =
  edge_h n f (block_at S c (x0 - Z.of_nat n) y0 n) (block_at S c x0 y0 n).
Proof. exact hpass_edge_h. Qed.
Print Assumptions C04_filter_hpass_edge_h.

Theorem C04_filter_hpasses_inner_h : forall S Ht (f : list Z -> list Z),
  (forall l, length l = 8%nat -> length (f l) = 8%nat) ->
  forall x0 y0 (n : nat), 0 <= x0 -> x0 + Z.of_nat n <= S -> 0 <= y0 -> y0 + Z.of_nat n <= Ht ->
  forall offs c, Forall (fun o => (o + 8 <= n)%nat) offs -> length c = Z.to_nat (S * Ht) ->
  block_at S (hpasses S f x0 y0 n offs c) x0 y0 n = inner_h f offs (block_at S c x0 y0 n).
Proof. exact hpasses_inner_h. Qed.
Print Assumptions C04_filter_hpasses_inner_h.

(** doFilter's vertical passes ("for i := 0; i < width; i++ { off := base + i; ... p[off-4*bps] ..
    p[off+3*bps] ... }", the 8 samples of a column read, then written back): at the macroblock edge
    the block above and the current block of the buffer become the grid model's edge_v (stated there
    through transposition); the inner passes (base + 4k*bps) turn the current block into inner_v. *)
Theorem C04_filter_vpass_edge_v : forall S Ht (f : list Z -> list Z),
  (forall l, length l = 8%nat -> length (f l) = 8%nat) ->
  forall x0 ye (n : nat) c,
  (4 <= n)%nat -> 0 <= x0 -> x0 + Z.of_nat n <= S -> Z.of_nat n <= ye -> ye + Z.of_nat n <= Ht ->
  length c = Z.to_nat (S * Ht) ->
  let c' := vpass S f x0 ye (Z.of_nat n) c in
  (block_at S c' x0 (ye - Z.of_nat n) n, block_at S c' x0 ye n) =
  edge_v n f (block_at S c x0 (ye - Z.of_nat n) n) (block_at S c x0 ye n).
Proof. exact vpass_edge_v. Qed.
Print Assumptions C04_filter_vpass_edge_v.

Theorem C04_filter_vpasses_inner_v : forall S Ht (f : list Z -> list Z),
  (forall l, length l = 8%nat -> length (f l) = 8%nat) ->
  forall x0 y0 (n : nat), (0 < n)%nat -> 0 <= x0 -> x0 + Z.of_nat n <= S -> 0 <= y0 -> y0 + Z.of_nat n <= Ht ->
  forall offs c, Forall (fun o => (o + 8 <= n)%nat) offs -> length c = Z.to_nat (S * Ht) ->
  block_at S (vpasses S f x0 y0 n offs c) x0 y0 n = inner_v f offs (block_at S c x0 y0 n).
Proof. exact vpasses_inner_v. Qed.
Print Assumptions C04_filter_vpasses_inner_v.

(** ** The encoder's token buffer (encode_token.go): record + replay = direct emission.  Tokens are
    recorded into pages of P entries (RecordToken adds a page when the current one is full), each
    non-skipped macroblock sets its start mark (MarkMBStart; skipped ones keep -1), and
    EmitTokensPartitioned fills the missing marks backwards from the token count, then walks each
    selected macroblock's range in page-aligned chunks (tok / P, tok % P, min(P, end - page*P)).
    For every page size, every writer and every recording (macroblocks in rows of mbW, skipped ones
    anywhere, empty ones included), replaying partition i - the macroblocks with
    (mbIdx / mbW) & (2^lg - 1) = i - puts exactly the frame model's symbols of partition i
    (Vp8FrameRT.part_syms: rows r with r mod 2^lg = i) in order; EmitTokens puts all of them. *)
Theorem C04_token_buffer_partition_eq : forall W (put : W -> bool * Z -> W) (P : nat), (0 < P)%nat ->
  forall (w : nat) (lg i : Z) (rows : list (list (option (list (bool * Z))))) (bw : W),
  (0 < w)%nat -> 0 <= lg -> Forall (fun r => length r = w) rows ->
  emit_part (bool * Z) W put P (length (concat rows)) (part_sel (Z.of_nat w) (2 ^ lg) i)
            (session (bool * Z) P (concat rows)) bw =
  puts (bool * Z) W put (part_syms (2 ^ lg) i 0 (map (fun r => concat (map (mb_toks (bool * Z)) r)) rows)) bw.
Proof. exact token_buffer_partition_eq. Qed.
Print Assumptions C04_token_buffer_partition_eq.

Theorem C04_token_buffer_emit_all : forall tok W (put : W -> tok -> W) (P : nat), (0 < P)%nat ->
  forall (os : list (option (list tok))) (w : W),
  emit_all tok W put (session tok P os) w = puts tok W put (concat (map (mb_toks tok) os)) w.
Proof. exact emit_all_session. Qed.
Print Assumptions C04_token_buffer_emit_all.
