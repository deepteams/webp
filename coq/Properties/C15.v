(** C15 — Metadata is stored byte-exact and never affects the picture
    (container layer).  Only statements, each closed by [exact <lemma>] and
    followed by [Print Assumptions].  The image bitstream and the ALPH payload are
    arbitrary byte strings whose header declares the picture size (what Encode's
    codecs hand to writeRIFF); the pixel codecs are parameters. *)
From Coq Require Import List ZArith Bool String.
From Webp Require Import Base.Res Base.Bytes Riff.ParserModel Riff.ParserSpec Riff.WriterModel
     Riff.FeaturesModel Riff.MetadataProofs Riff.ParserProofs Riff.WriterTheorems Riff.ParserGrammar.
From Webp Require Riff.RiffGrammar Riff.DemuxModel Riff.MuxModel Riff.MuxView Riff.WriterAnimMeta Riff.WriterMetaUse.
From WebpGen Require MetaUse.
Import ListNotations.
Open Scope Z_scope.

(** For every image bitstream, alpha payload and ICC / EXIF / XMP blobs (any
    content, any length incl. empty, 1 byte, odd, even; [len > 0] decides
    presence) within the writer's own size guard: writeRIFF succeeds; each blob is
    read back by chunk id byte for byte (absent iff empty); the file is a
    well-formed RIFF/WebP still (RIFF size, chunk sizes, zero pad bytes, order
    VP8X [ICCP] [ALPH] image [EXIF] [XMP], flags = chunks present, canvas = image);
    and the container parser (either variant) returns the same bitstream / alpha
    bytes in one frame and announces exactly the non-empty blobs. *)
Theorem C15_metadata_roundtrip :
  forall fourcc bs alpha w h icc exif xmp a,
    writer_inputs_ok fourcc bs alpha w h icc exif xmp a ->
    exists file,
      write_riff fourcc bs alpha w h icc exif xmp = Ok file /\
      spec_get_chunk file FourCCICCP = opt_blob icc /\
      spec_get_chunk file FourCCEXIF = opt_blob exif /\
      spec_get_chunk file FourCCXMP = opt_blob xmp /\
      spec_get_chunk file FourCCALPH = opt_blob alpha /\
      spec_get_chunk file fourcc = Some bs /\
      riff_wf file = true /\ len file mod 2 = 0 /\
      (len icc <= MaxMetadataSize -> forall fx, exists r,
         parse_ex fx file = Ok (r, KStill) /\
         pFrames r = [expected_frame fourcc bs alpha w h a] /\
         fWidth (pFeat r) = w /\ fHeight (pFeat r) = h /\
         fHasAlpha (pFeat r) = ((len alpha >? 0) || a) /\
         fHasICCP (pFeat r) = (len icc >? 0) /\ fHasEXIF (pFeat r) = (len exif >? 0) /\
         fHasXMP (pFeat r) = (len xmp >? 0) /\
         pChunks r = expected_chunks icc /\
         fFormat (pFeat r) = (if is_extended alpha icc exif xmp then FormatVP8X
                              else if fourcc =? FourCCVP8L then FormatVP8L else FormatVP8)).
Proof. exact metadata_roundtrip. Qed.
Print Assumptions C15_metadata_roundtrip.

(** The encoder's container writer only emits files that the independent
    grammar of the container specification (Riff.RiffGrammar.wf, C14 / C02 area,
    tags as byte strings) accepts: RIFF size, chunk sizes, zero padding, order
    ICCP -> ALPH -> image -> EXIF -> XMP, VP8X flags = exactly the chunks present
    incl. the VP8L alpha bit, reserved bits zero, canvas = bitstream dimensions. *)
Theorem C15_writer_output_wf : forall fourcc bs alpha w h icc exif xmp a,
  writer_inputs_ok fourcc bs alpha w h icc exif xmp a ->
  bytes_ok bs -> bytes_ok alpha -> bytes_ok icc -> bytes_ok exif -> bytes_ok xmp ->
  exists file, write_riff fourcc bs alpha w h icc exif xmp = Ok file /\ RiffGrammar.wf file = true.
Proof. exact writer_output_wf. Qed.
Print Assumptions C15_writer_output_wf.

(** The two specifications agree on stills: ParserSpec.riff_wf implies
    RiffGrammar.wf, and a RiffGrammar.wf file with a clear animation flag
    satisfies ParserSpec.riff_wf. *)
Theorem C15_riff_wf_grammar : forall file, bytes_ok file -> riff_wf file = true -> RiffGrammar.wf file = true.
Proof. exact riff_wf_grammar. Qed.
Print Assumptions C15_riff_wf_grammar.

Theorem C15_grammar_still_riff_wf : forall file,
  RiffGrammar.wf file = true -> g_is_anim file = false -> riff_wf file = true /\ bytes_ok file.
Proof. exact grammar_still_riff_wf. Qed.
Print Assumptions C15_grammar_still_riff_wf.

(** Changing only the metadata changes neither the image / ALPH chunk bytes, nor
    the frame the parser hands to the codecs, nor (for every choice of codecs)
    what Decode returns. *)
Theorem C15_metadata_irrelevant :
  forall fourcc bs alpha w h a icc1 exif1 xmp1 icc2 exif2 xmp2,
    writer_inputs_ok fourcc bs alpha w h icc1 exif1 xmp1 a ->
    writer_inputs_ok fourcc bs alpha w h icc2 exif2 xmp2 a ->
    len icc1 <= MaxMetadataSize -> len icc2 <= MaxMetadataSize ->
    exists f1 f2,
      write_riff fourcc bs alpha w h icc1 exif1 xmp1 = Ok f1 /\
      write_riff fourcc bs alpha w h icc2 exif2 xmp2 = Ok f2 /\
      spec_get_chunk f1 fourcc = spec_get_chunk f2 fourcc /\
      spec_get_chunk f1 FourCCALPH = spec_get_chunk f2 FourCCALPH /\
      (forall fx, exists r1 r2,
         parse_ex fx f1 = Ok (r1, KStill) /\ parse_ex fx f2 = Ok (r2, KStill) /\
         pFrames r1 = pFrames r2 /\
         fWidth (pFeat r1) = fWidth (pFeat r2) /\ fHeight (pFeat r1) = fHeight (pFeat r2) /\
         fHasAlpha (pFeat r1) = fHasAlpha (pFeat r2)) /\
      (forall (Pix : Type) (ld ll : list Z -> Res (Z * Z * Pix)) (ad : list Z -> Z -> Z -> Res Pix) fx,
         decode_bytes ld ll ad fx f1 = decode_bytes ld ll ad fx f2).
Proof. exact metadata_irrelevant. Qed.
Print Assumptions C15_metadata_irrelevant.

(** The VP8X flags byte: ICC / EXIF / XMP bits = blob non-empty; alpha bit = ALPH
    written or VP8L header alpha bit; animation and reserved bits clear. *)
Theorem C15_flags_exact : forall fourcc bs alpha icc exif xmp,
  let f := vp8x_flags fourcc bs alpha icc exif xmp in
  Z.testbit f 5 = (len icc >? 0) /\ Z.testbit f 3 = (len exif >? 0) /\ Z.testbit f 2 = (len xmp >? 0) /\
  Z.testbit f 4 = ((len alpha >? 0) || vp8l_alpha_bit fourcc bs) /\
  Z.testbit f 1 = false /\ Z.land f 4294967233 = 0 /\ 0 <= f < 64.
Proof. exact flags_exact. Qed.
Print Assumptions C15_flags_exact.

(** The uint64 size guard of writeRIFFExtended fails exactly when the RIFF size
    would not fit, and the pre-sized output buffer is exactly filled. *)
Theorem C15_riff_size_guard_complete : forall fourcc bs alpha w h icc exif xmp,
  (sizes_ok bs alpha icc exif xmp <->
   exists file, write_riff_extended fourcc bs alpha w h icc exif xmp = Ok file) /\
  (~ sizes_ok bs alpha icc exif xmp <->
   write_riff_extended fourcc bs alpha w h icc exif xmp = Err EWriteTooLarge).
Proof. exact riff_size_guard_complete. Qed.
Print Assumptions C15_riff_size_guard_complete.

Theorem C15_write_extended_length : forall fourcc bs alpha w h icc exif xmp file,
  write_riff_extended fourcc bs alpha w h icc exif xmp = Ok file ->
  len file = 8 + riff_size_extended bs alpha icc exif xmp /\ len file mod 2 = 0.
Proof. exact write_extended_length. Qed.
Print Assumptions C15_write_extended_length.

(** Lossless: the streaming fast path (no metadata) and the buffered path write
    the same bytes around the same bitstream. *)
Theorem C15_streaming_eq_buffered : forall bs,
  len bs < 4294967296 - 21 -> Ok (write_lossless_stream bs) = write_riff_simple FourCCVP8L bs.
Proof. exact streaming_eq_buffered. Qed.
Print Assumptions C15_streaming_eq_buffered.

Theorem C15_encode_lossless_container_eq : forall bs w h icc exif xmp,
  len bs < 4294967296 - 21 ->
  encode_lossless_container bs w h icc exif xmp = write_riff FourCCVP8L bs [] w h icc exif xmp.
Proof. exact encode_lossless_container_eq. Qed.
Print Assumptions C15_encode_lossless_container_eq.

(** Animation encoder, repaired Close: with any metadata set the muxer's file
    (which carries it) is written; otherwise only a non-empty strictly smaller
    still candidate may replace it. *)
Theorem C15_anim_close_keeps_metadata : forall frameCount hasPrev animData simple,
  anim_close true frameCount hasPrev true animData simple = animData.
Proof. exact anim_close_keeps_metadata. Qed.
Print Assumptions C15_anim_close_keeps_metadata.

Theorem C15_anim_close_choice : forall fx frameCount hasPrev hasMeta animData simple out,
  anim_close fx frameCount hasPrev hasMeta animData simple = out ->
  out = animData \/ (simple = Some out /\ 0 < len out < len animData /\ frameCount = 1 /\ hasPrev = true).
Proof. exact anim_close_choice. Qed.
Print Assumptions C15_anim_close_choice.

(** Animation encoder, metadata round trip: for every history of muxer operations
    (AddFrame, SetICCProfile, SetEXIF, SetXMP, ... -- all the animation encoder does
    to its muxer) after which some metadata is set, the repaired Close writes the
    muxer's file, the demuxer accepts it and returns each blob byte for byte
    (GetChunk by id).  Composition with the C14 round trip (MuxRoundtrip.extended_roundtrip). *)
Theorem C15_anim_metadata_roundtrip :
  forall ops frameCount hasPrev simple bs,
    Forall MuxView.op_ok ops ->
    let m := MuxModel.run ops in
    WriterAnimMeta.mux_has_meta m = true ->
    MuxModel.assemble MuxModel.repaired m = Ok bs ->
    let out := anim_close true frameCount hasPrev true bs simple in
    out = bs /\
    exists d, DemuxModel.parse true out = Ok d /\
      DemuxModel.d_icc d = MuxModel.m_icc m /\ DemuxModel.d_exif d = MuxModel.m_exif m /\
      DemuxModel.d_xmp d = MuxModel.m_xmp m /\
      (forall x, MuxModel.m_icc m = Some x -> DemuxModel.get_chunk d DemuxModel.FCC_ICCP = Ok x) /\
      (forall x, MuxModel.m_exif m = Some x -> DemuxModel.get_chunk d DemuxModel.FCC_EXIF = Ok x) /\
      (forall x, MuxModel.m_xmp m = Some x -> DemuxModel.get_chunk d DemuxModel.FCC_XMP = Ok x).
Proof. exact WriterAnimMeta.anim_metadata_roundtrip. Qed.
Print Assumptions C15_anim_metadata_roundtrip.

(** Pinned Close (/repo before commit b34a072): one frame + EXIF, the still candidate
    replaces the file and the EXIF chunk is gone; the current Close keeps the file. *)
Theorem C15_anim_single_frame_drops_metadata :
  spec_get_chunk wit_anim_with_meta FourCCEXIF = Some wit_anim_exif /\
  let out := pinned_anim_close 1 true true wit_anim_with_meta (Some wit_anim_simple) in
  out = wit_anim_simple /\ spec_get_chunk out FourCCEXIF = None /\
  anim_close true 1 true true wit_anim_with_meta (Some wit_anim_simple) = wit_anim_with_meta.
Proof. exact anim_single_frame_drops_metadata. Qed.
Print Assumptions C15_anim_single_frame_drops_metadata.

(** Metadata independence of the pixel encoders, from the translator's field-use
    analysis of the root package (Gen/MetaUse.v, regenerated from /repo on every
    run): every function reachable in the package's call graph from
    encodeLossyWithAlpha / encodeLossless / encodeLosslessToWriter is a declared
    function, mentions none of EncoderOptions.ICC / EXIF / XMP and hands no
    EncoderOptions value to code the analysis cannot see; the only functions that
    mention the metadata are Encode, validateConfig and writeRIFF (the ones the
    models of this property cover). *)
Theorem C15_pixel_encoders_ignore_metadata : forall f,
  WriterMetaUse.Reach MetaUse.call_graph MetaUse.pixel_encoder_roots f ->
  In f (map fst MetaUse.call_graph) /\
  ~ In f (map fst MetaUse.meta_touch) /\ ~ In f (map fst MetaUse.meta_escape).
Proof. exact WriterMetaUse.pixel_encoders_ignore_metadata. Qed.
Print Assumptions C15_pixel_encoders_ignore_metadata.

Theorem C15_metadata_readers_are_modelled :
  map fst MetaUse.meta_touch = ["Encode"; "validateConfig"; "writeRIFF"]%string /\
  MetaUse.meta_fields = ["ICC"; "EXIF"; "XMP"]%string.
Proof. exact WriterMetaUse.metadata_readers_are_modelled. Qed.
Print Assumptions C15_metadata_readers_are_modelled.

