(** C02 — Every successful Encode emits a conformant, self-describing WebP file.
    Only statements, each closed by [exact <lemma>] and followed by
    [Print Assumptions].  This file holds the fixed-width header fields of the two
    bitstreams and the size guards, the well-formedness of the RIFF writer's output, and
    the three whole-file theorems (lossless, lossy, lossy with ALPH).  (Further RIFF writer
    theorems are in C15, the VP8L and VP8 stream theorems in C03/C04, the ALPH chunk
    theorems in C07.) *)
From Coq Require Import List ZArith.
From Webp Require Import Base.Res Base.Bytes Conform.ConformVp8Hdr.
From Webp Require Riff.RiffGrammar.
From Webp Require Import Riff.WriterModel Riff.WriterTheorems Riff.ParserGrammar.
From Webp Require Conform.ConformEndToEnd Conform.ConformEndToEndLossy.
From WebpGen Require Consts.
Open Scope Z_scope.

(** What emitFrame/assembleFrame writes is what an RFC 6386 reader gets back:
    key-frame bit, profile, show bit, the 19-bit partition-0 length, 14-bit
    dimensions with zero scale bits, partition 0 and every token partition byte
    for byte — for all dimensions, all partition contents, 1..N partitions. *)
Theorem C02_vp8_frame_fields_roundtrip : forall w h part0 parts bs,
  1 <= w < 16384 -> 1 <= h < 16384 -> parts <> nil ->
  emit_frame w h part0 parts = Ok bs ->
  parse_frame (length parts) bs = Ok (mk_hdr true 0 true (len part0) w 0 h 0, part0, parts).
Proof. exact emit_parse_roundtrip. Qed.
Print Assumptions C02_vp8_frame_fields_roundtrip.

(** Encode never reports success for a frame whose size fields cannot hold the
    sizes: the guard refuses exactly those. *)
Theorem C02_emit_frame_guard_exact : forall w h part0 parts,
  (exists bs, emit_frame w h part0 parts = Ok bs) <->
  (len part0 < 2^19 /\ sized_parts_ok parts = true).
Proof. exact emit_frame_guard_exact. Qed.
Print Assumptions C02_emit_frame_guard_exact.

Theorem C02_emit_frame_total : forall w h part0 parts, emit_frame w h part0 parts <> Panic.
Proof. exact emit_frame_total. Qed.
Print Assumptions C02_emit_frame_total.

(** The behaviour before the fix: commit ca1de97: a 2^19-byte partition 0 was
    written with a tag that declares length 0 (theorem about [pinned_emit_frame],
    which no run-time path uses). *)
Theorem C02_pinned_emit_truncates_part0_refuted : forall w h part0 parts bs,
  len part0 = 2^19 -> pinned_emit_frame w h part0 parts = Ok bs -> firstn 3 bs = (16 :: 0 :: 0 :: nil).
Proof. exact pinned_emit_truncates_part0. Qed.
Print Assumptions C02_pinned_emit_truncates_part0_refuted.

(** VP8L header: signature, 14-bit width-1 / height-1, alpha bit, version 0. *)
Theorem C02_vp8l_header_roundtrip : forall w h alpha tl,
  1 <= w <= 16384 -> 1 <= h <= 16384 ->
  ConformVp8Hdr.parse_vp8l_header (ConformVp8Hdr.vp8l_header w h alpha ++ tl) = Ok (w, h, alpha, 0).
Proof. exact vp8l_header_roundtrip. Qed.
Print Assumptions C02_vp8l_header_roundtrip.

(** The container writer of Encode (encode.go writeRIFF / writeRIFFSimple /
    writeRIFFExtended) only emits files that the independent RIFF/WebP grammar
    (written from the container specification) accepts: RIFF size, chunk sizes,
    padding, chunk order ICCP -> ALPH -> image -> EXIF -> XMP, VP8X flags = exactly
    the chunks present (incl. the VP8L alpha bit), canvas = bitstream dimensions —
    for every bitstream whose header declares the picture size, every ALPH payload
    and every metadata blob within the writer's own size guard. *)
Theorem C02_writer_output_wf : forall fourcc bs alpha w h icc exif xmp a,
  writer_inputs_ok fourcc bs alpha w h icc exif xmp a ->
  bytes_ok bs -> bytes_ok alpha -> bytes_ok icc -> bytes_ok exif -> bytes_ok xmp ->
  exists file, write_riff fourcc bs alpha w h icc exif xmp = Ok file /\ RiffGrammar.wf file = true.
Proof. exact writer_output_wf. Qed.
Print Assumptions C02_writer_output_wf.

(** Tie to the source: the limits the guard uses are the constants of the code. *)
Theorem C02_limits_match_source :
  WebpGen.Consts.lossy_VP8MaxPartition0Size = 2^19 /\ WebpGen.Consts.lossy_VP8MaxPartitionSize = 2^24 /\
  WebpGen.Consts.lossless_VP8LMagicByte = 47 /\ WebpGen.Consts.lossless_VP8LImageSizeBits = 14.
Proof. repeat split; reflexivity. Qed.
Print Assumptions C02_limits_match_source.

(** End to end, lossless: for every source picture, every option and every
    admissible set of choices of the lossless encoder (its heuristics are
    choices), and every ICC / EXIF / XMP within the writer's size guard, the
    written file is accepted by the independent container grammar, and the
    independent format models (chunk walk + VP8L specification decoder) read
    from it the source's dimensions, the alpha bit chosen, and exactly the
    pixels of the source (alpha-0 pixels cleaned unless Exact).  Statement:
    Conform.ConformEndToEnd.lossless_file_conformant_statement.  Hypotheses are
    satisfiable: C01's non-vacuity example gives valid choices. *)
Theorem C02_lossless_file_conformant : ConformEndToEnd.lossless_file_conformant_statement.
Proof. exact ConformEndToEnd.lossless_file_conformant. Qed.
Print Assumptions C02_lossless_file_conformant.

(** End to end, lossy: for every well-formed set of encoder choices (header,
    segments, filter parameters, modes, quantised levels), every ALPH payload the
    ALPH model decodes and every metadata blob within the size guard, the
    written file is accepted by the independent container grammar, and the
    independent format models (chunk walk, RFC 6386 header reader, VP8
    specification decoder, ALPH model) read from it the declared dimensions,
    alpha iff ALPH was given, the alpha plane, a first-partition length that
    lies within the data, and the picture the syntax denotes.  Statement:
    Conform.ConformEndToEndLossy.lossy_file_conformant_statement.  Hypotheses are
    satisfiable: C06_no_drift_nonvacuous gives a well-formed frame with bytes. *)
Theorem C02_lossy_file_conformant : ConformEndToEndLossy.lossy_file_conformant_statement.
Proof. exact ConformEndToEndLossy.lossy_file_conformant. Qed.
Print Assumptions C02_lossy_file_conformant.

(** The same with the ALPH chunk the encoder writes at AlphaQuality 100
    (lossless coding, any prediction filter, any well-formed plan of the lossless
    coder for the filtered plane): the analysed file reports exactly the alpha
    plane that was given. *)
Theorem C02_lossy_alpha_file_conformant : ConformEndToEndLossy.lossy_alpha_file_conformant_statement.
Proof. exact ConformEndToEndLossy.lossy_alpha_file_conformant. Qed.
Print Assumptions C02_lossy_alpha_file_conformant.
