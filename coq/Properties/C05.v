(** C05 — no input bytes can crash, hang or exhaust any decoding entry point.
    Theorems over the demuxer model (mux/demux.go + mux/chunk.go), the container
    parser model, the VP8L specification decoder's loops, the ALPH plane guards and
    the audited allocation sites; the lossy codec loops are covered by the
    malformed-stream run of the harness (a test). *)
From Coq Require Import List ZArith Lia.
From Webp Require Import Base.Res Base.Bytes Riff.DemuxModel Riff.DemuxTotal.
From Webp Require Riff.ParserModel Riff.ParserSafety Riff.MuxModel Riff.MuxRoundtrip Vp8l.Vp8lPrefix Vp8l.Vp8lSpec
     Vp8l.Vp8lCost Vp8l.Vp8lSymRange Riff.DemuxCodecCost Riff.DemuxAllocSites Alpha.AlphaModel.
From WebpGen Require Consts Allocs.
Import ListNotations.
Open Scope Z_scope.

(** With the patch work/patches/c05-demux-riff-size.diff: for every byte string
    NewDemuxer neither panics nor exhausts its fuel (each loop iteration consumes
    >= 8 bytes), and a successful result holds only sub-slices of the input
    (frame bitstreams, alpha payloads, metadata, chunk payloads), between 1 and
    maxFrames frames with non-negative offsets, and metadata <= maxMetadataSize. *)
Theorem C05_demux_total_and_well_formed : forall bs, bytes_ok bs ->
  match parse true bs with
  | Ok d => dwf bs d /\ 1 <= len (d_frames d)
  | Err e => e <> E_fuel
  | Panic => False
  end.
Proof. exact parse_spec. Qed.
Print Assumptions C05_demux_total_and_well_formed.

Theorem C05_demux_total : forall bs, bytes_ok bs -> parse true bs <> Panic.
Proof. exact demux_total. Qed.
Print Assumptions C05_demux_total.

Theorem C05_demux_fuel_sufficient : forall bs, bytes_ok bs -> parse true bs <> Err E_fuel.
Proof. exact demux_fuel_sufficient. Qed.
Print Assumptions C05_demux_fuel_sufficient.

(** The pinned code (no patch): [demux_total] is false. *)
Theorem C05_demux_panics_refuted :
  exists bs, bytes_ok bs /\ pinned_parse bs = Panic.
Proof. exists demux_witness. exact demux_panics_refuted. Qed.
Print Assumptions C05_demux_panics_refuted.

(** ... and the patch changes nothing else: wherever the pinned code does not
    panic it returns what the patched code returns. *)
Theorem C05_patch_is_conservative : forall bs, pinned_parse bs <> Panic -> pinned_parse bs = parse true bs.
Proof. exact parse_pinned_agrees. Qed.
Print Assumptions C05_patch_is_conservative.

Theorem C05_frame_total : forall d i, frame d i <> Panic.
Proof. exact frame_total. Qed.
Print Assumptions C05_frame_total.

Theorem C05_frame_ok_iff_in_range : forall d i, (exists fi, frame d i = Ok fi) <-> 0 <= i < len (d_frames d).
Proof. exact frame_ok_iff. Qed.
Print Assumptions C05_frame_ok_iff_in_range.

Theorem C05_get_chunk_total : forall d id, get_chunk d id <> Panic.
Proof. exact get_chunk_total. Qed.
Print Assumptions C05_get_chunk_total.

Theorem C05_get_chunk_in_bounds : forall top d id x, dwf top d -> get_chunk d id = Ok x -> infix x top.
Proof. exact get_chunk_in_bounds. Qed.
Print Assumptions C05_get_chunk_in_bounds.

(** The limits the model uses are the constants of the current source. *)
Theorem C05_limits_match_source :
  WebpGen.Consts.mux_maxFrames = maxFrames /\ WebpGen.Consts.mux_maxMetadataSize = maxMetadataSize /\
  WebpGen.Consts.container_MaxChunkPayload = MaxChunkPayload /\ WebpGen.Consts.container_MaxImageArea = MaxImageArea /\
  WebpGen.Consts.container_ChunkHeaderSize = ChunkHeaderSize /\ WebpGen.Consts.container_RIFFHeaderSize = RIFFHeaderSize /\
  WebpGen.Consts.container_ANMFChunkSize = ANMFChunkSize /\ WebpGen.Consts.container_ANIMChunkSize = ANIMChunkSize /\
  WebpGen.Consts.container_VP8XChunkSize = VP8XChunkSize /\
  WebpGen.Consts.mux_FourCCRIFF = FCC_RIFF /\ WebpGen.Consts.mux_FourCCWEBP = FCC_WEBP /\
  WebpGen.Consts.mux_FourCCVP8 = FCC_VP8 /\ WebpGen.Consts.mux_FourCCVP8L = FCC_VP8L /\
  WebpGen.Consts.mux_FourCCVP8X = FCC_VP8X /\ WebpGen.Consts.mux_FourCCALPH = FCC_ALPH /\
  WebpGen.Consts.mux_FourCCANIM = FCC_ANIM /\ WebpGen.Consts.mux_FourCCANMF = FCC_ANMF /\
  WebpGen.Consts.mux_FourCCICCP = FCC_ICCP /\ WebpGen.Consts.mux_FourCCEXIF = FCC_EXIF /\
  WebpGen.Consts.mux_FourCCXMP = FCC_XMP.
Proof. repeat split; reflexivity. Qed.
Print Assumptions C05_limits_match_source.

(** The OTHER container parser (internal/container/parser.go, the entry point of
    webp.Decode / DecodeConfig / GetFeatures / image.Decode), modelled in
    Riff/ParserModel: on every byte string it returns a value or an error class —
    no slice / index expression is out of range and its chunk loops terminate
    within their fuel. *)
Theorem C05_parser_total : forall fx data, bytes_ok data ->
  ParserModel.parse_ex fx data <> Panic /\ ParserModel.parse_ex fx data <> Err ParserModel.EOutOfFuel.
Proof. exact ParserSafety.parse_ex_safe. Qed.
Print Assumptions C05_parser_total.

(** The MaxChunkPayload guard of ReadChunkHeader excludes every size for which the
    uint32 chunk-size arithmetic (chunkTotalSize) would wrap; at the boundary:
    0xFFFFFFF6 admitted, 0xFFFFFFF7 refused (its uint32 total would be 0). *)
Theorem C05_chunk_size_guard_excludes_uint32_wrap : forall d id sz, bytes_ok d ->
  read_chunk_header d = Ok (id, sz) ->
  MuxModel.chunk_total sz = 8 + sz + sz mod 2 /\ 8 + sz + sz mod 2 < 4294967296 /\ 0 <= sz.
Proof. exact MuxRoundtrip.chunk_guard_no_u32_wrap. Qed.
Print Assumptions C05_chunk_size_guard_excludes_uint32_wrap.

Theorem C05_chunk_size_guard_boundary :
  read_chunk_header ([65;66;67;68] ++ le32 4294967286) = Ok (1145258561, 4294967286) /\
  read_chunk_header ([65;66;67;68] ++ le32 4294967287) = Err E_big /\
  MuxModel.chunk_total 4294967287 = 0.
Proof. exact MuxRoundtrip.chunk_guard_boundary. Qed.
Print Assumptions C05_chunk_size_guard_boundary.

(** ---- codec layer: resource bounds of the VP8L specification decoder (Vp8l/Vp8lCost),
    for EVERY input ---- *)

(** The whole VP8L stream: no run ends out of fuel (every loop terminates within fuel that
    is 1 + the declared pixel count, resp. 1 + the alphabet size), the model never panics,
    and accepted dimensions are at most 2^14 x 2^14 = 2^28 pixels (< MaxImageArea). *)
Theorem C05_vp8l_decode_cost : forall bytes,
  match Vp8lSpec.decode bytes with
  | Ok img => Vp8lCost.dims_ok (Vp8lSpec.i_w img) (Vp8lSpec.i_h img)
  | Err e => e <> Vp8lPrefix.E_FUEL
  | Panic => False
  end.
Proof. exact Vp8lCost.decode_cost. Qed.
Print Assumptions C05_vp8l_decode_cost.

(** One entropy-coded image of declared size w x h (main image, transform data, colour
    table, meta prefix image), for any context and any bit stream: with fuel 1 + w*h the
    token loop always stops by itself (at most one iteration per pixel), reads only input
    bits, takes backward references only inside what it has produced, and yields exactly
    w*h pixels — never more. *)
Theorem C05_vp8l_pixels_cost : forall c w h s,
  match Vp8lSpec.decode_pixels c w h s with
  | Ok (px, s') => length px = Z.to_nat (w * h) /\ (length s' <= length s)%nat
  | Err e => e <> Vp8lPrefix.E_FUEL
  | Panic => False
  end.
Proof. exact Vp8lCost.decode_pixels_cost. Qed.
Print Assumptions C05_vp8l_pixels_cost.

Theorem C05_vp8l_sub_image_cost : forall w h s,
  match Vp8lSpec.decode_sub_image w h s with
  | Ok (px, s') => length px = Z.to_nat (w * h) /\ (length s' <= length s)%nat
  | Err e => e <> Vp8lPrefix.E_FUEL
  | Panic => False
  end.
Proof. exact Vp8lCost.decode_sub_image_cost. Qed.
Print Assumptions C05_vp8l_sub_image_cost.

(** The code-length loop: fuel 1 + (symbols still to assign) always suffices. *)
Theorem C05_vp8l_code_lengths_cost : forall fuel clt ntok nsym prev acc s,
  (Z.to_nat nsym < fuel)%nat ->
  Vp8lCost.shrinks s (Vp8lPrefix.read_lens_loop fuel clt ntok nsym prev acc s).
Proof. exact Vp8lCost.read_lens_loop_shrinks. Qed.
Print Assumptions C05_vp8l_code_lengths_cost.

(** ALPH plane decoder model: dimension guards before anything is built. *)
Theorem C05_alpha_decode_guards : forall (ldec : Z -> Z -> list Z -> option (list Z)) data w h,
  match AlphaModel.decode ldec data w h with
  | Ok _ =>
    1 <= w /\ 1 <= h /\ w * h <= 2^30 /\
    (forall hd payload, data = hd :: payload -> hd mod 4 = 0 -> w * h <= Z.of_nat (length payload))
  | Err _ => True
  | Panic => False
  end.
Proof. exact DemuxCodecCost.alpha_decode_guards. Qed.
Print Assumptions C05_alpha_decode_guards.

(** Allocation sites of the Go decoding paths: the list regenerated from the current source
    is exactly the audited list, and every audited site has a bound class. *)
Theorem C05_alloc_sites_audited :
  map fst DemuxAllocSites.audited_alloc_sites = Allocs.alloc_sites /\
  forallb (fun e => existsb (String.eqb (fst (snd e))) DemuxAllocSites.bound_classes)
          DemuxAllocSites.audited_alloc_sites = true.
Proof. split; [reflexivity|exact DemuxAllocSites.audited_classes_ok]. Qed.
Print Assumptions C05_alloc_sites_audited.

(** The guard behind every table lookup that follows a ReadSymbol (colour-cache index,
    length / distance prefix, code-length code): for every code-length vector the decoder
    accepts and every bit stream, the decoded symbol is an index of the vector, i.e.
    0 <= symbol < alphabet size.  (The statement is about the canonical code; the Go
    two-level lookup tables are modelled in Vp8l/Vp8lLut and shown to decode like it in
    Vp8l/Vp8lLut2, [lut_decode_eq_canonical].) *)
Theorem C05_vp8l_symbol_in_alphabet_partial : forall lens t s v s',
  Vp8lPrefix.tree_of_lens lens = Ok t -> Vp8lPrefix.read_symbol t s = Ok (v, s') ->
  0 <= v < Z.of_nat (length lens).
Proof. exact Vp8lSymRange.symbol_in_alphabet. Qed.
Print Assumptions C05_vp8l_symbol_in_alphabet_partial.
