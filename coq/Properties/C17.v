(** C17 — Decoding a truncated file is all-or-nothing.  Only statements, each closed by
    [exact <lemma>] and followed by [Print Assumptions]: the container and glue layer (the
    pixel codecs are parameters of the glue model), then the codec layers (specification
    decoders, the Go boolean reader's end-of-input flag).  The Go codecs as a whole are
    evaluated on every prefix of every generated file by harness/c17. *)
From Coq Require Import List ZArith.
From Webp Require Import Base.Res Base.Bytes Riff.ParserModel Riff.FeaturesModel Riff.PrefixProofs Riff.ParserSafety.
From Webp Require Vp8l.Vp8lSpec Riff.PrefixVp8l Alpha.AlphaModel Alpha.AlphaProofs.
From Webp Require Vp8.Vp8Bool Vp8.Vp8Spec Riff.PrefixVp8Bool Riff.PrefixVp8Frame.
From Webp Require Vp8.Vp8BoolAbs Vp8.Vp8GoReader Riff.PrefixBitio.
From WebpGen Require Consts.
Import ListNotations.
Open Scope Z_scope.

(** Repaired parser: for every byte string parsed as a still (a top-level image
    chunk was found) and every proper prefix, the parser fails or returns the
    identical result: same features, one frame with the same payload and alpha
    bytes. *)
Theorem C17_prefix_all_or_nothing : forall bs p r,
  parse_ex true bs = Ok (r, KStill) -> proper_prefix p bs ->
  (exists e, parse_ex true p = Err e) \/ parse_ex true p = Ok (r, KStill).
Proof. exact prefix_all_or_nothing. Qed.
Print Assumptions C17_prefix_all_or_nothing.

(** Both variants: the only way a prefix of an accepted still can be accepted
    with a different result is the pinned parser's "chunk list ended before the
    image chunk" success with an empty frame list. *)
Theorem C17_prefix_classified : forall fx bs p r,
  parse_ex fx bs = Ok (r, KStill) -> proper_prefix p bs ->
  (exists e, parse_ex fx p = Err e) \/ parse_ex fx p = Ok (r, KStill) \/
  (fx = false /\ exists r', parse_ex fx p = Ok (r', KList) /\ pFrames r' = [] /\
                           fHasAnim (pFeat r') = false).
Proof. exact prefix_classified. Qed.
Print Assumptions C17_prefix_classified.

Theorem C17_get_features_prefix : forall bs p r,
  parse_ex true bs = Ok (r, KStill) -> proper_prefix p bs ->
  (exists e, get_features true p = Err e) \/ get_features true p = get_features true bs.
Proof. exact get_features_prefix. Qed.
Print Assumptions C17_get_features_prefix.

Theorem C17_decode_config_prefix : forall fa bs p r,
  parse_ex true bs = Ok (r, KStill) -> proper_prefix p bs ->
  (exists e, decode_config fa true p = Err e) \/ decode_config fa true p = decode_config fa true bs.
Proof. exact decode_config_prefix. Qed.
Print Assumptions C17_decode_config_prefix.

(** Decode, for every choice of the three codecs: the prefix is rejected or the
    codecs receive identical bytes and the same image results. *)
Theorem C17_decode_prefix : forall (Pix : Type) (lossy_dec lossless_dec : list Z -> Res (Z * Z * Pix))
    (alpha_dec : list Z -> Z -> Z -> Res Pix) bs p r img,
  parse_ex true bs = Ok (r, KStill) -> proper_prefix p bs ->
  decode_bytes lossy_dec lossless_dec alpha_dec true bs = Ok img ->
  (exists e, decode_bytes lossy_dec lossless_dec alpha_dec true p = Err e) \/
  decode_bytes lossy_dec lossless_dec alpha_dec true p = Ok img.
Proof. exact decode_prefix. Qed.
Print Assumptions C17_decode_prefix.

(** On every byte string (hence on every prefix of every file) the parser model
    returns a value or an error class: no slice / index expression of parser.go is
    ever out of range, and the chunk loops terminate within their fuel. *)
Theorem C17_parser_total : forall fx data, bytes_ok data ->
  parse_ex fx data <> Panic /\ parse_ex fx data <> Err EOutOfFuel.
Proof. exact parse_ex_safe. Qed.
Print Assumptions C17_parser_total.

(** Codec layer, VP8L (specification decoder Vp8l.Vp8lSpec.decode, tied to
    internal/lossless by C03's differential execution): a byte string that decodes
    still decodes, to the same image, when bytes are appended.  Hence a proper
    prefix of a VP8L stream is rejected or yields exactly the picture of the
    complete stream (the second statement leaves a third outcome, Panic, open: the
    specification decoder has no totality theorem). *)
Theorem C17_vp8l_decode_monotone : forall d ext img,
  Vp8lSpec.decode d = Ok img -> Vp8lSpec.decode (d ++ ext) = Ok img.
Proof. exact PrefixVp8l.vp8l_decode_monotone. Qed.
Print Assumptions C17_vp8l_decode_monotone.

Theorem C17_vp8l_prefix_all_or_nothing : forall full p ext img,
  full = p ++ ext -> Vp8lSpec.decode full = Ok img ->
  (exists e, Vp8lSpec.decode p = Err e) \/ Vp8lSpec.decode p = Ok img \/ Vp8lSpec.decode p = Panic.
Proof. exact PrefixVp8l.vp8l_prefix_all_or_nothing. Qed.
Print Assumptions C17_vp8l_prefix_all_or_nothing.

(** Codec layer, ALPH with a raw payload (model Alpha.AlphaModel.decode, C07 area):
    fewer than w*h bytes => error; w*h bytes or more => the same plane whatever
    follows. *)
Theorem C17_alph_raw_truncated : forall (ldec : Z -> Z -> list Z -> option (list Z)) hd payload w h,
  hd mod 4 = 0 -> 1 <= w -> 1 <= h -> w * h <= 2^30 -> Z.of_nat (length payload) < w * h ->
  exists e, AlphaModel.decode ldec (hd :: payload) w h = Err e.
Proof. exact AlphaProofs.decode_raw_truncated. Qed.
Print Assumptions C17_alph_raw_truncated.

Theorem C17_alph_raw_monotone : forall (ldec : Z -> Z -> list Z -> option (list Z)) hd payload ext w h plane,
  hd mod 4 = 0 ->
  AlphaModel.decode ldec (hd :: payload) w h = Ok plane ->
  AlphaModel.decode ldec (hd :: payload ++ ext) w h = Ok plane.
Proof. exact PrefixVp8l.alph_raw_monotone. Qed.
Print Assumptions C17_alph_raw_monotone.

(** ALPH with any payload kind, for every lossless coder that is itself
    prefix-monotone (the VP8L specification decoder is, by the theorem above). *)
Theorem C17_alph_monotone : forall (ldec : Z -> Z -> list Z -> option (list Z)),
  (forall w h p ext g, ldec w h p = Some g -> ldec w h (p ++ ext) = Some g) ->
  forall hd payload ext w h plane,
    AlphaModel.decode ldec (hd :: payload) w h = Ok plane ->
    AlphaModel.decode ldec (hd :: payload ++ ext) w h = Ok plane.
Proof. exact PrefixVp8l.alph_monotone. Qed.
Print Assumptions C17_alph_monotone.

(** Codec layer, VP8 (lossy): the boolean entropy decoder of RFC 6386
    (Vp8.Vp8Bool, the specification decoder).  It is NOT
    prefix-monotone by itself -- beyond the data it reads zero bytes -- but every
    literal / tree symbol decoded without raising the past-end flag is decoded
    identically when arbitrary bytes are appended, with the flag still clear. *)
Theorem C17_vp8_bool_literal_prefix_stable : forall l ext k v d1,
  bytes_ok l -> bytes_ok ext ->
  Vp8Bool.read_lit k (Vp8Bool.bd_init l) = (v, d1) -> Vp8Bool.bd_past d1 = false ->
  exists d1', Vp8Bool.read_lit k (Vp8Bool.bd_init (l ++ ext)) = (v, d1') /\ Vp8Bool.bd_past d1' = false.
Proof. exact PrefixVp8Frame.bool_literal_prefix_stable. Qed.
Print Assumptions C17_vp8_bool_literal_prefix_stable.

Theorem C17_vp8_bool_tree_prefix_stable :
  forall (A : Type) (t : Vp8Bool.tree A) probs l ext a d1,
  bytes_ok l -> bytes_ok ext -> Forall (fun p => 0 <= p <= 255) probs ->
  Vp8Bool.read_tree t probs (Vp8Bool.bd_init l) = (a, d1) -> Vp8Bool.bd_past d1 = false ->
  exists d1', Vp8Bool.read_tree t probs (Vp8Bool.bd_init (l ++ ext)) = (a, d1') /\ Vp8Bool.bd_past d1' = false.
Proof. exact PrefixVp8Frame.bool_tree_prefix_stable. Qed.
Print Assumptions C17_vp8_bool_tree_prefix_stable.

(** Codec layer, VP8 (lossy), whole key frame (Vp8.Vp8Spec, the
    specification decoder: frame tag, first-partition header, partition table,
    per-macroblock mode / token parsing, reconstruction, loop filter).
    Vp8Spec.decode_yuv turns a past-end read in any partition into E_TRUNC, and
    appending bytes to a frame only extends its last token partition; so a byte
    string that decodes still decodes, to the same planes, when bytes are
    appended, and a prefix of a frame is rejected or decodes to the picture of the
    complete frame.  The same holds for the variant of the specification with the
    Go decoder's documented deviations (decode_go), given that no partition was
    read past its end. *)
Theorem C17_vp8_frame_prefix_monotone : forall d ext r,
  bytes_ok d -> bytes_ok ext ->
  Vp8Spec.decode_yuv d = Ok r -> Vp8Spec.decode_yuv (d ++ ext) = Ok r.
Proof. exact PrefixVp8Frame.vp8_frame_prefix_monotone. Qed.
Print Assumptions C17_vp8_frame_prefix_monotone.

Theorem C17_vp8_prefix_all_or_nothing : forall file n r,
  bytes_ok file -> Vp8Spec.decode_yuv (firstn n file) = Ok r -> Vp8Spec.decode_yuv file = Ok r.
Proof. exact PrefixVp8Frame.vp8_prefix_all_or_nothing. Qed.
Print Assumptions C17_vp8_prefix_all_or_nothing.

Theorem C17_vp8_decode_go_prefix : forall d ext r,
  bytes_ok d -> bytes_ok ext ->
  Vp8Spec.decode_go d = Ok r -> Vp8Spec.dc_past_end r = false -> Vp8Spec.decode_go (d ++ ext) = Ok r.
Proof. exact PrefixVp8Frame.vp8_decode_go_prefix. Qed.
Print Assumptions C17_vp8_decode_go_prefix.

Theorem C17_vp8_bool_past_end_differs :
  exists l ext k,
    fst (Vp8Bool.read_lit k (Vp8Bool.bd_init l)) <> fst (Vp8Bool.read_lit k (Vp8Bool.bd_init (l ++ ext))) /\
    Vp8Bool.bd_past (snd (Vp8Bool.read_lit k (Vp8Bool.bd_init l))) = true.
Proof. exact PrefixVp8Bool.bool_past_end_differs. Qed.
Print Assumptions C17_vp8_bool_past_end_differs.

(** Codec layer, the Go reader itself: internal/bitio.BoolReader as modelled in
    Vp8.Vp8GoReader (64-bit value register, 7-byte bulk loads, single-byte
    loads near the end, [gr_eof] = the flag behind BoolReader.EOF(), which
    lossy.Decoder checks after the headers and after every macroblock).  GetBit sets
    the flag exactly when it needs a byte and none is left and never clears it; and
    for every decoding strategy (the probabilities may depend on the bits read so
    far): if NewBoolReader(l) followed by the reads ends with EOF() == false, then
    NewBoolReader(l ++ ext) followed by the same reads returns the same bits with
    EOF() == false.  Hypothesis on the data: non-empty, first byte not 0xFF (the
    arithmetic decoder's invariant value < range, which every encoder output has).
    Without the flag the reader is not prefix-stable (witness). *)
Theorem C17_go_bool_reader_eof_flag : forall p g,
  Vp8GoReader.gr_eof (snd (Vp8GoReader.gr_bit p g)) =
  (Vp8GoReader.gr_eof g || ((Vp8GoReader.gr_bits g <? 0) && PrefixBitio.is_nil (Vp8GoReader.gr_rest g)))%bool.
Proof. exact PrefixBitio.gr_bit_eof. Qed.
Print Assumptions C17_go_bool_reader_eof_flag.

Theorem C17_go_bool_reader_prefix_stable : forall pr l ext bs g1,
  Forall Vp8BoolAbs.is_byte l -> Forall Vp8BoolAbs.is_byte ext -> l <> [] ->
  Vp8BoolAbs.bval l < 255 * 2 ^ (8 * (Z.of_nat (length l) - 1)) -> PrefixBitio.prog_ok pr ->
  PrefixBitio.run pr (PrefixBitio.gr_new l) = (bs, g1) -> Vp8GoReader.gr_eof g1 = false ->
  exists g1', PrefixBitio.run pr (PrefixBitio.gr_new (l ++ ext)) = (bs, g1') /\ Vp8GoReader.gr_eof g1' = false.
Proof. exact PrefixBitio.go_bool_reader_prefix_stable. Qed.
Print Assumptions C17_go_bool_reader_prefix_stable.

Theorem C17_go_bool_reader_past_end_differs :
  fst (PrefixBitio.run (PrefixBitio.lit 12) (PrefixBitio.gr_new [0])) <>
  fst (PrefixBitio.run (PrefixBitio.lit 12) (PrefixBitio.gr_new [0; 255])) /\
  Vp8GoReader.gr_eof (snd (PrefixBitio.run (PrefixBitio.lit 12) (PrefixBitio.gr_new [0]))) = true.
Proof. exact PrefixBitio.go_bool_reader_past_end_differs. Qed.
Print Assumptions C17_go_bool_reader_past_end_differs.

(** Pinned tree (parser before commit 86109c7, [pinned_*] definitions): the
    statement is false (finding, repaired). *)
Theorem C17_features_prefix_refuted :
  exists bs p r g g',
    pinned_parse_ex bs = Ok (r, KStill) /\ proper_prefix p bs /\
    pinned_get_features bs = Ok g /\ pinned_get_features p = Ok g' /\
    gFrames g = 1 /\ gFrames g' = 0.
Proof. exact features_prefix_refuted. Qed.
Print Assumptions C17_features_prefix_refuted.

Theorem C17_config_prefix_refuted :
  exists bs p r c c',
    pinned_parse_ex bs = Ok (r, KStill) /\ proper_prefix p bs /\
    pinned_decode_config bs = Ok c /\ pinned_decode_config p = Ok c' /\
    cModel c = CM_NRGBA /\ cModel c' = CM_YCbCr.
Proof. exact config_prefix_refuted. Qed.
Print Assumptions C17_config_prefix_refuted.

(** Tie to the source: every constant of the parser model equals the value the
    translator reads from internal/container (regenerated on every run); the last two are
    VP8Signature, which the model tests as a literal, and AllValidFlags, whose 32-bit
    complement 4294967233 it uses as the mask. *)
Theorem C17_consts_match_source :
  [FourCCRIFF; FourCCWEBP; FourCCVP8; FourCCVP8L; FourCCVP8X; FourCCALPH; FourCCANIM; FourCCANMF;
   FourCCICCP; FourCCEXIF; FourCCXMP; ChunkHeaderSize; RIFFHeaderSize; VP8XChunkSize; ANIMChunkSize;
   ANMFChunkSize; VP8FrameHeaderSize; VP8LFrameHeaderSize; VP8LMagicByte; MaxChunkPayload;
   MaxImageArea; MaxFrames; MaxChunks; MaxMetadataSize; 10289450; 62] =
  [Consts.container_FourCCRIFF; Consts.container_FourCCWEBP; Consts.container_FourCCVP8;
   Consts.container_FourCCVP8L; Consts.container_FourCCVP8X; Consts.container_FourCCALPH;
   Consts.container_FourCCANIM; Consts.container_FourCCANMF; Consts.container_FourCCICCP;
   Consts.container_FourCCEXIF; Consts.container_FourCCXMP; Consts.container_ChunkHeaderSize;
   Consts.container_RIFFHeaderSize; Consts.container_VP8XChunkSize; Consts.container_ANIMChunkSize;
   Consts.container_ANMFChunkSize; Consts.container_VP8FrameHeaderSize;
   Consts.container_VP8LFrameHeaderSize; Consts.container_VP8LMagicByte;
   Consts.container_MaxChunkPayload; Consts.container_MaxImageArea; Consts.container_MaxFrames;
   Consts.container_MaxChunks; Consts.container_MaxMetadataSize; Consts.container_VP8Signature;
   Consts.container_AllValidFlags].
Proof. reflexivity. Qed.
Print Assumptions C17_consts_match_source.
