(** C13 — results do not depend on CPU-specific code paths or architecture.
    Only statements, each closed by [exact <lemma>] and followed by
    [Print Assumptions].

    (1) Every constant the compiler must represent as int/uint fits 32 bits
    (complete check of the list taken from the source); (2) the 16-bit-lane
    algorithms of the SSE2/AVX2 routines equal the portable Go kernels on the
    stated ranges, and where a valid bitstream can leave the range the
    difference is exhibited ([_refuted]); (3) for six routines the lane model is
    derived from the instruction list itself (Arch/ArchAsm.v), the other bodies
    are pinned by digest.
    Not theorems (harness): portable vs dispatched kernels, the two builds'
    pipeline digests, and `go build` per GOOS/GOARCH. *)
From Coq Require Import List ZArith String.
From Webp Require Import Base.Res Arch.ArchIntWidth Arch.ArchIntWidthProofs Arch.ArchLane16 Arch.ArchLane16Proofs.
From Webp Require Import Arch.ArchLane16Tables Arch.ArchEncRange Arch.ArchLane16More Arch.ArchInt32 Arch.ArchLaneCalls.
From Webp Require Import Arch.ArchAsm Arch.ArchAsmPinned.
From WebpGen Require IntWidth Tables Consts LaneCalls AsmAmd64.
Import ListNotations.
Open Scope Z_scope.

(** ** Int-width independence *)

(** Every constant expression of type int in the files a 32-bit target compiles
    is representable in a 32-bit int (what the compiler checks for GOARCH=386,
    arm, mips, wasm; derived independently from the typed syntax tree). *)
Theorem C13_int_constants_fit_32bit : forall file l line col v,
  In (file, l) IntWidth.int_constants -> In (line, col, v) l -> -2^31 <= v < 2^31.
Proof. exact int_constants_fit_32bit. Qed.
Print Assumptions C13_int_constants_fit_32bit.

Theorem C13_uint_constants_fit_32bit : forall file l line col v,
  In (file, l) IntWidth.uint_constants -> In (line, col, v) l -> 0 <= v < 2^32.
Proof. exact uint_constants_fit_32bit. Qed.
Print Assumptions C13_uint_constants_fit_32bit.

(** Same obligations in the form whose failure names the offending positions. *)
Theorem C13_no_int_constant_out_of_range : out_of_range fits_int32 IntWidth.int_constants = [].
Proof. exact no_int_constant_out_of_range. Qed.
Print Assumptions C13_no_int_constant_out_of_range.

Theorem C13_no_uint_constant_out_of_range : out_of_range fits_uint32 IntWidth.uint_constants = [].
Proof. exact no_uint_constant_out_of_range. Qed.
Print Assumptions C13_no_uint_constant_out_of_range.

Theorem C13_int_constant_list_is_complete :
  count_consts IntWidth.int_constants = IntWidth.int_constants_count /\
  count_consts IntWidth.uint_constants = IntWidth.uint_constants_count /\
  1000 <= IntWidth.int_constants_count /\ 10 <= IntWidth.uint_constants_count.
Proof. exact int_constant_list_is_complete. Qed.
Print Assumptions C13_int_constant_list_is_complete.

(** ** Lane-16 algorithms vs portable kernels *)

(** IDCT: equal whenever no lane feeding PMULHW / PSRAW wraps. *)
Theorem C13_lane16_idct_eq_fits : forall coeffs pred c p,
  blk16 coeffs = Ok c -> blk16 pred = Ok p ->
  forallM int16 c -> forallM byte p -> idct_fits16 c ->
  lane16_idct coeffs pred = transform_one coeffs pred.
Proof. exact lane16_idct_eq_fits. Qed.
Print Assumptions C13_lane16_idct_eq_fits.

(** In particular on the whole coefficient box |c| <= 2212. *)
Theorem C13_lane16_idct_eq : forall coeffs pred,
  in_range coeffs -> Forall byte pred ->
  lane16_idct coeffs pred = transform_one coeffs pred.
Proof. exact lane16_idct_eq. Qed.
Print Assumptions C13_lane16_idct_eq.

Theorem C13_idct_box_maximal :
  Forall (fun c => - (kIdctBox + 1) <= c <= kIdctBox + 1) idct_block_2213 /\
  lane16_idct idct_block_2213 (repeat 128 16) <> transform_one idct_block_2213 (repeat 128 16).
Proof. exact idct_box_maximal. Qed.
Print Assumptions C13_idct_box_maximal.

(** A valid bitstream can deliver any int16(level * dq): the full statement
    "for every int16 coefficient block" is false. *)
Theorem C13_lane16_idct_differs_refuted : exists coeffs pred,
  List.length coeffs = 16%nat /\ Forall int16 coeffs /\ Forall byte pred /\
  lane16_idct coeffs pred <> transform_one coeffs pred.
Proof. exact lane16_idct_differs_refuted. Qed.
Print Assumptions C13_lane16_idct_differs_refuted.

Theorem C13_lane16_wht_eq : forall coeffs,
  in_range_wht coeffs -> lane16_wht coeffs = transform_wht coeffs.
Proof. exact lane16_wht_eq. Qed.
Print Assumptions C13_lane16_wht_eq.

Theorem C13_lane16_wht_differs_refuted : exists coeffs,
  List.length coeffs = 16%nat /\ Forall (fun c => - (kWhtBox + 1) <= c <= kWhtBox + 1) coeffs /\
  lane16_wht coeffs = Ok [-4096; 0; 0; 0; 0; 0; 0; 0; 0; 0; 0; 0; 0; 0; 0; 0] /\
  transform_wht coeffs = Ok [4096; 0; 0; 0; 0; 0; 0; 0; 0; 0; 0; 0; 0; 0; 0; 0].
Proof. exact lane16_wht_differs_refuted. Qed.
Print Assumptions C13_lane16_wht_differs_refuted.

Theorem C13_lane16_fwht_eq : forall coeffs,
  in_range_fwht coeffs -> lane16_fwht coeffs = ftransform_wht coeffs.
Proof. exact lane16_fwht_eq. Qed.
Print Assumptions C13_lane16_fwht_eq.

Theorem C13_lane16_fwht_differs_refuted : exists coeffs,
  List.length coeffs = 16%nat /\ Forall (fun c => - (kFwhtBox + 1) <= c <= kFwhtBox + 1) coeffs /\
  lane16_fwht coeffs = Ok [-16384; 0; 0; 0; 0; 0; 0; 0; 0; 0; 0; 0; 0; 0; 0; 0] /\
  ftransform_wht coeffs = Ok [16384; 0; 0; 0; 0; 0; 0; 0; 0; 0; 0; 0; 0; 0; 0; 0].
Proof. exact lane16_fwht_differs_refuted. Qed.
Print Assumptions C13_lane16_fwht_differs_refuted.

(** TrueMotion predictor, green transforms, SSE, simple loop filter: byte
    inputs cannot wrap the lanes — equal on all inputs. *)
Theorem C13_lane16_tm_eq : forall top left tl, byte top -> byte left -> byte tl ->
  l_tm_sample top left tl = tm_sample top left tl.
Proof. exact lane16_tm_eq. Qed.
Print Assumptions C13_lane16_tm_eq.

Theorem C13_lane16_add_green_eq : forall a r g b, byte a -> byte r -> byte g -> byte b ->
  add_green_lanes a r g b = add_green_go (argb_of a r g b).
Proof. exact lane16_add_green_eq. Qed.
Print Assumptions C13_lane16_add_green_eq.

Theorem C13_lane16_sub_green_eq : forall a r g b, byte a -> byte r -> byte g -> byte b ->
  sub_green_lanes a r g b = sub_green_go (argb_of a r g b).
Proof. exact lane16_sub_green_eq. Qed.
Print Assumptions C13_lane16_sub_green_eq.

Theorem C13_lane16_sse_eq : forall a b, Forall byte a -> Forall byte b -> (List.length a <= 1024)%nat ->
  l_sse_list a b = sse_list a b.
Proof. exact lane16_sse_eq. Qed.
Print Assumptions C13_lane16_sse_eq.

Theorem C13_lane16_simple_filter_eq : forall p1 p0 q0 q1 thresh,
  byte p1 -> byte p0 -> byte q0 -> byte q1 -> 0 <= thresh <= 32767 ->
  simple_filter_lane p1 p0 q0 q1 thresh = simple_filter_go p1 p0 q0 q1 thresh.
Proof. exact lane16_simple_filter_eq. Qed.
Print Assumptions C13_lane16_simple_filter_eq.

(** Forward DCT: the 32-bit-lane algorithm (PMADDWD on saturating-packed
    operands, saturating final pack) equals the portable one on all byte input. *)
Theorem C13_lane32_fdct_eq : forall src ref, Forall byte src -> Forall byte ref ->
  lane32_fdct src ref = ftransform src ref.
Proof. exact lane32_fdct_eq. Qed.
Print Assumptions C13_lane32_fdct_eq.

(** Encoder-side reachability: every forward-DCT coefficient is within +-2040,
    so the forward WHT (fed with sixteen DCT DCs) stays inside its no-wrap range. *)
Theorem C13_lane16_fwht_eq_on_encoder_input : forall dcs,
  Forall (fun dc => exists src ref s r, blk16 src = Ok s /\ blk16 ref = Ok r /\ Forall byte src /\ Forall byte ref /\
                    dc = nth 0 (listM (fdct_core (map2M Z.sub s r))) 0) dcs ->
  lane16_fwht dcs = ftransform_wht dcs.
Proof. exact lane16_fwht_eq_on_encoder_input. Qed.
Print Assumptions C13_lane16_fwht_eq_on_encoder_input.

(** YUV -> RGB of the fancy upsampler: PMADDWD / PSRAD / saturating packs (with
    16525 >> 7 for the coefficient 33050 that does not fit a 16-bit lane) equal
    YUVToRGB for all byte triples. *)
Theorem C13_lane32_yuv_eq : forall y u v, byte y -> byte u -> byte v ->
  l_yuv_r y v = yuv_r y v /\ l_yuv_g y u v = yuv_g y u v /\ l_yuv_b y u = yuv_b y u.
Proof. exact lane32_yuv_eq. Qed.
Print Assumptions C13_lane32_yuv_eq.

(** Hadamard-domain distortion with the weights of the source. *)
Theorem C13_lane16_tdisto_eq : forall a b, Forall byte a -> Forall byte b ->
  l_tdisto WebpGen.Tables.dsp_kWeightY a b = tdisto WebpGen.Tables.dsp_kWeightY a b.
Proof. exact lane16_tdisto_eq_src. Qed.
Print Assumptions C13_lane16_tdisto_eq.

(** Tie to the source: the constants of transforms.go are the models' constants. *)
Theorem C13_idct_constants_match :
  WebpGen.Consts.dsp_c1 = kC1 /\ WebpGen.Consts.dsp_c2 = kC2 /\ WebpGen.Consts.dsp_BPS = 32.
Proof. exact idct_constants_match. Qed.
Print Assumptions C13_idct_constants_match.

Theorem C13_yuv_constants_match :
  WebpGen.Consts.dsp_kYScale = 19077 /\ WebpGen.Consts.dsp_kRCr = 26149 /\ WebpGen.Consts.dsp_kGCb = 6419 /\
  WebpGen.Consts.dsp_kGCr = 13320 /\ WebpGen.Consts.dsp_kBCb = 2 * 16525 /\
  WebpGen.Consts.dsp_kRBias = 14234 /\ WebpGen.Consts.dsp_kGBias = 8708 /\ WebpGen.Consts.dsp_kBBias = 17685.
Proof. exact yuv_constants_match. Qed.
Print Assumptions C13_yuv_constants_match.

(** AC quantisation (one coefficient): equal whenever Go's uint32 product does
    not wrap, in particular on everything the encoder can feed it. *)
Theorem C13_lane_quant_eq : forall x sharpen iq bias,
  -32767 <= x <= 32767 -> 0 <= sharpen -> Z.abs x + sharpen <= 32767 ->
  0 <= iq < 4294967296 -> 0 <= bias ->
  (Z.abs x + sharpen) * iq + bias < 4294967296 ->
  quant_lane x sharpen iq bias = quant_go x sharpen iq bias.
Proof. exact lane_quant_eq. Qed.
Print Assumptions C13_lane_quant_eq.

Theorem C13_lane_quant_eq_encoder : forall x sharpen iq bias,
  -4095 <= x <= 4095 -> 0 <= sharpen <= 255 -> 0 <= iq <= 131072 -> 0 <= bias <= 1048576 ->
  quant_lane x sharpen iq bias = quant_go x sharpen iq bias.
Proof. exact lane_quant_eq_encoder. Qed.
Print Assumptions C13_lane_quant_eq_encoder.

(** The coefficients a valid stream delivers to the decoder's
    IDCT, int16(level * dq) with |level| <= 2114 and dq in the AC table of the
    source, are not contained in [in_range]; on such a block the kernels differ. *)
Theorem C13_range_reachable_exceeds_in_range : exists coeffs pred,
  Forall (reachable_coeff WebpGen.Tables.lossy_KAcTable) coeffs /\ List.length coeffs = 16%nat /\
  Forall byte pred /\ ~ in_range coeffs /\
  lane16_idct coeffs pred <> transform_one coeffs pred.
Proof. exact range_reachable_exceeds_in_range. Qed.
Print Assumptions C13_range_reachable_exceeds_in_range.

Theorem C13_fdct_core_pos_bounds : forall d, forallM (in_box 255) d -> forall2M in_box fdctF (fdct_core d).
Proof. exact fdct_core_pos_bounds. Qed.
Print Assumptions C13_fdct_core_pos_bounds.

(** Quantise + dequantise (QuantizeCoeffs, the assembly, or the trellis: any
    level between 0 and (v*iq + b) >> 17 with b < 2^17) moves a coefficient at
    most one step beyond |coefficient| + sharpening. *)
Theorem C13_dequant_upper : forall v q iq b level,
  0 < q -> iq = 131072 / q -> 0 <= b < 131072 -> 0 <= v ->
  0 <= level <= (v * iq + b) / 131072 -> 0 <= level * q <= v + q.
Proof. exact dequant_upper. Qed.
Print Assumptions C13_dequant_upper.

(** The quantiser steps, sharpening factors and biases of the source
    are within the slack the range theorems assume. *)
Theorem C13_enc_tables_within_slack : enc_tables_ok = true.
Proof. exact enc_tables_within_slack. Qed.
Print Assumptions C13_enc_tables_within_slack.

(** Every coefficient block the encoder reconstructs with ITransform - a
    dequantised version [c] of the forward DCT of byte residuals, per position
    |c_i| <= |f_i| + slack_i (DC slack 615: also covers the DC an intra-16x16
    block receives from the inverse WHT) - is inside the no-wrap region: the
    lane-16 IDCT equals the portable one. *)
Theorem C13_encoder_idct_in_range : forall src ref coeffs pred s r c,
  blk16 src = Ok s -> blk16 ref = Ok r -> Forall byte src -> Forall byte ref ->
  blk16 coeffs = Ok c -> Forall byte pred ->
  dequant_close (fdct_core (map2M Z.sub s r)) c ->
  lane16_idct coeffs pred = transform_one coeffs pred.
Proof. exact encoder_idct_in_range. Qed.
Print Assumptions C13_encoder_idct_in_range.

(** The encoder's inverse WHT: input = dequantised forward WHT of sixteen DCT
    DCs; no lane wraps, and every reconstructed DC is within +-2655. *)
Theorem C13_encoder_wht_in_range : forall dcs coeffs d c,
  blk16 dcs = Ok d -> Forall (in_box 2040) dcs -> blk16 coeffs = Ok c ->
  wht_close (fwht_core d) c ->
  lane16_wht coeffs = transform_wht coeffs /\ forallM (in_box 2655) (iwht_core c).
Proof. exact encoder_wht_in_range. Qed.
Print Assumptions C13_encoder_wht_in_range.

(** The Y2 quantiser (no trellis, no sharpening) meets [wht_close]. *)
Theorem C13_y2_quant_error : forall v q iq b e,
  8 <= q -> iq = 131072 / q -> 0 <= v <= 16320 ->
  (b = 49152 /\ q <= 314 /\ e = 237) \/ (b = 55296 /\ q <= 440 /\ e = 311) ->
  let level := (v * iq + b) / 131072 in
  - e <= level * q - v <= e /\ 0 <= level <= 2047.
Proof. exact y2_quant_error. Qed.
Print Assumptions C13_y2_quant_error.

(** DequantCoeffs: PMULLW (AC) and the 32-bit IMUL + 16-bit store (DC) equal int16(level * q). *)
Theorem C13_lane_dequant_eq : forall x q, int16 x -> 0 <= q <= 32767 ->
  dequant_lane_ac x q = dequant_go x q /\ dequant_lane_dc x q = dequant_go x q.
Proof. exact lane_dequant_eq. Qed.
Print Assumptions C13_lane_dequant_eq.

(** Fancy upsampler: the packed u | v<<16 two-step interpolation equals the
    9-3-3-1 definition per channel on all byte inputs (interior and edge pixels). *)
Theorem C13_upsample_packed_eq : forall u0 v0 u1 v1 u2 v2 u3 v3,
  byte u0 -> byte v0 -> byte u1 -> byte v1 -> byte u2 -> byte v2 -> byte u3 -> byte v3 ->
  let p := interp_packed (pack_uv u0 v0) (pack_uv u1 v1) (pack_uv u2 v2) (pack_uv u3 v3) in
  lo8 p = interp_def u0 u1 u2 u3 /\ hi8 p = interp_def v0 v1 v2 v3.
Proof. exact upsample_packed_eq. Qed.
Print Assumptions C13_upsample_packed_eq.

Theorem C13_upsample_edge_packed_eq : forall u0 v0 u1 v1,
  byte u0 -> byte v0 -> byte u1 -> byte v1 ->
  let p := edge_packed (pack_uv u0 v0) (pack_uv u1 v1) in
  lo8 p = edge_def u0 u1 /\ hi8 p = edge_def v0 v1.
Proof. exact upsample_edge_packed_eq. Qed.
Print Assumptions C13_upsample_edge_packed_eq.

(** DC predictors: PSADBW halves + scalar left column = alternating accumulation. *)
Theorem C13_lane_dc16_eq : forall top left, List.length top = 16%nat -> List.length left = 16%nat ->
  dc16_lane top left = dc_go top left 5 16.
Proof. exact lane_dc16_eq. Qed.
Print Assumptions C13_lane_dc16_eq.

Theorem C13_lane_dc8_eq : forall top left, List.length top = 8%nat -> List.length left = 8%nat ->
  dc8_lane top left = dc_go top left 4 8.
Proof. exact lane_dc8_eq. Qed.
Print Assumptions C13_lane_dc8_eq.

(** SSE16x16 / 16x8 / 8x8: the lane SSE of any block partition (up to 1024
    samples) is the sum of the portable block SSEs. *)
Theorem C13_lane16_sse_blocks_eq : forall bs,
  Forall (fun ab => List.length (fst ab) = List.length (snd ab) /\ Forall byte (fst ab) /\ Forall byte (snd ab)) bs ->
  (List.length (List.concat (map fst bs)) <= 1024)%nat ->
  l_sse_list (List.concat (map fst bs)) (List.concat (map snd bs)) = sse_blocks bs.
Proof. exact lane16_sse_blocks_eq. Qed.
Print Assumptions C13_lane16_sse_blocks_eq.

(** TDisto16x16 = sum of the sixteen 4x4 distortions, lane = portable. *)
Theorem C13_lane16_tdisto16_eq : forall w blocks, Forall (fun x => 0 <= x <= 255) w ->
  Forall (fun ab => Forall byte (fst ab) /\ Forall byte (snd ab)) blocks ->
  l_tdisto16 w blocks = tdisto16 w blocks.
Proof. exact lane16_tdisto16_eq. Qed.
Print Assumptions C13_lane16_tdisto16_eq.

(** Row kernels: 8-lane loop + optional 4-lane step + scalar tail = per-pixel map
    (AVX2 version = two SSE2 versions = Go loop), for every row length. *)
Theorem C13_row_8_4_1_eq : forall (A B : Type) (f : A -> B) (l : list A), row_8_4_1 f f f l = map f l.
Proof. exact @row_8_4_1_eq. Qed.
Print Assumptions C13_row_8_4_1_eq.

(** Non-zero scan of QuantizeCoeffs: PMAXSW tree = running maximum. *)
Theorem C13_lane_nz_scan_eq : forall zz out, List.length zz = 16%nat -> List.length out = 16%nat ->
  nz_lane zz out = nz_go zz out.
Proof. exact lane_nz_scan_eq. Qed.
Print Assumptions C13_lane_nz_scan_eq.

(** 32-bit arithmetic: the arm64 routine iTransformOneNEON (32-bit lanes) and
    the portable Go IDCT on every target whose [int] is 32 bits wide
    (386 / arm / mips: [(a * 35468) >> 16] wraps) equal the 64-bit portable IDCT on
    every block with |c| <= 15735. *)
Theorem C13_idct32_eq : forall coeffs pred, in_range32 coeffs -> Forall byte pred ->
  idct32 coeffs pred = transform_one coeffs pred.
Proof. exact idct32_eq. Qed.
Print Assumptions C13_idct32_eq.

Theorem C13_int32_box_maximal :
  Forall (fun c => - (kInt32Box + 1) <= c <= kInt32Box + 1) int32_block_15736 /\
  idct32 int32_block_15736 (repeat 128 16) <> transform_one int32_block_15736 (repeat 128 16).
Proof. exact int32_box_maximal. Qed.
Print Assumptions C13_int32_box_maximal.

(** Beyond it the result depends on the width of int: two coefficients 32767
    (= int16(1057 * 31), 31 being an AC step) give different samples in 32-bit
    and in 64-bit arithmetic. *)
Theorem C13_idct_int_width_differs_refuted :
  Forall int16 int32_block_sparse /\
  idct32 int32_block_sparse (repeat 128 16) = Ok [255; 0; 255; 0; 255; 255; 0; 0; 255; 255; 0; 0; 0; 0; 255; 255] /\
  transform_one int32_block_sparse (repeat 128 16) = Ok [255; 255; 0; 0; 255; 255; 0; 0; 255; 255; 0; 0; 0; 0; 255; 255].
Proof. exact idct_int_width_differs_refuted. Qed.
Print Assumptions C13_idct_int_width_differs_refuted.

(** Every call of a lane kernel in the encoder takes its coefficient input along
    the chain the range theorems assume (bytes -> FDCT -> quantise -> dequantise
    (-> WHT) -> IDCT); an unclassifiable call site fails this obligation. *)
Theorem C13_lane_events_follow_chain : forallb event_ok LaneCalls.lane_events = true.
Proof. exact lane_events_follow_chain. Qed.
Print Assumptions C13_lane_events_follow_chain.

Theorem C13_lane_events_cover_all_kernels :
  forallb (fun k => existsb (fun e => String.eqb (snd (fst (fst e))) k) LaneCalls.lane_events)
          ["FTransformDirect"; "FTransformWHT"; "QuantizeCoeffs"; "TrellisQuantizeBlock";
           "DequantCoeffs"; "TransformWHT"; "ITransformDirect"]%string = true.
Proof. exact lane_events_cover_all_kernels. Qed.
Print Assumptions C13_lane_events_cover_all_kernels.

Theorem C13_lane_buffer_readers_reviewed : subset LaneCalls.lane_buffer_readers reviewed_readers = true.
Proof. exact lane_buffer_readers_reviewed. Qed.
Print Assumptions C13_lane_buffer_readers_reviewed.

(** Every assembly routine of the module (amd64 and arm64) has a lane model with a
    theorem above or an explicit "partial" entry; no stale entries. *)
Theorem C13_asm_inventory_covered : asm_inventory_ok = true.
Proof. exact asm_inventory_covered. Qed.
Print Assumptions C13_asm_inventory_covered.

(** ** The lane models derived from the assembly text *)

(** Interpreting the instruction lists of the .s files with the SSE2/VEX
    semantics of Arch/ArchAsm.v, on ANY memory, returns exactly the lane models
    (run_real / run_st_real: the interpreter instantiated with the real lane
    operations).  The range theorems and the lane16-wrap
    refutations above are thereby statements about the assembly as written. *)
Theorem C13_asm_sse4x4_eq_model : forall m, (forall b o, 0 <= m b o <= 255) ->
  run_real 100 AsmAmd64.asm_sse4x4SSE2 0 (init_state m) = Some (l_sse_list (block4 m "pix") (block4 m "ref")).
Proof. exact asm_sse4x4_eq_model_real. Qed.
Print Assumptions C13_asm_sse4x4_eq_model.

(** sse16x16SSE2: the counted loop is executed by the interpreter. *)
Theorem C13_asm_sse16x16_eq_model : forall m, (forall b o, 0 <= m b o <= 255) ->
  run_real 600 AsmAmd64.asm_sse16x16SSE2 0 (init_state m) = Some (l_sse_list (block16 m "pix") (block16 m "ref")).
Proof. exact asm_sse16x16_eq_model_real. Qed.
Print Assumptions C13_asm_sse16x16_eq_model.

(** transformWHTSSE2 = lane16_wht (no hypothesis on the coefficients: equality of
    the assembly with the 16-bit-lane model, wraps included). *)
Theorem C13_asm_iwht_is_lane16_wht : forall m mw,
  option_map (fun s => out_words s (map (Z.mul 16) idx16))
             (run_st_real 200 AsmAmd64.asm_transformWHTSSE2 0 (init_state_w m mw wht_args))
  = res_list (lane16_wht (map (mw "in") idx16)).
Proof. exact asm_iwht_is_lane16_wht. Qed.
Print Assumptions C13_asm_iwht_is_lane16_wht.

Theorem C13_asm_fwht_is_lane16_fwht : forall m mw,
  option_map (fun s => out_words s idx16)
             (run_st_real 200 AsmAmd64.asm_fTransformWHTSSE2 0 (init_state_w m mw wht_args))
  = res_list (lane16_fwht (map (mw "in") idx16)).
Proof. exact asm_fwht_is_lane16_fwht. Qed.
Print Assumptions C13_asm_fwht_is_lane16_fwht.

(** iTransformOneSSE2 and its VEX-encoded twin iTransformOneAVX2 = lane16_idct. *)
Theorem C13_asm_idct_is_lane16_idct : forall m mw,
  option_map (fun s => map (stored (bst s) "dst") dst_offsets)
             (run_st_real 300 AsmAmd64.asm_iTransformOneSSE2 0 (init_state_w m mw idct_args))
  = res_list (lane16_idct (map (mw "in") idx16) (map (m "ref") dst_offsets)).
Proof. exact asm_idct_is_lane16_idct. Qed.
Print Assumptions C13_asm_idct_is_lane16_idct.

Theorem C13_asm_idct_avx2_is_lane16_idct : forall m mw,
  option_map (fun s => map (stored (bst s) "dst") dst_offsets)
             (run_st_real 300 AsmAmd64.asm_iTransformOneAVX2 0 (init_state_w m mw idct_args))
  = res_list (lane16_idct (map (mw "in") idx16) (map (m "ref") dst_offsets)).
Proof. exact asm_idct_avx2_is_lane16_idct. Qed.
Print Assumptions C13_asm_idct_avx2_is_lane16_idct.

(** Every other routine body (amd64 and arm64) and the DATA tables are pinned. *)
Theorem C13_asm_bodies_pinned :
  AsmAmd64.asm_digests = pinned_digests /\ AsmAmd64.asm_data_digest = pinned_data_digest.
Proof. exact asm_bodies_pinned. Qed.
Print Assumptions C13_asm_bodies_pinned.

(** Quantise / dequantise use the same matrix of the same segment. *)
Theorem C13_lane_segments_consistent :
  forallb (seg_fact_ok LaneCalls.lane_seg_facts) LaneCalls.lane_seg_facts = true /\
  existsb (fun f => String.eqb (snd (fst f)) "sqroot") LaneCalls.lane_seg_facts = true /\
  existsb (fun f => String.eqb (snd f) "encodeFrame|seg:=&enc.dqm[info.Segment]") LaneCalls.lane_seg_facts = true.
Proof. exact lane_segments_consistent. Qed.
Print Assumptions C13_lane_segments_consistent.
