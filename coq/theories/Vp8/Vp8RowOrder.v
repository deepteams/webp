(** Row-by-row filtering as the Go decoder does it (parseFrame: reconstruct macroblock row y from
    the UNFILTERED top samples kept aside, then filter row y in the frame cache whose rows above
    are already filtered) gives the same picture as filtering after the whole frame has been
    reconstructed (RFC 6386 section 15), for every frame syntax. *)
From Coq Require Import List ZArith Lia Bool.
From Webp Require Import Vp8.Vp8Bool Vp8.Vp8Syntax Vp8.Vp8Kernels Vp8.Vp8Recon Vp8.Vp8Filter Vp8.Vp8Spec
  Vp8.Vp8FrameRT.
Import ListNotations.
Open Scope Z_scope.

(** one step of the Go order: reconstruct the next row from the contexts, then filter it against the
    (already filtered) row above; the row above is then final and is put out *)
Fixpoint go_order (qk : quirks) (h : frame_hdr) (simple : bool) (cols : list colctx)
  (above : list (option mbpix)) (rows : list (list mb_syn)) : list (list (option mbpix)) :=
  match rows with
  | [] => [above]
  | mbs :: rtl =>
    let '(cols', out, _, _) := row_syn qk h cols left0 None mbs in
    let '(a', c') := filter_cols simple above out None in
    a' :: go_order qk h simple cols' (map Some c') rtl
  end.

Theorem row_filter_order_eq qk h simple : forall rows cols above,
  go_order qk h simple cols above rows =
  filter_rows simple above (fst (fst (rows_syn qk h cols rows))).
Proof.
  induction rows as [|mbs rtl IH]; intros cols above; cbn [go_order rows_syn]; [reflexivity|].
  destruct (row_syn qk h cols left0 None mbs) as [[[cols' out] s0] sT].
  specialize (IH cols').
  destruct (rows_syn qk h cols' rtl) as [[outs s0s] sTs]. cbn [fst snd] in IH |- *.
  cbn [filter_rows]. destruct (filter_cols simple above out None) as [a' c']. rewrite IH. reflexivity.
Qed.

(** hence the filtered planes of Vp8Spec.decode are those of the row-by-row order *)
Corollary row_filter_order_frame qk h rows cols :
  match fst (fst (rows_syn qk h cols rows)) with
  | [] => True
  | r :: _ =>
    filter_frame (lf_is_simple (fh_lf h)) (fst (fst (rows_syn qk h cols rows))) =
    map keep_some (tl (go_order qk h (lf_is_simple (fh_lf h)) cols (map (fun _ => None) r) rows))
  end.
Proof.
  destruct (fst (fst (rows_syn qk h cols rows))) as [|r rt] eqn:E; [exact I|].
  unfold filter_frame. rewrite row_filter_order_eq, E. reflexivity.
Qed.
