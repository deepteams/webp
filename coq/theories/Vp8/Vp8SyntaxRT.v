(** Round trip of the first-partition key-frame header over (bit, probability) streams: emitters for
    the fields (order and encodings of emitPartition0: PutBits, PutSignedBits) and the proof that
    the parsers of Vp8Syntax read them back ([syntax_roundtrip]).  [sync d ps]: the RFC decoder [d]
    will read the symbols [ps]; by Vp8BoolEnc.bool_roundtrip the decoder started on the Go encoder's
    output for [ps] is in sync with [ps]. *)
From Coq Require Import List ZArith Lia Bool.
From Webp Require Import Vp8.Vp8Bool Vp8.Vp8BoolAbs Vp8.Vp8BoolEnc Vp8.Vp8BoolPos Vp8.Vp8Tables Vp8.Vp8Syntax.
Import ListNotations.
Open Scope Z_scope.

(* the second conjunct: reading [ps] never takes a bool from beyond the end of the input *)
Definition sync (d : bdec) (ps : list (bool * Z)) : Prop :=
  rfc_bits (map snd ps) d = map fst ps /\ bd_past (rfc_run (map snd ps) d) = false.

Lemma sync_cons d b p tl : sync d ((b, p) :: tl) -> exists d', read_bool p d = (b, d') /\ sync d' tl.
Proof.
  unfold sync. cbn [map fst snd rfc_bits rfc_run]. destruct (read_bool p d) as [b' d'].
  intros [H Hp]. injection H as -> H. exists d'. split; [reflexivity|]. split; [exact H|exact Hp].
Qed.

Lemma sync_nil_past d : sync d [] -> bd_past d = false.
Proof. intros [_ H]. exact H. Qed.

Theorem sync_encode ps z : probs_ok ps -> sync (bd_init (bool_encode ps ++ repeat 0 z)) ps.
Proof. intros H. split; [apply bool_roundtrip; exact H|apply encode_no_past; exact H]. Qed.

Lemma sync_encode0 ps : probs_ok ps -> sync (bd_init (bool_encode ps)) ps.
Proof. intros H. rewrite <- (app_nil_r (bool_encode ps)). exact (sync_encode ps 0 H). Qed.

(** [rt f e v]: [f], started in sync with [e] followed by anything, returns [v] in sync with what
    follows; readers are [let '(x, d) := f d in ...] chains, hence [rt_bind] *)
Definition rt {A} (f : bdec -> A * bdec) (e : list (bool * Z)) (v : A) : Prop :=
  forall d rest, sync d (e ++ rest) -> exists d', f d = (v, d') /\ sync d' rest.

Lemma rt_run {A} (f : bdec -> A * bdec) e v d rest : rt f e v -> sync d (e ++ rest) ->
  exists d', f d = (v, d') /\ sync d' rest.
Proof. intros H. exact (H d rest). Qed.

Lemma rt_ret {A} (v : A) : rt (fun d => (v, d)) [] v.
Proof. intros d rest H. exists d. split; [reflexivity|exact H]. Qed.

Lemma rt_bind {A B} {f : bdec -> A * bdec} {e v} (Hf : rt f e v) {g : A -> bdec -> B * bdec} {e' w} :
  rt (g v) e' w -> rt (fun d => let '(x, d1) := f d in g x d1) (e ++ e') w.
Proof.
  intros Hg d rest H. rewrite <- app_assoc in H.
  destruct (Hf d _ H) as (d1 & E1 & S1). rewrite E1. exact (Hg d1 rest S1).
Qed.

Lemma rt_last {A B} {f : bdec -> A * bdec} {e v} (Hf : rt f e v) {g : A -> bdec -> B * bdec} {w} :
  rt (g v) [] w -> rt (fun d => let '(x, d1) := f d in g x d1) e w.
Proof. intros Hg. rewrite <- (app_nil_r e). exact (rt_bind Hf Hg). Qed.

Lemma rt_if {A} (c : bool) (f1 f2 : bdec -> A * bdec) e1 e2 v :
  (c = true -> rt f1 e1 v) -> (c = false -> rt f2 e2 v) ->
  rt (fun d => if c then f1 d else f2 d) (if c then e1 else e2) v.
Proof. destruct c; intros H1 H2; [exact (H1 eq_refl)|exact (H2 eq_refl)]. Qed.

Lemma rt_bool b p : rt (read_bool p) [(b, p)] b.
Proof. intros d rest. apply sync_cons. Qed.

Lemma rt_cons {B} b p {g : bool -> bdec -> B * bdec} {e w} :
  rt (g b) e w -> rt (fun d => let '(x, d1) := read_bool p d in g x d1) ((b, p) :: e) w.
Proof. exact (rt_bind (rt_bool b p)). Qed.

Definition e_flag (b : bool) : list (bool * Z) := [(b, 128)].

Fixpoint e_lit (n : nat) (v : Z) : list (bool * Z) :=
  match n with
  | O => []
  | S m => let b := 2 ^ Z.of_nat m <=? v in
           (b, 128) :: e_lit m (if b then v - 2 ^ Z.of_nat m else v)
  end.

Definition e_signed (n : nat) (v : Z) : list (bool * Z) := e_lit n (Z.abs v) ++ e_flag (v <? 0).
Definition e_opt (n : nat) (v : Z) : list (bool * Z) :=
  if v =? 0 then e_flag false else e_flag true ++ e_signed n v.

Lemma rt_flag b : rt read_flag (e_flag b) b.
Proof. exact (rt_bool b 128). Qed.

(** [read_extra ps]: a number written most significant bit first, one probability per bit; the bits
    are [e_lit]'s *)
Lemma rt_msb : forall ps v acc, 0 <= v < 2 ^ Z.of_nat (length ps) ->
  rt (read_extra ps acc) (combine (map fst (e_lit (length ps) v)) ps) (acc * 2 ^ Z.of_nat (length ps) + v).
Proof.
  induction ps as [|p tl IH]; intros v acc Hv; cbn [length e_lit map fst combine read_extra] in *.
  - replace (acc * 2 ^ Z.of_nat 0 + v) with acc by (cbn in *; lia). apply rt_ret.
  - rewrite Nat2Z.inj_succ, Z.pow_succ_r in * by lia. set (w := 2 ^ Z.of_nat (length tl)) in *.
    assert (Hw : 0 < w) by (apply Z.pow_pos_nonneg; lia).
    apply rt_cons. destruct (Z.leb_spec w v).
    + replace (acc * (2 * w) + v) with ((2 * acc + 1) * w + (v - w)) by ring. apply IH. lia.
    + replace (acc * (2 * w) + v) with ((2 * acc + 0) * w + v) by ring. apply IH. lia.
Qed.

Lemma read_literal_extra : forall n acc d, read_literal n acc d = read_extra (repeat 128 n) acc d.
Proof.
  induction n as [|m IH]; intros acc d; cbn [read_literal repeat read_extra]; [reflexivity|].
  destruct (read_bool 128 d). apply IH.
Qed.

Lemma e_lit_probs : forall n v, combine (map fst (e_lit n v)) (repeat 128 n) = e_lit n v.
Proof.
  induction n as [|m IH]; intros v; cbn [e_lit map fst repeat combine]; [reflexivity|].
  rewrite IH. reflexivity.
Qed.

Lemma rt_lit n v : 0 <= v < 2 ^ Z.of_nat n -> rt (read_lit n) (e_lit n v) v.
Proof.
  intros Hv d rest. unfold read_lit. rewrite read_literal_extra, <- e_lit_probs.
  pose proof (rt_msb (repeat 128 n) v 0) as H. rewrite repeat_length in H. exact (H Hv d rest).
Qed.

Lemma rt_byte p : 0 <= p <= 255 -> rt (read_lit 8) (e_lit 8 p) p.
Proof. intros Hp. apply rt_lit. change (2 ^ Z.of_nat 8) with 256. lia. Qed.

Lemma rt_signed n v : Z.abs v < 2 ^ Z.of_nat n -> rt (read_signed n) (e_signed n v) v.
Proof.
  intros Hv. unfold read_signed, e_signed. eapply rt_bind; [apply rt_lit; lia|].
  apply (rt_last (rt_flag _)). cbv beta.
  replace (if v <? 0 then - Z.abs v else Z.abs v) with v by (destruct (Z.ltb_spec v 0); lia). apply rt_ret.
Qed.

Lemma rt_opt n v : Z.abs v < 2 ^ Z.of_nat n -> rt (read_opt_signed n) (e_opt n v) v.
Proof.
  intros Hv. unfold read_opt_signed, e_opt. destruct (Z.eqb_spec v 0) as [->|_].
  - apply (rt_last (rt_flag _)). apply rt_ret.
  - apply (rt_bind (rt_flag _)). apply rt_signed. exact Hv.
Qed.

Lemma rt_read_n {A} (f : bdec -> A * bdec) (e : A -> list (bool * Z)) (P : A -> Prop) :
  (forall v, P v -> rt f (e v) v) ->
  forall n l, length l = n -> Forall P l -> rt (read_n n f) (concat (map e l)) l.
Proof.
  intros Hf n l <-. induction 1 as [|v tl Hv _ IH]; cbn [length read_n map concat]; [apply rt_ret|].
  apply (rt_bind (Hf v Hv)). apply (rt_last IH). apply rt_ret.
Qed.

Definition e_opt4 (n : nat) (l : list Z) : list (bool * Z) := concat (map (e_opt n) l).

(** * quantiser header (9.6) *)
Definition e_q_hdr (q : q_hdr) : list (bool * Z) :=
  e_lit 7 (q_base q) ++ e_opt 4 (q_y1dc q) ++ e_opt 4 (q_y2dc q) ++ e_opt 4 (q_y2ac q) ++
  e_opt 4 (q_uvdc q) ++ e_opt 4 (q_uvac q).

Definition wf_q_hdr (q : q_hdr) : Prop :=
  0 <= q_base q < 128 /\ Z.abs (q_y1dc q) < 16 /\ Z.abs (q_y2dc q) < 16 /\ Z.abs (q_y2ac q) < 16 /\
  Z.abs (q_uvdc q) < 16 /\ Z.abs (q_uvac q) < 16.

Theorem parse_q_hdr_rt q : wf_q_hdr q -> rt parse_q_hdr (e_q_hdr q) q.
Proof.
  intros (H0 & H1 & H2 & H3 & H4 & H5). unfold e_q_hdr, parse_q_hdr.
  apply (rt_bind (rt_lit 7 _ H0)). apply (rt_bind (rt_opt 4 _ H1)). apply (rt_bind (rt_opt 4 _ H2)).
  apply (rt_bind (rt_opt 4 _ H3)). apply (rt_bind (rt_opt 4 _ H4)). apply (rt_last (rt_opt 4 _ H5)).
  destruct q. apply rt_ret.
Qed.

(** * loop-filter header (9.6) *)
Definition e_lf_hdr (upd : bool) (h : lf_hdr) : list (bool * Z) :=
  e_flag (lf_is_simple h) ++ e_lit 6 (lf_level h) ++ e_lit 3 (lf_sharp h) ++ e_flag (lf_delta_enabled h) ++
  (if lf_delta_enabled h then
     e_flag upd ++ (if upd then e_opt4 6 (lf_ref h) ++ e_opt4 6 (lf_mode h) else [])
   else []).

Definition wf_lf_hdr (upd : bool) (h : lf_hdr) : Prop :=
  0 <= lf_level h < 64 /\ 0 <= lf_sharp h < 8 /\
  length (lf_ref h) = 4%nat /\ length (lf_mode h) = 4%nat /\
  Forall (fun v => Z.abs v < 64) (lf_ref h) /\ Forall (fun v => Z.abs v < 64) (lf_mode h) /\
  (* deltas that are not transmitted are the key-frame defaults *)
  (lf_delta_enabled h && upd = false -> lf_ref h = zeros4 /\ lf_mode h = zeros4).

Theorem parse_lf_hdr_rt upd h : wf_lf_hdr upd h -> rt parse_lf_hdr (e_lf_hdr upd h) h.
Proof.
  intros (H0 & H1 & L1 & L2 & F1 & F2 & Hdef). unfold e_lf_hdr, parse_lf_hdr.
  apply (rt_bind (rt_flag _)). apply (rt_bind (rt_lit 6 _ H0)). apply (rt_bind (rt_lit 3 _ H1)).
  apply (rt_bind (rt_flag _)).
  destruct h as [simple level sharp de refs modes]. cbn [lf_delta_enabled lf_ref lf_mode] in *.
  destruct de; cbn [negb].
  - apply (rt_bind (rt_flag _)). destruct upd; cbn [negb].
    + apply (rt_bind (rt_read_n _ _ _ (rt_opt 6) _ _ L1 F1)). apply (rt_last (rt_read_n _ _ _ (rt_opt 6) _ _ L2 F2)).
      apply rt_ret.
    + destruct (Hdef eq_refl) as [-> ->]. apply rt_ret.
  - destruct (Hdef eq_refl) as [-> ->]. apply rt_ret.
Qed.

(** * segment header (9.3) *)
Definition e_prob (p : Z) : list (bool * Z) :=
  if p =? 255 then e_flag false else e_flag true ++ e_lit 8 p.

Lemma rt_prob p : 0 <= p <= 255 ->
  rt (fun d => let '(f, d1) := read_flag d in if f then read_lit 8 d1 else (255, d1)) (e_prob p) p.
Proof.
  intros Hp. unfold e_prob. destruct (Z.eqb_spec p 255) as [->|Hne].
  - apply (rt_last (rt_flag _)). apply rt_ret.
  - apply (rt_bind (rt_flag _)). exact (rt_byte p Hp).
Qed.

Definition e_seg_hdr (upd_data : bool) (h : seg_hdr) : list (bool * Z) :=
  e_flag (sg_enabled h) ++
  (if sg_enabled h then
     e_flag (sg_update_map h) ++ e_flag upd_data ++
     (if upd_data then e_flag (sg_abs h) ++ e_opt4 7 (sg_quant h) ++ e_opt4 6 (sg_lf h) else []) ++
     (if sg_update_map h then concat (map e_prob (sg_probs h)) else [])
   else []).

Definition wf_seg_hdr (abs_default upd_data : bool) (h : seg_hdr) : Prop :=
  length (sg_quant h) = 4%nat /\ length (sg_lf h) = 4%nat /\ length (sg_probs h) = 3%nat /\
  Forall (fun v => Z.abs v < 128) (sg_quant h) /\ Forall (fun v => Z.abs v < 64) (sg_lf h) /\
  Forall (fun p => 0 <= p <= 255) (sg_probs h) /\
  (sg_enabled h = false -> h = mkSeg false false false zeros4 zeros4 [255; 255; 255]) /\
  (upd_data = false -> sg_abs h = abs_default /\ sg_quant h = zeros4 /\ sg_lf h = zeros4) /\
  (sg_update_map h = false -> sg_probs h = [255; 255; 255]).

Theorem parse_seg_hdr_rt abs_default upd h : wf_seg_hdr abs_default upd h ->
  rt (parse_seg_hdr abs_default) (e_seg_hdr upd h) h.
Proof.
  intros (L1 & L2 & L3 & F1 & F2 & F3 & Hoff & Hnd & Hnm). unfold e_seg_hdr, parse_seg_hdr.
  destruct (sg_enabled h) eqn:Een.
  2:{ apply (rt_last (rt_flag _)). rewrite (Hoff eq_refl). apply rt_ret. }
  apply (rt_bind (rt_flag _)). apply (rt_bind (rt_flag _)). apply (rt_bind (rt_flag _)).
  destruct h as [en um ab qs lfs prs]. cbn [sg_enabled sg_update_map sg_abs sg_quant sg_lf sg_probs] in *. subst en.
  cbn [negb]. apply (rt_bind (v := (ab, qs, lfs))).
  { apply rt_if; intros ->.
    - apply (rt_bind (rt_flag _)). apply (rt_bind (rt_read_n _ _ _ (rt_opt 7) _ _ L1 F1)).
      apply (rt_last (rt_read_n _ _ _ (rt_opt 6) _ _ L2 F2)). apply rt_ret.
    - destruct (Hnd eq_refl) as (-> & -> & ->). apply rt_ret. }
  apply (rt_last (v := prs)); [|apply rt_ret].
  apply rt_if; intros ->.
  - exact (rt_read_n _ _ _ rt_prob _ _ L3 F3).
  - rewrite (Hnm eq_refl). apply rt_ret.
Qed.

(** * the fixed part of the first partition *)
Definition e_fixed_hdr (upd_seg upd_lf : bool) (cs ct : bool) (sg : seg_hdr) (lf : lf_hdr) (lp : Z) (q : q_hdr)
  : list (bool * Z) :=
  e_flag cs ++ e_flag ct ++ e_seg_hdr upd_seg sg ++ e_lf_hdr upd_lf lf ++ e_lit 2 lp ++ e_q_hdr q.

Theorem syntax_roundtrip_fixed abs_default upd_seg upd_lf cs ct sg lf lp q d rest :
  wf_seg_hdr abs_default upd_seg sg -> wf_lf_hdr upd_lf lf -> 0 <= lp < 4 -> wf_q_hdr q ->
  sync d (e_fixed_hdr upd_seg upd_lf cs ct sg lf lp q ++ rest) ->
  exists d', parse_fixed_hdr abs_default d = ((cs, ct, sg, lf, lp, q), d') /\ sync d' rest.
Proof.
  intros Hsg Hlf Hlp Hq. apply rt_run. unfold e_fixed_hdr, parse_fixed_hdr.
  apply (rt_bind (rt_flag _)). apply (rt_bind (rt_flag _)).
  apply (rt_bind (parse_seg_hdr_rt _ _ _ Hsg)). apply (rt_bind (parse_lf_hdr_rt _ _ Hlf)).
  apply (rt_bind (rt_lit 2 _ Hlp)). apply (rt_last (parse_q_hdr_rt _ Hq)). apply rt_ret.
Qed.

(** composed with the boolean coder: the header parsed from the Go encoder's bytes *)
Corollary syntax_roundtrip_fixed_bytes abs_default upd_seg upd_lf cs ct sg lf lp q tail z :
  wf_seg_hdr abs_default upd_seg sg -> wf_lf_hdr upd_lf lf -> 0 <= lp < 4 -> wf_q_hdr q ->
  probs_ok (e_fixed_hdr upd_seg upd_lf cs ct sg lf lp q ++ tail) ->
  fst (parse_fixed_hdr abs_default
         (bd_init (bool_encode (e_fixed_hdr upd_seg upd_lf cs ct sg lf lp q ++ tail) ++ repeat 0 z)))
  = (cs, ct, sg, lf, lp, q).
Proof.
  intros Hsg Hlf Hlp Hq Hok.
  destruct (syntax_roundtrip_fixed abs_default upd_seg upd_lf cs ct sg lf lp q _ tail Hsg Hlf Hlp Hq
              (sync_encode _ z Hok)) as (d' & E & _).
  rewrite E. reflexivity.
Qed.

(** non-vacuity: segments in delta mode with a map, filter deltas, negative quantiser delta *)
Example wf_headers_example :
  wf_seg_hdr false true (mkSeg true true false [0; -5; 12; 127] [3; 0; -63; 1] [200; 255; 1]) /\
  wf_lf_hdr true (mkLf true 40 5 true [-3; 0; 0; 10] [4; 0; 0; 0]) /\
  wf_q_hdr (mkQ 77 0 (-15) 15 (-4) 0).
Proof.
  unfold wf_seg_hdr, wf_lf_hdr, wf_q_hdr. cbn.
  repeat split; try lia; try discriminate; repeat constructor; try lia.
Qed.

(** * coefficient probability updates (13.4), skip probability *)
Fixpoint e_map2 {A B} (e : A -> B -> list (bool * Z)) (la : list A) (lb : list B) : list (bool * Z) :=
  match la, lb with
  | a :: ta, b :: tb => e a b ++ e_map2 e ta tb
  | _, _ => []
  end.

Lemma rt_map_st {A B} (f : A -> bdec -> B * bdec) (e : A -> B -> list (bool * Z)) (P : A -> B -> Prop) :
  (forall a b, P a b -> rt (f a) (e a b) b) ->
  forall la lb, Forall2 P la lb -> rt (map_st f la) (e_map2 e la lb) lb.
Proof.
  intros Hf la lb. induction 1 as [|a b ta tb Hab _ IH]; cbn [map_st e_map2]; [apply rt_ret|].
  apply (rt_bind (Hf a b Hab)). apply (rt_last IH). apply rt_ret.
Qed.

(** flag coded with the update probability, then the new value if it differs *)
Definition e_upd (uo : Z * Z) (n : Z) : list (bool * Z) :=
  let '(up, old) := uo in if n =? old then [(false, up)] else (true, up) :: e_lit 8 n.

Definition P1 (uo : Z * Z) (n : Z) : Prop := 0 <= n <= 255.

Lemma rt_upd1 l news : Forall2 P1 l news -> rt (upd_probs1 l) (e_map2 e_upd l news) news.
Proof.
  induction 1 as [|[up old] n tl ntl Hn _ IH]; cbn [upd_probs1 e_map2]; [apply rt_ret|].
  unfold e_upd. destruct (Z.eqb_spec n old) as [->|_]; cbn [app]; apply rt_cons.
  - apply (rt_last IH). apply rt_ret.
  - apply (rt_bind (rt_byte n Hn)). apply (rt_last IH). apply rt_ret.
Qed.

Definition e2 (uo : list Z * list Z) (n : list Z) := e_map2 e_upd (combine (fst uo) (snd uo)) n.
Definition P2 (uo : list Z * list Z) (n : list Z) := Forall2 P1 (combine (fst uo) (snd uo)) n.
Definition e3 (uo : list (list Z) * list (list Z)) (n : list (list Z)) := e_map2 e2 (combine (fst uo) (snd uo)) n.
Definition P3 (uo : list (list Z) * list (list Z)) (n : list (list Z)) := Forall2 P2 (combine (fst uo) (snd uo)) n.
Definition e4 (uo : list (list (list Z)) * list (list (list Z))) (n : list (list (list Z))) :=
  e_map2 e3 (combine (fst uo) (snd uo)) n.
Definition P4 (uo : list (list (list Z)) * list (list (list Z))) (n : list (list (list Z))) :=
  Forall2 P3 (combine (fst uo) (snd uo)) n.

Definition e_probs (news : list (list (list (list Z)))) : list (bool * Z) :=
  e_map2 e4 (combine coeff_update_probs coeff_probs0) news.
Definition wf_probs (news : list (list (list (list Z)))) : Prop :=
  Forall2 P4 (combine coeff_update_probs coeff_probs0) news.

Theorem upd_probs_rt news : wf_probs news -> rt upd_probs (e_probs news) news.
Proof.
  intros Hw. unfold upd_probs.
  apply (rt_map_st _ e4 P4); [|exact Hw]. intros [u3 o3] n3 H3.
  apply (rt_map_st _ e3 P3); [|exact H3]. intros [u2 o2] n2 H2.
  apply (rt_map_st _ e2 P2); [|exact H2]. intros [u1 o1] n1 H1.
  apply rt_upd1. exact H1.
Qed.

Definition e_part1_hdr (upd_seg upd_lf refresh : bool) (h : frame_hdr) : list (bool * Z) :=
  e_fixed_hdr upd_seg upd_lf (fh_color h) (fh_clamp h) (fh_seg h) (fh_lf h) (fh_log2parts h) (fh_q h) ++
  e_flag refresh ++ e_probs (fh_probs h) ++ e_flag (fh_skip_enabled h) ++
  (if fh_skip_enabled h then e_lit 8 (fh_skip_prob h) else []).

Definition wf_frame_hdr (abs_default upd_seg upd_lf : bool) (h : frame_hdr) : Prop :=
  wf_seg_hdr abs_default upd_seg (fh_seg h) /\ wf_lf_hdr upd_lf (fh_lf h) /\ 0 <= fh_log2parts h < 4 /\
  wf_q_hdr (fh_q h) /\ wf_probs (fh_probs h) /\ 0 <= fh_skip_prob h <= 255 /\
  (fh_skip_enabled h = false -> fh_skip_prob h = 0).

(** the whole first-partition header (width, height, scales are passed through from the frame start) *)
Theorem syntax_roundtrip abs_default upd_seg upd_lf refresh h d rest :
  wf_frame_hdr abs_default upd_seg upd_lf h ->
  sync d (e_part1_hdr upd_seg upd_lf refresh h ++ rest) ->
  exists d', parse_part1_hdr abs_default (fh_w h) (fh_h h) (fh_xscale h) (fh_yscale h) d = (h, d') /\ sync d' rest.
Proof.
  intros (Hsg & Hlf & Hlp & Hq & Hpr & Hsk & Hsk0). apply rt_run. unfold e_part1_hdr, parse_part1_hdr.
  eapply rt_bind; [intros d0 r0; apply syntax_roundtrip_fixed; assumption|].
  apply (rt_bind (rt_flag _)). apply (rt_bind (upd_probs_rt _ Hpr)). apply (rt_bind (rt_flag _)).
  destruct h as [w hh xs ys cs ct sg lf lp q pr sk skp]. cbn [fh_skip_enabled fh_skip_prob] in *.
  apply (rt_last (v := skp)); [|apply rt_ret].
  apply rt_if; intros ->.
  - exact (rt_byte skp Hsk).
  - rewrite (Hsk0 eq_refl). apply rt_ret.
Qed.

(** boolean [Forall2], to check the shape and entries of a table by evaluation *)
Fixpoint all2 {A B} (f : A -> B -> bool) (la : list A) (lb : list B) : bool :=
  match la, lb with
  | [], [] => true
  | a :: ta, b :: tb => f a b && all2 f ta tb
  | _, _ => false
  end.

Lemma all2_combine {A B} (f : A -> B -> bool) (P : A * B -> B -> Prop) :
  (forall a b, f a b = true -> P (a, b) b) ->
  forall la lb, all2 f la lb = true -> Forall2 P (combine la lb) lb.
Proof.
  intros Hf. induction la as [|a ta IH]; intros [|b tb] H; try discriminate H; cbn [combine]; [constructor|].
  apply andb_prop in H. constructor; [apply Hf|apply IH]; apply H.
Qed.

Example wf_probs_default : wf_probs coeff_probs0.
Proof.
  apply (all2_combine (all2 (all2 (all2 (fun _ n => (0 <=? n) && (n <=? 255)))))); [|vm_compute; reflexivity].
  intros u3 o3. apply all2_combine. intros u2 o2. apply all2_combine. intros u1 o1. apply all2_combine.
  intros u n H. unfold P1. lia.
Qed.
