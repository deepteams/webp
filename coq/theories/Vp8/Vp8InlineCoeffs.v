(** getCoeffsInline (internal/lossy/decode_mb.go) as the Go code runs it - reader state hoisted
    into locals, "if brB < 0 { brLoad }" before every inlined fastBit / fastSigned, the unrolled
    value tree, the kCat3456 extra-bit loop with its 0 terminator, bands[n+1] prefetched.
    Vp8InlineTree.inline_coeffs_eq (C04_inline_coeffs_eq) proves these models equal to
    Vp8Syntax.tokens for every pair of reader states; [inline_coeffs_eq_lookahead] here does so
    only with data left for 357 reads ([both]) and is stated by no Properties file. *)
From Coq Require Import List ZArith Lia Bool.
From WebpGen Require Tables.
From Webp Require Import Vp8.Vp8Bool Vp8.Vp8BoolAbs Vp8.Vp8GoReader Vp8.Vp8Tables Vp8.Vp8Syntax.
Import ListNotations.
Open Scope Z_scope.

(** the two readers at the same stream position, with data for k further reads (16 bits for
    gr_bit_refines, at most 7 per read) *)
Definition both (k : nat) (g : greader) (d : bdec) : Prop :=
  exists R D j, grel g R D j /\ drel (bd_value d) (bd_range d) (bd_count d) (bd_rest d) R D j /\
    128 <= R <= 255 /\ 16 + 7 * Z.of_nat k <= j.
Definition both1 (k : nat) (g : greader) (d : bdec) : Prop :=
  exists R D j, grel g R D j /\ drel (bd_value d) (bd_range d) (bd_count d) (bd_rest d) R D j /\
    128 <= R <= 254 /\ 16 + 7 * Z.of_nat k <= j.

Lemma both1_both k g d : both1 k g d -> both k g d.
Proof. intros (R & D & j & H1 & H2 & H3 & H4). exists R, D, j. split; [exact H1|]. split; [exact H2|]. split; lia. Qed.

Lemma both1_le k k' g d : (k' <= k)%nat -> both1 k g d -> both1 k' g d.
Proof. intros Hk (R & D & j & H1 & H2 & H3 & H4). exists R, D, j. split; [exact H1|]. split; [exact H2|]. split; lia. Qed.

Lemma both_le k k' g d : (k' <= k)%nat -> both k g d -> both k' g d.
Proof. intros Hk (R & D & j & H1 & H2 & H3 & H4). exists R, D, j. split; [exact H1|]. split; [exact H2|]. split; lia. Qed.

Lemma bit_step k g d p : both (S k) g d -> 0 <= p <= 255 ->
  exists b g' d', gr_bit p g = (b, g') /\ read_bool p d = (b, d') /\ both1 k g' d'.
Proof.
  intros (R & D & j & Hg & Hd & HR & Hj) Hp.
  pose proof (gr_bit_refines g R D j p Hg HR Hp ltac:(lia)) as H1.
  pose proof Hg as (_ & _ & _ & _ & _ & _ & HD & _).
  pose proof (read_bool_refines d R D j p Hd ltac:(lia) HR Hp) as H2.
  destruct (aget p (R, D, j)) as [b [[R2 D2] j2]].
  destruct H1 as (g' & E1 & G1 & G2 & G3).
  destruct (H2 ltac:(lia)) as (d' & E2 & G4 & _).
  exists b, g', d'. split; [exact E1|]. split; [exact E2|].
  exists R2, D2, j2. split; [exact G1|]. split; [exact G4|]. split; lia.
Qed.

Lemma sign_step k g d : both1 (S k) g d ->
  exists b g' d', gr_signed g = (b, g') /\ read_flag d = (b, d') /\ both1 k g' d'.
Proof.
  intros (R & D & j & Hg & Hd & HR & Hj).
  pose proof (gr_signed_refines g R D j Hg HR ltac:(lia)) as H1.
  pose proof Hg as (_ & _ & _ & _ & _ & _ & HD & _).
  pose proof (read_bool_refines d R D j 128 Hd ltac:(lia) ltac:(lia) ltac:(lia)) as H2.
  destruct (aget 128 (R, D, j)) as [b [[R2 D2] j2]].
  destruct H1 as (g' & E1 & G1 & G2 & G3).
  destruct (H2 ltac:(lia)) as (d' & E2 & G4 & _).
  exists b, g', d'. split; [exact E1|]. split; [exact E2|].
  exists R2, D2, j2. split; [exact G1|]. split; [exact G4|]. split; lia.
Qed.

Definition gbands : list Z := WebpGen.Tables.lossy_KBands.
Definition bandp (tp : list (list (list Z))) (n ctx : Z) : list Z := nthZ (nthZ tp (nthZ gbands n 0) []) ctx [].

Definition b2z (b : bool) : Z := if b then 1 else 0.

(** for _, tabProb := range kCat3456[cat] { if tabProb == 0 { break }; v = v + v + bit } *)
Fixpoint go_cat_bits (tab : list Z) (v : Z) (g : greader) : Z * greader :=
  match tab with
  | [] => (v, g)
  | t :: tl => if t =? 0 then (v, g)
               else let '(b, g1) := gr_bit t g in go_cat_bits tl (v + v + b2z b) g1
  end.

Definition kCat3456 (cat : Z) : list Z :=
  if cat =? 0 then WebpGen.Tables.lossy_KCat3 else if cat =? 1 then WebpGen.Tables.lossy_KCat4
  else if cat =? 2 then WebpGen.Tables.lossy_KCat5 else WebpGen.Tables.lossy_KCat6.

(** from "bit(p[2])" to the magnitude v *)
Definition go_large (p : list Z) (g : greader) : Z * greader :=
  let pr i := nth i p 0 in
  let '(b2, g) := gr_bit (pr 2%nat) g in
  if negb b2 then (1, g) else
  let '(b3, g) := gr_bit (pr 3%nat) g in
  if negb b3 then
    let '(b4, g) := gr_bit (pr 4%nat) g in
    if negb b4 then (2, g) else
    let '(b5, g) := gr_bit (pr 5%nat) g in (3 + b2z b5, g)
  else
    let '(b6, g) := gr_bit (pr 6%nat) g in
    if negb b6 then
      let '(b7, g) := gr_bit (pr 7%nat) g in
      if negb b7 then
        let '(b, g) := gr_bit 159 g in (5 + b2z b, g)
      else
        let '(ba, g) := gr_bit 165 g in
        let '(bb, g) := gr_bit 145 g in (7 + 2 * b2z ba + b2z bb, g)
    else
      let '(bit1, g) := gr_bit (pr 8%nat) g in
      let '(bit0, g) := gr_bit (pr (9 + (if bit1 then 1 else 0))%nat) g in
      let cat := 2 * b2z bit1 + b2z bit0 in
      let '(v, g) := go_cat_bits (kCat3456 cat) 0 g in
      (v + 3 + 8 * 2 ^ cat, g).

(** the loop of getCoeffsInline; [acc] = the (position, signed value) pairs written so far *)
Fixpoint go_coeffs (fuel : nat) (tp : list (list (list Z))) (n : Z) (p : list Z) (skip_eob : bool)
  (g : greader) (acc : list (Z * Z)) : list (Z * Z) * Z * greader :=
  match fuel with
  | O => (acc, n, g)
  | S f =>
    let '(more, g1) := if skip_eob then (true, g) else gr_bit (nth 0 p 0) g in
    if negb more then (acc, n, g1) else
    let '(nz, g2) := gr_bit (nth 1 p 0) g1 in
    if negb nz then
      if n + 1 =? 16 then (acc, 16, g2) else go_coeffs f tp (n + 1) (bandp tp (n + 1) 0) true g2 acc
    else
      let '(v, g3) := go_large p g2 in
      let '(neg, g4) := gr_signed g3 in
      let acc' := (n, if neg then - v else v) :: acc in
      if n + 1 <? 16 then go_coeffs f tp (n + 1) (bandp tp (n + 1) (if v =? 1 then 1 else 2)) false g4 acc'
      else (acc', 16, g4)
  end.

(** getCoeffsInline(br, bands, ctx, dq0, dq1, n, out): returns the end-of-block position; the
    writes out[KZigzag[n]] = int16(sv * dq) give the dequantised block *)
Definition go_get_coeffs (tp : list (list (list Z))) (first ctx dqdc dqac : Z) (g : greader) : list Z * Z * greader :=
  let '(acc, eob, g') := go_coeffs 17 tp first (bandp tp first ctx) false g [] in
  (dequant_block acc dqdc dqac, eob, g').

Definition tp_ok (tp : list (list (list Z))) : Prop :=
  forall n ctx i, 0 <= nth i (bandp tp n ctx) 0 <= 255.

Lemma cat_bits_eq : forall ps v k g d, Forall (fun t => 1 <= t <= 255) ps ->
  both1 (length ps + k) g d ->
  exists v' g' d', go_cat_bits (ps ++ [0]) v g = (v', g') /\ read_extra ps v d = (v', d') /\ both1 k g' d'.
Proof.
  induction ps as [|t tl IH]; intros v k g d Hps H; cbn [app go_cat_bits read_extra length] in *.
  - exists v, g, d. split; [reflexivity|]. split; [reflexivity|exact H].
  - pose proof (Forall_inv Hps) as Ht. cbv beta in Ht. assert (E0 : t =? 0 = false) by (apply Z.eqb_neq; lia). rewrite E0.
    destruct (bit_step _ g d t (both1_both _ _ _ H) ltac:(lia)) as (b & g1 & d1 & E1 & E2 & H1).
    rewrite E1, E2.
    destruct (IH (v + v + b2z b) k g1 d1 (Forall_inv_tail Hps) H1) as (v' & g' & d' & G1 & G2 & G3).
    exists v', g', d'. split; [exact G1|]. split; [|exact G3].
    replace (2 * v + (if b then 1 else 0)) with (v + v + b2z b) by (unfold b2z; destruct b; lia). exact G2.
Qed.

Definition rfc_large (p : list Z) (d : bdec) : Z * bdec :=
  let '((base, extra), d1) := read_tree value_tree p d in
  let '(e, d2) := read_extra extra 0 d1 in (base + e, d2).

Ltac bstep H p Hp b g1 d1 H1 :=
  let E1 := fresh "E" in let E2 := fresh "E" in
  destruct (bit_step _ _ _ p (both1_both _ _ _ H) Hp) as (b & g1 & d1 & E1 & E2 & H1);
  rewrite E1; cbn [read_tree]; rewrite E2; cbn [negb].

Lemma pcat_ok : Forall (fun t => 1 <= t <= 255) pcat3 /\ Forall (fun t => 1 <= t <= 255) pcat4 /\
  Forall (fun t => 1 <= t <= 255) pcat5 /\ Forall (fun t => 1 <= t <= 255) pcat6.
Proof. repeat split; repeat constructor; lia. Qed.

(** 18 >= 5 tree reads + 11 extra bits (cat6) *)
Lemma large_eq p k g d : (forall i, 0 <= nth i p 0 <= 255) -> both1 (18 + k) g d ->
  exists v g' d', go_large p g = (v, g') /\ rfc_large p d = (v, d') /\ both1 k g' d'.
Proof.
  intros Hp H. unfold go_large, rfc_large, value_tree. cbv zeta.
  bstep H (nth 2 p 0) (Hp 2%nat) b2 g1 d1 H1. destruct b2; cbn [negb].
  2:{ cbn [read_extra]. exists 1, g1, d1. split; [reflexivity|]. split; [reflexivity|]. eapply both1_le; [|exact H1]. lia. }
  bstep H1 (nth 3 p 0) (Hp 3%nat) b3 g2 d2 H2. destruct b3; cbn [negb].
  2:{ bstep H2 (nth 4 p 0) (Hp 4%nat) b4 g3 d3 H3. destruct b4; cbn [negb].
      2:{ cbn [read_extra]. exists 2, g3, d3. split; [reflexivity|]. split; [reflexivity|]. eapply both1_le; [|exact H3]. lia. }
      bstep H3 (nth 5 p 0) (Hp 5%nat) b5 g4 d4 H4.
      destruct b5; cbn [read_extra b2z]; eexists _, g4, d4; (split; [reflexivity|]); (split; [reflexivity|]);
        (eapply both1_le; [|exact H4]; lia). }
  bstep H2 (nth 6 p 0) (Hp 6%nat) b6 g3 d3 H3. destruct b6; cbn [negb].
  2:{ bstep H3 (nth 7 p 0) (Hp 7%nat) b7 g4 d4 H4. destruct b7; cbn [negb].
      - (* cat2: 165, 145 *)
        unfold pcat2. cbn [read_extra].
        destruct (bit_step _ g4 d4 165 (both1_both _ _ _ H4) ltac:(lia)) as (ba & g5 & d5 & EA & EB & H5). rewrite EA, EB.
        destruct (bit_step _ g5 d5 145 (both1_both _ _ _ H5) ltac:(lia)) as (bb & g6 & d6 & EC & ED & H6). rewrite EC, ED.
        eexists _, g6, d6. split; [reflexivity|]. split; [|eapply both1_le; [|exact H6]; lia].
        unfold b2z; destruct ba, bb; reflexivity.
      - (* cat1: 159 *)
        unfold pcat1. cbn [read_extra].
        destruct (bit_step _ g4 d4 159 (both1_both _ _ _ H4) ltac:(lia)) as (ba & g5 & d5 & EA & EB & H5). rewrite EA, EB.
        eexists _, g5, d5. split; [reflexivity|]. split; [|eapply both1_le; [|exact H5]; lia].
        unfold b2z; destruct ba; reflexivity. }
  (* cat3..cat6 *)
  bstep H3 (nth 8 p 0) (Hp 8%nat) b8 g4 d4 H4.
  destruct pcat_ok as (P3 & P4 & P5 & P6).
  destruct b8; cbn [negb Nat.add].
  - bstep H4 (nth 10 p 0) (Hp 10%nat) b9 g5 d5 H5.
    destruct b9; cbn [b2z].
    + change (kCat3456 (2 * 1 + 1)) with (pcat6 ++ [0]).
      destruct (cat_bits_eq pcat6 0 (2 + k) g5 d5 P6 H5) as (v' & g' & d' & G1 & G2 & G3). rewrite G1, G2.
      eexists _, g', d'. split; [reflexivity|]. split; [f_equal; change (2 ^ (2 * 1 + 1)) with 8; lia|].
      eapply both1_le; [|exact G3]; lia.
    + change (kCat3456 (2 * 1 + 0)) with (pcat5 ++ [0]).
      destruct (cat_bits_eq pcat5 0 (8 + k) g5 d5 P5 H5) as (v' & g' & d' & G1 & G2 & G3). rewrite G1, G2.
      eexists _, g', d'. split; [reflexivity|]. split; [f_equal; change (2 ^ (2 * 1 + 0)) with 4; lia|].
      eapply both1_le; [|exact G3]; lia.
  - bstep H4 (nth 9 p 0) (Hp 9%nat) b9 g5 d5 H5.
    destruct b9; cbn [b2z].
    + change (kCat3456 (2 * 0 + 1)) with (pcat4 ++ [0]).
      destruct (cat_bits_eq pcat4 0 (9 + k) g5 d5 P4 H5) as (v' & g' & d' & G1 & G2 & G3). rewrite G1, G2.
      eexists _, g', d'. split; [reflexivity|]. split; [f_equal; change (2 ^ (2 * 0 + 1)) with 2; lia|].
      eapply both1_le; [|exact G3]; lia.
    + change (kCat3456 (2 * 0 + 0)) with (pcat3 ++ [0]).
      destruct (cat_bits_eq pcat3 0 (10 + k) g5 d5 P3 H5) as (v' & g' & d' & G1 & G2 & G3). rewrite G1, G2.
      eexists _, g', d'. split; [reflexivity|]. split; [f_equal; change (2 ^ (2 * 0 + 0)) with 1; lia|].
      eapply both1_le; [|exact G3]; lia.
Qed.

Lemma bandp_bands tp n ctx : bandp tp n ctx = nthZ (nthZ tp (nthZ bands n 0) []) ctx [].
Proof. reflexivity. Qed.

(** 21 = end-of-block test + zero test + 18 + sign *)
Theorem go_coeffs_eq tp : tp_ok tp -> forall fuel n ctx noeob g d acc, 0 <= n < 16 ->
  both (21 * fuel) g d ->
  exists acc' eob g' d',
    go_coeffs fuel tp n (bandp tp n ctx) noeob g acc = (acc', eob, g') /\
    tokens fuel tp n ctx noeob d acc = (acc', eob, d') /\ both 0 g' d'.
Proof.
  intros Htp. induction fuel as [|f IH]; intros n ctx noeob g d acc Hn H.
  - cbn [go_coeffs tokens]. exists acc, n, g, d. split; [reflexivity|]. split; [reflexivity|exact H].
  - cbn [go_coeffs tokens].
    assert (E16 : 16 <=? n = false) by (apply Z.leb_gt; lia). rewrite E16.
    rewrite <- bandp_bands. set (p := bandp tp n ctx).
    assert (Hp : forall i, 0 <= nth i p 0 <= 255) by (intros i; apply Htp).
    replace (21 * S f)%nat with (21 + 21 * f)%nat in H by lia.
    (* end-of-block check *)
    assert (H0 : exists more g1 d1,
               (if noeob then (true, g) else gr_bit (nth 0 p 0) g) = (more, g1) /\
               (if noeob then (true, d) else read_bool (nth 0 p 0) d) = (more, d1) /\
               both (20 + 21 * f) g1 d1).
    { destruct noeob.
      - exists true, g, d. split; [reflexivity|]. split; [reflexivity|].
        eapply both_le; [|exact H]. lia.
      - destruct (bit_step _ g d (nth 0 p 0) H (Hp 0%nat)) as (b & g1 & d1 & E1 & E2 & H1).
        exists b, g1, d1. split; [exact E1|]. split; [exact E2|]. apply both1_both. exact H1. }
    destruct H0 as (more & g1 & d1 & E1 & E2 & H1). rewrite E1, E2.
    destruct more; cbn [negb].
    2:{ exists acc, n, g1, d1. split; [reflexivity|]. split; [reflexivity|].
        eapply both_le; [|exact H1]. lia. }
    destruct (bit_step _ g1 d1 (nth 1 p 0) H1 (Hp 1%nat)) as (nz & g2 & d2 & E3 & E4 & H2). rewrite E3, E4.
    destruct nz; cbn [negb].
    + (* a value *)
      destruct (large_eq p (1 + 21 * f) g2 d2 Hp H2) as (v & g3 & d3 & E5 & E6 & H3). rewrite E5.
      unfold rfc_large in E6.
      destruct (read_tree value_tree p d2) as [[base extra] dx]. destruct (read_extra extra 0 dx) as [e dy].
      injection E6 as Ev Ed. subst dy. rewrite Ev.
      destruct (sign_step _ g3 d3 H3) as (neg & g4 & d4 & E7 & E8 & H4). rewrite E7, E8.
      destruct (n + 1 <? 16) eqn:En.
      * apply Z.ltb_lt in En.
        destruct (IH (n + 1) (if v =? 1 then 1 else 2) false g4 d4 ((n, if neg then - v else v) :: acc)
                    ltac:(lia) (both1_both _ _ _ H4)) as (acc' & eob & g' & d' & G1 & G2 & G3).
        exists acc', eob, g', d'. split; [exact G1|]. split; [exact G2|exact G3].
      * apply Z.ltb_ge in En. assert (n = 15) by lia. subst n.
        exists ((15, if neg then - v else v) :: acc), 16, g4, d4. split; [reflexivity|].
        split.
        { destruct f; cbn [tokens]; reflexivity. }
        apply both1_both. eapply both1_le; [|exact H4]. lia.
    + (* a zero *)
      destruct (n + 1 =? 16) eqn:En.
      * apply Z.eqb_eq in En. assert (n = 15) by lia. subst n.
        exists acc, 16, g2, d2. split; [reflexivity|]. split.
        { destruct f; cbn [tokens]; reflexivity. }
        apply both1_both. eapply both1_le; [|exact H2]. lia.
      * apply Z.eqb_neq in En.
        destruct (IH (n + 1) 0 true g2 d2 acc ltac:(lia)) as (acc' & eob & g' & d' & G1 & G2 & G3).
        { apply both1_both. eapply both1_le; [|exact H2]. lia. }
        exists acc', eob, g', d'. split; [exact G1|]. split; [exact G2|exact G3].
Qed.

(** getCoeffsInline = the specification's block reader, on the dequantised block, the end-of-block
    position and the reader position; 357 = 21 * 17 (go_get_coeffs's fuel: 16 positions + exit) *)
Theorem inline_coeffs_eq_lookahead tp first ctx dqdc dqac g d : tp_ok tp -> 0 <= first < 16 ->
  both 357 g d ->
  exists g' d', go_get_coeffs tp first ctx dqdc dqac g = (fst (fst (decode_block tp first ctx dqdc dqac d)),
                                                          snd (fst (decode_block tp first ctx dqdc dqac d)), g') /\
    snd (decode_block tp first ctx dqdc dqac d) = d' /\ both 0 g' d'.
Proof.
  intros Htp Hf H. unfold go_get_coeffs, decode_block.
  destruct (go_coeffs_eq tp Htp 17 first ctx false g d [] Hf H) as (acc' & eob & g' & d' & G1 & G2 & G3).
  rewrite G1, G2. cbn [fst snd]. exists g', d'. split; [reflexivity|]. split; [reflexivity|exact G3].
Qed.
