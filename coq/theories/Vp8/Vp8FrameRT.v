(** Frame assembly: an abstract key frame (header, per-macroblock headers and levels) is emitted as
    symbol lists (first partition; token partitions, macroblock rows round-robin), boolean-coded by
    the Go encoder model and laid out by ConformVp8Hdr.assemble; Vp8Spec.decode reads the bytes back
    and reconstructs what [rows_syn] does ([vp8_emit_decode]). *)
From Coq Require Import List ZArith Lia Bool Zeven.
From Webp Require Import Base.Res Base.Bytes Conform.ConformVp8Hdr Base.ListFacts Vp8.Vp8Bool Vp8.Vp8BoolAbs Vp8.Vp8BoolEnc Vp8.Vp8Tables Vp8.Vp8Syntax
  Vp8.Vp8SyntaxRT Vp8.Vp8TokenRT Vp8.Vp8ModeRT Vp8.Vp8Kernels Vp8.Vp8Recon Vp8.Vp8Filter Vp8.Vp8Spec.
Import ListNotations.
Open Scope Z_scope.

Record mb_syn : Type := mkMbSyn {
  ms_hdr : mb_hdr;
  ms_y2 : list Z;                       (* levels of the Y2 block (16x16 modes), zig-zag order *)
  ms_ys : list (list (list Z));         (* 4 rows of 4 luma blocks *)
  ms_us : list (list (list Z)); ms_vs : list (list (list Z)) }.   (* 2 rows of 2 chroma blocks *)

(** returns: new column contexts, reconstructed macroblocks, symbols of the first and of the token partition *)
Fixpoint row_syn (qk : quirks) (h : frame_hdr) (cols : list colctx) (left : leftctx)
  (aboveleft : option mbpix) (mbs : list mb_syn)
  : list colctx * list (mbpix * finfo) * list (bool * Z) * list (bool * Z) :=
  match cols, mbs with
  | c :: rest, m :: mtl =>
    let mh := ms_hdr m in
    let is4 := mh_is4 mh in
    let sym0 := e_mb_hdr h (cc_b c) (lc_b left) mh in
    let nb := bctx_after mh (cc_b c) (lc_b left) in
    let '(res, na, nl, symT) :=
      if mh_skip mh then
        (zero_res (negb is4), skip_ctx is4 (cc_nz c), skip_ctx is4 (lc_nz left), [])
      else
        (res_of (seg_dq h (mh_seg mh)) is4 (ms_y2 m) (ms_ys m) (ms_us m) (ms_vs m),
         fst (nz_after is4 (cc_nz c) (lc_nz left) (ms_y2 m) (ms_ys m) (ms_us m) (ms_vs m)),
         snd (nz_after is4 (cc_nz c) (lc_nz left) (ms_y2 m) (ms_ys m) (ms_us m) (ms_vs m)),
         e_residuals (fh_probs h) is4 (cc_nz c) (lc_nz left) (ms_y2 m) (ms_ys m) (ms_us m) (ms_vs m)) in
    let ar := match rest with c' :: _ => cc_pix c' | [] => None end in
    let pix := recon_mb mh res (mk_edges (cc_pix c) (lc_pix left) aboveleft ar) in
    let has_coeffs := if qk_inner_by_flag qk then negb (mh_skip mh) else r_any res in
    let fi := mkFi (lf_mb_params (negb (qk_no_mid_clamp qk)) h (mh_seg mh) is4) (is4 || has_coeffs) in
    let '(cols', out, s0, sT) := row_syn qk h rest (mkLeft (snd nb) nl (Some pix)) (cc_pix c) mtl in
    (mkCol (fst nb) na (Some pix) :: cols', (pix, fi) :: out, sym0 ++ s0, symT ++ sT)
  | _, _ => ([], [], [], [])
  end.

Definition nz_shape (c : nzctx) : Prop :=
  length (nz_y c) = 4%nat /\ length (nz_u c) = 2%nat /\ length (nz_v c) = 2%nat.

Fixpoint wf_row (h : frame_hdr) (cols : list colctx) (left : leftctx) (mbs : list mb_syn) : Prop :=
  match cols, mbs with
  | c :: rest, m :: mtl =>
    let mh := ms_hdr m in
    let is4 := mh_is4 mh in
    wf_mb_hdr h (cc_b c) (lc_b left) mh /\ nz_shape (cc_nz c) /\ nz_shape (lc_nz left) /\
    (mh_skip mh = false ->
       wf_levels 0 false (ms_y2 m) /\ wf_rows (if is4 then 0 else 1) 4 (ms_ys m) /\
       wf_rows 0 2 (ms_us m) /\ wf_rows 0 2 (ms_vs m)) /\
    let nb := bctx_after mh (cc_b c) (lc_b left) in
    let nl := if mh_skip mh then skip_ctx is4 (lc_nz left)
              else snd (nz_after is4 (cc_nz c) (lc_nz left) (ms_y2 m) (ms_ys m) (ms_us m) (ms_vs m)) in
    wf_row h rest (mkLeft (snd nb) nl None) mtl
  | [], [] => True
  | _, _ => False
  end.

Lemma wf_row_pix h : forall cols l1 l2 mbs, lc_b l1 = lc_b l2 -> lc_nz l1 = lc_nz l2 ->
  wf_row h cols l1 mbs -> wf_row h cols l2 mbs.
Proof.
  induction cols as [|c rest IH]; intros l1 l2 mbs Hb Hn H; destruct mbs as [|m mtl]; cbn [wf_row] in *; try exact H.
  rewrite <- Hb, <- Hn. exact H.
Qed.

(** what [row_syn] emits and [row_loop] reads for one macroblock's residuals (nothing when skipped) *)
Definition mb_res_syn probs q (skip is4 : bool) above left y2 ys us vs :=
  if skip then (zero_res (negb is4), skip_ctx is4 above, skip_ctx is4 left, @nil (bool * Z))
  else (res_of q is4 y2 ys us vs, fst (nz_after is4 above left y2 ys us vs),
        snd (nz_after is4 above left y2 ys us vs), e_residuals probs is4 above left y2 ys us vs).

Lemma mb_res_rt {probs q} {skip is4 : bool} {above left y2 ys us vs res na nl symT dt rest} :
  nz_shape above -> nz_shape left ->
  (skip = false -> wf_levels 0 false y2 /\ wf_rows (if is4 then 0 else 1) 4 ys /\ wf_rows 0 2 us /\ wf_rows 0 2 vs) ->
  mb_res_syn probs q skip is4 above left y2 ys us vs = (res, na, nl, symT) ->
  sync dt (symT ++ rest) ->
  nl = (if skip then skip_ctx is4 left else snd (nz_after is4 above left y2 ys us vs)) /\
  exists dt', (if skip then (zero_res (negb is4), skip_ctx is4 above, skip_ctx is4 left, dt)
               else parse_residuals probs q is4 above left dt) = (res, na, nl, dt') /\ sync dt' rest.
Proof.
  unfold mb_res_syn. intros (A1 & A2 & A3) (L1 & L2 & L3) Hwf E S.
  destruct skip; injection E; intros <- <- <- <-; (split; [reflexivity|]).
  - exists dt. split; [reflexivity|exact S].
  - destruct (Hwf eq_refl) as (Hy2 & Hys & Hus & Hvs). apply parse_residuals_rt; assumption.
Qed.

Theorem row_loop_rt qk h : forall cols left al mbs d0 dt r0 rT,
  wf_row h cols left mbs ->
  sync d0 (snd (fst (row_syn qk h cols left al mbs)) ++ r0) ->
  sync dt (snd (row_syn qk h cols left al mbs) ++ rT) ->
  exists d0' dt', row_loop qk h cols left al d0 dt =
    (fst (fst (fst (row_syn qk h cols left al mbs))), snd (fst (fst (row_syn qk h cols left al mbs))), d0', dt') /\
    sync d0' r0 /\ sync dt' rT.
Proof.
  induction cols as [|c rest IH]; intros left al mbs d0 dt r0 rT Hwf H0 Ht; destruct mbs as [|m mtl];
    cbn [wf_row] in Hwf; try contradiction.
  - cbn [row_syn row_loop fst snd app] in *. exists d0, dt. split; [reflexivity|split; assumption].
  - destruct Hwf as (Hmh & Hsa & Hsl & Hres & Hrest).
    cbn [row_syn] in H0, Ht |- *. cbn [row_loop].
    (* the [] tells [mb_res_syn]'s conditional from the others on the skip flag *)
    remember (if mh_skip (ms_hdr m) then (_, []) else _) as ch eqn:Ech in H0, Ht |- *.
    symmetry in Ech. destruct ch as [[[res na] nl] symT].
    set (left' := mkLeft _ nl _) in *.
    destruct (row_syn qk h rest left' (cc_pix c) mtl) as [[[cols' out] s0] sT] eqn:Erec.
    cbn [fst snd] in H0, Ht |- *. rewrite <- app_assoc in H0, Ht.
    destruct (parse_mb_hdr_rt h (cc_b c) (lc_b left) _ d0 _ Hmh H0) as (d1 & E1 & S1). rewrite E1.
    destruct (mb_res_rt Hsa Hsl Hres Ech Ht) as (Enl & dt1 & E3 & S3). rewrite E3.
    rewrite <- Enl in Hrest.
    apply (wf_row_pix h _ _ left') in Hrest; [|reflexivity..].
    specialize (IH left' (cc_pix c) mtl d1 dt1 r0 rT Hrest).
    rewrite Erec in IH. destruct (IH S1 S3) as (d0' & dt' & E2 & S0' & St').
    fold left'. rewrite E2. exists d0', dt'. split; [reflexivity|split; assumption].
Qed.

Fixpoint rows_syn (qk : quirks) (h : frame_hdr) (cols : list colctx) (rows : list (list mb_syn))
  : list (list (mbpix * finfo)) * list (bool * Z) * list (list (bool * Z)) :=
  match rows with
  | [] => ([], [], [])
  | mbs :: rtl =>
    let '(cols', out, s0, sT) := row_syn qk h cols left0 None mbs in
    let '(outs, s0s, sTs) := rows_syn qk h cols' rtl in
    (out :: outs, s0 ++ s0s, sT :: sTs)
  end.

(* [qk] only because the column contexts of the next row are taken from [row_syn qk] *)
Fixpoint wf_rows_syn (qk : quirks) (h : frame_hdr) (cols : list colctx) (rows : list (list mb_syn)) : Prop :=
  match rows with
  | [] => True
  | mbs :: rtl => wf_row h cols left0 mbs /\ wf_rows_syn qk h (fst (fst (fst (row_syn qk h cols left0 None mbs)))) rtl
  end.

(** symbols of partition i: the rows r >= mby with r mod n = i, in order *)
Fixpoint part_syms (n i mby : Z) (row_syms : list (list (bool * Z))) : list (bool * Z) :=
  match row_syms with
  | [] => []
  | s :: tl => (if mby mod n =? i then s else []) ++ part_syms n i (mby + 1) tl
  end.

Lemma part_syms_hit n i mby s tl : mby mod n = i ->
  part_syms n i mby (s :: tl) = s ++ part_syms n i (mby + 1) tl.
Proof. intros H. cbn [part_syms]. rewrite (proj2 (Z.eqb_eq _ _) H). reflexivity. Qed.

Lemma part_syms_miss n i mby s tl : mby mod n <> i ->
  part_syms n i mby (s :: tl) = part_syms n i (mby + 1) tl.
Proof. intros H. cbn [part_syms]. rewrite (proj2 (Z.eqb_neq _ _) H). reflexivity. Qed.

Lemma nth_set_nth {A} (l : list A) : forall n i x d, (n < length l)%nat ->
  nth i (set_nth n x l) d = if Nat.eqb i n then x else nth i l d.
Proof.
  induction l as [|y t IH]; intros n i x d Hn; [cbn in Hn; lia|].
  destruct n as [|n]; cbn [set_nth].
  - destruct i; reflexivity.
  - destruct i as [|i]; [reflexivity|]. cbn [nth Nat.eqb]. apply IH. cbn [length] in Hn. lia.
Qed.

Lemma set_nth_length {A} (l : list A) : forall n x, length (set_nth n x l) = length l.
Proof. induction l as [|y t IH]; intros [|n] x; cbn [set_nth length]; try reflexivity. rewrite IH. reflexivity. Qed.

(** row mby is read from decoder mby mod n; at the end every decoder has consumed exactly its symbols *)
Theorem rows_loop_rt qk h : forall rows mby cols d0 ds,
  wf_rows_syn qk h cols rows -> 0 <= mby -> (0 < length ds)%nat ->
  let n := Z.of_nat (length ds) in
  sync d0 (snd (fst (rows_syn qk h cols rows))) ->
  (forall i, (i < length ds)%nat ->
     sync (nth i ds (bd_init [])) (part_syms n (Z.of_nat i) mby (snd (rows_syn qk h cols rows)))) ->
  exists d0' ds', rows_loop qk h (length rows) mby cols d0 ds = (fst (fst (rows_syn qk h cols rows)), d0', ds') /\
    sync d0' [] /\ Forall (fun d => sync d []) ds'.
Proof.
  induction rows as [|mbs rtl IH]; intros mby cols d0 ds Hwf Hmby Hne n H0 Hparts.
  - exists d0, ds. split; [reflexivity|]. split; [exact H0|].
    apply Forall_nth. intros i d Hi. rewrite (nth_indep _ d (bd_init [])) by exact Hi. exact (Hparts i Hi).
  - destruct Hwf as [Hrow Hrest].
    cbn [rows_syn] in H0, Hparts |- *. cbn [rows_loop length].
    destruct (row_syn qk h cols left0 None mbs) as [[[cols' out] s0] sT] eqn:Er. cbn [fst] in Hrest.
    destruct (rows_syn qk h cols' rtl) as [[outs s0s] sTs] eqn:Ers.
    cbn [fst snd] in H0, Hparts |- *. fold n.
    pose proof (Z.mod_pos_bound mby n ltac:(lia)) as Hmod.
    set (pi := Z.to_nat (mby mod n)).
    assert (Hpi : (pi < length ds)%nat) by lia.
    pose proof (Hparts pi Hpi) as Hp. rewrite part_syms_hit in Hp by lia.
    pose proof (row_loop_rt qk h cols left0 None mbs d0 (nth pi ds (bd_init [])) s0s
                  (part_syms n (Z.of_nat pi) (mby + 1) sTs) Hrow) as Hstep.
    rewrite Er in Hstep. destruct (Hstep H0 Hp) as (d1 & dt1 & E1 & S1 & St1). rewrite E1. cbn [fst snd].
    specialize (IH (mby + 1) cols' d1 (set_nth pi dt1 ds) Hrest ltac:(lia)).
    rewrite Ers, set_nth_length in IH. cbn [fst snd] in IH. destruct (IH Hne S1) as (d0' & ds' & E2 & S2 & F2).
    + intros i Hi. rewrite nth_set_nth by exact Hpi.
      destruct (Nat.eqb_spec i pi) as [->|Hi']; [exact St1|].
      rewrite <- (part_syms_miss n (Z.of_nat i) mby sT) by lia. exact (Hparts i Hi).
    + rewrite E2. exists d0', ds'. split; [reflexivity|split; assumption].
Qed.


Lemma parse_layout_assemble w h part0 tail : 1 <= w < 16384 -> 1 <= h < 16384 -> len part0 < 2 ^ 19 ->
  parse_layout (frame_tag (len part0) ++ pic_header w h ++ part0 ++ tail) = Ok (mkLayout w h 0 0 0 part0 tail).
Proof.
  intros Hw Hh Hp.
  destruct (frame_head w h (len part0) (part0 ++ tail) Hw Hh (conj (len_nonneg part0) Hp))
    as (b0 & b1 & b2 & w0 & w1 & h0 & h1 & E & Eb & Ew & Ew1 & Eh & Eh1).
  destruct (tag_fields (len part0)) as (T2 & T3 & T4 & T5).
  rewrite E. cbn [parse_layout].
  rewrite Eb, Zeven_mod, Zodd_mod, T2, T3, T4, T5, Ew, Ew1, Eh, Eh1, (dim_nonzero w Hw), (dim_nonzero h Hh).
  change (Z.of_nat (length (part0 ++ tail))) with (len (part0 ++ tail)). rewrite len_app_ltb.
  cbn. f_equal. f_equal; [apply take_app|apply drop_app].
Qed.

(** ConformVp8Hdr.split_parts (C02) and Vp8Syntax.split_parts (the decoder) model one reader;
    they agree where the former succeeds *)
Lemma split_parts_agree : forall n tbl data ps,
  ConformVp8Hdr.split_parts n tbl data = Ok ps -> Vp8Syntax.split_parts n tbl data = Ok ps.
Proof.
  induction n as [|n IH]; intros tbl data ps H; [exact H|].
  destruct tbl as [|a [|b [|c tbl]]]; try discriminate H.
  cbn [ConformVp8Hdr.split_parts] in H. cbn [Vp8Syntax.split_parts rd24le skipn]. fold (len data).
  destruct (len data <? _); [discriminate H|].
  destruct (ConformVp8Hdr.split_parts n tbl _) as [ps'| |] eqn:E; try discriminate H.
  unfold drop in E. rewrite (IH _ _ _ E). exact H.
Qed.

Lemma token_parts_assemble lp parts : 0 <= lp -> length parts = Z.to_nat (2 ^ lp) -> sized_parts_ok parts = true ->
  token_parts lp (size_table parts ++ concat parts) = Ok parts.
Proof.
  intros Hlp Hlen Hok. unfold token_parts. rewrite <- Hlen.
  destruct parts as [|p tl]; [cbn [length] in Hlen; pose proof (Z.pow_pos_nonneg 2 lp); lia|].
  cbn [length]. replace (S (length tl) - 1)%nat with (length tl) by lia.
  pose proof (size_table_len p tl) as Ht. unfold len in Ht.
  replace (3 * length tl)%nat with (length (size_table (p :: tl))) by lia.
  rewrite firstn_app_exact, skipn_app_exact.
  replace (_ <? _)%nat with false by (symmetry; apply Nat.ltb_ge; rewrite app_length; lia).
  apply split_parts_agree, split_parts_ok, Hok.
Qed.

Record frame_syn : Type := mkFrameSyn {
  fs_hdr : frame_hdr;
  fs_upd_seg : bool; fs_upd_lf : bool; fs_refresh : bool;   (* header flags that do not reach frame_hdr *)
  fs_rows : list (list mb_syn) }.

Definition fs_cols (s : frame_syn) : list colctx := repeat col0 (Z.to_nat ((fh_w (fs_hdr s) + 15) / 16)).
Definition fs_nparts (s : frame_syn) : Z := 2 ^ fh_log2parts (fs_hdr s).

Definition frame_syms (qk : quirks) (s : frame_syn) : list (bool * Z) * list (list (bool * Z)) :=
  let '(_, s0, sTs) := rows_syn qk (fs_hdr s) (fs_cols s) (fs_rows s) in
  (e_part1_hdr (fs_upd_seg s) (fs_upd_lf s) (fs_refresh s) (fs_hdr s) ++ s0,
   map (fun i => part_syms (fs_nparts s) (Z.of_nat i) 0 sTs) (seq 0 (Z.to_nat (fs_nparts s)))).

(** every symbol list through the Go boolean encoder, then assembleFrame's layout with its size guards *)
Definition emit_key_frame (qk : quirks) (s : frame_syn) : Res (list Z) :=
  let '(s0, sps) := frame_syms qk s in
  emit_frame (fh_w (fs_hdr s)) (fh_h (fs_hdr s)) (bool_encode s0) (map bool_encode sps).

Definition reconstruct (qk : quirks) (s : frame_syn) : planes * planes :=
  let h := fs_hdr s in
  let rows := fst (fst (rows_syn qk h (fs_cols s) (fs_rows s))) in
  let unf := map (map fst) rows in
  let filt := if lf_level (fh_lf h) =? 0 then unf else filter_frame (lf_is_simple (fh_lf h)) rows in
  (planes_of (fh_w h) (fh_h h) unf, planes_of (fh_w h) (fh_h h) filt).

Definition wf_frame_syn (qk : quirks) (s : frame_syn) : Prop :=
  let h := fs_hdr s in
  wf_frame_hdr (qk_seg_abs_default qk) (fs_upd_seg s) (fs_upd_lf s) h /\
  1 <= fh_w h < 16384 /\ 1 <= fh_h h < 16384 /\ fh_xscale h = 0 /\ fh_yscale h = 0 /\
  length (fs_rows s) = Z.to_nat ((fh_h h + 15) / 16) /\
  wf_rows_syn qk h (fs_cols s) (fs_rows s) /\
  probs_ok (fst (frame_syms qk s)) /\ Forall probs_ok (snd (frame_syms qk s)).

Lemma frame_syms_eq qk s :
  let R := rows_syn qk (fs_hdr s) (fs_cols s) (fs_rows s) in
  frame_syms qk s =
    (e_part1_hdr (fs_upd_seg s) (fs_upd_lf s) (fs_refresh s) (fs_hdr s) ++ snd (fst R),
     map (fun i => part_syms (fs_nparts s) (Z.of_nat i) 0 (snd R)) (seq 0 (Z.to_nat (fs_nparts s)))).
Proof. unfold frame_syms. destruct (rows_syn _ _ _ _) as [[outs s0] sTs]. reflexivity. Qed.

Lemma emit_key_frame_ok qk s bs : emit_key_frame qk s = Ok bs ->
  let part0 := bool_encode (fst (frame_syms qk s)) in
  let parts := map bool_encode (snd (frame_syms qk s)) in
  len part0 < 2 ^ 19 /\ sized_parts_ok parts = true /\
  bs = assemble (fh_w (fs_hdr s)) (fh_h (fs_hdr s)) part0 parts.
Proof. unfold emit_key_frame. destruct (frame_syms qk s) as [s0 sps]. apply emit_frame_ok. Qed.

Lemma wf_frame_dims qk s : wf_frame_syn qk s ->
  1 <= fh_w (fs_hdr s) < 16384 /\ 1 <= fh_h (fs_hdr s) < 16384.
Proof. intros (_ & Hw & Hh & _). split; assumption. Qed.

Lemma wf_frame_probs qk s : wf_frame_syn qk s ->
  probs_ok (fst (frame_syms qk s)) /\ Forall probs_ok (snd (frame_syms qk s)).
Proof. intros (_ & _ & _ & _ & _ & _ & _ & H). exact H. Qed.

Lemma vp8_emit_decode_full qk s bs : wf_frame_syn qk s -> emit_key_frame qk s = Ok bs ->
  exists r, decode_gen qk bs = Ok r /\
    dc_w r = fh_w (fs_hdr s) /\ dc_h r = fh_h (fs_hdr s) /\ dc_hdr r = fs_hdr s /\
    dc_unfiltered r = fst (reconstruct qk s) /\ dc_filtered r = snd (reconstruct qk s) /\
    dc_past_end r = false.
Proof.
  intros (Hhdr & Hw & Hh & Hxs & Hys & Hlen & Hrows & Hok0 & Hoks) Hemit.
  apply emit_key_frame_ok in Hemit as (H19 & Hsz & ->).
  rewrite frame_syms_eq in *. cbn [fst snd] in *. rewrite Forall_map in Hoks.
  set (h := fs_hdr s) in *. set (R := rows_syn qk h (fs_cols s) (fs_rows s)) in *.
  assert (Hlp : 0 <= fh_log2parts h) by (destruct Hhdr as (_ & _ & Hlp & _); lia).
  assert (Hn : 0 < fs_nparts s) by (apply Z.pow_pos_nonneg; [lia|exact Hlp]).
  set (n := fs_nparts s) in *.
  unfold decode_gen, assemble.
  rewrite parse_layout_assemble by assumption. cbn [bind ly_w ly_h ly_xs ly_ys ly_part1 ly_rest].
  destruct (syntax_roundtrip (qk_seg_abs_default qk) _ _ _ h _ _ Hhdr (sync_encode0 _ Hok0)) as (d0 & Eh & S1).
  rewrite Hxs, Hys in Eh. rewrite Eh.
  rewrite token_parts_assemble; [|exact Hlp|rewrite !map_length, seq_length; reflexivity|exact Hsz].
  cbn [bind]. rewrite !map_map.
  destruct (rows_loop_rt qk h (fs_rows s) 0 (fs_cols s) d0
              (map (fun i => bd_init (bool_encode (part_syms n (Z.of_nat i) 0 (snd R)))) (seq 0 (Z.to_nat n))))
    as (d0' & ds' & Eloop & Sd0 & Sds); rewrite ?map_length, ?seq_length; [exact Hrows|lia|lia|exact S1| |].
  { intros i Hi. rewrite Z2Nat.id, (nth_map_seq _ _ 0) by lia. apply sync_encode0.
    apply (proj1 (Forall_forall _ _) Hoks). apply in_seq. lia. }
  rewrite <- Hlen. unfold fs_cols in Eloop. fold h in Eloop. rewrite Eloop.
  eexists. split; [reflexivity|]. repeat (split; [reflexivity|]).
  (* no decoder has looked beyond its partition *)
  cbn [dc_past_end]. rewrite (sync_nil_past d0' Sd0). cbn [orb].
  destruct (existsb bd_past ds') eqn:Ex; [|reflexivity].
  apply existsb_exists in Ex as (x & Hin & Hx). rewrite Forall_forall in Sds.
  rewrite (sync_nil_past x (Sds x Hin)) in Hx. discriminate Hx.
Qed.

Theorem vp8_emit_decode qk s bs : wf_frame_syn qk s -> emit_key_frame qk s = Ok bs ->
  exists r, decode_gen qk bs = Ok r /\
    dc_w r = fh_w (fs_hdr s) /\ dc_h r = fh_h (fs_hdr s) /\ dc_hdr r = fs_hdr s /\
    dc_unfiltered r = fst (reconstruct qk s) /\ dc_filtered r = snd (reconstruct qk s).
Proof.
  intros Hwf He. destruct (vp8_emit_decode_full qk s bs Hwf He) as (r & H1 & H2 & H3 & H4 & H5 & H6 & _).
  exists r. repeat split; assumption.
Qed.

(** no read beyond the end of a partition: BoolWriter.Finish pads at least 8 bits beyond the last
    symbol's interval *)
Theorem emit_no_past_end qk s bs : wf_frame_syn qk s -> emit_key_frame qk s = Ok bs ->
  exists r, decode_gen qk bs = Ok r /\ dc_past_end r = false.
Proof.
  intros Hwf He. destruct (vp8_emit_decode_full qk s bs Hwf He) as (r & H1 & _ & _ & _ & _ & _ & H7).
  exists r. split; assumption.
Qed.
