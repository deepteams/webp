(** Position bookkeeping of the RFC decoder: the number of bits it shifts while reading a
    symbol sequence is the number the encoder shifted while writing it, so after reading
    everything the Go encoder wrote (Finish pads at least 8 bits beyond the last symbol's
    interval) the decoder has never decoded a bool from beyond the end of its input. *)
From Coq Require Import List ZArith Lia Bool.
From Webp Require Import Vp8.Vp8Bool Vp8.Vp8BoolAbs Vp8.Vp8BoolEnc.
Import ListNotations.
Open Scope Z_scope.

Fixpoint rfc_run (probs : list Z) (d : bdec) : bdec :=
  match probs with
  | [] => d
  | p :: tl => rfc_run tl (snd (read_bool p d))
  end.

Lemma bd_normalize_shift : forall fuel v r c rest pos s,
  let '(_, r', _, _, pos') := bd_normalize fuel v r c rest pos in
  norm_loop fuel r s = (r', s + (pos' - pos)).
Proof.
  induction fuel as [|f IH]; intros v r c rest pos s; cbn [bd_normalize norm_loop].
  - f_equal. lia.
  - destruct (r <? 128).
    + destruct (bd_shift1 v c rest) as [[v1 c1] r1].
      specialize (IH v1 (r * 2) c1 r1 (pos + 1) (s + 1)).
      destruct (bd_normalize f v1 (r * 2) c1 r1 (pos + 1)) as [[[[v' r'] c'] rest'] pos'].
      rewrite IH. f_equal. lia.
    + f_equal. lia.
Qed.

Lemma read_bool_fields p d :
  let s := bd_split (bd_range d) p in
  let b := fst (read_bool p d) in
  let d' := snd (read_bool p d) in
  norm_loop 8 (if b then bd_range d - s else s) 0 = (bd_range d', bd_pos d' - bd_pos d) /\
  bd_lim d' = bd_lim d /\ bd_past d' = bd_past d || (bd_lim d <? bd_pos d).
Proof.
  cbv zeta. unfold read_bool. set (s := bd_split (bd_range d) p).
  destruct (s * 256 <=? bd_value d).
  - pose proof (bd_normalize_shift 8 (bd_value d - s * 256) (bd_range d - s) (bd_count d) (bd_rest d) (bd_pos d) 0) as H.
    destruct (bd_normalize 8 (bd_value d - s * 256) (bd_range d - s) (bd_count d) (bd_rest d) (bd_pos d)) as [[[[v' r'] c'] rest'] pos'].
    cbn [fst snd bd_range bd_pos bd_lim bd_past]. rewrite H. repeat split.
  - pose proof (bd_normalize_shift 8 (bd_value d) s (bd_count d) (bd_rest d) (bd_pos d) 0) as H.
    destruct (bd_normalize 8 (bd_value d) s (bd_count d) (bd_rest d) (bd_pos d)) as [[[[v' r'] c'] rest'] pos'].
    cbn [fst snd bd_range bd_pos bd_lim bd_past]. rewrite H. repeat split.
Qed.

Lemma run_pos : forall ps d L k, rfc_bits (map snd ps) d = map fst ps ->
  let '(Rf, _, kf) := aenc ps (bd_range d, L, k) in
  let d' := rfc_run (map snd ps) d in
  bd_range d' = Rf /\ bd_pos d' = bd_pos d + (kf - k) /\ k <= kf /\ bd_lim d' = bd_lim d /\
  (bd_past d' = true -> bd_past d = true \/ bd_lim d < bd_pos d').
Proof.
  induction ps as [|[b p] tl IH]; intros d L k Hs; cbn [aenc map fst snd rfc_run rfc_bits] in *.
  - repeat split; try lia. intros H. left. exact H.
  - pose proof (read_bool_fields p d) as Hf. cbv zeta in Hf.
    destruct (read_bool p d) as [b' d1] eqn:Er. cbn [fst snd] in Hf |- *.
    injection Hs as Eb Hs. subst b'.
    destruct Hf as (Hn & Hlim & Hpast).
    unfold aput. fold (nsplit (bd_range d) p). unfold nsplit. rewrite Hn.
    destruct (norm_loop_spec 8 (if b then bd_range d - bd_split (bd_range d) p else bd_split (bd_range d) p) 0) as (t & Ht & Hn2).
    rewrite Hn in Hn2. apply pair_equal_spec in Hn2. destruct Hn2 as [_ Hsh].
    specialize (IH d1 ((if b then L + bd_split (bd_range d) p else L) * 2 ^ (bd_pos d1 - bd_pos d)) (k + (bd_pos d1 - bd_pos d)) Hs).
    destruct (aenc tl (bd_range d1, _, k + (bd_pos d1 - bd_pos d))) as [[Rf Lf] kf].
    destruct IH as (I1 & I2 & I3 & I4 & I5).
    split; [exact I1|]. split; [lia|]. split; [lia|]. split; [congruence|].
    intros Hp. destruct (I5 Hp) as [Hq|Hq].
    + rewrite Hpast in Hq. apply orb_true_iff in Hq. destruct Hq as [Hq|Hq]; [left; exact Hq|].
      right. apply Z.ltb_lt in Hq. lia.
    + right. lia.
Qed.

(** after the Go encoder's output for [ps] (any zero padding), the decoder that has read [ps]
    has not looked beyond its input *)
Theorem encode_no_past ps z : probs_ok ps ->
  bd_past (rfc_run (map snd ps) (bd_init (bool_encode ps ++ repeat 0 z))) = false.
Proof.
  intros Hps.
  destruct ps as [|bp tl].
  { cbn [map rfc_run]. destruct (bool_encode [] ++ repeat 0 z) as [|a [|b r]]; reflexivity. }
  set (ps := bp :: tl) in *.
  pose proof (bool_roundtrip ps z Hps) as Hrt.
  pose proof (bool_encode_spec ps Hps ltac:(discriminate)) as Hfin.
  set (d0 := bd_init (bool_encode ps ++ repeat 0 z)) in *.
  assert (Er : bd_range d0 = 255 /\ bd_pos d0 = 0 /\ bd_past d0 = false /\
               bd_lim d0 = 8 * (Z.of_nat (length (bool_encode ps ++ repeat 0 z)) - 1)).
  { unfold d0, bd_init. destruct (bool_encode ps ++ repeat 0 z) as [|a [|b r]]; repeat split. }
  destruct Er as (Er & Ep & Epast & Elim).
  pose proof (run_pos ps d0 0 0 Hrt) as Hrun. rewrite Er in Hrun.
  destruct (aenc ps (255, 0, 0)) as [[Rf Lf] kf]. cbv zeta in Hfin.
  destruct Hfin as (HkJ & _).
  destruct Hrun as (_ & Hpos & _ & _ & Hpast).
  destruct (bd_past (rfc_run (map snd ps) d0)) eqn:E; [|reflexivity].
  exfalso. destruct (Hpast eq_refl) as [H|H]; [congruence|].
  rewrite Elim, Hpos, Ep in H. rewrite app_length, Nat2Z.inj_add in H. lia.
Qed.
