(** Arithmetic-coding core of the VP8 boolean coder with exact (unbounded) integers.

    Encoder state (R, L, k): the pending interval is [L, L+R) in units of 2^-k of
    the first byte's unit.  Decoder state (R, D, j): D / 2^j is the distance of the
    stream value from the low end of the interval.  [abs_roundtrip]: every stream
    value inside the encoder's final interval decodes to the encoded bits.
    [rfc_refines_abs]: the RFC 6386 decoder of Vp8Bool (16-bit value, byte-wise
    refill) computes exactly the abstract decoder's decisions. *)
From Coq Require Import List ZArith Lia Bool.
From Webp Require Import Vp8.Vp8Bool.
Import ListNotations.
Open Scope Z_scope.

Lemma norm_loop_spec fuel r s :
  exists t, 0 <= t /\ norm_loop fuel r s = (r * 2 ^ t, s + t).
Proof.
  revert r s. induction fuel as [|f IH]; intros r s; cbn [norm_loop].
  - exists 0. split; [lia|]. f_equal; lia.
  - destruct (r <? 128) eqn:E.
    + destruct (IH (r * 2) (s + 1)) as (t & Ht & ->). exists (t + 1). split; [lia|].
      rewrite Z.pow_add_r by lia. f_equal; lia.
    + exists 0. split; [lia|]. f_equal; lia.
Qed.

Definition nsplit (R p : Z) : Z := bd_split R p.

Lemma nsplit_bounds R p : 128 <= R <= 255 -> 0 <= p <= 255 -> 1 <= nsplit R p <= R - 1.
Proof.
  intros HR Hp. unfold nsplit, bd_split.
  assert (0 <= (R - 1) * p / 256 <= R - 2).
  { split; [apply Z.div_pos; nia|].
    assert ((R - 1) * p / 256 < R - 1) by (apply Z.div_lt_upper_bound; nia). lia. }
  lia.
Qed.

(** the loop shifts until bit 7 is the top bit *)
Lemma norm_loop_log2 fuel r s : 1 <= r -> 7 - Z.log2 r <= Z.of_nat fuel ->
  let t := Z.max 0 (7 - Z.log2 r) in norm_loop fuel r s = (r * 2 ^ t, s + t).
Proof.
  revert r s. induction fuel as [|f IH]; intros r s Hr Hf t; cbn [norm_loop].
  - replace t with 0 by lia. f_equal; lia.
  - destruct (Z.ltb_spec r 128) as [H|H].
    + assert (Hk : Z.log2 r < 7) by (apply Z.log2_lt_pow2; [lia|exact H]).
      assert (E2 : Z.log2 (r * 2) = Z.log2 r + 1) by (rewrite Z.mul_comm; apply Z.log2_double; lia).
      rewrite IH by lia. rewrite E2.
      replace t with (Z.max 0 (7 - (Z.log2 r + 1)) + 1) by lia.
      rewrite Z.pow_add_r by lia. f_equal; lia.
    + assert (Hk : 7 <= Z.log2 r) by (apply Z.log2_le_pow2; [lia|exact H]).
      replace t with 0 by lia. f_equal; lia.
Qed.

Lemma norm8 r : 1 <= r <= 255 ->
  let t := 7 - Z.log2 r in
  norm_loop 8 r 0 = (r * 2 ^ t, t) /\ 0 <= t <= 7 /\ 128 <= r * 2 ^ t <= 255.
Proof.
  intros Hr t.
  destruct (Z.log2_spec r ltac:(lia)) as [Hlo Hhi]. pose proof (Z.log2_nonneg r) as H0.
  assert (Hk : Z.log2 r < 8) by (apply Z.log2_lt_pow2; [lia|change (2 ^ 8) with 256; lia]).
  split; [|split; [lia|]].
  - rewrite norm_loop_log2 by (change (Z.of_nat 8) with 8; lia). rewrite Z.max_r by lia. reflexivity.
  - assert (E : 2 ^ Z.log2 r * 2 ^ t = 128)
      by (rewrite <- Z.pow_add_r by lia; replace (Z.log2 r + t) with 7 by lia; reflexivity).
    rewrite Z.pow_succ_r in Hhi by lia. assert (0 < 2 ^ t) by (apply Z.pow_pos_nonneg; lia). nia.
Qed.

Lemma norm8_id r : 128 <= r -> norm_loop 8 r 0 = (r, 0).
Proof. intros H. cbn [norm_loop]. destruct (Z.ltb_spec r 128); [lia|reflexivity]. Qed.

Lemma norm8_half r : 64 <= r <= 127 -> norm_loop 8 r 0 = (r * 2, 1).
Proof.
  intros H. destruct (norm8 r ltac:(lia)) as (E & _).
  rewrite (Z.log2_unique r 6) in E by (change (2 ^ 6) with 64; change (2 ^ Z.succ 6) with 128; lia).
  exact E.
Qed.

(** probability 128 on range_ = range - 1 in 127..254: the split is range_ >> 1 and the new
    range_ is in 63..127 *)
Lemma half_range r (b : bool) : 127 <= r <= 254 ->
  r * 128 / 256 = r / 2 /\
  63 <= (if b then r - (r / 2 + 1) else r / 2) <= 127 /\
  (r <= 253 -> (if b then r - (r / 2 + 1) else r / 2) <= 126).
Proof. intros H. destruct b; Z.div_mod_to_equations; lia. Qed.

(** "| 1" in GetSigned / fastSigned *)
Lemma lor_1 x : Z.lor x 1 = 2 * (x / 2) + 1.
Proof.
  apply Z.bits_inj'. intros n Hn. rewrite Z.lor_spec.
  destruct (Z.eq_dec n 0) as [->|Hne].
  - rewrite Z.testbit_odd_0. apply orb_true_r.
  - assert (exists m, 0 <= m /\ n = Z.succ m) as (m & Hm & ->) by (exists (n - 1); lia).
    rewrite Z.testbit_odd_succ, Z.div2_bits by lia.
    rewrite (Z.bits_above_log2 1) by (cbn; lia). apply orb_false_r.
Qed.

(** a shifted range is even, so 255 is never produced from a range below 255 *)
Lemma norm8_le254 r : 1 <= r <= 254 -> fst (norm_loop 8 r 0) <= 254.
Proof.
  intros H. destruct (norm8 r ltac:(lia)) as (-> & Ht & Hr). cbn [fst].
  destruct (Z.eq_dec (7 - Z.log2 r) 0) as [E|E].
  - rewrite E, Z.pow_0_r. lia.
  - replace (7 - Z.log2 r) with (Z.succ (6 - Z.log2 r)) in * by lia.
    rewrite Z.pow_succ_r in * by lia. lia.
Qed.

(** the Go tables (new range - 1, shift) indexed by range - 1 (kNorm / kNewRange,
    kVP8Log2Range / kVP8NewRange) against the loop *)
Definition tab_norm_ok (newrange shift : list Z) : bool :=
  forallb (fun r => let '(r2, sh) := norm_loop 8 (r + 1) 0 in
                    (nth (Z.to_nat r) newrange 0 + 1 =? r2) && (nth (Z.to_nat r) shift 0 =? sh))
          (zrange 0 127).

Lemma tab_norm_spec newrange shift r : tab_norm_ok newrange shift = true -> 0 <= r <= 126 ->
  norm_loop 8 (r + 1) 0 = (nth (Z.to_nat r) newrange 0 + 1, nth (Z.to_nat r) shift 0) /\
  1 <= nth (Z.to_nat r) shift 0 <= 7.
Proof.
  intros H Hr. apply zrange_forallb with (x := r) in H; [|lia].
  destruct (norm8 (r + 1) ltac:(lia)) as (E & Ht & _).
  assert (Hk : Z.log2 (r + 1) < 7) by (apply Z.log2_lt_pow2; [lia|change (2 ^ 7) with 128; lia]).
  rewrite E in H |- *. apply andb_true_iff in H. destruct H as [H1 H2].
  apply Z.eqb_eq in H1, H2. rewrite H1, H2. split; [reflexivity|lia].
Qed.

Definition aput (b : bool) (p : Z) (st : Z * Z * Z) : Z * Z * Z :=
  let '(R, L, k) := st in
  let s := nsplit R p in
  let R1 := if b then R - s else s in
  let L1 := if b then L + s else L in
  let '(R2, sh) := norm_loop 8 R1 0 in
  (R2, L1 * 2 ^ sh, k + sh).

Fixpoint aenc (ps : list (bool * Z)) (st : Z * Z * Z) : Z * Z * Z :=
  match ps with
  | [] => st
  | (b, p) :: tl => aenc tl (aput b p st)
  end.

Definition aget (p : Z) (st : Z * Z * Z) : bool * (Z * Z * Z) :=
  let '(R, D, j) := st in
  let s := nsplit R p in
  let b := s * 2 ^ j <=? D in
  let R1 := if b then R - s else s in
  let D1 := if b then D - s * 2 ^ j else D in
  let '(R2, sh) := norm_loop 8 R1 0 in
  (b, (R2, D1, j - sh)).

Fixpoint adec (probs : list Z) (st : Z * Z * Z) : list bool :=
  match probs with
  | [] => []
  | p :: tl => let '(b, st1) := aget p st in b :: adec tl st1
  end.

Definition probs_ok (ps : list (bool * Z)) : Prop := Forall (fun bp => 0 <= snd bp <= 255) ps.

Lemma aput_spec (b : bool) p R L k : 128 <= R <= 255 -> 0 <= p <= 255 ->
  exists t, 0 <= t /\
    let s := nsplit R p in
    let R1 := if b then R - s else s in
    let L1 := if b then L + s else L in
    aput b p (R, L, k) = (R1 * 2 ^ t, L1 * 2 ^ t, k + t) /\
    norm_loop 8 R1 0 = (R1 * 2 ^ t, t) /\ 1 <= R1 <= 255 /\ 128 <= R1 * 2 ^ t <= 255.
Proof.
  intros HR Hp. pose proof (nsplit_bounds R p HR Hp) as Hs. cbv zeta.
  set (R1 := if b then R - nsplit R p else nsplit R p).
  assert (HR1 : 1 <= R1 <= 255) by (unfold R1; destruct b; lia).
  destruct (norm8 R1 HR1) as (Hn & Ht & Hr).
  exists (7 - Z.log2 R1). unfold aput. fold R1. rewrite Hn. repeat split; lia.
Qed.

(** Any X inside the final interval (at scale J) is inside every earlier interval and
    is decoded, from the matching decoder state, to the encoded bits. *)
Theorem abs_roundtrip : forall ps R L k, probs_ok ps -> 128 <= R <= 255 ->
  let '(Rf, Lf, kf) := aenc ps (R, L, k) in
  k <= kf /\ 128 <= Rf <= 255 /\
  forall J X, kf <= J -> Lf * 2 ^ (J - kf) <= X < (Lf + Rf) * 2 ^ (J - kf) ->
  L * 2 ^ (J - k) <= X < (L + R) * 2 ^ (J - k) /\
  adec (map snd ps) (R, X - L * 2 ^ (J - k), J - k) = map fst ps.
Proof.
  induction ps as [|[b p] tl IH]; intros R L k Hps HR; cbn [aenc].
  - split; [lia|]. split; [exact HR|]. intros J X HJ HX. split; [exact HX|reflexivity].
  - inversion Hps as [|? ? Hp Htl]; subst. cbn [snd] in Hp.
    pose proof (nsplit_bounds R p HR Hp) as Hs.
    destruct (aput_spec b p R L k HR Hp) as (t & Ht & Hput & Hn & HR1 & HR2). cbv zeta in *.
    rewrite Hput.
    set (s := nsplit R p) in *.
    set (R1 := if b then R - s else s) in *.
    set (L1 := if b then L + s else L) in *.
    specialize (IH (R1 * 2 ^ t) (L1 * 2 ^ t) (k + t) Htl HR2).
    destruct (aenc tl (R1 * 2 ^ t, L1 * 2 ^ t, k + t)) as [[Rf Lf] kf].
    destruct IH as (Hk & HRf & IH).
    split; [lia|]. split; [exact HRf|].
    intros J X HJ HX. specialize (IH J X HJ HX). destruct IH as [Hin Hdec].
    (* scale bookkeeping: 2^(J-k) = 2^t * 2^(J-(k+t)) *)
    assert (Epow : 2 ^ (J - k) = 2 ^ t * 2 ^ (J - (k + t))).
    { rewrite <- Z.pow_add_r by lia. f_equal. lia. }
    set (q := 2 ^ (J - (k + t))) in *.
    assert (Hq : 0 < q) by (unfold q; apply Z.pow_pos_nonneg; lia).
    assert (Hin1 : L1 * 2 ^ (J - k) <= X < (L1 + R1) * 2 ^ (J - k)).
    { rewrite Epow. replace (L1 * (2 ^ t * q)) with (L1 * 2 ^ t * q) by ring.
      replace ((L1 + R1) * (2 ^ t * q)) with ((L1 * 2 ^ t + R1 * 2 ^ t) * q) by ring. exact Hin. }
    set (w := 2 ^ (J - k)) in *.
    assert (Hw : 0 < w) by (unfold w; apply Z.pow_pos_nonneg; lia).
    split.
    + unfold L1, R1 in Hin1. destruct b; nia.
    + cbn [map fst snd adec]. unfold aget. fold s. fold w.
      assert (Eb : (s * w <=? X - L * w) = b).
      { unfold L1, R1 in Hin1. destruct b.
        - apply Z.leb_le. nia.
        - apply Z.leb_gt. nia. }
      rewrite Eb. fold R1. rewrite Hn.
      f_equal.
      replace (if b then X - L * w - s * w else X - L * w) with (X - L1 * w)
        by (unfold L1; destruct b; ring).
      replace (X - L1 * w) with (X - L1 * 2 ^ t * q) by (rewrite Epow; ring).
      replace (J - k - t) with (J - (k + t)) by lia.
      exact Hdec.
Qed.

Definition is_byte (b : Z) : Prop := 0 <= b <= 255.

(** big-endian value of a byte list *)
Fixpoint bval (l : list Z) : Z :=
  match l with
  | [] => 0
  | b :: tl => b * 2 ^ (8 * Z.of_nat (length tl)) + bval tl
  end.

Lemma bval_bound l : Forall is_byte l -> 0 <= bval l < 2 ^ (8 * Z.of_nat (length l)).
Proof.
  induction l as [|b tl IH]; intros H; cbn [bval length].
  - cbn. lia.
  - inversion H as [|? ? Hb Ht]; subst. specialize (IH Ht).
    replace (8 * Z.of_nat (S (length tl))) with (8 + 8 * Z.of_nat (length tl)) by lia.
    rewrite Z.pow_add_r by lia. change (2 ^ 8) with 256.
    unfold is_byte in Hb. set (W := 2 ^ (8 * Z.of_nat (length tl))) in *. nia.
Qed.

Lemma bval_app a b : bval (a ++ b) = bval a * 2 ^ (8 * Z.of_nat (length b)) + bval b.
Proof.
  induction a as [|x t IH]; cbn [app bval length].
  - lia.
  - rewrite IH, app_length, Nat2Z.inj_add.
    replace (8 * (Z.of_nat (length t) + Z.of_nat (length b))) with (8 * Z.of_nat (length t) + 8 * Z.of_nat (length b)) by lia.
    rewrite Z.pow_add_r by lia. ring.
Qed.

Lemma bval_snoc l b : bval (l ++ [b]) = bval l * 256 + b.
Proof. rewrite bval_app. cbn. lia. Qed.

Lemma bval_app_zeros l z : bval (l ++ repeat 0 z) = bval l * 2 ^ (8 * Z.of_nat z).
Proof.
  rewrite bval_app, repeat_length.
  assert (E : bval (repeat 0 z) = 0) by (induction z as [|z IH]; cbn [repeat bval]; lia).
  rewrite E. ring.
Qed.

Lemma Forall_repeat {A} (P : A -> Prop) x n : P x -> Forall P (repeat x n).
Proof. intros H. apply Forall_forall. intros y Hy. apply repeat_spec in Hy. subst y. exact H. Qed.

(** concrete state (value, range, count, rest) against abstract (R, D, j):
    value = a * 2^count, D = a * 2^(8m) + bval rest, j = 8m + 8 - count *)
Definition drel (v r c : Z) (rest : list Z) (R D j : Z) : Prop :=
  r = R /\ 0 <= c < 8 /\ Forall is_byte rest /\
  exists a, 0 <= a /\ v = a * 2 ^ c /\ v < 65536 /\
    D = a * 2 ^ (8 * Z.of_nat (length rest)) + bval rest /\
    j = 8 * Z.of_nat (length rest) + 8 - c /\ D < R * 2 ^ j.

Lemma drel_intro a c rest R D j : 0 <= c < 8 -> Forall is_byte rest -> 0 <= a -> a * 2 ^ c < 65536 ->
  D = a * 2 ^ (8 * Z.of_nat (length rest)) + bval rest -> j = 8 * Z.of_nat (length rest) + 8 - c ->
  D < R * 2 ^ j -> drel (a * 2 ^ c) R c rest R D j.
Proof.
  intros Hc Hb Ha Hv HD Hj Hlt. split; [reflexivity|]. split; [exact Hc|]. split; [exact Hb|].
  exists a. repeat split; try assumption; lia.
Qed.


Lemma pow_split c : 0 <= c < 8 -> 2 ^ c * 2 ^ (8 - c) = 256 /\ 0 < 2 ^ c /\ 0 < 2 ^ (8 - c).
Proof.
  intros H. rewrite <- Z.pow_add_r by lia. replace (c + (8 - c)) with 8 by lia.
  repeat split; try reflexivity; apply Z.pow_pos_nonneg; lia.
Qed.

Lemma drel_small v r c rest R D j : drel v r c rest R D j -> 1 <= R -> v < R * 256.
Proof.
  intros (-> & Hc & Hb & a & Ha & -> & Hv & -> & -> & HD) HR.
  destruct (pow_split c Hc) as (Hgu & Hg & Hu).
  pose proof (bval_bound rest Hb) as HF.
  set (m8 := 8 * Z.of_nat (length rest)) in *.
  replace (m8 + 8 - c) with ((8 - c) + m8) in HD by lia.
  rewrite Z.pow_add_r in HD by lia.
  set (W := 2 ^ m8) in *. set (g := 2 ^ c) in *. set (u := 2 ^ (8 - c)) in *.
  assert (0 < W) by (unfold W; apply Z.pow_pos_nonneg; lia).
  assert (a < R * u) by nia. nia.
Qed.

Lemma drel_decision v r c rest R D j s : drel v r c rest R D j -> 0 <= s ->
  (s * 256 <=? v) = (s * 2 ^ j <=? D).
Proof.
  intros (-> & Hc & Hb & a & Ha & -> & Hv & -> & -> & HD) Hs.
  destruct (pow_split c Hc) as (Hgu & Hg & Hu).
  pose proof (bval_bound rest Hb) as HF.
  set (m8 := 8 * Z.of_nat (length rest)) in *.
  replace (m8 + 8 - c) with ((8 - c) + m8) by lia.
  rewrite Z.pow_add_r by lia.
  set (W := 2 ^ m8) in *. set (g := 2 ^ c) in *. set (u := 2 ^ (8 - c)) in *.
  assert (0 < W) by (unfold W; apply Z.pow_pos_nonneg; lia).
  destruct (Z.leb_spec (s * 256) (a * g)); destruct (Z.leb_spec (s * (u * W)) (a * W + bval rest));
    try reflexivity; exfalso.
  - assert (s * u <= a) by nia. nia.
  - assert (s * u <= a) by nia. nia.
Qed.

Lemma drel_sub v r c rest R D j s : drel v r c rest R D j -> 0 <= s -> s * 256 <= v -> s <= R ->
  drel (v - s * 256) (r - s) c rest (R - s) (D - s * 2 ^ j) j.
Proof.
  intros (-> & Hc & Hb & a & Ha & -> & Hv & -> & -> & HD) Hs Hle HsR.
  destruct (pow_split c Hc) as (Hgu & Hg & Hu).
  set (m8 := 8 * Z.of_nat (length rest)) in *.
  assert (Ej : 2 ^ (m8 + 8 - c) = 2 ^ (8 - c) * 2 ^ m8).
  { rewrite <- Z.pow_add_r by lia. f_equal. lia. }
  rewrite Ej in *.
  set (W := 2 ^ m8) in *. set (g := 2 ^ c) in *. set (u := 2 ^ (8 - c)) in *.
  assert (0 < W) by (unfold W; apply Z.pow_pos_nonneg; lia).
  split; [reflexivity|]. split; [exact Hc|]. split; [exact Hb|].
  exists (a - s * u). repeat split; try nia.
  all: fold m8; try rewrite Ej; fold W u; try nia.
Qed.

Lemma drel_range v r c rest R D j R' : drel v r c rest R D j -> D < R' * 2 ^ j ->
  drel v R' c rest R' D j.
Proof.
  intros (_ & Hc & Hb & a & Ha & -> & Hv & HDe & Hj & _) H. apply drel_intro; assumption.
Qed.

(** 9 <= j: after the shift 8 bits of window are left, so a byte is there to append when due *)
Lemma drel_shift1 v c rest R D j : drel v R c rest R D j -> 1 <= R < 128 -> 9 <= j ->
  let '(v', c', rest') := bd_shift1 v c rest in drel v' (R * 2) c' rest' (R * 2) D (j - 1).
Proof.
  intros Hrel HR Hj. pose proof (drel_small _ _ _ _ _ _ _ Hrel ltac:(lia)) as Hsm.
  destruct Hrel as (_ & Hc & Hb & a & Ha & -> & Hv & -> & -> & HD).
  assert (HD2 : forall j', j' = 8 * Z.of_nat (length rest) + 8 - c - 1 ->
            a * 2 ^ (8 * Z.of_nat (length rest)) + bval rest < R * 2 * 2 ^ j').
  { intros j' ->. rewrite <- Z.mul_assoc, <- Z.pow_succ_r by lia.
    replace (Z.succ (8 * Z.of_nat (length rest) + 8 - c - 1)) with (8 * Z.of_nat (length rest) + 8 - c) by lia.
    exact HD. }
  assert (Hg : 0 < 2 ^ c) by (apply Z.pow_pos_nonneg; lia).
  unfold bd_shift1. rewrite (Z.mod_small (a * 2 ^ c * 2) 65536) by nia.
  destruct (Z.eqb_spec (c + 1) 8) as [Ec|Ec].
  - assert (c = 7) by lia. subst c. change (2 ^ 7) with 128 in *.
    destruct rest as [|b rest']; [cbn [length] in Hj; lia|].
    pose proof (Forall_inv Hb) as Hb1. unfold is_byte in Hb1. cbn [length bval] in *.
    replace (8 * Z.of_nat (S (length rest'))) with (8 + 8 * Z.of_nat (length rest')) in * by lia.
    rewrite Z.pow_add_r in * by lia. change (2 ^ 8) with 256 in *.
    replace (a * 128 * 2 + b) with ((a * 256 + b) * 2 ^ 0) by (rewrite Z.pow_0_r; ring).
    apply drel_intro; [lia|exact (Forall_inv_tail Hb)|lia|rewrite Z.pow_0_r; lia|ring|lia|apply HD2; lia].
  - replace (a * 2 ^ c * 2) with (a * 2 ^ (c + 1)) by (rewrite Z.pow_add_r by lia; ring).
    apply drel_intro; [lia|exact Hb|exact Ha|rewrite Z.pow_add_r by lia; lia|reflexivity|lia|apply HD2; lia].
Qed.

Lemma normalize_refines : forall fuel v c rest pos R D j s r2 s2,
  drel v R c rest R D j -> 1 <= R ->
  norm_loop fuel R s = (r2, s2) -> 8 <= j - (s2 - s) ->
  exists v' c' rest',
    bd_normalize fuel v R c rest pos = (v', r2, c', rest', pos + (s2 - s)) /\
    drel v' r2 c' rest' r2 D (j - (s2 - s)).
Proof.
  assert (Hstop : forall v c rest pos R D j s, drel v R c rest R D j ->
    exists v' c' rest', (v, R, c, rest, pos) = (v', R, c', rest', pos + (s - s)) /\
                        drel v' R c' rest' R D (j - (s - s))).
  { intros v c rest pos R D j s H. exists v, c, rest. rewrite Z.sub_diag, Z.add_0_r, Z.sub_0_r. auto. }
  induction fuel as [|f IH]; intros v c rest pos R D j s r2 s2 Hrel HR Hn Hj;
    cbn [norm_loop] in Hn; cbn [bd_normalize].
  - injection Hn as <- <-. apply Hstop, Hrel.
  - destruct (Z.ltb_spec R 128) as [ER|ER]; [|injection Hn as <- <-; apply Hstop, Hrel].
    destruct (norm_loop_spec f (R * 2) (s + 1)) as (t & Ht & Hn2). rewrite Hn2 in Hn. injection Hn as <- <-.
    pose proof (drel_shift1 v c rest R D j Hrel ltac:(lia) ltac:(lia)) as Hrel2.
    destruct (bd_shift1 v c rest) as [[v1 c1] rest1].
    destruct (IH v1 c1 rest1 (pos + 1) (R * 2) D (j - 1) (s + 1) _ _ Hrel2 ltac:(lia) Hn2 ltac:(lia))
      as (v' & c' & rest' & E1 & E2).
    exists v', c', rest'. rewrite E1. split; [f_equal; lia|].
    replace (j - (s + 1 + t - s)) with (j - 1 - (s + 1 + t - (s + 1))) by lia. exact E2.
Qed.

Lemma aget_spec p R D j : 128 <= R <= 255 -> 0 <= p <= 255 ->
  exists t, 0 <= t <= 7 /\
    let s := nsplit R p in
    let b := s * 2 ^ j <=? D in
    let R1 := if b then R - s else s in
    aget p (R, D, j) = (b, (R1 * 2 ^ t, (if b then D - s * 2 ^ j else D), j - t)) /\
    norm_loop 8 R1 0 = (R1 * 2 ^ t, t) /\ 1 <= R1 <= 254 /\ 128 <= R1 * 2 ^ t <= 254.
Proof.
  intros HR Hp. pose proof (nsplit_bounds R p HR Hp) as Hs. cbv zeta.
  set (R1 := if nsplit R p * 2 ^ j <=? D then R - nsplit R p else nsplit R p).
  assert (HR1 : 1 <= R1 <= 254) by (unfold R1; destruct (nsplit R p * 2 ^ j <=? D); lia).
  destruct (norm8 R1 ltac:(lia)) as (En & Ht & Hr). pose proof (norm8_le254 R1 HR1) as H254.
  rewrite En in H254. cbn [fst] in H254.
  exists (7 - Z.log2 R1). split; [exact Ht|]. unfold aget. fold R1. rewrite En. auto with zarith.
Qed.

Lemma aget_fields p R D j : 128 <= R <= 255 -> 0 <= p <= 255 ->
  let '(_, (R2, _, j2)) := aget p (R, D, j) in 128 <= R2 <= 254 /\ j - 7 <= j2 <= j.
Proof.
  intros HR Hp. destruct (aget_spec p R D j HR Hp) as (t & Ht & E & _ & _ & Hr).
  cbv zeta in E. rewrite E. lia.
Qed.

Lemma read_bool_refines d R D j p :
  drel (bd_value d) (bd_range d) (bd_count d) (bd_rest d) R D j -> 0 <= D ->
  128 <= R <= 255 -> 0 <= p <= 255 ->
  let '(b, (R2, D2, j2)) := aget p (R, D, j) in
  8 <= j2 ->
  exists d', read_bool p d = (b, d') /\
    drel (bd_value d') (bd_range d') (bd_count d') (bd_rest d') R2 D2 j2 /\ 0 <= D2 /\
    128 <= R2 <= 255 /\ j - 7 <= j2.
Proof.
  intros Hrel HD0 HR Hp.
  pose proof (nsplit_bounds R p HR Hp) as Hs.
  destruct (aget_spec p R D j HR Hp) as (t & Ht & Ea & En & HR1 & HR2). cbv zeta in Ea, En, HR1, HR2.
  rewrite Ea. clear Ea. set (s := nsplit R p) in *.
  assert (Er : bd_range d = R) by apply Hrel. rewrite Er in Hrel.
  pose proof (drel_decision _ _ _ _ _ _ _ s Hrel ltac:(lia)) as Hdec.
  set (b := s * 2 ^ j <=? D) in *. set (R1 := if b then R - s else s) in *.
  intros Hj2.
  (* the decision's subtraction on both sides *)
  assert (Hrel1 : drel (if b then bd_value d - s * 256 else bd_value d) R1 (bd_count d) (bd_rest d)
                       R1 (if b then D - s * 2 ^ j else D) j /\ 0 <= (if b then D - s * 2 ^ j else D)).
  { unfold R1. destruct b eqn:Eb.
    - apply Z.leb_le in Hdec. unfold b in Eb. apply Z.leb_le in Eb. split; [|lia].
      apply drel_sub; try assumption; lia.
    - unfold b in Eb. apply Z.leb_gt in Eb. split; [|lia].
      eapply drel_range; [exact Hrel|exact Eb]. }
  destruct Hrel1 as [Hrel1 HD1].
  destruct (normalize_refines 8 _ (bd_count d) (bd_rest d) (bd_pos d) R1 _ j 0 _ _ Hrel1 ltac:(lia) En
              ltac:(lia)) as (v' & c' & rest' & E1 & E2).
  rewrite Z.sub_0_r in E1, E2.
  unfold read_bool. rewrite Er. unfold nsplit in s. fold s. rewrite Hdec.
  exists (mkBdec v' (R1 * 2 ^ t) c' rest' (bd_pos d + t) (bd_lim d) (bd_past d || (bd_lim d <? bd_pos d))).
  split.
  - destruct b; subst R1; cbv beta iota zeta in E1 |- *; rewrite E1; reflexivity.
  - cbn [bd_value bd_range bd_count bd_rest]. split; [exact E2|]. split; [exact HD1|]. split; lia.
Qed.

Fixpoint rfc_bits (probs : list Z) (d : bdec) : list bool :=
  match probs with
  | [] => []
  | p :: tl => let '(b, d') := read_bool p d in b :: rfc_bits tl d'
  end.

(** 8 + 7 * length: a bool shifts at most 7 bits and the comparison needs 8 bits of window *)
Theorem rfc_refines_abs : forall probs d R D j,
  drel (bd_value d) (bd_range d) (bd_count d) (bd_rest d) R D j -> 0 <= D ->
  128 <= R <= 255 -> Forall (fun p => 0 <= p <= 255) probs ->
  8 + 7 * Z.of_nat (length probs) <= j ->
  rfc_bits probs d = adec probs (R, D, j).
Proof.
  induction probs as [|p tl IH]; intros d R D j Hrel HD HR Hps Hj; [reflexivity|].
  pose proof (Forall_inv Hps) as Hp. pose proof (Forall_inv_tail Hps) as Htl.
  pose proof (read_bool_refines d R D j p Hrel HD HR Hp) as Hstep.
  cbn [rfc_bits adec]. cbn [length] in Hj.
  pose proof (aget_fields p R D j HR Hp) as Hf.
  destruct (aget p (R, D, j)) as [b [[R2 D2] j2]].
  destruct (Hstep ltac:(lia)) as (d' & E1 & Hrel2 & HD2 & HR2 & _).
  rewrite E1. f_equal. apply IH; try assumption. lia.
Qed.

Lemma bd_init_rel a b rest : is_byte a -> is_byte b -> Forall is_byte rest ->
  bval (a :: b :: rest) < 255 * 2 ^ (8 * Z.of_nat (length rest) + 8) ->
  let d := bd_init (a :: b :: rest) in
  drel (bd_value d) (bd_range d) (bd_count d) (bd_rest d) 255 (bval (a :: b :: rest))
       (8 * Z.of_nat (length rest) + 8) /\ 0 <= bval (a :: b :: rest).
Proof.
  intros Ha Hb Hr Hlt. cbn [bd_init bd_value bd_range bd_count bd_rest].
  pose proof (bval_bound rest Hr) as HF. unfold is_byte in *.
  split.
  - replace (a * 256 + b) with ((a * 256 + b) * 2 ^ 0) by (rewrite Z.pow_0_r; ring).
    cbn [bval length] in *.
    replace (8 * Z.of_nat (S (length rest))) with (8 + 8 * Z.of_nat (length rest)) in * by lia.
    rewrite Z.pow_add_r in * by lia. change (2 ^ 8) with 256 in *.
    apply drel_intro; try assumption; try lia.
  - cbn [bval length].
    assert (0 < 2 ^ (8 * Z.of_nat (S (length rest)))) by (apply Z.pow_pos_nonneg; lia).
    assert (0 < 2 ^ (8 * Z.of_nat (length rest))) by (apply Z.pow_pos_nonneg; lia). nia.
Qed.
