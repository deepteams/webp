(** The encoder's token buffer (internal/lossy/encode_token.go): tokens are recorded into pages of
    tokenPageSize entries with per-macroblock start marks, and replayed into the boolean writers
    afterwards (EmitTokens: everything; EmitTokensPartitioned: the macroblock rows of one partition,
    each macroblock's range walked in page-aligned chunks).  Record + replay = direct emission of
    the same tokens in recording order, for every writer. *)
From Coq Require Import List ZArith Lia Bool.
From Webp Require Import Base.ListFacts Vp8.Vp8FrameRT.
Import ListNotations.
Open Scope Z_scope.

Section TokenBuf.
  Variable tok : Type.
  Variable W : Type.                      (* the writer: BoolWriter state *)
  Variable put : W -> tok -> W.            (* PutBit of one recorded (bit, prob) *)
  Variable P : nat.                        (* tokenPageSize *)
  Hypothesis HP : (0 < P)%nat.

  (** PutBitBatchPacked over a run of tokens *)
  Definition puts (l : list tok) (w : W) : W := fold_left put l w.

  Lemma puts_app l1 l2 w : puts (l1 ++ l2) w = puts l2 (puts l1 w).
  Proof. apply fold_left_app. Qed.

  (** pages: the full ones in order, then the current one *)
  Record tokbuf : Type := mkTb { tb_full : list (list tok); tb_cur : list tok; tb_marks : list Z }.

  Definition tb_pages (tb : tokbuf) : list (list tok) := tb_full tb ++ [tb_cur tb].
  Definition tb_flat (tb : tokbuf) : list tok := concat (tb_full tb) ++ tb_cur tb.
  (** tokenCount: (len(pages)-1)*tokenPageSize + curPage.count *)
  Definition tb_count (tb : tokbuf) : nat := (length (tb_full tb) * P + length (tb_cur tb))%nat.

  Definition tb_reset (totalMB : nat) : tokbuf := mkTb [] [] (repeat (-1) (S totalMB)).

  (** RecordToken: "if curPage.count >= tokenPageSize { addPage() }; curPage.tokens[count] = t; count++" *)
  Definition tb_record (t : tok) (tb : tokbuf) : tokbuf :=
    if (P <=? length (tb_cur tb))%nat then mkTb (tb_full tb ++ [tb_cur tb]) [t] (tb_marks tb)
    else mkTb (tb_full tb) (tb_cur tb ++ [t]) (tb_marks tb).

  Definition tb_inv (tb : tokbuf) : Prop :=
    Forall (fun pg => length pg = P) (tb_full tb) /\ (length (tb_cur tb) <= P)%nat.

  Lemma tb_reset_inv n : tb_inv (tb_reset n).
  Proof. split; [constructor|cbn; lia]. Qed.

  Lemma tb_record_inv t tb : tb_inv tb -> tb_inv (tb_record t tb).
  Proof.
    intros [H1 H2]. unfold tb_record. destruct (Nat.leb_spec P (length (tb_cur tb))) as [Hle|Hlt].
    - split; cbn [tb_full tb_cur length]; [|lia]. apply Forall_app. split; [exact H1|]. constructor; [lia|constructor].
    - split; cbn [tb_full tb_cur]; [exact H1|]. rewrite app_length. cbn. lia.
  Qed.

  Lemma tb_record_flat t tb : tb_flat (tb_record t tb) = tb_flat tb ++ [t].
  Proof.
    unfold tb_record, tb_flat. destruct (P <=? length (tb_cur tb))%nat; cbn [tb_full tb_cur].
    - rewrite concat_app. cbn [concat]. rewrite app_nil_r. reflexivity.
    - rewrite app_assoc. reflexivity.
  Qed.


  Lemma tb_count_flat tb : tb_inv tb -> tb_count tb = length (tb_flat tb).
  Proof. intros [H1 _]. unfold tb_count, tb_flat. rewrite app_length, (concat_length_uniform _ P) by exact H1. reflexivity. Qed.

  (** * EmitTokens *)
  Definition emit_all (tb : tokbuf) (w : W) : W := fold_left (fun w pg => puts pg w) (tb_pages tb) w.

  Lemma emit_pages_concat : forall pages w, fold_left (fun w pg => puts pg w) pages w = puts (concat pages) w.
  Proof.
    induction pages as [|pg tl IH]; intros w; [reflexivity|]. cbn [fold_left concat]. rewrite IH, puts_app. reflexivity.
  Qed.

  Theorem emit_all_eq tb w : emit_all tb w = puts (tb_flat tb) w.
  Proof.
    unfold emit_all, tb_pages, tb_flat. rewrite emit_pages_concat, concat_app. cbn [concat]. rewrite app_nil_r. reflexivity.
  Qed.

  (** * a token range walked in page-aligned chunks *)
  Lemma slice_page : forall full cur pi ti cnt,
    Forall (fun pg : list tok => length pg = P) full -> (length cur <= P)%nat ->
    (ti + cnt <= P)%nat -> (pi * P + ti + cnt <= length full * P + length cur)%nat ->
    firstn cnt (skipn ti (nth pi (full ++ [cur]) [])) = firstn cnt (skipn (pi * P + ti) (concat full ++ cur)).
  Proof.
    induction full as [|f tl IH]; intros cur pi ti cnt Hf Hc Ht Hb.
    - cbn [app concat length Nat.mul Nat.add] in *. destruct pi as [|pi].
      + reflexivity.
      + assert (cnt = 0%nat) by nia. subst cnt. reflexivity.
    - pose proof (Forall_inv Hf) as Hlen. cbv beta in Hlen. cbn [app concat]. destruct pi as [|pi].
      + cbn [nth Nat.mul Nat.add]. rewrite <- app_assoc, skipn_app, firstn_app.
        replace (cnt - length (skipn ti f))%nat with 0%nat by (rewrite skipn_length; lia).
        cbn [firstn]. rewrite app_nil_r. reflexivity.
      + cbn [nth]. rewrite <- app_assoc, skipn_app.
        rewrite (skipn_all2 f) by (rewrite Hlen; cbn; lia). cbn [app].
        replace (S pi * P + ti - length f)%nat with (pi * P + ti)%nat by (rewrite Hlen; cbn; lia).
        apply IH; [exact (Forall_inv_tail Hf)|exact Hc|exact Ht|]. cbn [length] in Hb. lia.
  Qed.

  (** the loop of EmitTokensPartitioned over one macroblock's range [tk, endt); the [count <= 0]
      branch is in the Go text and is never taken when the pages are full ([emit_range_eq]) *)
  Fixpoint emit_range (fuel : nat) (tb : tokbuf) (tk endt : nat) (w : W) : W :=
    match fuel with
    | O => w
    | S f =>
      if (endt <=? tk)%nat then w else
      let pi := (tk / P)%nat in
      let ti := (tk mod P)%nat in
      let pageEnd := Nat.min P (endt - pi * P) in
      let count := (pageEnd - ti)%nat in
      if (count <=? 0)%nat then emit_range f tb (tk + 1) endt w
      else emit_range f tb (tk + count) endt (puts (firstn count (skipn ti (nth pi (tb_pages tb) []))) w)
    end.



  Theorem emit_range_eq tb : tb_inv tb -> forall fuel tk endt w,
    (tk <= endt)%nat -> (endt <= tb_count tb)%nat -> (endt - tk <= fuel)%nat ->
    emit_range fuel tb tk endt w = puts (firstn (endt - tk) (skipn tk (tb_flat tb))) w.
  Proof.
    intros [Hf Hc]. induction fuel as [|fuel IH]; intros tk endt w H1 H2 H3.
    - replace (endt - tk)%nat with 0%nat by lia. reflexivity.
    - cbn [emit_range]. destruct (Nat.leb_spec endt tk) as [Hle|Hlt].
      { replace (endt - tk)%nat with 0%nat by lia. reflexivity. }
      pose proof (Nat.div_mod tk P ltac:(lia)) as Hdm. pose proof (Nat.mod_upper_bound tk P ltac:(lia)) as Hmb.
      set (pi := (tk / P)%nat) in *. set (ti := (tk mod P)%nat) in *.
      set (cnt := (Nat.min P (endt - pi * P) - ti)%nat).
      assert (Hpi : (P * pi = pi * P)%nat) by lia.
      assert (Hcnt : (0 < cnt)%nat) by (unfold cnt; lia).
      destruct (Nat.leb_spec cnt 0) as [Hz|_]; [lia|].
      unfold tb_pages. rewrite slice_page; try assumption; [|unfold cnt; lia|unfold cnt, tb_count in *; lia].
      replace (pi * P + ti)%nat with tk by lia. fold (tb_flat tb).
      rewrite IH by (unfold cnt in *; lia).
      rewrite <- puts_app. f_equal.
      replace (endt - tk)%nat with (cnt + (endt - (tk + cnt)))%nat by (unfold cnt; lia).
      rewrite firstn_add, <- skipn_plus. reflexivity.
  Qed.

  (** * per-macroblock marks *)
  Fixpoint set_nth (n : nat) (a : Z) (l : list Z) : list Z :=
    match l, n with
    | [], _ => []
    | _ :: t, O => a :: t
    | h :: t, S m => h :: set_nth m a t
    end.

  (** MarkMBStart *)
  Definition tb_mark (mb : nat) (tb : tokbuf) : tokbuf :=
    mkTb (tb_full tb) (tb_cur tb) (set_nth mb (Z.of_nat (tb_count tb)) (tb_marks tb)).

  (** the recording pass: a skipped macroblock records nothing and sets no mark *)
  Definition record_list (l : list tok) (tb : tokbuf) : tokbuf := fold_left (fun tb t => tb_record t tb) l tb.
  Definition record_mb (mb : nat) (o : option (list tok)) (tb : tokbuf) : tokbuf :=
    match o with None => tb | Some l => record_list l (tb_mark mb tb) end.
  Fixpoint record_mbs (mb : nat) (os : list (option (list tok))) (tb : tokbuf) : tokbuf :=
    match os with
    | [] => tb
    | o :: tl => record_mbs (S mb) tl (record_mb mb o tb)
    end.
  Definition session (os : list (option (list tok))) : tokbuf := record_mbs 0 os (tb_reset (length os)).

  Definition mb_toks (o : option (list tok)) : list tok := match o with Some l => l | None => [] end.

  Lemma record_list_facts : forall l tb, tb_inv tb ->
    tb_inv (record_list l tb) /\ tb_flat (record_list l tb) = tb_flat tb ++ l /\
    tb_marks (record_list l tb) = tb_marks tb.
  Proof.
    induction l as [|t l IH]; intros tb Hi; cbn [record_list fold_left].
    - split; [exact Hi|]. split; [rewrite app_nil_r; reflexivity|reflexivity].
    - destruct (IH (tb_record t tb) (tb_record_inv t tb Hi)) as (I1 & I2 & I3). fold (record_list l (tb_record t tb)).
      split; [exact I1|]. split.
      + rewrite I2, tb_record_flat, <- app_assoc. reflexivity.
      + rewrite I3. unfold tb_record. destruct (P <=? length (tb_cur tb))%nat; reflexivity.
  Qed.

  (** "mbStart[totalMB] = tokenCount(); for i := totalMB-1; i >= 0; i-- { if mbStart[i] < 0 { mbStart[i] = mbStart[i+1] } }" *)
  Fixpoint fill_marks (ms : list Z) (endv : Z) : list Z :=
    match ms with
    | [] => [endv]
    | m :: tl => let tl' := fill_marks tl endv in (if m <? 0 then hd endv tl' else m) :: tl'
    end.

  (** what the recording pass leaves in mbStart, and the token offsets of the macroblocks *)
  Fixpoint raw_marks (base : nat) (os : list (option (list tok))) : list Z :=
    match os with
    | [] => []
    | o :: tl => (match o with Some _ => Z.of_nat base | None => -1 end) :: raw_marks (base + length (mb_toks o)) tl
    end.
  Fixpoint offs (base : nat) (os : list (option (list tok))) : list Z :=
    match os with
    | [] => [Z.of_nat base]
    | o :: tl => Z.of_nat base :: offs (base + length (mb_toks o)) tl
    end.
  Definition total_len (os : list (option (list tok))) : nat := length (concat (map mb_toks os)).

  Lemma raw_marks_length : forall os b, length (raw_marks b os) = length os.
  Proof. induction os as [|o tl IH]; intros b; [reflexivity|]. cbn [raw_marks length]. f_equal. apply IH. Qed.

  Lemma offs_hd base os d : hd d (offs base os) = Z.of_nat base.
  Proof. destruct os; reflexivity. Qed.

  Lemma fill_raw : forall os base, fill_marks (raw_marks base os) (Z.of_nat (base + total_len os)) = offs base os.
  Proof.
    induction os as [|o tl IH]; intros base.
    - cbn. rewrite Nat.add_0_r. reflexivity.
    - cbn [raw_marks fill_marks offs].
      assert (E : (base + total_len (o :: tl) = base + length (mb_toks o) + total_len tl)%nat).
      { unfold total_len. cbn [map concat]. rewrite app_length. lia. }
      rewrite E, IH. f_equal. destruct o as [l|].
      + replace (Z.of_nat base <? 0) with false by (symmetry; apply Z.ltb_ge; lia). reflexivity.
      + cbn [mb_toks length]. rewrite Nat.add_0_r. change (-1 <? 0) with true. cbn beta iota. apply offs_hd.
  Qed.

  Lemma set_nth_app pre a x post : set_nth (length pre) a (pre ++ x :: post) = pre ++ a :: post.
  Proof. induction pre as [|p pre IH]; [reflexivity|]. cbn [length app set_nth]. f_equal. exact IH. Qed.

  Lemma record_mbs_facts : forall os mb tb pre k,
    tb_inv tb -> length pre = mb -> tb_marks tb = pre ++ repeat (-1) (length os + k) ->
    let tb' := record_mbs mb os tb in
    tb_inv tb' /\ tb_flat tb' = tb_flat tb ++ concat (map mb_toks os) /\
    tb_marks tb' = pre ++ raw_marks (tb_count tb) os ++ repeat (-1) k.
  Proof.
    induction os as [|o tl IH]; intros mb tb pre k Hi Hp Hm; cbv zeta.
    - cbn [record_mbs map concat raw_marks app length Nat.add] in *. split; [exact Hi|]. split; [rewrite app_nil_r; reflexivity|exact Hm].
    - cbn [record_mbs].
      assert (Hstep : tb_inv (record_mb mb o tb) /\ tb_flat (record_mb mb o tb) = tb_flat tb ++ mb_toks o /\
                      tb_marks (record_mb mb o tb) =
                        (pre ++ [match o with Some _ => Z.of_nat (tb_count tb) | None => -1 end]) ++ repeat (-1) (length tl + k)).
      { destruct o as [l|]; cbn [record_mb mb_toks].
        - assert (Him : tb_inv (tb_mark mb tb)) by exact Hi.
          destruct (record_list_facts l (tb_mark mb tb) Him) as (R1 & R2 & R3).
          split; [exact R1|]. split; [exact R2|]. rewrite R3. cbn [tb_mark tb_marks]. rewrite Hm.
          cbn [length Nat.add repeat]. rewrite <- Hp, set_nth_app, <- app_assoc. reflexivity.
        - split; [exact Hi|]. split; [rewrite app_nil_r; reflexivity|]. rewrite Hm.
          cbn [length Nat.add repeat]. rewrite <- app_assoc. reflexivity. }
      destruct Hstep as (S1 & S2 & S3).
      destruct (IH (S mb) (record_mb mb o tb) (pre ++ [match o with Some _ => Z.of_nat (tb_count tb) | None => -1 end]) k S1
                  ltac:(rewrite app_length; cbn; lia) S3) as (I1 & I2 & I3).
      split; [exact I1|]. split.
      + rewrite I2, S2, <- app_assoc. cbn [map concat]. reflexivity.
      + rewrite I3, <- app_assoc. cbn [app raw_marks]. do 2 f_equal.
        rewrite (tb_count_flat _ S1), S2, app_length, <- (tb_count_flat _ Hi). reflexivity.
  Qed.

  (** * EmitTokensPartitioned (numParts > 1): the macroblocks selected by [sel] (row & (numParts-1) = partIdx) *)
  Fixpoint emit_mbs (tb : tokbuf) (marks : list Z) (sel : nat -> bool) (mbIdx n : nat) (w : W) : W :=
    match n with
    | O => w
    | S n' =>
      let startTok := Z.to_nat (nth mbIdx marks 0) in
      let endTok := Z.to_nat (nth (S mbIdx) marks 0) in
      emit_mbs tb marks sel (S mbIdx) n' (if sel mbIdx then emit_range endTok tb startTok endTok w else w)
    end.

  Definition emit_part (totalMB : nat) (sel : nat -> bool) (tb : tokbuf) (w : W) : W :=
    emit_mbs tb (fill_marks (firstn totalMB (tb_marks tb)) (Z.of_nat (tb_count tb))) sel 0 totalMB w.

  (** direct emission: the tokens of the selected macroblocks in macroblock order *)
  Fixpoint sel_toks (sel : nat -> bool) (mbIdx : nat) (os : list (option (list tok))) : list tok :=
    match os with
    | [] => []
    | o :: tl => (if sel mbIdx then mb_toks o else []) ++ sel_toks sel (S mbIdx) tl
    end.



  Lemma emit_mbs_eq tb sel : tb_inv tb -> forall os M k base rest w,
    skipn k M = offs base os -> (base <= length (tb_flat tb))%nat ->
    skipn base (tb_flat tb) = concat (map mb_toks os) ++ rest ->
    emit_mbs tb M sel k (length os) w = puts (sel_toks sel k os) w.
  Proof.
    intros Hi. induction os as [|o tl IH]; intros M k base rest w HM Hb HF; [reflexivity|].
    cbn [length emit_mbs sel_toks offs] in *.
    assert (E1 : nth k M 0 = Z.of_nat base) by (rewrite <- hd_skipn, HM; reflexivity).
    assert (E2 : skipn (S k) M = offs (base + length (mb_toks o)) tl) by (rewrite <- skipn_tail, HM; reflexivity).
    assert (E3 : nth (S k) M 0 = Z.of_nat (base + length (mb_toks o))) by (rewrite <- hd_skipn, E2; apply offs_hd).
    cbn [map concat] in HF. rewrite <- app_assoc in HF.
    assert (HF2 : skipn (base + length (mb_toks o)) (tb_flat tb) = concat (map mb_toks tl) ++ rest).
    { rewrite <- skipn_plus, HF, skipn_app, skipn_all, Nat.sub_diag. reflexivity. }
    assert (Hle : (base + length (mb_toks o) <= length (tb_flat tb))%nat).
    { assert (L : length (skipn base (tb_flat tb)) = (length (tb_flat tb) - base)%nat) by apply skipn_length.
      rewrite HF, app_length in L. lia. }
    rewrite puts_app, <- (IH M (S k) (base + length (mb_toks o))%nat rest _ E2 Hle HF2).
    f_equal. destruct (sel k); [|reflexivity].
    rewrite E1, E3, !Nat2Z.id. rewrite <- (tb_count_flat _ Hi) in Hle.
    rewrite emit_range_eq by (try assumption; lia).
    replace (base + length (mb_toks o) - base)%nat with (length (mb_toks o)) by lia.
    rewrite HF, firstn_app, firstn_all, Nat.sub_diag. cbn [firstn]. rewrite app_nil_r. reflexivity.
  Qed.

  Lemma session_facts os :
    tb_inv (session os) /\ tb_flat (session os) = concat (map mb_toks os) /\
    tb_marks (session os) = raw_marks 0 os ++ [-1].
  Proof.
    apply (record_mbs_facts os 0 (tb_reset (length os)) [] 1 (tb_reset_inv _) eq_refl).
    cbn [tb_reset tb_marks app]. f_equal. lia.
  Qed.

  (** record, then replay one partition = the tokens of its macroblocks put directly, in order *)
  Theorem emit_part_session os sel w :
    emit_part (length os) sel (session os) w = puts (sel_toks sel 0 os) w.
  Proof.
    destruct (session_facts os) as (I1 & I2 & I3). unfold emit_part.
    rewrite I3, firstn_app, raw_marks_length, Nat.sub_diag, firstn_all2 by (rewrite raw_marks_length; lia).
    cbn [firstn]. rewrite app_nil_r, (tb_count_flat _ I1), I2.
    change (length (concat (map mb_toks os))) with (0 + total_len os)%nat. rewrite fill_raw.
    apply (emit_mbs_eq _ sel I1 os (offs 0 os) 0%nat 0%nat []); [reflexivity|lia|].
    cbn [skipn]. rewrite I2, app_nil_r. reflexivity.
  Qed.

  (** record, then EmitTokens (one partition) = all recorded tokens put directly, in order *)
  Theorem emit_all_session os w : emit_all (session os) w = puts (concat (map mb_toks os)) w.
  Proof. rewrite emit_all_eq, (proj1 (proj2 (session_facts os))). reflexivity. Qed.
End TokenBuf.

(** * the partitions of the frame model: EmitTokensPartitioned selects macroblock mbIdx for partition
    partIdx when (mbIdx / mbW) & (numParts-1) == partIdx; with numParts a power of two and the
    macroblocks grouped in rows of mbW this is Vp8FrameRT.part_syms (rows r with r mod numParts = i) *)

Definition part_sel (mbW numParts partIdx : Z) (mbIdx : nat) : bool :=
  Z.land (Z.of_nat mbIdx / mbW) (numParts - 1) =? partIdx.

Lemma sel_toks_app {tok} sel : forall (a : list (option (list tok))) k b,
  sel_toks tok sel k (a ++ b) = sel_toks tok sel k a ++ sel_toks tok sel (k + length a) b.
Proof.
  induction a as [|o a IH]; intros k b; cbn [app sel_toks length].
  - rewrite Nat.add_0_r. reflexivity.
  - rewrite IH, <- app_assoc. do 3 f_equal. lia.
Qed.

Lemma sel_toks_const {tok} sel (c : bool) : forall (row : list (option (list tok))) k,
  (forall j, (j < length row)%nat -> sel (k + j)%nat = c) ->
  sel_toks tok sel k row = if c then concat (map (mb_toks tok) row) else [].
Proof.
  induction row as [|o row IH]; intros k H; cbn [sel_toks map concat].
  - destruct c; reflexivity.
  - rewrite (IH (S k)) by (intros j Hj; replace (S k + j)%nat with (k + S j)%nat by lia; apply H; cbn [length]; lia).
    replace (sel k) with c by (symmetry; replace k with (k + 0)%nat by lia; apply H; cbn [length]; lia).
    destruct c; reflexivity.
Qed.

Theorem sel_toks_rows (w : nat) (lg i : Z) : (0 < w)%nat -> 0 <= lg ->
  forall (rows : list (list (option (list (bool * Z))))) (r0 : nat),
  Forall (fun r => length r = w) rows ->
  sel_toks (bool * Z) (part_sel (Z.of_nat w) (2 ^ lg) i) (r0 * w) (concat rows) =
  part_syms (2 ^ lg) i (Z.of_nat r0) (map (fun r => concat (map (mb_toks (bool * Z)) r)) rows).
Proof.
  intros Hw Hlg. induction rows as [|row tl IH]; intros r0 H; [reflexivity|].
  pose proof (Forall_inv H) as Hr. cbv beta in Hr.
  cbn [concat map part_syms]. rewrite sel_toks_app, Hr.
  replace (r0 * w + w)%nat with (S r0 * w)%nat by lia.
  rewrite (IH (S r0) (Forall_inv_tail H)). rewrite Nat2Z.inj_succ. unfold Z.succ. f_equal.
  apply sel_toks_const. intros j Hj. unfold part_sel.
  rewrite Nat2Z.inj_add, Nat2Z.inj_mul, Z.div_add_l by lia.
  rewrite (Z.div_small (Z.of_nat j)) by lia. rewrite Z.add_0_r.
  replace (2 ^ lg - 1) with (Z.ones lg) by (rewrite Z.ones_equiv; lia).
  rewrite Z.land_ones by exact Hlg. reflexivity.
Qed.

(** record + replay of partition i = the frame model's symbols of partition i put directly *)
Theorem token_buffer_partition_eq W (put : W -> bool * Z -> W) (P : nat) : (0 < P)%nat ->
  forall (w : nat) (lg i : Z) (rows : list (list (option (list (bool * Z))))) (bw : W),
  (0 < w)%nat -> 0 <= lg -> Forall (fun r => length r = w) rows ->
  emit_part (bool * Z) W put P (length (concat rows)) (part_sel (Z.of_nat w) (2 ^ lg) i)
            (session (bool * Z) P (concat rows)) bw =
  puts (bool * Z) W put (part_syms (2 ^ lg) i 0 (map (fun r => concat (map (mb_toks (bool * Z)) r)) rows)) bw.
Proof.
  intros HP w lg i rows bw Hw Hlg Hrows.
  rewrite (emit_part_session (bool * Z) W put P HP).
  pose proof (sel_toks_rows w lg i Hw Hlg rows 0%nat Hrows) as E.
  change (Z.of_nat 0) with 0 in E. change (0 * w)%nat with 0%nat in E. rewrite <- E. reflexivity.
Qed.
