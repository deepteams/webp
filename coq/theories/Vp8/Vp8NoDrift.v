(** Encoder-side reconstruction of a key frame from its choices (modes and
    quantised levels), modelled from internal/lossy/encode_frame.go reconstructMB /
    encodeI4Residuals: levels are kept in raster order and dequantised with the encoder's own
    step sizes (setupSegment: Vp8EncPath.enc_dq), the inverse WHT (dsp.TransformWHT) feeds the
    DC of the 16 luma blocks, every block goes through dsp.ITransform onto the prediction
    built from the encoder's own reconstructed neighbours, 4x4 blocks one after the other. *)
From Coq Require Import List ZArith Lia Bool.
From Webp Require Import Base.Res Vp8.Vp8Bool Vp8.Vp8BoolAbs Vp8.Vp8BoolEnc Vp8.Vp8Tables Vp8.Vp8Syntax
  Vp8.Vp8SyntaxRT Vp8.Vp8TokenRT Vp8.Vp8ModeRT Vp8.Vp8Kernels Vp8.Vp8KernelProofs Vp8.Vp8Recon Vp8.Vp8Filter
  Vp8.Vp8Spec Vp8.Vp8FrameRT Vp8.Vp8EncPath.
Import ListNotations.
Open Scope Z_scope.

(** levels: zig-zag list (as recorded into tokens) and raster block (as kept in MBEncInfo.Coeffs) *)
Definition level_at (first : Z) (ls : list Z) (n : Z) : Z :=
  if (first <=? n) && (n <? first + Z.of_nat (length ls)) then nth (Z.to_nat (n - first)) ls 0 else 0.

Definition raster_of (first : Z) (ls : list Z) : list Z := map (level_at first ls) unzig.

(** DequantCoeffs: out[i] = int16(in[i] * q), q = DC step for index 0 *)
Definition enc_dequant (dc ac : Z) (lv : list Z) : list Z :=
  map (fun '(i, v) => wrap16 (v * (if i =? 0 then dc else ac))) (combine (zrange 0 16) lv).

Lemma tok_lookup_below n : forall l f a, n < f -> tok_lookup (acc_of f l a) n = tok_lookup a n.
Proof.
  induction l as [|x t IHl]; intros f a Hf; cbn [acc_of]; [reflexivity|].
  rewrite IHl by lia. destruct (x =? 0); [reflexivity|]. cbn [tok_lookup].
  destruct (Z.eqb_spec f n); [lia|reflexivity].
Qed.

Lemma tok_lookup_acc : forall ls first acc n, first <= n ->
  tok_lookup (acc_of first ls acc) n =
  (if n <? first + Z.of_nat (length ls)
   then (let v := nth (Z.to_nat (n - first)) ls 0 in if v =? 0 then tok_lookup acc n else v)
   else tok_lookup acc n).
Proof.
  induction ls as [|v tl IH]; intros first acc n Hn; cbn [acc_of length].
  - rewrite Z.add_0_r. destruct (Z.ltb_spec n first); [lia|reflexivity].
  - destruct (Z.eq_dec n first) as [->|Hne].
    + (* position of v: nothing after it stores at [first] *)
      replace (first - first) with 0 by lia. cbn [Z.to_nat nth].
      assert (E : first <? first + Z.of_nat (S (length tl)) = true) by (apply Z.ltb_lt; lia). rewrite E.
      rewrite tok_lookup_below by lia. destruct (Z.eqb_spec v 0) as [->|Hv]; [reflexivity|].
      cbn [tok_lookup]. rewrite Z.eqb_refl. reflexivity.
    + rewrite IH by lia.
      replace (first + 1 + Z.of_nat (length tl)) with (first + Z.of_nat (S (length tl))) by lia.
      destruct (n <? first + Z.of_nat (S (length tl))) eqn:E.
      * replace (Z.to_nat (n - first)) with (S (Z.to_nat (n - (first + 1)))) by lia. cbn [nth].
        destruct (nth (Z.to_nat (n - (first + 1))) tl 0 =? 0); [|reflexivity].
        destruct (v =? 0); [reflexivity|]. cbn [tok_lookup]. destruct (Z.eqb_spec first n); [lia|reflexivity].
      * destruct (v =? 0); [reflexivity|]. cbn [tok_lookup]. destruct (Z.eqb_spec first n); [lia|reflexivity].
Qed.

Lemma unzig_range : Forall (fun n => 0 <= n < 16) unzig.
Proof. repeat constructor; lia. Qed.

Lemma tok_lookup_level first ls n : tok_lookup (acc_of first ls []) n = level_at first ls n.
Proof.
  unfold level_at. destruct (Z.leb_spec first n) as [Hf|Hf]; cbn [andb].
  - rewrite tok_lookup_acc by lia. cbn [tok_lookup].
    destruct (n <? first + Z.of_nat (length ls)); [|reflexivity].
    destruct (Z.eqb_spec (nth (Z.to_nat (n - first)) ls 0) 0) as [E0|E0]; [symmetry; exact E0|reflexivity].
  - apply tok_lookup_below. exact Hf.
Qed.

(** entry by entry: raster index 0 is zig-zag position 0, the only DC position *)
Lemma deq_link first dc ac ls : deq first dc ac ls = enc_dequant dc ac (raster_of first ls).
Proof.
  unfold deq, dequant_block, enc_dequant, raster_of, unzig.
  change (zrange 0 16) with [0; 1; 2; 3; 4; 5; 6; 7; 8; 9; 10; 11; 12; 13; 14; 15].
  cbn [map combine]. rewrite !tok_lookup_level.
  assert (L : forall v x, (if v =? 0 then 0 else wrap16 (v * x)) = wrap16 (v * x)).
  { intros v x. destruct (Z.eqb_spec v 0) as [->|]; reflexivity. }
  cbv zeta. rewrite !L. reflexivity.
Qed.

Definition enc_blocks (dc ac first : Z) (rows : list (list (list Z))) : list (list Z) :=
  map (fun ls => enc_dequant dc ac (raster_of first ls)) (concat rows).

Definition enc_recon_y16 (mode : Z) (q : dqf) (y2 : list Z) (ys : list (list (list Z))) (e : edges) : list (list Z) :=
  let pred := pred_block 16 4 mode (e_have_above e) (e_have_left e) (e_above_y e) (e_left_y e) (e_corner_y e) in
  let dcs := go_wht (enc_dequant (dq_y2dc q) (dq_y2ac q) (raster_of 0 y2)) in
  let blocks := map (fun '(dc, b) => rows4 (go_transform_one (set_dc dc b)))
                    (combine dcs (enc_blocks (dq_y1dc q) (dq_y1ac q) 1 ys)) in
  add_rows pred (blocks_to_rows 4 4 blocks).

Definition enc_recon_b (ext : list (list Z)) (bx by_ : nat) (mode : Z) (coeffs : list Z) : list (list Z) :=
  let pred := pred4 mode (ext_edge ext bx by_) in
  ext_set ext bx by_ (add_rows pred (rows4 (go_transform_one coeffs))).

Fixpoint enc_recon_b_row (ext : list (list Z)) (bx by_ : nat) (modes : list Z) (cs : list (list Z))
  : list (list Z) * list (list Z) :=
  match modes with
  | [] => (ext, cs)
  | m :: ms => match cs with [] => (ext, []) | c :: ctl => enc_recon_b_row (enc_recon_b ext bx by_ m c) (S bx) by_ ms ctl end
  end.

Fixpoint enc_recon_b_rows (ext : list (list Z)) (by_ : nat) (rows : list (list Z)) (cs : list (list Z)) : list (list Z) :=
  match rows with
  | [] => ext
  | ms :: tl => let '(ext1, cs1) := enc_recon_b_row ext 0 by_ ms cs in enc_recon_b_rows ext1 (S by_) tl cs1
  end.

Definition enc_recon_y4 (bmodes : list (list Z)) (q : dqf) (ys : list (list (list Z))) (e : edges) : list (list Z) :=
  let ext := enc_recon_b_rows (ext_init e) 0 bmodes (enc_blocks (dq_y1dc q) (dq_y1ac q) 0 ys) in
  map (fun row => firstn 16 (skipn 1 row)) (skipn 1 ext).

Definition enc_recon_c (mode : Z) (blocks : list (list Z)) (have_above have_left : bool)
  (above left : list Z) (corner : Z) : list (list Z) :=
  let pred := pred_block 8 3 mode have_above have_left above left corner in
  add_rows pred (blocks_to_rows 2 2 (map (fun b => rows4 (go_transform_one b)) blocks)).

(** the step sizes are the encoder's (setupSegment) for the segment's quantiser index *)
Definition enc_seg_dq (h : frame_hdr) (seg : Z) : dqf := enc_dq (fh_q h) (seg_q h seg).

Definition enc_recon_mb (h : frame_hdr) (m : mb_syn) (e : edges) : mbpix :=
  let mh := ms_hdr m in
  let q := enc_seg_dq h (mh_seg mh) in
  mkPix
    (if mh_is4 mh then enc_recon_y4 (mh_bmodes mh) q (ms_ys m) e else enc_recon_y16 (mh_ymode mh) q (ms_y2 m) (ms_ys m) e)
    (enc_recon_c (mh_uvmode mh) (enc_blocks (dq_uvdc q) (dq_uvac q) 0 (ms_us m)) (e_have_above e) (e_have_left e)
       (e_above_u e) (e_left_u e) (e_corner_u e))
    (enc_recon_c (mh_uvmode mh) (enc_blocks (dq_uvdc q) (dq_uvac q) 0 (ms_vs m)) (e_have_above e) (e_have_left e)
       (e_above_v e) (e_left_v e) (e_corner_v e)).

Lemma enc_recon_b_eq ext bx by_ m c : enc_recon_b ext bx by_ m c = recon_b ext bx by_ m c.
Proof. unfold enc_recon_b, recon_b. rewrite go_transform_one_eq_idct. reflexivity. Qed.

Lemma enc_recon_b_row_eq : forall ms ext bx by_ cs, enc_recon_b_row ext bx by_ ms cs = recon_b_row ext bx by_ ms cs.
Proof.
  induction ms as [|m ms IH]; intros ext bx by_ cs; cbn [enc_recon_b_row recon_b_row]; [reflexivity|].
  destruct cs as [|c ctl]; [reflexivity|]. rewrite enc_recon_b_eq. apply IH.
Qed.

Lemma enc_recon_b_rows_eq : forall rows ext by_ cs, enc_recon_b_rows ext by_ rows cs = recon_b_rows ext by_ rows cs.
Proof.
  induction rows as [|ms tl IH]; intros ext by_ cs; cbn [enc_recon_b_rows recon_b_rows]; [reflexivity|].
  rewrite enc_recon_b_row_eq. destruct (recon_b_row ext 0 by_ ms cs) as [ext1 cs1]. apply IH.
Qed.

Lemma enc_blocks_eq dc ac first rows : enc_blocks dc ac first rows = map (deq first dc ac) (concat rows).
Proof. unfold enc_blocks. apply map_ext. intros ls. symmetry. apply deq_link. Qed.

Lemma enc_recon_c_eq mode blocks ha hl above left corner :
  enc_recon_c mode blocks ha hl above left corner = recon_c mode blocks ha hl above left corner.
Proof.
  unfold enc_recon_c, recon_c. f_equal. f_equal. apply map_ext. intros b.
  rewrite go_transform_one_eq_idct. reflexivity.
Qed.

Lemma map_pair_ext {A B C} (f g : A * B -> C) l : (forall a b, f (a, b) = g (a, b)) -> map f l = map g l.
Proof. intros H. apply map_ext. intros [a b]. apply H. Qed.

(** One macroblock: the encoder's reconstruction = the decoder-side reconstruction of the recorded
    syntax elements, on the same neighbouring samples. *)
Theorem enc_mb_eq_dec h m e :
  enc_recon_mb h m e =
  recon_mb (ms_hdr m) (res_of (seg_dq h (mh_seg (ms_hdr m))) (mh_is4 (ms_hdr m)) (ms_y2 m) (ms_ys m) (ms_us m) (ms_vs m)) e.
Proof.
  unfold enc_recon_mb, recon_mb, enc_seg_dq, seg_dq. rewrite enc_dequant_eq_dec.
  set (q := dq_of (fh_q h) (seg_q h (mh_seg (ms_hdr m)))).
  rewrite !enc_recon_c_eq, !enc_blocks_eq.
  unfold res_of. destruct (mh_is4 (ms_hdr m)) eqn:E4; cbn [r_u r_v]; f_equal.
  - unfold enc_recon_y4, recon_y4. cbn [r_y]. rewrite enc_recon_b_rows_eq, enc_blocks_eq. reflexivity.
  - unfold enc_recon_y16, recon_y16. cbn [r_y2 r_y]. rewrite enc_blocks_eq.
    rewrite go_wht_eq_iwht, <- deq_link.
    f_equal. f_equal. apply map_pair_ext. intros dc b. rewrite go_transform_one_eq_idct. reflexivity.
Qed.

(** a skipped macroblock has no level at all (encode_frame.go: Skip = no non-zero coefficient) *)
Definition empty_rows (n : nat) : list (list (list Z)) := repeat (repeat [] n) n.
Definition skip_canon (m : mb_syn) : Prop :=
  ms_y2 m = [] /\ ms_ys m = empty_rows 4 /\ ms_us m = empty_rows 2 /\ ms_vs m = empty_rows 2.

Lemma res_of_empty q is4 : res_of q is4 [] (empty_rows 4) (empty_rows 2) (empty_rows 2) = zero_res (negb is4).
Proof. destruct is4; reflexivity. Qed.

(** the frame: macroblocks in raster order, each predicted from the encoder's own reconstruction *)
Fixpoint enc_row (h : frame_hdr) (aboves : list (option mbpix)) (left al : option mbpix) (mbs : list mb_syn)
  : list mbpix :=
  match aboves, mbs with
  | a :: rest, m :: mtl =>
    let ar := match rest with a' :: _ => a' | [] => None end in
    let pix := enc_recon_mb h m (mk_edges a left al ar) in
    pix :: enc_row h rest (Some pix) a mtl
  | _, _ => []
  end.

Fixpoint enc_rows (h : frame_hdr) (aboves : list (option mbpix)) (rows : list (list mb_syn)) : list (list mbpix) :=
  match rows with
  | [] => []
  | mbs :: rtl => let out := enc_row h aboves None None mbs in out :: enc_rows h (map Some out) rtl
  end.

(** the encoder's choices: skip only what has no level *)
Definition choices_ok (rows : list (list mb_syn)) : Prop :=
  Forall (Forall (fun m => mh_skip (ms_hdr m) = true -> skip_canon m)) rows.

(** [row_syn]: (next row's column contexts, (pixels, filter info) list, header symbols, tokens) *)
Lemma enc_row_eq qk h : forall cols left al mbs,
  Forall (fun m => mh_skip (ms_hdr m) = true -> skip_canon m) mbs -> length mbs = length cols ->
  let r := row_syn qk h cols left al mbs in
  enc_row h (map cc_pix cols) (lc_pix left) al mbs = map fst (snd (fst (fst r))) /\
  map cc_pix (fst (fst (fst r))) = map Some (map fst (snd (fst (fst r)))).
Proof.
  induction cols as [|c rest IH]; intros left al mbs Hsk Hlen; destruct mbs as [|m mtl]; try discriminate Hlen;
    cbn [row_syn enc_row map fst snd].
  - split; reflexivity.
  - pose proof (Forall_inv Hsk) as Hm. pose proof (Forall_inv_tail Hsk) as Htl.
    assert (Ear : match map cc_pix rest with a' :: _ => a' | [] => None end
                  = match rest with c' :: _ => cc_pix c' | [] => None end) by (destruct rest; reflexivity).
    rewrite Ear. set (e := mk_edges (cc_pix c) (lc_pix left) al match rest with c' :: _ => cc_pix c' | [] => None end).
    destruct (if mh_skip (ms_hdr m) then _ else _) as [[[res na] nl] symT] eqn:Ech.
    assert (Epix : enc_recon_mb h m e = recon_mb (ms_hdr m) res e).
    { rewrite enc_mb_eq_dec. destruct (mh_skip (ms_hdr m)) eqn:Esk; injection Ech as <- _ _ _; [|reflexivity].
      destruct (Hm Esk) as (-> & -> & -> & ->). rewrite res_of_empty. reflexivity. }
    rewrite Epix. set (pix := recon_mb (ms_hdr m) res e).
    specialize (IH (mkLeft (snd (bctx_after (ms_hdr m) (cc_b c) (lc_b left))) nl (Some pix)) (cc_pix c) mtl Htl
                   ltac:(cbn [length] in Hlen; lia)).
    cbv zeta in IH. cbn [lc_pix] in IH.
    destruct (row_syn qk h rest _ (cc_pix c) mtl) as [[[cols' out] s0] sT]. cbn [fst snd] in IH |- *.
    destruct IH as [I1 I2]. cbn [map cc_pix fst]. rewrite I1, I2. split; reflexivity.
Qed.

Lemma wf_row_len h : forall cols left mbs, wf_row h cols left mbs -> length mbs = length cols.
Proof.
  induction cols as [|c rest IH]; intros left mbs H; destruct mbs as [|m mtl]; cbn [wf_row] in H; try contradiction; [reflexivity|].
  destruct H as (_ & _ & _ & _ & H). cbn [length]. f_equal. eapply IH. exact H.
Qed.

Lemma enc_rows_eq qk h : forall rows cols, choices_ok rows -> wf_rows_syn qk h cols rows ->
  enc_rows h (map cc_pix cols) rows = map (map fst) (fst (fst (rows_syn qk h cols rows))).
Proof.
  induction rows as [|mbs rtl IH]; intros cols Hc Hwf; cbn [enc_rows rows_syn]; [reflexivity|].
  cbn [wf_rows_syn] in Hwf. destruct Hwf as [Hrow Hrest].
  pose proof (enc_row_eq qk h cols left0 None mbs (Forall_inv Hc) (wf_row_len h _ _ _ Hrow)) as H. cbv zeta in H.
  destruct (row_syn qk h cols left0 None mbs) as [[[cols' out] s0] sT]. cbn [fst snd] in H, Hrest.
  destruct H as [H1 H2]. cbn [lc_pix left0] in H1.
  specialize (IH cols' (Forall_inv_tail Hc) Hrest).
  destruct (rows_syn qk h cols' rtl) as [[outs s0s] sTs]. cbn [fst snd map] in IH |- *.
  rewrite H1. f_equal. rewrite <- H2. exact IH.
Qed.

(** the encoder data path: choices (header, modes, levels) -> emitted bytes and reconstruction *)
Definition enc_frame (s : frame_syn) : Res (list Z) * (Z * Z * planes) :=
  let h := fs_hdr s in
  (emit_key_frame rfc_quirks s,
   (fh_w h, fh_h h, planes_of (fh_w h) (fh_h h) (enc_rows h (map cc_pix (fs_cols s)) (fs_rows s)))).

(** No drift: for every well-formed set of choices whose frame passes the encoder's size guards,
    the specification decoder reconstructs from the emitted bytes, before the loop filter,
    exactly the encoder's reconstruction, with the source's dimensions; with the loop filter off
    (level 0) the decoded picture itself is that reconstruction. *)
Theorem no_drift s bs : wf_frame_syn rfc_quirks s -> choices_ok (fs_rows s) ->
  fst (enc_frame s) = Ok bs ->
  decode_unfiltered bs = Ok (snd (enc_frame s)) /\
  (lf_level (fh_lf (fs_hdr s)) = 0 ->
   exists r, decode bs = Ok r /\ (dc_w r, dc_h r, dc_filtered r) = snd (enc_frame s)).
Proof.
  intros Hwf Hc Hemit. unfold enc_frame in *. cbn [fst snd] in *.
  destruct (vp8_emit_decode rfc_quirks s bs Hwf Hemit) as (r & Hdec & Hw & Hh & _ & Hunf & Hfil).
  pose proof Hwf as (_ & _ & _ & _ & _ & _ & Hrows & _).
  pose proof (enc_rows_eq rfc_quirks (fs_hdr s) (fs_rows s) (fs_cols s) Hc Hrows) as Henc.
  assert (Eu : dc_unfiltered r = planes_of (fh_w (fs_hdr s)) (fh_h (fs_hdr s))
                 (enc_rows (fs_hdr s) (map cc_pix (fs_cols s)) (fs_rows s))).
  { rewrite Hunf, Henc. unfold reconstruct. reflexivity. }
  split.
  - unfold decode_unfiltered, decode. rewrite Hdec. cbn [bind]. rewrite Hw, Hh, Eu. reflexivity.
  - intros Hlvl. exists r. split; [exact Hdec|].
    rewrite Hw, Hh, Hfil, <- Eu, Hunf. unfold reconstruct. cbn [fst snd]. rewrite Hlvl. reflexivity.
Qed.

(** the hypotheses are satisfiable: a 16x16 frame with one 16x16-predicted macroblock carrying a
    Y2 block and one luma AC level, default probabilities, normal loop filter *)
Definition ex_hdr : frame_hdr :=
  mkFrame 16 16 0 0 false false (mkSeg false false false zeros4 zeros4 [255; 255; 255])
          (mkLf false 10 0 false zeros4 zeros4) 0 (mkQ 40 0 0 0 0 0) coeff_probs0 false 0.
Definition ex_mb : mb_syn :=
  mkMbSyn (mkMbHdr 0 false false DC_PRED [] TM_PRED) [3; -1]
          [[[2]; []; []; []]; [[]; []; []; []]; [[]; [0; 0; -5]; []; []]; [[]; []; []; []]]
          (empty_rows 2) [[[]; [1]]; [[]; []]].
Definition ex_frame : frame_syn := mkFrameSyn ex_hdr false false false [[ex_mb]].

Lemma probs_ok_b ps : forallb (fun bp => (0 <=? snd bp) && (snd bp <=? 255)) ps = true -> probs_ok ps.
Proof.
  intros H. apply Forall_forall. intros x Hx. rewrite forallb_forall in H. specialize (H x Hx).
  apply andb_true_iff in H. destruct H as [H1 H2]. apply Z.leb_le in H1, H2. lia.
Qed.

Lemma probs_ok_bb l : forallb (forallb (fun bp => (0 <=? snd bp) && (snd bp <=? 255))) l = true -> Forall probs_ok l.
Proof.
  intros H. apply Forall_forall. intros ps Hps. apply probs_ok_b. rewrite forallb_forall in H. exact (H ps Hps).
Qed.

Example ex_frame_wf : wf_frame_syn rfc_quirks ex_frame /\ choices_ok (fs_rows ex_frame) /\
  exists bs, emit_key_frame rfc_quirks ex_frame = Ok bs.
Proof.
  split; [|split].
  - unfold wf_frame_syn. cbv zeta.
    split.
    { unfold wf_frame_hdr, ex_frame, ex_hdr. cbn [fs_hdr fs_upd_seg fs_upd_lf fh_seg fh_lf fh_log2parts fh_q fh_probs fh_skip_prob fh_skip_enabled].
      split; [unfold wf_seg_hdr; cbn; repeat split; try lia; try reflexivity; repeat constructor; lia|].
      split; [unfold wf_lf_hdr; cbn; repeat split; try lia; try reflexivity; repeat constructor; lia|].
      split; [lia|]. split; [unfold wf_q_hdr; cbn; lia|]. split; [exact wf_probs_default|]. split; [lia|reflexivity]. }
    split; [cbn; lia|]. split; [cbn; lia|]. split; [reflexivity|]. split; [reflexivity|]. split; [reflexivity|].
    split.
    { cbn [wf_rows_syn ex_frame fs_rows fs_hdr fs_cols]. split; [|exact I].
      vm_compute. repeat split; try lia; try discriminate; repeat constructor; try lia; auto;
        try (let HH := fresh in intro HH; discriminate HH). }
    split.
    + apply probs_ok_b. vm_compute. reflexivity.
    + apply probs_ok_bb. vm_compute. reflexivity.
  - constructor; [constructor; [cbn; intros Hsk; discriminate Hsk|constructor]|constructor].
  - eexists. vm_compute. reflexivity.
Qed.
