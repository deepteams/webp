(** Round trip of the coefficient tokens of one block (RFC 6386 section 13) over
    (bit, probability) streams: an emitter that walks the token tree (end-of-block,
    zero, literal values 1..4, the six value categories with their extra bits, sign;
    no end-of-block check after a zero token) and the proof that Vp8Syntax.tokens
    reads the levels back, with the end-of-block position. *)
From Coq Require Import List ZArith Lia Bool.
From Webp Require Import Vp8.Vp8Bool Vp8.Vp8BoolAbs Vp8.Vp8BoolEnc Vp8.Vp8Tables Vp8.Vp8Syntax Vp8.Vp8SyntaxRT.
Import ListNotations.
Open Scope Z_scope.

(** extra bits of a category: most significant first, one probability per bit *)
Fixpoint e_extra (ps : list Z) (v : Z) : list (bool * Z) :=
  match ps with
  | [] => []
  | p :: tl => let w := 2 ^ Z.of_nat (length tl) in
               let b := w <=? v in (b, p) :: e_extra tl (if b then v - w else v)
  end.

Lemma e_extra_lit : forall ps v, combine (map fst (e_lit (length ps) v)) ps = e_extra ps v.
Proof.
  induction ps as [|p tl IH]; intros v; cbn [length e_lit map fst combine e_extra]; [reflexivity|].
  rewrite IH. reflexivity.
Qed.

Lemma rt_extra ps v : 0 <= v < 2 ^ Z.of_nat (length ps) -> rt (read_extra ps 0) (e_extra ps v) v.
Proof. intros Hv. rewrite <- e_extra_lit. exact (rt_msb ps v 0 Hv). Qed.

(** the path of a magnitude a >= 1 through the value tree: (probability index, bit) list,
    base value and extra-bit probabilities of the leaf *)
Definition ib (i : nat) (b : bool) : nat * bool := (i, b).

Definition value_path (a : Z) : list (nat * bool) * Z * list Z :=
  if a =? 1 then ([ib 2 false], 1, [])
  else if a =? 2 then ([ib 2 true; ib 3 false; ib 4 false], 2, [])
  else if a =? 3 then ([ib 2 true; ib 3 false; ib 4 true; ib 5 false], 3, [])
  else if a =? 4 then ([ib 2 true; ib 3 false; ib 4 true; ib 5 true], 4, [])
  else if a <? 7 then ([ib 2 true; ib 3 true; ib 6 false; ib 7 false], 5, pcat1)
  else if a <? 11 then ([ib 2 true; ib 3 true; ib 6 false; ib 7 true], 7, pcat2)
  else if a <? 19 then ([ib 2 true; ib 3 true; ib 6 true; ib 8 false; ib 9 false], 11, pcat3)
  else if a <? 35 then ([ib 2 true; ib 3 true; ib 6 true; ib 8 false; ib 9 true], 19, pcat4)
  else if a <? 67 then ([ib 2 true; ib 3 true; ib 6 true; ib 8 true; ib 10 false], 35, pcat5)
  else ([ib 2 true; ib 3 true; ib 6 true; ib 8 true; ib 10 true], 67, pcat6).

Definition e_path (p : list Z) (path : list (nat * bool)) : list (bool * Z) :=
  map (fun ib => (snd ib, nth (fst ib) p 0)) path.

(** the leaf that a path leads to; [read_tree] follows the path it is given *)
Fixpoint leaf_at {A} (t : tree A) (path : list (nat * bool)) : option A :=
  match path, t with
  | [], Leaf x => Some x
  | (j, b) :: tl, Node i z o => if (j =? i)%nat then leaf_at (if b then o else z) tl else None
  | _, _ => None
  end.

Lemma rt_path {A} probs : forall path (t : tree A) a, leaf_at t path = Some a ->
  rt (read_tree t probs) (e_path probs path) a.
Proof.
  induction path as [|[j b] tl IH]; intros [x|i z o] a H; cbn [leaf_at] in H; try discriminate H.
  - injection H as ->. apply rt_ret.
  - destruct (Nat.eqb_spec j i) as [->|_]; [|discriminate H].
    cbn [e_path map fst snd read_tree]. apply rt_cons. destruct b; apply IH; exact H.
Qed.

Definition e_value (p : list Z) (a : Z) : list (bool * Z) :=
  let '(path, base, extra) := value_path a in e_path p path ++ e_extra extra (a - base).

(** the path of a magnitude ends at the leaf of its class, and the rest fits the extra bits;
    2114 = 67 + 2^11 - 1 is the largest magnitude of category 6 (base 67, 11 extra bits) *)
Lemma value_path_spec a : 1 <= a <= 2114 ->
  let '(path, base, extra) := value_path a in
  leaf_at value_tree path = Some (base, extra) /\ 0 <= a - base < 2 ^ Z.of_nat (length extra).
Proof.
  intros Ha. unfold value_path.
  (* the ten classes, each closed by computing the leaf and the width of the extra bits *)
  destruct (Z.eqb_spec a 1); [|destruct (Z.eqb_spec a 2); [|destruct (Z.eqb_spec a 3); [|destruct (Z.eqb_spec a 4); [|
  destruct (Z.ltb_spec a 7); [|destruct (Z.ltb_spec a 11); [|destruct (Z.ltb_spec a 19); [|destruct (Z.ltb_spec a 35); [|
  destruct (Z.ltb_spec a 67)]]]]]]]]; (split; [reflexivity|cbn; lia]).
Qed.

Definition tprobs (tp : list (list (list Z))) (n ctx : Z) : list Z :=
  nthZ (nthZ tp (nthZ bands n 0) []) ctx [].

(** [ls]: the levels at zig-zag positions n, n+1, ... up to the end of block *)
Fixpoint e_tokens (tp : list (list (list Z))) (n ctx : Z) (noeob : bool) (ls : list Z) : list (bool * Z) :=
  match ls with
  | [] => if (16 <=? n) || noeob then [] else [(false, nth 0 (tprobs tp n ctx) 0)]
  | v :: tl =>
    let p := tprobs tp n ctx in
    (if noeob then [] else [(true, nth 0 p 0)]) ++
    (if v =? 0 then (false, nth 1 p 0) :: e_tokens tp (n + 1) 0 true tl
     else (true, nth 1 p 0) :: (e_value p (Z.abs v) ++ e_flag (v <? 0) ++
          e_tokens tp (n + 1) (if Z.abs v =? 1 then 1 else 2) false tl))
  end.

(** a block may not end right after a zero token unless position 16 is reached *)
Fixpoint wf_levels (n : Z) (noeob : bool) (ls : list Z) : Prop :=
  match ls with
  | [] => n <= 16 /\ (noeob = false \/ n = 16)
  | v :: tl => n < 16 /\ Z.abs v <= 2114 /\ wf_levels (n + 1) (v =? 0) tl
  end.

Fixpoint acc_of (n : Z) (ls : list Z) (acc : list (Z * Z)) : list (Z * Z) :=
  match ls with
  | [] => acc
  | v :: tl => acc_of (n + 1) tl (if v =? 0 then acc else (n, v) :: acc)
  end.

Theorem tokens_rt tp : forall ls fuel n ctx noeob d acc rest,
  wf_levels n noeob ls -> (length ls < fuel)%nat ->
  sync d (e_tokens tp n ctx noeob ls ++ rest) ->
  exists d', tokens fuel tp n ctx noeob d acc = (acc_of n ls acc, n + Z.of_nat (length ls), d') /\ sync d' rest.
Proof.
  induction ls as [|v tl IH]; intros fuel n ctx noeob d acc rest Hwf Hfuel;
    (destruct fuel as [|f]; [cbn [length] in Hfuel; lia|]);
    apply (rt_run (fun d => tokens (S f) tp n ctx noeob d acc)); cbn [tokens e_tokens acc_of length wf_levels] in *.
  - destruct Hwf as [Hn Hend]. rewrite Z.add_0_r. destruct (Z.leb_spec 16 n).
    + replace n with 16 by lia. apply rt_ret.
    + destruct Hend as [->|Hn16]; [|lia]. apply rt_cons. apply rt_ret.
  - destruct Hwf as (Hn & Hv & Hwf).
    replace (16 <=? n) with false by (symmetry; apply Z.leb_gt; exact Hn).
    replace (n + Z.of_nat (S (length tl))) with (n + 1 + Z.of_nat (length tl)) by lia.
    apply (rt_bind (v := true)). { apply rt_if; intros _; [apply rt_ret|apply rt_bool]. }
    destruct (Z.eqb_spec v 0) as [->|Hne]; apply rt_cons; cbn [negb].
    + intros d2 r2. apply IH; [exact Hwf|lia].
    + pose proof (value_path_spec (Z.abs v) ltac:(lia)) as Hvp. unfold e_value.
      destruct (value_path (Z.abs v)) as [[path base] extra]. destruct Hvp as [Hleaf Hextra]. rewrite <- app_assoc.
      apply (rt_bind (rt_path _ _ _ _ Hleaf)). apply (rt_bind (rt_extra _ _ Hextra)). apply (rt_bind (rt_flag _)).
      cbv zeta. replace (base + (Z.abs v - base)) with (Z.abs v) by ring.
      replace (if v <? 0 then - Z.abs v else Z.abs v) with v by (destruct (Z.ltb_spec v 0); lia).
      intros d5 r5. apply IH; [exact Hwf|lia].
Qed.

Lemma wf_levels_length : forall ls n b, wf_levels n b ls -> n + Z.of_nat (length ls) <= 16.
Proof.
  induction ls as [|x t IH]; intros n b Hw; cbn [wf_levels length] in *; [lia|].
  destruct Hw as (_ & _ & Hw). specialize (IH _ _ Hw). lia.
Qed.

(** the dequantised block the decoder stores *)
Corollary decode_block_rt tp first ctx dqdc dqac ls d rest :
  wf_levels first false ls -> 0 <= first ->
  sync d (e_tokens tp first ctx false ls ++ rest) ->
  exists d', decode_block tp first ctx dqdc dqac d =
               (dequant_block (acc_of first ls []) dqdc dqac, first + Z.of_nat (length ls), d') /\ sync d' rest.
Proof.
  intros Hwf H0. apply rt_run. unfold decode_block.
  assert (Hlen : (length ls < 17)%nat) by (pose proof (wf_levels_length _ _ _ Hwf); lia).
  apply (rt_last (fun d r => tokens_rt tp ls 17 first ctx false d [] r Hwf Hlen)). apply rt_ret.
Qed.

Example wf_levels_example : wf_levels 0 false [5; 0; 0; -2114; 1] /\ wf_levels 1 false [0; 0; 0; 0; 0; 0; 0; 0; 0; 0; 0; 0; 0; 0; 0].
Proof. cbn. repeat split; try lia; auto. Qed.
