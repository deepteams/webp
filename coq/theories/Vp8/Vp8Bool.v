(** VP8 boolean entropy decoder, RFC 6386 section 7 (value / range / bit_count
    formulation, byte-wise refill, zeros after the end of the data), and
    one-step models of the three normalisation variants the Go code uses
    (bitio.BoolReader.GetBit, GetBitAlt / lossy.fastBit, GetSigned / fastSigned). *)
From Coq Require Import List ZArith Lia Bool.
Import ListNotations.
Open Scope Z_scope.

(** * Specification decoder (RFC 6386 7.3) *)

Record bdec : Type := mkBdec {
  bd_value : Z;        (* 2 bytes: window byte and one byte of look-ahead *)
  bd_range : Z;        (* 128..255 between calls *)
  bd_count : Z;        (* number of shifts since the last byte was appended, 0..7 *)
  bd_rest  : list Z;   (* bytes not yet appended *)
  bd_pos   : Z;        (* total number of bits shifted out so far *)
  bd_lim   : Z;        (* 8*(len-1): reading a bool with bd_pos > bd_lim needs bits beyond the data *)
  bd_past  : bool      (* some bool was decoded from a window that reached beyond the data *)
}.

Definition bd_init (data : list Z) : bdec :=
  let lim := 8 * (Z.of_nat (length data) - 1) in
  match data with
  | [] => mkBdec 0 255 0 [] 0 lim false
  | [a] => mkBdec (a * 256) 255 0 [] 0 lim false
  | a :: b :: r => mkBdec (a * 256 + b) 255 0 r 0 lim false
  end.

(** One iteration of the RFC normalisation loop: shift value and range left
    by one; after 8 shifts append the next byte (0 when the data is exhausted). *)
Definition bd_shift1 (value count : Z) (rest : list Z) : Z * Z * list Z :=
  let v := (value * 2) mod 65536 in
  if count + 1 =? 8 then
    match rest with
    | [] => (v, 0, [])
    | b :: r => (v + b, 0, r)
    end
  else (v, count + 1, rest).

Fixpoint bd_normalize (fuel : nat) (value range count : Z) (rest : list Z) (pos : Z)
  : Z * Z * Z * list Z * Z :=
  match fuel with
  | O => (value, range, count, rest, pos)
  | S f =>
    if range <? 128 then
      let '(v, c, r) := bd_shift1 value count rest in
      bd_normalize f v (range * 2) c r (pos + 1)
    else (value, range, count, rest, pos)
  end.

(** [split = 1 + (((range - 1) * prob) >> 8)] *)
Definition bd_split (range prob : Z) : Z := 1 + ((range - 1) * prob) / 256.

Definition read_bool (prob : Z) (d : bdec) : bool * bdec :=
  let split := bd_split (bd_range d) prob in
  let bigsplit := split * 256 in
  let past := orb (bd_past d) (bd_lim d <? bd_pos d) in
  let '(bit, range1, value1) :=
    if bigsplit <=? bd_value d then (true, bd_range d - split, bd_value d - bigsplit)
    else (false, split, bd_value d) in
  let '(v, rg, c, r, p) := bd_normalize 8 value1 range1 (bd_count d) (bd_rest d) (bd_pos d) in
  (bit, mkBdec v rg c r p (bd_lim d) past).

(** L(n): an n-bit unsigned literal, most significant bit first, each bit at probability 128. *)
Fixpoint read_literal (n : nat) (acc : Z) (d : bdec) : Z * bdec :=
  match n with
  | O => (acc, d)
  | S m => let '(b, d1) := read_bool 128 d in
           read_literal m (2 * acc + (if b then 1 else 0)) d1
  end.

Definition read_lit (n : nat) (d : bdec) : Z * bdec := read_literal n 0 d.

Definition read_flag (d : bdec) : bool * bdec := read_bool 128 d.

(** magnitude L(n) followed by a sign bit *)
Definition read_signed (n : nat) (d : bdec) : Z * bdec :=
  let '(m, d1) := read_lit n d in
  let '(s, d2) := read_flag d1 in
  ((if s then - m else m), d2).

(** optional signed value: flag, then magnitude and sign; 0 when the flag is clear *)
Definition read_opt_signed (n : nat) (d : bdec) : Z * bdec :=
  let '(f, d1) := read_flag d in
  if f then read_signed n d1 else (0, d1).

(** Generic tree reader (RFC 8.1): inner nodes carry the index of their probability. *)
Inductive tree (A : Type) : Type :=
| Leaf (a : A)
| Node (pidx : nat) (zero one : tree A).
Arguments Leaf {A} a.
Arguments Node {A} pidx zero one.

Fixpoint read_tree {A} (t : tree A) (probs : list Z) (d : bdec) : A * bdec :=
  match t with
  | Leaf a => (a, d)
  | Node i z o =>
    let '(b, d1) := read_bool (nth i probs 0) d in
    if b then read_tree o probs d1 else read_tree z probs d1
  end.

(** * One-step views used to compare the Go decoder's normalisation variants.

    RFC state between calls: range R in 128..255 and an 8-bit window W (the
    high byte of [value]) plus following bits.  libwebp / Go keep [range-1]
    and compare [window > split'] with [split' = (range-1)*prob >> 8].
    For a given (R, prob) and decision bit, each variant yields a new range
    and a shift count; the window arithmetic is the same subtraction. *)

Definition rfc_split (R prob : Z) : Z := bd_split R prob.
Definition rfc_range_after (R prob : Z) (bit : bool) : Z :=
  if bit then R - rfc_split R prob else rfc_split R prob.

Fixpoint norm_loop (fuel : nat) (range shift : Z) : Z * Z :=
  match fuel with
  | O => (range, shift)
  | S f => if range <? 128 then norm_loop f (range * 2) (shift + 1) else (range, shift)
  end.
Definition rfc_step (R prob : Z) (bit : bool) : Z * Z * Z :=
  (* (threshold, normalised range, shift) *)
  let '(r, s) := norm_loop 8 (rfc_range_after R prob bit) 0 in
  (rfc_split R prob, r, s).

(** floor(log2 x) for 1 <= x < 256 *)
Definition log2_8 (x : Z) : Z := Z.log2 x.

(** bitio.BoolReader.GetBit: range_ = Range (= R-1); split = range_*prob>>8;
    bit = value > split; bit: range_ -= split else range_ = split+1;
    shift = 7 ^ (Len32(range_)-1); range_ <<= shift; Range = range_ - 1.
    Expressed on R = Range+1: threshold = split+1, new R = range_<<shift. *)
Definition go_getbit_step (R prob : Z) (bit : bool) : Z * Z * Z :=
  let range_ := R - 1 in
  let split := (range_ * prob) / 256 in
  let r1 := if bit then range_ - split else split + 1 in
  let shift := Z.lxor 7 (log2_8 r1) in
  (split + 1, r1 * 2 ^ shift, shift).

(** GetBitAlt / fastBit: bit: range_ -= split+1 else range_ = split;
    if range_ <= 0x7e { shift = kVP8Log2Range[range_]; range_ = kVP8NewRange[range_] }. *)
Definition go_lut_step (log2range newrange : list Z) (R prob : Z) (bit : bool) : Z * Z * Z :=
  let range_ := R - 1 in
  let split := (range_ * prob) / 256 in
  let r1 := if bit then range_ - (split + 1) else split in
  if r1 <=? 126 then
    (split + 1, nth (Z.to_nat r1) newrange 0 + 1, nth (Z.to_nat r1) log2range 0)
  else (split + 1, r1 + 1, 0).

(** GetSigned / fastSigned (prob = 0x80 only): split = Range>>1; bit = value > split;
    Bits--; Range = (Range + mask) | 1 where mask = -1 if bit. Shift is always 1. *)
Definition go_signed_step (R : Z) (bit : bool) : Z * Z * Z :=
  let range_ := R - 1 in
  let split := range_ / 2 in
  let r1 := Z.lor (if bit then range_ - 1 else range_) 1 in
  (split + 1, r1 + 1, 1).

Definition zrange (lo n : Z) : list Z := map (fun i => lo + Z.of_nat i) (seq 0 (Z.to_nat n)).

Lemma in_zrange lo n x : 0 <= n -> lo <= x < lo + n -> In x (zrange lo n).
Proof.
  intros Hn Hx. unfold zrange. apply in_map_iff. exists (Z.to_nat (x - lo)). split; [lia|].
  apply in_seq. lia.
Qed.

Lemma zrange_forallb f lo n x : forallb f (zrange lo n) = true -> lo <= x < lo + n -> f x = true.
Proof.
  intros H Hx. apply (proj1 (forallb_forall f _) H). apply in_zrange; lia.
Qed.

Lemma nth_error_zrange lo n i : 0 <= i < n -> nth_error (zrange lo n) (Z.to_nat i) = Some (lo + i).
Proof.
  intros H. unfold zrange. rewrite nth_error_map.
  rewrite (nth_error_nth' _ 0%nat) by (rewrite seq_length; lia).
  rewrite seq_nth by lia. cbn [option_map]. f_equal. lia.
Qed.
