(** Round trip of the per-macroblock data over (bit, probability) streams: the header
    (RFC 6386 19.3, 11.2, 11.3: segment id, skip flag, luma mode, the 16 contextual sub-block
    modes, chroma mode) read by parse_mb_hdr, and the residual blocks (13: Y2, 16 Y, 4 U, 4 V with
    their non-zero contexts) read by parse_residuals.  Tree-coded values (8.1) are emitted along
    [tree_path] and read back through Vp8TokenRT.rt_path. *)
From Coq Require Import List ZArith Lia Bool.
From Webp Require Import Vp8.Vp8Bool Vp8.Vp8BoolAbs Vp8.Vp8Tables Vp8.Vp8Syntax Vp8.Vp8SyntaxRT Vp8.Vp8TokenRT.
Import ListNotations.
Open Scope Z_scope.

Fixpoint tree_path {A} (eqb : A -> A -> bool) (t : tree A) (a : A) : option (list (nat * bool)) :=
  match t with
  | Leaf x => if eqb x a then Some [] else None
  | Node i z o =>
    match tree_path eqb z a with
    | Some p => Some ((i, false) :: p)
    | None => match tree_path eqb o a with Some p => Some ((i, true) :: p) | None => None end
    end
  end.

Definition e_tree {A} (eqb : A -> A -> bool) (t : tree A) (probs : list Z) (a : A) : list (bool * Z) :=
  match tree_path eqb t a with Some p => e_path probs p | None => [] end.

Lemma tree_path_leaf {A} (eqb : A -> A -> bool) (Heq : forall x y, eqb x y = true -> x = y) :
  forall (t : tree A) a path, tree_path eqb t a = Some path -> leaf_at t path = Some a.
Proof.
  induction t as [x|i z IHz o IHo]; intros a path Hp; cbn [tree_path] in Hp.
  - destruct (eqb x a) eqn:E; [|discriminate]. injection Hp as <-. rewrite (Heq x a E). reflexivity.
  - destruct (tree_path eqb z a) as [pz|] eqn:Ez.
    + injection Hp as <-. cbn [leaf_at]. rewrite Nat.eqb_refl. exact (IHz a pz Ez).
    + destruct (tree_path eqb o a) as [po|] eqn:Eo; [|discriminate].
      injection Hp as <-. cbn [leaf_at]. rewrite Nat.eqb_refl. exact (IHo a po Eo).
Qed.

Lemma rt_etree {A} (eqb : A -> A -> bool) (Heq : forall x y, eqb x y = true -> x = y)
  (t : tree A) probs a : tree_path eqb t a <> None -> rt (read_tree t probs) (e_tree eqb t probs a) a.
Proof.
  intros Hn. unfold e_tree. destruct (tree_path eqb t a) as [p|] eqn:E; [|congruence].
  exact (rt_path probs p t a (tree_path_leaf eqb Heq t a p E)).
Qed.

Lemma zeqb_sound x y : Z.eqb x y = true -> x = y.
Proof. apply Z.eqb_eq. Qed.

Definition oeqb (x y : option Z) : bool :=
  match x, y with Some a, Some b => a =? b | None, None => true | _, _ => false end.
Lemma oeqb_sound x y : oeqb x y = true -> x = y.
Proof. destruct x, y; cbn; try discriminate; try reflexivity. intros H. apply Z.eqb_eq in H. subst. reflexivity. Qed.

(** every value of a range has a leaf: checked by evaluation over the range *)
Lemma range_has_path {A} (eqb : A -> A -> bool) (g : Z -> A) (t : tree A) n :
  forallb (fun m => if tree_path eqb t (g m) then true else false) (zrange 0 n) = true ->
  forall m, 0 <= m < n -> tree_path eqb t (g m) <> None.
Proof.
  intros H m Hm. pose proof (proj1 (forallb_forall _ _) H m (in_zrange 0 n m ltac:(lia) Hm)) as Hp.
  cbv beta in Hp. destruct (tree_path eqb t (g m)); [discriminate|discriminate Hp].
Qed.

Lemma bmode_has_path m : 0 <= m < 10 -> tree_path Z.eqb bmode_tree m <> None.
Proof. apply (range_has_path Z.eqb (fun m => m)). reflexivity. Qed.
Lemma seg_has_path m : 0 <= m < 4 -> tree_path Z.eqb segment_tree m <> None.
Proof. apply (range_has_path Z.eqb (fun m => m)). reflexivity. Qed.
Lemma uv_has_path m : 0 <= m < 4 -> tree_path Z.eqb uv_mode_tree m <> None.
Proof. apply (range_has_path Z.eqb (fun m => m)). reflexivity. Qed.
Lemma ymode_has_path m : 0 <= m < 4 -> tree_path oeqb kf_ymode_tree (Some m) <> None.
Proof. apply (range_has_path oeqb Some). reflexivity. Qed.
Lemma bpred_has_path : tree_path oeqb kf_ymode_tree None <> None.
Proof. discriminate. Qed.

(** * the 16 sub-block modes with their contexts *)
Definition bprobs (a l : Z) : list Z := nthZ (nthZ kf_bmode_probs a []) l [].

Fixpoint e_brow (above : list Z) (l : Z) (modes : list Z) : list (bool * Z) :=
  match above, modes with
  | a :: tl, m :: ms => e_tree Z.eqb bmode_tree (bprobs a l) m ++ e_brow tl m ms
  | _, _ => []
  end.

Lemma rt_brow : forall above modes l, length modes = length above -> Forall (fun m => 0 <= m < 10) modes ->
  rt (bmode_row above l) (e_brow above l modes) modes.
Proof.
  induction above as [|a tl IH]; intros [|m ms] l Hl Hm; try discriminate Hl; cbn [bmode_row e_brow]; [apply rt_ret|].
  apply (rt_bind (rt_etree Z.eqb zeqb_sound bmode_tree _ m (bmode_has_path m (Forall_inv Hm)))).
  apply (rt_last (IH ms m (eq_add_S _ _ Hl) (Forall_inv_tail Hm))). apply rt_ret.
Qed.

Lemma last_cons {A} (l : list A) : forall x d, last (x :: l) d = last l x.
Proof.
  induction l as [|y t IH]; intros x d; [reflexivity|].
  change (last (y :: t) d = last (y :: t) x). rewrite !IH. reflexivity.
Qed.

Lemma last_in {A} (l : list A) x d : In (last (x :: l) d) (x :: l).
Proof.
  revert x. induction l as [|y t IH]; intros x; [left; reflexivity|].
  change (In (last (y :: t) d) (x :: y :: t)). right. apply IH.
Qed.

Fixpoint e_brows (above lefts : list Z) (rows : list (list Z)) : list (bool * Z) :=
  match lefts, rows with
  | l :: ltl, row :: rtl => e_brow above l row ++ e_brows row ltl rtl
  | _, _ => []
  end.

Fixpoint bleft (lefts : list Z) (rows : list (list Z)) : list Z :=
  match lefts, rows with
  | l :: ltl, row :: rtl => last row l :: bleft ltl rtl
  | _, _ => []
  end.

Lemma rt_brows n : forall lefts rows above, length rows = length lefts -> length above = n ->
  Forall (fun row => length row = n /\ Forall (fun m => 0 <= m < 10) row) rows ->
  rt (bmode_rows above lefts) (e_brows above lefts rows) (rows, last rows above, bleft lefts rows).
Proof.
  induction lefts as [|l ltl IH]; intros [|row rtl] above Hl Ha Hr; try discriminate Hl;
    cbn [bmode_rows e_brows bleft]; [apply rt_ret|].
  destruct (Forall_inv Hr) as [Hlen Hmodes].
  apply (rt_bind (rt_brow above row l ltac:(congruence) Hmodes)).
  apply (rt_last (IH rtl row (eq_add_S _ _ Hl) Hlen (Forall_inv_tail Hr))).
  rewrite last_cons. apply rt_ret.
Qed.

Definition e_mb_hdr (h : frame_hdr) (above_b left_b : list Z) (mh : mb_hdr) : list (bool * Z) :=
  (if sg_update_map (fh_seg h) then e_tree Z.eqb segment_tree (sg_probs (fh_seg h)) (mh_seg mh) else []) ++
  (if fh_skip_enabled h then [(mh_skip mh, fh_skip_prob h)] else []) ++
  e_tree oeqb kf_ymode_tree kf_ymode_probs (if mh_is4 mh then None else Some (mh_ymode mh)) ++
  (if mh_is4 mh then e_brows above_b left_b (mh_bmodes mh) else []) ++
  e_tree Z.eqb uv_mode_tree kf_uv_mode_probs (mh_uvmode mh).

Definition wf_mb_hdr (h : frame_hdr) (above_b left_b : list Z) (mh : mb_hdr) : Prop :=
  0 <= mh_seg mh < 4 /\ (sg_update_map (fh_seg h) = false -> mh_seg mh = 0) /\
  (fh_skip_enabled h = false -> mh_skip mh = false) /\
  0 <= mh_uvmode mh < 4 /\ length above_b = 4%nat /\ length left_b = 4%nat /\
  (if mh_is4 mh then
     mh_ymode mh = 0 /\ length (mh_bmodes mh) = 4%nat /\
     Forall (fun row => length row = 4%nat /\ Forall (fun m => 0 <= m < 10) row) (mh_bmodes mh)
   else 0 <= mh_ymode mh < 4 /\ mh_bmodes mh = []).

(** mode contexts handed to the macroblocks below and to the right *)
Definition bctx_after (mh : mb_hdr) (above_b left_b : list Z) : list Z * list Z :=
  if mh_is4 mh then (last (mh_bmodes mh) above_b, bleft left_b (mh_bmodes mh))
  else (rep4 (bmode_of_ymode (mh_ymode mh)), rep4 (bmode_of_ymode (mh_ymode mh))).

Theorem parse_mb_hdr_rt h above_b left_b mh d rest : wf_mb_hdr h above_b left_b mh ->
  sync d (e_mb_hdr h above_b left_b mh ++ rest) ->
  exists d', parse_mb_hdr h above_b left_b d =
               (mh, fst (bctx_after mh above_b left_b), snd (bctx_after mh above_b left_b), d') /\ sync d' rest.
Proof.
  intros (Hseg & Hseg0 & Hsk0 & Huv & La & Ll & Hmode). apply rt_run. unfold e_mb_hdr, parse_mb_hdr, bctx_after.
  destruct mh as [seg skip is4 ym bm uv]. cbn [mh_seg mh_skip mh_is4 mh_ymode mh_bmodes mh_uvmode] in *.
  apply (rt_bind (v := seg)).
  { apply rt_if; intros E.
    - exact (rt_etree Z.eqb zeqb_sound segment_tree _ seg (seg_has_path seg Hseg)).
    - rewrite (Hseg0 E). apply rt_ret. }
  apply (rt_bind (v := skip)).
  { apply rt_if; intros E; [apply rt_bool|]. rewrite (Hsk0 E). apply rt_ret. }
  destruct is4.
  - destruct Hmode as (-> & Lb & Hrows).
    apply (rt_bind (rt_etree oeqb oeqb_sound kf_ymode_tree _ None bpred_has_path)).
    apply (rt_bind (rt_brows 4 left_b bm above_b ltac:(congruence) La Hrows)).
    apply (rt_last (rt_etree Z.eqb zeqb_sound uv_mode_tree _ uv (uv_has_path uv Huv))). apply rt_ret.
  - destruct Hmode as (Hym & ->).
    apply (rt_bind (rt_etree oeqb oeqb_sound kf_ymode_tree _ (Some ym) (ymode_has_path ym Hym))).
    apply (rt_last (rt_etree Z.eqb zeqb_sound uv_mode_tree _ uv (uv_has_path uv Huv))). apply rt_ret.
Qed.

(** * residual data of a macroblock (13): blocks in raster order with the left / above
    "has coefficients" contexts *)
Definition bflag (ls : list Z) : Z := match ls with [] => 0 | _ => 1 end.
Definition bany (ls : list Z) : bool := match ls with [] => false | _ => true end.

Lemma flag_spec first (ls : list Z) :
  (if first <? first + Z.of_nat (length ls) then 1 else 0) = bflag ls /\
  (first <? first + Z.of_nat (length ls)) = bany ls.
Proof.
  destruct ls as [|x t]; cbn [length bflag bany].
  - rewrite Z.add_0_r, Z.ltb_irrefl. split; reflexivity.
  - assert (H : first <? first + Z.of_nat (S (length t)) = true) by (apply Z.ltb_lt; lia). rewrite H. split; reflexivity.
Qed.

Fixpoint e_blk_row (tp : list (list (list Z))) (first : Z) (above : list Z) (l : Z) (blocks : list (list Z))
  : list (bool * Z) :=
  match above, blocks with
  | a :: tl, ls :: bt => e_tokens tp first (l + a) false ls ++ e_blk_row tp first tl (bflag ls) bt
  | _, _ => []
  end.

Definition deq (first dqdc dqac : Z) (ls : list Z) : list Z := dequant_block (acc_of first ls []) dqdc dqac.

Lemma rt_blk_row tp first dqdc dqac : 0 <= first ->
  forall above blocks l, length blocks = length above -> Forall (wf_levels first false) blocks ->
  rt (blk_row (fun ctx => decode_block tp first ctx dqdc dqac) first above l) (e_blk_row tp first above l blocks)
     (map (deq first dqdc dqac) blocks, map bflag blocks, last (map bflag blocks) l, existsb bany blocks).
Proof.
  intros H0. induction above as [|a tl IH]; intros [|ls bt] l Hl Hw; try discriminate Hl;
    cbn [blk_row e_blk_row map existsb]; [apply rt_ret|].
  apply (rt_bind (fun d r => decode_block_rt tp first (l + a) dqdc dqac ls d r (Forall_inv Hw) H0)).
  cbv beta iota zeta. destruct (flag_spec first ls) as [-> ->].
  apply (rt_last (IH bt (bflag ls) (eq_add_S _ _ Hl) (Forall_inv_tail Hw))).
  rewrite last_cons. apply rt_ret.
Qed.

(** rows of blocks: [rows] is a list of block rows, each as long as [above] *)
Fixpoint e_blk_rows (tp : list (list (list Z))) (first : Z) (above lefts : list Z) (rows : list (list (list Z)))
  : list (bool * Z) :=
  match lefts, rows with
  | l :: ltl, row :: rtl => e_blk_row tp first above l row ++ e_blk_rows tp first (map bflag row) ltl rtl
  | _, _ => []
  end.

(** contexts after a plane: above = flags of the last block row, left = flag of the last block of each row *)
Fixpoint ctx_above (above : list Z) (rows : list (list (list Z))) : list Z :=
  match rows with [] => above | row :: tl => ctx_above (map bflag row) tl end.
Fixpoint ctx_left (lefts : list Z) (rows : list (list (list Z))) : list Z :=
  match lefts, rows with
  | l :: ltl, row :: rtl => last (map bflag row) l :: ctx_left ltl rtl
  | _, _ => []
  end.

Lemma rt_blk_rows tp first dqdc dqac n : 0 <= first ->
  forall lefts rows above, length rows = length lefts -> length above = n ->
  Forall (fun row => length row = n /\ Forall (wf_levels first false) row) rows ->
  rt (blk_rows (fun ctx => decode_block tp first ctx dqdc dqac) first above lefts)
     (e_blk_rows tp first above lefts rows)
     (map (deq first dqdc dqac) (concat rows), ctx_above above rows, ctx_left lefts rows, existsb bany (concat rows)).
Proof.
  intros H0. induction lefts as [|l ltl IH]; intros [|row rtl] above Hl Ha Hr; try discriminate Hl;
    cbn [blk_rows e_blk_rows concat map existsb ctx_above ctx_left]; [apply rt_ret|].
  destruct (Forall_inv Hr) as [Hlen Hwf].
  apply (rt_bind (rt_blk_row tp first dqdc dqac H0 above row l ltac:(congruence) Hwf)).
  apply (rt_last (IH rtl (map bflag row) (eq_add_S _ _ Hl) ltac:(rewrite map_length; exact Hlen)
                     (Forall_inv_tail Hr))).
  rewrite map_app, existsb_app. apply rt_ret.
Qed.

(** the residual record: Y2 (16x16 modes only), 16 luma, 4 + 4 chroma blocks *)
Definition e_residuals (probs : list (list (list (list Z)))) (is4 : bool) (above left : nzctx)
  (y2 : list Z) (ys us vs : list (list (list Z))) : list (bool * Z) :=
  let tp t := nthZ probs t [] in
  (if is4 then [] else e_tokens (tp 1) 0 (nz_y2 above + nz_y2 left) false y2) ++
  e_blk_rows (tp (if is4 then 3 else 0)) (if is4 then 0 else 1) (nz_y above) (nz_y left) ys ++
  e_blk_rows (tp 2) 0 (nz_u above) (nz_u left) us ++
  e_blk_rows (tp 2) 0 (nz_v above) (nz_v left) vs.

Definition wf_rows (first : Z) (n : nat) (rows : list (list (list Z))) : Prop :=
  length rows = n /\ Forall (fun row => length row = n /\ Forall (wf_levels first false) row) rows.

Definition res_of (q : dqf) (is4 : bool) (y2 : list Z) (ys us vs : list (list (list Z))) : mb_res :=
  mkRes (if is4 then None else Some (deq 0 (dq_y2dc q) (dq_y2ac q) y2))
        (map (deq (if is4 then 0 else 1) (dq_y1dc q) (dq_y1ac q)) (concat ys))
        (map (deq 0 (dq_uvdc q) (dq_uvac q)) (concat us))
        (map (deq 0 (dq_uvdc q) (dq_uvac q)) (concat vs))
        ((if is4 then false else bany y2) || existsb bany (concat ys) || existsb bany (concat us) || existsb bany (concat vs)).

Definition nz_after (is4 : bool) (above left : nzctx) (y2 : list Z) (ys us vs : list (list (list Z))) : nzctx * nzctx :=
  (mkNz (ctx_above (nz_y above) ys) (ctx_above (nz_u above) us) (ctx_above (nz_v above) vs)
        (if is4 then nz_y2 above else bflag y2),
   mkNz (ctx_left (nz_y left) ys) (ctx_left (nz_u left) us) (ctx_left (nz_v left) vs)
        (if is4 then nz_y2 left else bflag y2)).

Theorem parse_residuals_rt probs q (is4 : bool) above left y2 ys us vs d rest :
  length (nz_y above) = 4%nat -> length (nz_y left) = 4%nat ->
  length (nz_u above) = 2%nat -> length (nz_u left) = 2%nat ->
  length (nz_v above) = 2%nat -> length (nz_v left) = 2%nat ->
  wf_levels 0 false y2 -> wf_rows (if is4 then 0 else 1) 4 ys -> wf_rows 0 2 us -> wf_rows 0 2 vs ->
  sync d (e_residuals probs is4 above left y2 ys us vs ++ rest) ->
  exists d', parse_residuals probs q is4 above left d =
    (res_of q is4 y2 ys us vs, fst (nz_after is4 above left y2 ys us vs), snd (nz_after is4 above left y2 ys us vs), d')
    /\ sync d' rest.
Proof.
  intros La Ll Lua Lul Lva Lvl Hy2 (Lys & Hys) (Lus & Hus) (Lvs & Hvs). apply rt_run.
  unfold e_residuals, parse_residuals, res_of, nz_after. cbv zeta.
  (* what the Y2 part hands on, uniformly in [is4], as the emitter and the result are *)
  apply (rt_bind (v := (if is4 then None else Some (deq 0 (dq_y2dc q) (dq_y2ac q) y2),
                        if is4 then nz_y2 above else bflag y2, if is4 then nz_y2 left else bflag y2,
                        if is4 then false else bany y2, if is4 then 0 else 1, if is4 then 3 else 0))).
  { apply rt_if; intros ->; [apply rt_ret|].
    apply (rt_last (fun d r => decode_block_rt _ 0 _ _ _ y2 d r Hy2 (Z.le_refl 0))).
    cbv beta iota zeta. destruct (flag_spec 0 y2) as [-> ->]. apply rt_ret. }
  cbv beta iota.
  apply (rt_bind (rt_blk_rows _ (if is4 then 0 else 1) _ _ 4 ltac:(destruct is4; lia) (nz_y left) ys (nz_y above)
                    ltac:(congruence) La Hys)).
  apply (rt_bind (rt_blk_rows _ 0 _ _ 2 (Z.le_refl 0) (nz_u left) us (nz_u above) ltac:(congruence) Lua Hus)).
  apply (rt_last (rt_blk_rows _ 0 _ _ 2 (Z.le_refl 0) (nz_v left) vs (nz_v above) ltac:(congruence) Lva Hvs)). apply rt_ret.
Qed.

