(** Colour of a lossy picture that carries alpha: webp.Decode builds an NRGBA image from
    the decoded planes with the fancy upsampler, one call per row pair (webp.go
    buildNRGBA).  Row 0 mirrors its chroma row; rows 2k+1 and 2k+2 lie between chroma
    rows k and k+1; the last row of an even-height picture mirrors its chroma row. *)
From Coq Require Import List ZArith Lia Bool.
From Webp Require Import Base.Res Vp8.Vp8Bool Vp8.Vp8Syntax Vp8.Vp8Filter Vp8.Vp8Spec Vp8.Vp8Upsample.
Import ListNotations.
Open Scope Z_scope.

Definition chroma_rows_of (h r : Z) : Z * Z :=   (* (near, far) chroma row of luma row r *)
  if r =? 0 then (0, 0)
  else if Z.odd r then let k := (r - 1) / 2 in (k, if r <=? h - 2 then k + 1 else k)
  else (r / 2, r / 2 - 1).

Definition frame_rgb (p : planes) : list (list Z) :=
  let h := Z.of_nat (length (pl_y p)) in
  map (fun '(r, yrow) =>
         let '(kn, kf) := chroma_rows_of h r in
         upsample_row yrow (nthZ (pl_u p) kn []) (nthZ (pl_v p) kn []) (nthZ (pl_u p) kf []) (nthZ (pl_v p) kf []))
      (combine (zrange 0 h) (pl_y p)).

(** R, G, B of every pixel of the decoded (loop-filtered) picture, row by row *)
Definition decode_rgb (data : list Z) : Res (Z * Z * list (list Z)) :=
  r <- decode data ;;
  if dc_past_end r then Err E_TRUNC else Ok (dc_w r, dc_h r, frame_rgb (dc_filtered r)).

(** every luma row gets chroma rows that exist *)
Lemma chroma_rows_in_range h r : 1 <= h -> 0 <= r < h ->
  let '(kn, kf) := chroma_rows_of h r in 0 <= kn < (h + 1) / 2 /\ 0 <= kf < (h + 1) / 2.
Proof.
  intros Hh Hr. unfold chroma_rows_of.
  destruct (Z.eqb_spec r 0) as [->|E0]; [dlia|].
  destruct (Z.odd r) eqn:Eo.
  - apply Z.odd_spec in Eo. destruct Eo as [m ->]. cbv zeta.
    destruct (Z.leb_spec (2 * m + 1) (h - 2)); dlia.
  - rewrite <- Z.negb_even in Eo. apply negb_false_iff, Z.even_spec in Eo. destruct Eo as [m ->]. dlia.
Qed.
