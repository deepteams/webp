(** Model of the Go boolean decoder as the inlined coefficient reader uses it
    (internal/bitio/reader_bool.go, internal/lossy/decode_mb.go): 64-bit value register with
    Bits + 8 bits of the stream, Range = range - 1, loads of 7 bytes or one, fastBit with its
    tables, fastSigned.  Each read refines the exact-integer decoder of Vp8BoolAbs
    ([gr_bit_refines]) while data is left ([grel] has gr_eof = false); the constructor and the
    end of input are in Riff/PrefixBitio.v and Vp8InlineTree.v. *)
From Coq Require Import List ZArith Lia Bool.
From WebpGen Require Tables.
From Webp Require Import Vp8.Vp8Bool Vp8.Vp8BoolAbs.
Import ListNotations.
Open Scope Z_scope.

Definition kLog2Range : list Z := WebpGen.Tables.lossy_kVP8Log2Range.
Definition kNewRange8 : list Z := WebpGen.Tables.lossy_kVP8NewRange.

Record greader : Type := mkGr {
  gr_value : Z;         (* uint64 *)
  gr_range : Z;         (* range - 1 *)
  gr_bits : Z;          (* number of look-ahead bits below the 8-bit window; < 0: a load is due *)
  gr_rest : list Z;     (* bytes not loaded yet *)
  gr_eof : bool }.

Definition w64 (x : Z) : Z := x mod 2 ^ 64.

(** loadNewBytes / loadFinalBytes *)
Definition gr_load (g : greader) : greader :=
  if (8 <=? length (gr_rest g))%nat then
    mkGr (w64 (gr_value g * 2 ^ 56) + bval (firstn 7 (gr_rest g))) (gr_range g) (gr_bits g + 56)
         (skipn 7 (gr_rest g)) (gr_eof g)
  else
    match gr_rest g with
    | b :: tl => mkGr (b + w64 (gr_value g * 256)) (gr_range g) (gr_bits g + 8) tl (gr_eof g)
    | [] => if gr_eof g then mkGr (gr_value g) (gr_range g) 0 [] true
            else mkGr (w64 (gr_value g * 256)) (gr_range g) (gr_bits g + 8) [] true
    end.

(** fastBit on the hoisted state *)
Definition gr_fast_bit (prob : Z) (g : greader) : bool * greader :=
  let split := gr_range g * prob / 256 in
  let val := gr_value g / 2 ^ gr_bits g in
  let bit := split <? val in
  let r1 := if bit then gr_range g - (split + 1) else split in
  let v1 := if bit then gr_value g - (split + 1) * 2 ^ gr_bits g else gr_value g in
  if r1 <=? 126 then
    (bit, mkGr v1 (nth (Z.to_nat r1) kNewRange8 0) (gr_bits g - nth (Z.to_nat r1) kLog2Range 0) (gr_rest g) (gr_eof g))
  else (bit, mkGr v1 r1 (gr_bits g) (gr_rest g) (gr_eof g)).

(** "if brB < 0 { brLoad }" followed by fastBit *)
Definition gr_bit (prob : Z) (g : greader) : bool * greader :=
  gr_fast_bit prob (if gr_bits g <? 0 then gr_load g else g).

(** fastSigned: returns whether the value is negated *)
Definition gr_fast_signed (g : greader) : bool * greader :=
  let split := gr_range g / 2 in
  let val := gr_value g / 2 ^ gr_bits g in
  let neg := split <? val in
  (neg, mkGr (if neg then gr_value g - (split + 1) * 2 ^ gr_bits g else gr_value g)
             (Z.lor (if neg then gr_range g - 1 else gr_range g) 1) (gr_bits g - 1) (gr_rest g) (gr_eof g)).

Definition gr_signed (g : greader) : bool * greader :=
  gr_fast_signed (if gr_bits g <? 0 then gr_load g else g).

Definition gr_ready (g : greader) : greader := if gr_bits g <? 0 then gr_load g else g.

(** (R, D, j): state of the exact-integer decoder; Bits >= -8 after a read, and a load, due
    below 0, adds at most 56 *)
Definition grel (g : greader) (R D j : Z) : Prop :=
  gr_range g + 1 = R /\ Forall is_byte (gr_rest g) /\ 0 <= gr_value g /\ -8 <= gr_bits g <= 56 /\
  D = gr_value g * 2 ^ (8 * Z.of_nat (length (gr_rest g))) + bval (gr_rest g) /\
  j = gr_bits g + 8 * Z.of_nat (length (gr_rest g)) /\ 0 <= D < R * 2 ^ j /\ gr_eof g = false.

Lemma log2range_ok :
  tab_norm_ok WebpGen.Tables.lossy_kVP8NewRange WebpGen.Tables.lossy_kVP8Log2Range = true.
Proof. vm_compute. reflexivity. Qed.

Lemma log2range_spec r : 0 <= r <= 126 ->
  norm_loop 8 (r + 1) 0 = (nth (Z.to_nat r) kNewRange8 0 + 1, nth (Z.to_nat r) kLog2Range 0) /\
  1 <= nth (Z.to_nat r) kLog2Range 0 <= 7.
Proof. apply tab_norm_spec. exact log2range_ok. Qed.

Global Opaque kLog2Range kNewRange8.

Lemma grel_load (n : nat) g R D j : grel g R D j -> (n <= length (gr_rest g))%nat ->
  gr_bits g + 8 * Z.of_nat n <= 56 ->
  grel (mkGr (gr_value g * 2 ^ (8 * Z.of_nat n) + bval (firstn n (gr_rest g))) (gr_range g)
             (gr_bits g + 8 * Z.of_nat n) (skipn n (gr_rest g)) (gr_eof g)) R D j.
Proof.
  intros (ER & Hb & Hv & HB & ED & Ej & HD & Heof) Hn H56.
  rewrite <- (firstn_skipn n (gr_rest g)) in Hb, ED, Ej. apply Forall_app in Hb. destruct Hb as [Hb1 Hb2].
  rewrite bval_app, app_length, firstn_length_le in * by exact Hn.
  pose proof (bval_bound _ Hb1) as H1. rewrite firstn_length_le in H1 by exact Hn.
  unfold grel. cbn [gr_range gr_rest gr_value gr_bits gr_eof].
  set (m := Z.of_nat (length (skipn n (gr_rest g)))) in *.
  split; [exact ER|]. split; [exact Hb2|]. split; [nia|]. split; [lia|].
  split; [|split; [lia|split; [exact HD|exact Heof]]].
  rewrite ED, Nat2Z.inj_add. fold m. replace (8 * (Z.of_nat n + m)) with (8 * Z.of_nat n + 8 * m) by lia.
  rewrite Z.pow_add_r by lia. ring.
Qed.

(** 16 <= j with Bits < 0: two bytes are left to load *)
Lemma gr_load_rel g R D j : grel g R D j -> gr_bits g < 0 -> 1 <= R <= 255 -> 16 <= j ->
  grel (gr_load g) R D j /\ 0 <= gr_bits (gr_load g).
Proof.
  intros Hrel Hneg HR Hj. pose proof Hrel as (ER & Hb & Hv & HB & ED & Ej & HD & Heof).
  set (m := Z.of_nat (length (gr_rest g))) in *.
  (* the value register holds fewer than 8 bits *)
  assert (Hv8 : gr_value g < 256).
  { pose proof (bval_bound _ Hb) as HF. fold m in HF.
    assert (HW : 0 < 2 ^ (8 * m)) by (apply Z.pow_pos_nonneg; lia).
    assert (Hle : 2 ^ j <= 2 ^ (8 * m)) by (apply Z.pow_le_mono_r; lia).
    assert (0 < 2 ^ j) by (apply Z.pow_pos_nonneg; lia). nia. }
  unfold gr_load, w64.
  destruct (8 <=? length (gr_rest g))%nat eqn:E8.
  - apply Nat.leb_le in E8.
    rewrite Z.mod_small by (change (2 ^ 64) with (256 * 2 ^ 56); change (2 ^ 56) with 72057594037927936; lia).
    split; [exact (grel_load 7 g R D j Hrel ltac:(lia) ltac:(lia))|cbn [gr_bits]; lia].
  - destruct (gr_rest g) as [|b tl] eqn:Er; [cbn [length] in m; lia|].
    rewrite Z.mod_small by (change (2 ^ 64) with 18446744073709551616; lia).
    pose proof (grel_load 1 g R D j Hrel ltac:(rewrite Er; cbn [length]; lia) ltac:(lia)) as H.
    rewrite Er in H. cbn [firstn skipn bval length] in H.
    replace (gr_value g * 2 ^ (8 * Z.of_nat 1) + (b * 2 ^ (8 * Z.of_nat 0) + 0)) with (b + gr_value g * 256) in H
      by (change (2 ^ (8 * Z.of_nat 1)) with 256; change (2 ^ (8 * Z.of_nat 0)) with 1; ring).
    split; [exact H|cbn [gr_bits]; lia].
Qed.

Lemma grel_decision g R D j s : grel g R D j -> 0 <= gr_bits g -> 0 <= s ->
  (s - 1 <? gr_value g / 2 ^ gr_bits g) = (s * 2 ^ j <=? D) /\
  (s * 2 ^ j <= D -> s * 2 ^ gr_bits g <= gr_value g).
Proof.
  intros (_ & Hb & Hv & _ & -> & -> & _) HB0 Hs.
  pose proof (bval_bound _ Hb) as HF. rewrite Z.pow_add_r by lia.
  set (T := 2 ^ gr_bits g) in *. set (W := 2 ^ (8 * Z.of_nat (length (gr_rest g)))) in *.
  assert (HT : 0 < T) by (apply Z.pow_pos_nonneg; lia).
  assert (HW : 0 < W) by (apply Z.pow_pos_nonneg; lia).
  assert (Hiff : s * (T * W) <= gr_value g * W + bval (gr_rest g) <-> s * T <= gr_value g) by (split; nia).
  split; [|apply Hiff].
  destruct (Z.leb_spec (s * (T * W)) (gr_value g * W + bval (gr_rest g))) as [H|H].
  - apply Z.ltb_lt. assert (s <= gr_value g / T) by (apply Z.div_le_lower_bound; [lia|apply Hiff in H; lia]). lia.
  - apply Z.ltb_ge. assert (gr_value g / T < s); [|lia].
    apply Z.div_lt_upper_bound; [lia|]. rewrite Z.mul_comm. apply Z.nle_gt. intros C. apply Hiff in C. lia.
Qed.

Lemma gr_fast_bit_refines g R D j p : grel g R D j -> 0 <= gr_bits g -> 128 <= R <= 255 -> 0 <= p <= 255 -> 8 <= j ->
  let '(b, (R2, D2, j2)) := aget p (R, D, j) in
  exists g', gr_fast_bit p g = (b, g') /\ grel g' R2 D2 j2 /\ 128 <= R2 <= 254 /\ j - 7 <= j2 /\
             gr_rest g' = gr_rest g.
Proof.
  intros Hrel HB0 HR Hp Hj8.
  pose proof (nsplit_bounds R p HR Hp) as Hs.
  destruct (aget_spec p R D j HR Hp) as (t & Ht & Ea & En & HR1 & HR2). cbv zeta in Ea, En, HR1, HR2.
  rewrite Ea. clear Ea.
  destruct (grel_decision g R D j (nsplit R p) Hrel HB0 ltac:(lia)) as [Edec Hge].
  destruct Hrel as (ER & Hb & Hv & HB & ED & Ej & HD & Heof).
  set (s := nsplit R p) in *.
  assert (Es : gr_range g * p / 256 = s - 1).
  { unfold s, nsplit, bd_split. rewrite <- ER. replace (gr_range g + 1 - 1) with (gr_range g) by lia. lia. }
  unfold gr_fast_bit. rewrite Es, Edec. replace (s - 1 + 1) with s by lia.
  set (b := s * 2 ^ j <=? D) in *. set (R1 := if b then R - s else s) in *.
  replace (if b then gr_range g - s else s - 1) with (R1 - 1) by (unfold R1; destruct b; lia).
  set (m8 := 8 * Z.of_nat (length (gr_rest g))) in *.
  set (v1 := if b then gr_value g - s * 2 ^ gr_bits g else gr_value g).
  set (D1 := if b then D - s * 2 ^ j else D).
  assert (H1 : 0 <= v1 /\ D1 = v1 * 2 ^ m8 + bval (gr_rest g) /\ 0 <= D1 < R1 * 2 ^ j).
  { unfold v1, D1, R1, b. destruct (Z.leb_spec (s * 2 ^ j) D) as [H|H].
    - split; [specialize (Hge H); lia|]. split; [|lia].
      rewrite ED, Ej, Z.pow_add_r by lia. ring.
    - split; [exact Hv|]. split; [exact ED|lia]. }
  destruct H1 as (Hv1 & ED1 & HD1).
  assert (Ejt : R1 * 2 ^ t * 2 ^ (j - t) = R1 * 2 ^ j).
  { rewrite <- Z.mul_assoc, <- Z.pow_add_r by lia. f_equal. f_equal. lia. }
  destruct (Z.leb_spec (R1 - 1) 126) as [E126|E126].
  - destruct (log2range_spec (R1 - 1) ltac:(lia)) as [Hn Hn2]. replace (R1 - 1 + 1) with R1 in Hn by lia.
    rewrite En in Hn. injection Hn as Hnr Hnt.
    eexists. split; [reflexivity|]. unfold grel. cbn [gr_range gr_rest gr_value gr_bits gr_eof].
    rewrite <- Hnt, <- Hnr. fold m8. rewrite Ejt. repeat split; try assumption; lia.
  - rewrite norm8_id in En by lia. injection En as Hr Ht0. rewrite <- Ht0 in *.
    rewrite Z.pow_0_r, Z.mul_1_r, Z.sub_0_r in *.
    eexists. split; [reflexivity|]. unfold grel. cbn [gr_range gr_rest gr_value gr_bits gr_eof]. fold m8.
    repeat split; try assumption; lia.
Qed.

(** range_ in 127..253: new range in 64..127, shift 1, and the table's 2 * range is "| 1" *)
Lemma gr_fast_signed_eq g : 127 <= gr_range g <= 253 -> gr_fast_signed g = gr_fast_bit 128 g.
Proof.
  intros Hr. unfold gr_fast_signed, gr_fast_bit. cbv zeta.
  set (neg := gr_range g / 2 <? gr_value g / 2 ^ gr_bits g).
  destruct (half_range (gr_range g) neg ltac:(lia)) as (-> & Hr1 & Hr2). specialize (Hr2 ltac:(lia)).
  fold neg. set (r1 := if neg then gr_range g - (gr_range g / 2 + 1) else gr_range g / 2) in *.
  destruct (log2range_spec r1 ltac:(lia)) as [Hk _]. rewrite norm8_half in Hk by lia.
  injection Hk as Hn <-.
  replace (r1 <=? 126) with true by (symmetry; apply Z.leb_le; lia).
  replace (nth (Z.to_nat r1) kNewRange8 0) with (Z.lor (if neg then gr_range g - 1 else gr_range g) 1);
    [reflexivity|].
  rewrite lor_1. subst r1. destruct neg; Z.div_mod_to_equations; lia.
Qed.

Lemma gr_load_range g : gr_range (gr_load g) = gr_range g.
Proof.
  unfold gr_load. destruct (8 <=? length (gr_rest g))%nat; [reflexivity|].
  destruct (gr_rest g); [destruct (gr_eof g)|]; reflexivity.
Qed.

Lemma gr_signed_eq_bit g : 127 <= gr_range g <= 253 -> gr_signed g = gr_bit 128 g.
Proof.
  intros H. unfold gr_signed, gr_bit. apply gr_fast_signed_eq.
  destruct (gr_bits g <? 0); [rewrite gr_load_range|]; exact H.
Qed.

Lemma gr_ready_rel g R D j : grel g R D j -> 1 <= R <= 255 -> 16 <= j ->
  grel (gr_ready g) R D j /\ 0 <= gr_bits (gr_ready g).
Proof.
  intros Hrel HR Hj. unfold gr_ready. destruct (Z.ltb_spec (gr_bits g) 0) as [Hb|Hb].
  - apply gr_load_rel; assumption.
  - split; assumption.
Qed.

Theorem gr_bit_refines g R D j p : grel g R D j -> 128 <= R <= 255 -> 0 <= p <= 255 -> 16 <= j ->
  let '(b, (R2, D2, j2)) := aget p (R, D, j) in
  exists g', gr_bit p g = (b, g') /\ grel g' R2 D2 j2 /\ 128 <= R2 <= 254 /\ j - 7 <= j2.
Proof.
  intros Hrel HR Hp Hj. change (gr_bit p g) with (gr_fast_bit p (gr_ready g)).
  destruct (gr_ready_rel g R D j Hrel ltac:(lia) Hj) as [Hrel2 Hb2].
  pose proof (gr_fast_bit_refines (gr_ready g) R D j p Hrel2 Hb2 HR Hp ltac:(lia)) as H.
  destruct (aget p (R, D, j)) as [b [[R2 D2] j2]]. destruct H as (g' & E & H1 & H2 & H3 & _).
  exists g'. auto.
Qed.

Theorem gr_signed_refines g R D j : grel g R D j -> 128 <= R <= 254 -> 16 <= j ->
  let '(b, (R2, D2, j2)) := aget 128 (R, D, j) in
  exists g', gr_signed g = (b, g') /\ grel g' R2 D2 j2 /\ 128 <= R2 <= 254 /\ j - 7 <= j2.
Proof.
  intros Hrel HR Hj. rewrite gr_signed_eq_bit by (destruct Hrel as (E & _); lia).
  apply gr_bit_refines; [exact Hrel|lia..].
Qed.
