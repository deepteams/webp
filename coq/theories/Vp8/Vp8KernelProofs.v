(** Proofs that the Go decoder's short-cuts and table/unsigned formulations
    equal the RFC 6386 definitions of Vp8Kernels.v / Vp8Bool.v. *)
From Coq Require Import List ZArith Lia Bool.
From Coq Require Import ZifyBool.
From WebpGen Require Tables.
From Webp Require Import Vp8.Vp8Bool Vp8.Vp8Tables Vp8.Vp8Syntax Vp8.Vp8Kernels Vp8.Vp8BoolAbs Vp8.Vp8GoReader.
Import ListNotations.
Open Scope Z_scope.

Lemma clampz_range lo hi x : lo <= hi -> lo <= clampz lo hi x <= hi.
Proof. intros H. unfold clampz. destruct (x <? lo) eqn:E1; [lia|]. destruct (hi <? x) eqn:E2; lia. Qed.

Lemma clampz_id lo hi x : lo <= x <= hi -> clampz lo hi x = x.
Proof. intros H. unfold clampz. destruct (x <? lo) eqn:E1; [lia|]. destruct (hi <? x) eqn:E2; lia. Qed.

Lemma clampz_min lo hi hi' x : lo <= hi' <= hi -> Z.min (clampz lo hi x) hi' = clampz lo hi' x.
Proof. intros H. unfold clampz. destruct (x <? lo) eqn:E1; [lia|]. destruct (hi <? x) eqn:E2; destruct (hi' <? x) eqn:E3; lia. Qed.

Lemma clampz_max_min lo hi x : lo <= hi -> clampz lo hi x = Z.max lo (Z.min hi x).
Proof. intros H. unfold clampz. destruct (x <? lo) eqn:E1; [lia|]. destruct (hi <? x) eqn:E2; lia. Qed.

Ltac list_eq :=
  repeat match goal with
  | |- _ :: _ = _ :: _ => apply f_equal2
  | |- (_, _) = (_, _) => apply f_equal2
  | |- asr _ ?n = asr _ ?n => apply (f_equal (fun x => asr x n))
  | |- wrap16 _ = wrap16 _ => apply (f_equal wrap16)
  | |- @nil _ = @nil _ => reflexivity
  end; try reflexivity; lia.

Lemma list16 {A} (l : list A) : length l = 16%nat ->
  exists a0 a1 a2 a3 a4 a5 a6 a7 a8 a9 a10 a11 a12 a13 a14 a15,
    l = [a0; a1; a2; a3; a4; a5; a6; a7; a8; a9; a10; a11; a12; a13; a14; a15].
Proof.
  intros H.
  do 16 (destruct l as [|? l]; [discriminate H|]).
  destruct l; [|discriminate H]. repeat eexists.
Qed.


Lemma go_col_eq i0 i1 i2 i3 : go_col i0 i1 i2 i3 = idct1 i0 i1 i2 i3.
Proof.
  unfold go_col, idct1, mul1, mul2, sinpi8sqrt2, cospi8sqrt2minus1.
  list_eq.
Qed.

Lemma go_row_eq t0 t1 t2 t3 :
  go_row t0 t1 t2 t3 =
  let '(y0, y1, y2, y3) := idct1 t0 t1 t2 t3 in
  [asr (y0 + 4) 3; asr (y1 + 4) 3; asr (y2 + 4) 3; asr (y3 + 4) 3].
Proof.
  unfold go_row, idct1, mul1, mul2, sinpi8sqrt2, cospi8sqrt2minus1.
  cbv zeta beta. list_eq.
Qed.

Theorem go_transform_one_eq_idct : forall c, go_transform_one c = idct c.
Proof.
  intros c. unfold go_transform_one, idct.
  rewrite !go_col_eq.
  change (g c (4 + 0)) with (g c 4). change (g c (8 + 0)) with (g c 8). change (g c (12 + 0)) with (g c 12).
  change (g c (4 + 1)) with (g c 5). change (g c (8 + 1)) with (g c 9). change (g c (12 + 1)) with (g c 13).
  change (g c (4 + 2)) with (g c 6). change (g c (8 + 2)) with (g c 10). change (g c (12 + 2)) with (g c 14).
  change (g c (4 + 3)) with (g c 7). change (g c (8 + 3)) with (g c 11). change (g c (12 + 3)) with (g c 15).
  destruct (idct1 (g c 0) (g c 4) (g c 8) (g c 12)) as [[[a0 a1] a2] a3].
  destruct (idct1 (g c 1) (g c 5) (g c 9) (g c 13)) as [[[b0 b1] b2] b3].
  destruct (idct1 (g c 2) (g c 6) (g c 10) (g c 14)) as [[[c0 c1] c2] c3].
  destruct (idct1 (g c 3) (g c 7) (g c 11) (g c 15)) as [[[d0 d1] d2] d3].
  rewrite !go_row_eq. reflexivity.
Qed.

Lemma idct1_zero : idct1 0 0 0 0 = (0, 0, 0, 0).
Proof. reflexivity. Qed.

Lemma idct1_dc x : idct1 x 0 0 0 = (x, x, x, x).
Proof.
  unfold idct1. change (asr (0 * sinpi8sqrt2) 16) with 0. change (asr (0 * cospi8sqrt2minus1) 16) with 0.
  list_eq.
Qed.

Lemma idct1_two x y : idct1 x y 0 0 = (x + mul1 y, x + mul2 y, x - mul2 y, x - mul1 y).
Proof.
  unfold idct1, mul1, mul2, sinpi8sqrt2, cospi8sqrt2minus1.
  change (asr (0 * 35468) 16) with 0. change (asr (0 * 20091) 16) with 0.
  list_eq.
Qed.

Theorem transform_dc_eq : forall dc,
  go_transform_dc (dc :: repeat 0 15) = idct (dc :: repeat 0 15).
Proof.
  intros dc. unfold go_transform_dc, idct, g. cbn [nth Nat.add repeat].
  rewrite idct1_dc, idct1_zero, !idct1_dc. reflexivity.
Qed.

Theorem transform_ac3_eq : forall c0 c1 c4,
  let c := [c0; c1; 0; 0; c4; 0; 0; 0; 0; 0; 0; 0; 0; 0; 0; 0] in
  go_transform_ac3 c = idct c.
Proof.
  intros c0 c1 c4 c. subst c.
  unfold go_transform_ac3, idct, g. cbn [nth Nat.add].
  rewrite idct1_two, idct1_dc, idct1_zero, !idct1_two. cbv zeta beta. cbn [app].
  list_eq.
Qed.

Theorem go_wht_eq_iwht : forall c, go_wht c = iwht c.
Proof.
  intros c. unfold go_wht, iwht, iwht1. cbv beta iota zeta. cbn [app].
  list_eq.
Qed.

Lemma iwht1_dc x : iwht1 x 0 0 0 = (x, x, x, x).
Proof. unfold iwht1. list_eq. Qed.

Theorem wht_dc_only_eq : forall dc,
  go_wht_dc_only (dc :: repeat 0 15) = iwht (dc :: repeat 0 15).
Proof.
  intros dc. unfold go_wht_dc_only, iwht, iwht1, g. cbn [nth Nat.add repeat].
  cbv beta iota zeta. cbn [app]. list_eq.
Qed.

(** The 2-bit code never selects a short-cut that drops a coefficient.
    [nz] is the end-of-block position reported by the token reader: every
    coefficient at a zig-zag position >= nz is zero. *)
Theorem nz_code_sound : forall c nz, length c = 16%nat -> 0 <= nz <= 16 ->
  (forall n, nz <= n < 16 -> nthZ c (nthZ zigzag n 0) 0 = 0) ->
  go_do_transform (go_nz_code nz (negb (g c 0 =? 0))) c = idct c.
Proof.
  intros c nz H Hnz Hz.
  destruct (list16 c H) as (a0&a1&a2&a3&a4&a5&a6&a7&a8&a9&a10&a11&a12&a13&a14&a15&->).
  change zigzag with rfc_zigzag in Hz.
  unfold go_nz_code.
  destruct (Z.ltb_spec 3 nz) as [H3|H3].
  { change (go_do_transform 3 ?c) with (go_transform_one c). apply go_transform_one_eq_idct. }
  (* positions 3..15 are zero: indices 8 5 2 3 6 9 12 13 10 7 11 14 15 *)
  assert (Z3 := Hz 3 ltac:(lia)). assert (Z4 := Hz 4 ltac:(lia)). assert (Z5 := Hz 5 ltac:(lia)).
  assert (Z6 := Hz 6 ltac:(lia)). assert (Z7 := Hz 7 ltac:(lia)). assert (Z8 := Hz 8 ltac:(lia)).
  assert (Z9 := Hz 9 ltac:(lia)). assert (Z10 := Hz 10 ltac:(lia)). assert (Z11 := Hz 11 ltac:(lia)).
  assert (Z12 := Hz 12 ltac:(lia)). assert (Z13 := Hz 13 ltac:(lia)). assert (Z14 := Hz 14 ltac:(lia)).
  assert (Z15 := Hz 15 ltac:(lia)).
  unfold nthZ, rfc_zigzag in Z3, Z4, Z5, Z6, Z7, Z8, Z9, Z10, Z11, Z12, Z13, Z14, Z15.
  vm_compute in Z3, Z4, Z5, Z6, Z7, Z8, Z9, Z10, Z11, Z12, Z13, Z14, Z15. subst.
  destruct (Z.ltb_spec 1 nz) as [H1|H1].
  { change (go_do_transform 2 ?c) with (go_transform_ac3 c). apply transform_ac3_eq. }
  (* nz <= 1: positions 1, 2 (indices 1, 4) are zero too *)
  assert (Z1 := Hz 1 ltac:(lia)). assert (Z2 := Hz 2 ltac:(lia)).
  unfold nthZ, rfc_zigzag in Z1, Z2. vm_compute in Z1, Z2. subst.
  unfold g. cbn [nth].
  destruct (Z.eqb_spec a0 0) as [->|Hne]; cbn [negb].
  - vm_compute. reflexivity.
  - change (go_do_transform 1 ?c) with (go_transform_dc c). apply (transform_dc_eq a0).
Qed.

Lemma lxor7 k : 0 <= k <= 7 -> Z.lxor 7 k = 7 - k.
Proof.
  intros H. assert (E : k = 0 \/ k = 1 \/ k = 2 \/ k = 3 \/ k = 4 \/ k = 5 \/ k = 6 \/ k = 7) by lia.
  repeat (destruct E as [->|E]; [reflexivity|]). subst k. reflexivity.
Qed.

Lemma range_after_bounds R p b : 128 <= R <= 255 -> 0 <= p <= 255 -> 1 <= rfc_range_after R p b <= 254.
Proof.
  intros HR Hp. pose proof (nsplit_bounds R p HR Hp) as Hs.
  unfold rfc_range_after, rfc_split. unfold nsplit in Hs. destruct b; lia.
Qed.

Lemma getbit_step_eq R p b : 128 <= R <= 255 -> 0 <= p <= 255 -> go_getbit_step R p b = rfc_step R p b.
Proof.
  intros HR Hp. pose proof (range_after_bounds R p b HR Hp) as H1.
  unfold go_getbit_step, rfc_step, log2_8. cbv zeta.
  replace ((R - 1) * p / 256 + 1) with (rfc_split R p) by (unfold rfc_split, bd_split; ring).
  replace (if b then R - 1 - (R - 1) * p / 256 else rfc_split R p) with (rfc_range_after R p b)
    by (unfold rfc_range_after, rfc_split, bd_split; destruct b; ring).
  destruct (norm8 (rfc_range_after R p b) ltac:(lia)) as (-> & Ht & _).
  rewrite lxor7 by lia. reflexivity.
Qed.

Lemma lut_step_eq newrange shift R p b : tab_norm_ok newrange shift = true ->
  128 <= R <= 255 -> 0 <= p <= 255 -> go_lut_step shift newrange R p b = rfc_step R p b.
Proof.
  intros Htab HR Hp. pose proof (range_after_bounds R p b HR Hp) as H1.
  unfold go_lut_step, rfc_step. cbv zeta.
  replace ((R - 1) * p / 256 + 1) with (rfc_split R p) by (unfold rfc_split, bd_split; ring).
  replace (if b then R - 1 - rfc_split R p else (R - 1) * p / 256) with (rfc_range_after R p b - 1)
    by (unfold rfc_range_after, rfc_split, bd_split; destruct b; ring).
  set (r1 := rfc_range_after R p b - 1). replace (rfc_range_after R p b) with (r1 + 1) by (unfold r1; ring).
  destruct (Z.leb_spec r1 126).
  - destruct (tab_norm_spec newrange shift r1 Htab ltac:(lia)) as [-> _]. reflexivity.
  - rewrite norm8_id by lia. reflexivity.
Qed.

Lemma signed_step_eq R b : 128 <= R <= 254 -> go_signed_step R b = rfc_step R 128 b.
Proof.
  intros HR. unfold go_signed_step, rfc_step. cbv zeta.
  assert (Es : rfc_split R 128 = (R - 1) / 2 + 1) by (unfold rfc_split, bd_split; Z.div_mod_to_equations; lia).
  assert (Ea : rfc_range_after R 128 b = if b then R - 1 - (R - 1) / 2 else (R - 1) / 2 + 1)
    by (unfold rfc_range_after; rewrite Es; destruct b; lia).
  rewrite norm8_half by (rewrite Ea; destruct b; Z.div_mod_to_equations; lia).
  rewrite lor_1, Es, Ea. f_equal. f_equal. destruct b; Z.div_mod_to_equations; lia.
Qed.

(** The Go normalisation variants = the RFC loop, for every range, probability and decision.
    GetSigned / fastSigned ("shift is always 1") is exact except at range 255, which exists
    only before the first bool of a partition (last conjunct), never read with GetSigned. *)
Theorem bool_variants_agree : forall R p b, 128 <= R <= 255 -> 0 <= p <= 255 ->
  go_getbit_step R p b = rfc_step R p b /\
  go_lut_step WebpGen.Tables.lossy_kVP8Log2Range WebpGen.Tables.lossy_kVP8NewRange R p b = rfc_step R p b /\
  go_lut_step WebpGen.Tables.bitio_kVP8Log2Range WebpGen.Tables.bitio_kVP8NewRange R p b = rfc_step R p b /\
  (p = 128 -> R <> 255 -> go_signed_step R b = rfc_step R p b) /\
  snd (fst (rfc_step R p b)) <> 255.
Proof.
  intros R p b HR Hp.
  split; [apply getbit_step_eq; assumption|].
  split; [apply lut_step_eq; [exact log2range_ok|assumption..]|].
  split; [apply lut_step_eq; [vm_compute; reflexivity|assumption..]|].
  split; [intros -> H255; apply signed_step_eq; lia|].
  pose proof (norm8_le254 _ (range_after_bounds R p b HR Hp)) as H.
  unfold rfc_step. destruct (norm_loop 8 (rfc_range_after R p b) 0). cbn [fst snd] in *. lia.
Qed.

Definition y2ac_ok (j : Z) : bool :=
  let a := nthZ ac_table j 0 in
  let g := asr (a * 101581) 16 in
  (if g <? 8 then 8 else g) =? Z.max 8 (a * 155 / 100).
Definition uvdc_ok (j : Z) : bool :=
  Z.min 132 (nthZ dc_table j 0) =? nthZ dc_table (Z.min j 117) 0.

Lemma dq_sweep_ok : forallb (fun j => y2ac_ok j && uvdc_ok j) (zrange 0 128) = true.
Proof. vm_compute. reflexivity. Qed.

Lemma dq_tab_ok x : let j := clampz 0 127 x in y2ac_ok j = true /\ uvdc_ok j = true.
Proof.
  intros j. apply andb_true_iff. apply (zrange_forallb _ _ _ j dq_sweep_ok).
  pose proof (clampz_range 0 127 x). lia.
Qed.

(** the chroma DC factor is capped at 132 = dc_table[117]: capping the index is the same *)
Lemma uvdc_cap x : Z.min 132 (nthZ dc_table (clampz 0 127 x) 0) = nthZ dc_table (clampz 0 117 x) 0.
Proof.
  destruct (dq_tab_ok x) as [_ H]. apply Z.eqb_eq in H. rewrite H, clampz_min by lia. reflexivity.
Qed.

(** Dequantisation factors: ParseQuant = 14.1, for every quantiser index and every delta *)
Theorem dequant_matrix_eq : forall qh q, go_dq qh q = dq_of qh q.
Proof.
  intros qh q. unfold go_dq, dq_of, qidx.
  change go_clip with (fun v m => clampz 0 m v). cbv beta.
  f_equal.
  - apply Z.mul_comm.
  - destruct (dq_tab_ok (q + q_y2ac qh)) as [H _]. apply Z.eqb_eq in H. exact H.
  - symmetry. apply uvdc_cap.
Qed.

Lemma go_ilevel_eq level sharp : go_ilevel level sharp = lf_interior level sharp.
Proof.
  unfold go_ilevel, lf_interior. cbv zeta.
  destruct (0 <? sharp) eqn:E0; [|reflexivity].
  destruct (4 <? sharp) eqn:E4.
  - destruct (9 - sharp <? asr level 2) eqn:E9; destruct (Z.min (asr level 2) (9 - sharp) <? 1) eqn:E1;
      destruct (9 - sharp <? 1) eqn:E2; destruct (asr level 2 <? 1) eqn:E3; lia.
  - destruct (9 - sharp <? asr level 1) eqn:E9; destruct (Z.min (asr level 1) (9 - sharp) <? 1) eqn:E1;
      destruct (9 - sharp <? 1) eqn:E2; destruct (asr level 1 <? 1) eqn:E3; lia.
Qed.

Lemma go_level_eq h seg is4 : go_level h seg is4 = lf_mb_level false h seg is4.
Proof.
  unfold go_level, lf_mb_level, lf_base_level, clampz. cbv zeta.
  destruct (sg_enabled (fh_seg h)); destruct (sg_abs (fh_seg h));
    destruct (lf_delta_enabled (fh_lf h)); destruct is4;
    rewrite ?(Z.add_comm (nthZ (sg_lf (fh_seg h)) seg 0) (lf_level (fh_lf h))); reflexivity.
Qed.

(** Filter strengths: precomputeFilterStrengths = 9.6 / 15.2, for every header *)
Theorem filter_strength_table_eq : forall h seg is4,
  go_fstrength h seg is4 =
  let p := lf_mb_params false h seg is4 in
  if lp_level p =? 0 then (0, 0, 0) else (subedge_limit p, lp_interior p, lp_hev p).
Proof.
  intros h seg is4. unfold go_fstrength, lf_mb_params, subedge_limit, lf_hev_thresh. cbv zeta.
  cbn [lp_level lp_interior lp_hev].
  rewrite go_level_eq, go_ilevel_eq.
  set (L := lf_mb_level false h seg is4).
  assert (HL : 0 <= L <= 63) by (unfold L, lf_mb_level; apply clampz_range; lia).
  destruct (0 <? L) eqn:E0; destruct (L =? 0) eqn:E1; try lia; [|reflexivity].
  f_equal. f_equal. lia.
Qed.

(** the only difference between the two readings of the level computation:
    they agree whenever the segment-adjusted level is already within 0..63 *)
Theorem filter_level_mid_clamp_agree : forall h seg is4,
  0 <= lf_base_level h seg <= 63 ->
  lf_mb_level true h seg is4 = lf_mb_level false h seg is4.
Proof.
  intros h seg is4 H. unfold lf_mb_level. cbv zeta. rewrite (clampz_id 0 63 (lf_base_level h seg)) by exact H. reflexivity.
Qed.

(** entry [v - lo] of a table built over lo..hi holds [f v] *)
Lemma tab_get_go_tab lo hi f v : lo <= v <= hi -> tab_get (go_tab lo hi f) (- lo) v = Some (f v).
Proof.
  intros H. unfold tab_get, go_tab.
  destruct (Z.leb_spec 0 (- lo + v)); [|lia].
  rewrite nth_error_map, nth_error_zrange by lia. cbn [option_map]. f_equal. f_equal. lia.
Qed.

Theorem clip_tables_eq_clamp :
  (forall v, -893 <= v <= 892 -> tab_get go_sclip1_tab 893 v = Some (clampz (-128) 127 v)) /\
  (forall v, -112 <= v <= 112 -> tab_get go_sclip2_tab 112 v = Some (clampz (-16) 15 v)) /\
  (forall v, -255 <= v <= 511 -> tab_get go_clip1_tab 255 v = Some (clampz 0 255 v)) /\
  (forall v, -255 <= v <= 255 -> tab_get go_abs0_tab 255 v = Some (Z.abs v)).
Proof.
  split; [exact (tab_get_go_tab (-893) 892 _)|].
  split; [exact (tab_get_go_tab (-112) 112 _)|].
  split; [exact (tab_get_go_tab (-255) 511 _)|exact (tab_get_go_tab (-255) 255 _)].
Qed.

(** Loop-filter arithmetic: the Go (libwebp-style, unsigned, table-clamped)
    formulas = the RFC's signed formulation, for all 8-bit samples and all limits *)
Definition bytes8 (l : list Z) : Prop := length l = 8%nat /\ Forall (fun x => 0 <= x <= 255) l.

Lemma bytes8_inv l : bytes8 l -> exists p3 p2 p1 p0 q0 q1 q2 q3, l = [p3; p2; p1; p0; q0; q1; q2; q3].
Proof.
  intros [Hl _].
  do 8 (destruct l as [|? l]; [discriminate Hl|]). destruct l; [|discriminate Hl]. repeat eexists.
Qed.

Lemma needs_filter_eq E p1 p0 q0 q1 :
  go_needs_filter (2 * E + 1) p1 p0 q0 q1 = lf_edge_ok E p1 p0 q0 q1.
Proof.
  unfold go_needs_filter, lf_edge_ok, asr. change (2 ^ 1) with 2.
  destruct (Z.leb_spec (4 * Z.abs (p0 - q0) + Z.abs (p1 - q1)) (2 * E + 1));
    destruct (Z.leb_spec (Z.abs (p0 - q0) * 2 + Z.abs (p1 - q1) / 2) E); try reflexivity;
    Z.div_mod_to_equations; lia.
Qed.

Lemma abs_sub_comm a b : Z.abs (a - b) = Z.abs (b - a).
Proof. lia. Qed.

Lemma hev_eq t p1 p0 q0 q1 : go_hev t p1 p0 q0 q1 = lf_hev t p1 p0 q0 q1.
Proof. unfold go_hev, lf_hev. rewrite (abs_sub_comm q0 q1). reflexivity. Qed.

Lemma needs_filter2_eq E I p3 p2 p1 p0 q0 q1 q2 q3 :
  go_needs_filter2 (2 * E + 1) I p3 p2 p1 p0 q0 q1 q2 q3 = lf_filter_yes I E p3 p2 p1 p0 q0 q1 q2 q3.
Proof.
  unfold go_needs_filter2, lf_filter_yes. rewrite needs_filter_eq.
  destruct (lf_edge_ok E p1 p0 q0 q1); reflexivity.
Qed.

(** below -128 and above 127 both sides saturate, in between [sc a = a] *)
Lemma adj_eq a k : 3 <= k <= 4 -> gsclip2 (asr (a + k) 3) = asr (sc (sc a + k)) 3.
Proof.
  intros Hk. unfold gsclip2, sc, asr. rewrite !clampz_max_min by lia. change (2 ^ 3) with 8.
  destruct (Z_lt_le_dec a (-128)) as [H|H]; [|destruct (Z_lt_le_dec 127 a) as [H'|H']].
  - replace (Z.max (-128) (Z.min 127 a)) with (-128) by lia. Z.div_mod_to_equations. lia.
  - replace (Z.max (-128) (Z.min 127 a)) with 127 by lia. Z.div_mod_to_equations. lia.
  - replace (Z.max (-128) (Z.min 127 a)) with a by lia. Z.div_mod_to_equations. lia.
Qed.

Lemma w_eq w k : -128 <= w <= 127 -> 0 <= k <= 27 -> sc (asr (k * w + 63) 7) = asr (k * w + 63) 7.
Proof.
  intros Hw Hk. apply clampz_id. unfold asr. change (2 ^ 7) with 128. Z.div_mod_to_equations. nia.
Qed.

Lemma s2u_u2s p d : s2u (u2s p + d) = clamp255 (p + d).
Proof. unfold s2u, u2s, sc, clamp255. rewrite !clampz_max_min by lia. lia. Qed.

Lemma s2u_u2s_sub p d : s2u (u2s p - d) = clamp255 (p - d).
Proof. replace (u2s p - d) with (u2s p + - d) by lia. rewrite s2u_u2s. reflexivity. Qed.

Lemma sc_range x : -128 <= sc x <= 127.
Proof. apply clampz_range. lia. Qed.

Lemma filter2_eq p1 p0 q0 q1 :
  common_adjust true p1 p0 q0 q1 =
  (fst (go_filter2 p1 p0 q0 q1), snd (go_filter2 p1 p0 q0 q1),
   gsclip2 (asr (3 * (q0 - p0) + gsclip1 (p1 - q1) + 4) 3)).
Proof.
  unfold common_adjust, go_filter2. cbv zeta. cbn [fst snd].
  replace (u2s p1 - u2s q1) with (p1 - q1) by (unfold u2s; lia).
  replace (u2s q0 - u2s p0) with (q0 - p0) by (unfold u2s; lia).
  change gsclip1 with sc. rewrite (Z.add_comm (sc (p1 - q1))).
  rewrite <- !adj_eq by lia. rewrite s2u_u2s, s2u_u2s_sub. reflexivity.
Qed.

Theorem simple_filter_eq : forall E l, bytes8 l -> go_simple_seg E l = lf_simple E l.
Proof.
  intros E l Hl. destruct (bytes8_inv l Hl) as (p3&p2&p1&p0&q0&q1&q2&q3&->).
  unfold go_simple_seg, lf_simple, seg8, g. cbn [nth].
  rewrite needs_filter_eq. destruct (lf_edge_ok E p1 p0 q0 q1); [|reflexivity].
  rewrite filter2_eq.
  destruct (go_filter2 p1 p0 q0 q1) as [x y]. reflexivity.
Qed.

Lemma filter6_eq p2 p1 p0 q0 q1 q2 :
  go_filter6 p2 p1 p0 q0 q1 q2 =
  (let P2 := u2s p2 in let P1 := u2s p1 in let P0 := u2s p0 in
   let Q0 := u2s q0 in let Q1 := u2s q1 in let Q2 := u2s q2 in
   let w := sc (sc (P1 - Q1) + 3 * (Q0 - P0)) in
   let a1 := sc (asr (27 * w + 63) 7) in
   let a2 := sc (asr (18 * w + 63) 7) in
   let a3 := sc (asr (9 * w + 63) 7) in
   [s2u (P2 + a3); s2u (P1 + a2); s2u (P0 + a1); s2u (Q0 - a1); s2u (Q1 - a2); s2u (Q2 - a3)]).
Proof.
  unfold go_filter6. cbv zeta.
  replace (u2s p1 - u2s q1) with (p1 - q1) by (unfold u2s; lia).
  replace (u2s q0 - u2s p0) with (q0 - p0) by (unfold u2s; lia).
  change gsclip1 with sc. rewrite (Z.add_comm (sc (p1 - q1))).
  rewrite !w_eq by (try apply sc_range; lia).
  rewrite !s2u_u2s, !s2u_u2s_sub. reflexivity.
Qed.

Theorem mbedge_filter_eq : forall E I T l, bytes8 l -> go_loop26_seg E I T l = lf_mbedge T I E l.
Proof.
  intros E I T l Hl. destruct (bytes8_inv l Hl) as (p3&p2&p1&p0&q0&q1&q2&q3&->).
  unfold go_loop26_seg, lf_mbedge, seg8, g. cbn [nth].
  rewrite needs_filter2_eq, hev_eq.
  destruct (lf_filter_yes I E p3 p2 p1 p0 q0 q1 q2 q3); [|reflexivity].
  destruct (lf_hev T p1 p0 q0 q1).
  - rewrite filter2_eq.
    destruct (go_filter2 p1 p0 q0 q1) as [x y]. reflexivity.
  - rewrite filter6_eq. reflexivity.
Qed.

Lemma filter4_eq p1 p0 q0 q1 :
  go_filter4 p1 p0 q0 q1 =
  (let '(np0, nq0, a0) := common_adjust false p1 p0 q0 q1 in
   let a := asr (a0 + 1) 1 in
   (s2u (u2s p1 + a), np0, nq0, s2u (u2s q1 - a))).
Proof.
  unfold common_adjust, go_filter4. cbv zeta.
  replace (u2s q0 - u2s p0) with (q0 - p0) by (unfold u2s; lia).
  rewrite Z.add_0_l, <- !adj_eq by lia.
  rewrite !s2u_u2s, !s2u_u2s_sub. reflexivity.
Qed.

Theorem subblock_filter_eq : forall E I T l, bytes8 l -> go_loop24_seg E I T l = lf_subblock T I E l.
Proof.
  intros E I T l Hl. destruct (bytes8_inv l Hl) as (p3&p2&p1&p0&q0&q1&q2&q3&->).
  unfold go_loop24_seg, lf_subblock, seg8, g. cbn [nth].
  rewrite needs_filter2_eq, hev_eq.
  destruct (lf_filter_yes I E p3 p2 p1 p0 q0 q1 q2 q3); [|reflexivity].
  destruct (lf_hev T p1 p0 q0 q1).
  - rewrite filter2_eq.
    destruct (go_filter2 p1 p0 q0 q1) as [x y]. reflexivity.
  - rewrite filter4_eq.
    destruct (common_adjust false p1 p0 q0 q1) as [[x y] z]. reflexivity.
Qed.

Example bytes8_example : bytes8 [10; 20; 30; 120; 140; 33; 22; 11].
Proof. split; [reflexivity|]. repeat constructor; lia. Qed.

(** Hypotheses of nz_code_sound are met by a non-trivial block (end of block at 3). *)
Example nz_code_example :
  let c := [7; -3; 0; 0; 12; 0; 0; 0; 0; 0; 0; 0; 0; 0; 0; 0] in
  (forall n, 3 <= n < 16 -> nthZ c (nthZ zigzag n 0) 0 = 0) /\ go_nz_code 3 true = 2.
Proof.
  split; [|reflexivity]. intros n Hn.
  assert (H : n = 3 \/ n = 4 \/ n = 5 \/ n = 6 \/ n = 7 \/ n = 8 \/ n = 9 \/ n = 10 \/ n = 11 \/
              n = 12 \/ n = 13 \/ n = 14 \/ n = 15) by lia.
  repeat (destruct H as [->|H]; [reflexivity|]). subst n. reflexivity.
Qed.
