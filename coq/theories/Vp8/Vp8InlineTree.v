(** getCoeffsInline = the specification's token reader, for EVERY reader state: either the Go
    reader raises its end-of-input flag while reading the block (decodeMB then rejects the frame)
    or it returns the specification's block, end-of-block position and stream position.
    Both readers are presented as interpreters of one decision tree of reads.
    [inline_coeffs_eq], [bothp_new], [go_get_coeffs_eof_mono] are what Properties/C04 states.
    Models: getCoeffsInline in Vp8InlineCoeffs.v, the Go reader in Vp8GoReader.v and, for its
    constructor and end of input, Riff/PrefixBitio.v. *)
From Coq Require Import List ZArith Lia Bool.
From Webp Require Import Vp8.Vp8Bool Vp8.Vp8BoolAbs Vp8.Vp8BoolEnc Vp8.Vp8GoReader Vp8.Vp8Tables Vp8.Vp8Syntax
  Vp8.Vp8InlineCoeffs Riff.PrefixBitio.
Import ListNotations.
Open Scope Z_scope.

Inductive rtree (A : Type) : Type :=
| Ret (a : A)
| Rd (p : Z) (k : bool -> rtree A)      (* a bool at probability p *)
| Sg (k : bool -> rtree A).             (* a sign: GetSigned / read_flag *)
Arguments Ret {A} a.
Arguments Rd {A} p k.
Arguments Sg {A} k.

Fixpoint bindt {A B} (t : rtree A) (f : A -> rtree B) : rtree B :=
  match t with
  | Ret a => f a
  | Rd p k => Rd p (fun b => bindt (k b) f)
  | Sg k => Sg (fun b => bindt (k b) f)
  end.

Fixpoint run_go {A} (t : rtree A) (g : greader) : A * greader :=
  match t with
  | Ret a => (a, g)
  | Rd p k => let '(b, g1) := gr_bit p g in run_go (k b) g1
  | Sg k => let '(b, g1) := gr_signed g in run_go (k b) g1
  end.

Fixpoint run_rfc {A} (t : rtree A) (d : bdec) : A * bdec :=
  match t with
  | Ret a => (a, d)
  | Rd p k => let '(b, d1) := read_bool p d in run_rfc (k b) d1
  | Sg k => let '(b, d1) := read_flag d in run_rfc (k b) d1
  end.

Lemma run_go_bind {A B} (t : rtree A) (f : A -> rtree B) : forall g,
  run_go (bindt t f) g = let '(a, g1) := run_go t g in run_go (f a) g1.
Proof.
  induction t as [a|p k IH|k IH]; intros g; cbn [bindt run_go]; [reflexivity| |].
  - destruct (gr_bit p g) as [b g1]. apply IH.
  - destruct (gr_signed g) as [b g1]. apply IH.
Qed.

Lemma run_rfc_bind {A B} (t : rtree A) (f : A -> rtree B) : forall d,
  run_rfc (bindt t f) d = let '(a, d1) := run_rfc t d in run_rfc (f a) d1.
Proof.
  induction t as [a|p k IH|k IH]; intros d; cbn [bindt run_rfc]; [reflexivity| |].
  - destruct (read_bool p d) as [b d1]. apply IH.
  - destruct (read_flag d) as [b d1]. apply IH.
Qed.

(** probabilities are bytes; a sign is never the first read of a tree that may start in the
    initial reader state *)
Fixpoint tree_ok {A} (fresh : bool) (t : rtree A) : Prop :=
  match t with
  | Ret _ => True
  | Rd p k => 0 <= p <= 255 /\ forall b, tree_ok false (k b)
  | Sg k => fresh = false /\ forall b, tree_ok false (k b)
  end.

(** the two readers at the same position of the same data; the abstract decoder runs over the
    data and three zero bytes (PrefixBitio.pad3: they keep 16 <= j while a data byte is left),
    where the RFC decoder reads zeros anyway *)
Definition bothp (fresh : bool) (g : greader) (d : bdec) : Prop :=
  exists R D j dp, grel (pad3 g) R D j /\ same_upto_zeros d dp /\
    drel (bd_value dp) (bd_range dp) (bd_count dp) (bd_rest dp) R D j /\
    128 <= R <= (if fresh then 255 else 254).

Lemma bothp_weaken g d : bothp false g d -> bothp true g d.
Proof. intros (R & D & j & dp & H1 & H2 & H3 & H4). exists R, D, j, dp. split; [exact H1|]. split; [exact H2|]. split; [exact H3|]. cbn in *. lia. Qed.

Lemma bit_stepp fresh g d p : bothp fresh g d -> 0 <= p <= 255 ->
  gr_eof (snd (gr_bit p g)) = false ->
  exists d1, read_bool p d = (fst (gr_bit p g), d1) /\ bothp false (snd (gr_bit p g)) d1.
Proof.
  intros (R & D & j & dp & Hg & Hz & Hd & HR) Hp Heof.
  assert (HR' : 128 <= R <= 255) by (destruct fresh; lia).
  rewrite gr_bit_eof in Heof. apply orb_false_iff in Heof. destruct Heof as [_ Hno].
  destruct (bit_pad g R D j p Hg HR' Hp Hno) as (g1 & E1 & H1).
  pose proof (no_eof_j g R D j Hg Hno) as Hj.
  pose proof Hg as (_ & _ & _ & _ & _ & _ & HD & _).
  pose proof (read_bool_refines dp R D j p Hd ltac:(lia) HR' Hp) as H2.
  pose proof (read_bool_zeros p d dp Hz) as [Hb Hz2].
  destruct (aget p (R, D, j)) as [b [[R2 D2] j2]] eqn:Ea. cbn [fst snd] in E1, H1.
  destruct H1 as [G1 G2].
  pose proof (aget_fields p R D j HR' Hp) as Hj2. rewrite Ea in Hj2.
  destruct (H2 ltac:(lia)) as (dp' & E2 & G3 & _).
  rewrite E1. cbn [fst snd].
  destruct (read_bool p d) as [b' d1] eqn:Ed. rewrite E2 in Hb, Hz2. cbn [fst snd] in Hb, Hz2. subst b'.
  exists d1. split; [reflexivity|].
  exists R2, D2, j2, dp'. split; [exact G1|]. split; [exact Hz2|]. split; [exact G3|]. cbn. lia.
Qed.

Lemma gr_fast_signed_fields g :
  gr_eof (snd (gr_fast_signed g)) = gr_eof g /\ gr_rest (snd (gr_fast_signed g)) = gr_rest g.
Proof. unfold gr_fast_signed. cbn [snd gr_eof gr_rest]. auto. Qed.

Lemma gr_signed_eof g : gr_eof (snd (gr_signed g)) = gr_eof g || ((gr_bits g <? 0) && is_nil (gr_rest g)).
Proof.
  unfold gr_signed. rewrite (proj1 (gr_fast_signed_fields _)).
  destruct (gr_bits g <? 0); cbn [andb]; [apply gr_load_eof|rewrite orb_false_r; reflexivity].
Qed.

Lemma run_go_eof_mono {A} (t : rtree A) : forall g, gr_eof g = true -> gr_eof (snd (run_go t g)) = true.
Proof.
  induction t as [a|p k IH|k IH]; intros g H; cbn [run_go]; [exact H| |].
  - pose proof (gr_bit_eof p g) as E. destruct (gr_bit p g) as [b g1]. cbn [snd] in E. apply IH. rewrite E, H. reflexivity.
  - pose proof (gr_signed_eof g) as E. destruct (gr_signed g) as [b g1]. cbn [snd] in E. apply IH. rewrite E, H. reflexivity.
Qed.

(** the interpreters agree on every tree, from every pair of related reader states, unless the Go
    reader runs out of data *)
Theorem tree_eq {A} (t : rtree A) : forall fresh g d, tree_ok fresh t -> bothp fresh g d ->
  gr_eof (snd (run_go t g)) = false ->
  exists d', run_rfc t d = (fst (run_go t g), d') /\ bothp true (snd (run_go t g)) d'.
Proof.
  induction t as [a|p k IH|k IH]; intros fresh g d Hok Hb Heof; cbn [run_go run_rfc] in *.
  - exists d. split; [reflexivity|]. destruct fresh; [exact Hb|apply bothp_weaken; exact Hb].
  - destruct Hok as [Hp Hk].
    destruct (gr_bit p g) as [b g1] eqn:Eg.
    assert (He1 : gr_eof g1 = false).
    { destruct (gr_eof g1) eqn:E; [|reflexivity]. rewrite (run_go_eof_mono (k b) g1 E) in Heof. discriminate. }
    pose proof (bit_stepp fresh g d p Hb Hp) as Hs. rewrite Eg in Hs. cbn [fst snd] in Hs.
    destruct (Hs He1) as (d1 & E1 & Hb1). rewrite E1.
    exact (IH b false g1 d1 (Hk b) Hb1 Heof).
  - destruct Hok as [-> Hk].
    assert (Hrg : 127 <= gr_range g <= 253).
    { destruct Hb as (R & D & j & dp & (ER & _) & _ & _ & HR). cbn [pad3 gr_range] in ER. cbn in HR. lia. }
    rewrite (gr_signed_eq_bit g Hrg) in *.
    destruct (gr_bit 128 g) as [b g1] eqn:Eg.
    assert (He1 : gr_eof g1 = false).
    { destruct (gr_eof g1) eqn:E; [|reflexivity]. rewrite (run_go_eof_mono (k b) g1 E) in Heof. discriminate. }
    pose proof (bit_stepp false g d 128 Hb ltac:(lia)) as Hs. rewrite Eg in Hs. cbn [fst snd] in Hs.
    destruct (Hs He1) as (d1 & E1 & Hb1). unfold read_flag. rewrite E1.
    exact (IH b false g1 d1 (Hk b) Hb1 Heof).
Qed.

Fixpoint cat_tree (tab : list Z) (v : Z) : rtree Z :=
  match tab with
  | [] => Ret v
  | t :: tl => if t =? 0 then Ret v else Rd t (fun b => cat_tree tl (v + v + b2z b))
  end.

Definition large_tree (p : list Z) : rtree Z :=
  let pr i := nth i p 0 in
  Rd (pr 2%nat) (fun b2 => if negb b2 then Ret 1 else
  Rd (pr 3%nat) (fun b3 => if negb b3 then
      Rd (pr 4%nat) (fun b4 => if negb b4 then Ret 2 else Rd (pr 5%nat) (fun b5 => Ret (3 + b2z b5)))
    else
      Rd (pr 6%nat) (fun b6 => if negb b6 then
          Rd (pr 7%nat) (fun b7 => if negb b7 then Rd 159 (fun b => Ret (5 + b2z b))
                                   else Rd 165 (fun ba => Rd 145 (fun bb => Ret (7 + 2 * b2z ba + b2z bb))))
        else
          Rd (pr 8%nat) (fun bit1 => Rd (pr (9 + (if bit1 then 1 else 0))%nat) (fun bit0 =>
            let cat := 2 * b2z bit1 + b2z bit0 in
            bindt (cat_tree (kCat3456 cat) 0) (fun v => Ret (v + 3 + 8 * 2 ^ cat))))))).

(** after the end-of-block test at position n: a zero (no end-of-block test next), or a value
    and its sign; [rec] reads on *)
Definition after_eob (rec : Z -> list Z -> bool -> list (Z * Z) -> rtree (list (Z * Z) * Z))
  (tp : list (list (list Z))) (n : Z) (p : list Z) (acc : list (Z * Z)) : rtree (list (Z * Z) * Z) :=
  Rd (nth 1 p 0) (fun nz =>
    if negb nz then
      if n + 1 =? 16 then Ret (acc, 16) else rec (n + 1) (bandp tp (n + 1) 0) true acc
    else
      bindt (large_tree p) (fun v => Sg (fun neg =>
        let acc' := (n, if neg then - v else v) :: acc in
        if n + 1 <? 16 then rec (n + 1) (bandp tp (n + 1) (if v =? 1 then 1 else 2)) false acc'
        else Ret (acc', 16)))).

Fixpoint coeffs_tree (fuel : nat) (tp : list (list (list Z))) (n : Z) (p : list Z) (skip_eob : bool)
  (acc : list (Z * Z)) : rtree (list (Z * Z) * Z) :=
  match fuel with
  | O => Ret (acc, n)
  | S f =>
    if skip_eob then after_eob (coeffs_tree f tp) tp n p acc
    else Rd (nth 0 p 0) (fun more => if negb more then Ret (acc, n) else after_eob (coeffs_tree f tp) tp n p acc)
  end.

Lemma go_cat_tree : forall tab v g, go_cat_bits tab v g = run_go (cat_tree tab v) g.
Proof.
  induction tab as [|t tl IH]; intros v g; cbn [go_cat_bits cat_tree run_go]; [reflexivity|].
  destruct (t =? 0); [reflexivity|]. cbn [run_go]. destruct (gr_bit t g) as [b g1]. apply IH.
Qed.

Lemma go_large_tree p g : go_large p g = run_go (large_tree p) g.
Proof.
  unfold go_large, large_tree. cbv zeta. cbn [run_go].
  destruct (gr_bit (nth 2 p 0) g) as [[] g1]; cbn [negb run_go]; [|reflexivity].
  destruct (gr_bit (nth 3 p 0) g1) as [[] g2]; cbn [negb run_go].
  - destruct (gr_bit (nth 6 p 0) g2) as [[] g3]; cbn [negb run_go].
    + destruct (gr_bit (nth 8 p 0) g3) as [bit1 g4].
      destruct (gr_bit (nth (9 + (if bit1 then 1 else 0)) p 0) g4) as [bit0 g5].
      rewrite run_go_bind, <- go_cat_tree. destruct (go_cat_bits _ 0 g5) as [v g6]. reflexivity.
    + destruct (gr_bit (nth 7 p 0) g3) as [[] g4]; cbn [negb run_go].
      * destruct (gr_bit 165 g4) as [ba g5]. destruct (gr_bit 145 g5) as [bb g6]. reflexivity.
      * destruct (gr_bit 159 g4) as [b g5]. reflexivity.
  - destruct (gr_bit (nth 4 p 0) g2) as [[] g3]; cbn [negb run_go]; [|reflexivity].
    destruct (gr_bit (nth 5 p 0) g3) as [b5 g4]. reflexivity.
Qed.

Lemma go_coeffs_tree tp : forall fuel n p skip g acc,
  go_coeffs fuel tp n p skip g acc =
  (let '((acc', eob), g') := run_go (coeffs_tree fuel tp n p skip acc) g in (acc', eob, g')).
Proof.
  induction fuel as [|f IH]; intros n p skip g acc; cbn [go_coeffs coeffs_tree]; [reflexivity|].
  assert (Hafter : forall g1,
    (let '(nz, g2) := gr_bit (nth 1 p 0) g1 in
     if negb nz then
       if n + 1 =? 16 then (acc, 16, g2) else go_coeffs f tp (n + 1) (bandp tp (n + 1) 0) true g2 acc
     else
       let '(v, g3) := go_large p g2 in
       let '(neg, g4) := gr_signed g3 in
       let acc' := (n, if neg then - v else v) :: acc in
       if n + 1 <? 16 then go_coeffs f tp (n + 1) (bandp tp (n + 1) (if v =? 1 then 1 else 2)) false g4 acc'
       else (acc', 16, g4)) =
    (let '((acc', eob), g') :=
       run_go (after_eob (coeffs_tree f tp) tp n p acc) g1 in (acc', eob, g'))).
  { intros g1. unfold after_eob. cbn [run_go]. destruct (gr_bit (nth 1 p 0) g1) as [[] g2]; cbn [negb].
    - rewrite run_go_bind, <- go_large_tree. destruct (go_large p g2) as [v g3]. cbn [run_go].
      destruct (gr_signed g3) as [neg g4]. cbv zeta.
      destruct (n + 1 <? 16); [apply IH|reflexivity].
    - destruct (n + 1 =? 16); [reflexivity|apply IH]. }
  destruct skip.
  - apply Hafter.
  - cbn [run_go]. destruct (gr_bit (nth 0 p 0) g) as [[] g1]; cbn [negb]; [apply Hafter|reflexivity].
Qed.

Lemma rfc_cat_tree : forall ps v d, Forall (fun t => 1 <= t <= 255) ps ->
  read_extra ps v d = run_rfc (cat_tree (ps ++ [0]) v) d.
Proof.
  induction ps as [|t tl IH]; intros v d Hps; cbn [app read_extra cat_tree run_rfc]; [reflexivity|].
  pose proof (Forall_inv Hps) as Ht. cbv beta in Ht.
  assert (E0 : t =? 0 = false) by (apply Z.eqb_neq; lia). rewrite E0. cbn [run_rfc].
  destruct (read_bool t d) as [b d1].
  replace (2 * v + (if b then 1 else 0)) with (v + v + b2z b) by (unfold b2z; destruct b; lia).
  apply IH. exact (Forall_inv_tail Hps).
Qed.

Lemma rfc_large_tree p d : rfc_large p d = run_rfc (large_tree p) d.
Proof.
  unfold rfc_large, large_tree, value_tree. cbv zeta. cbn [run_rfc read_tree].
  destruct pcat_ok as (P3 & P4 & P5 & P6).
  destruct (read_bool (nth 2 p 0) d) as [[] d1]; cbn [negb run_rfc read_tree read_extra]; [|reflexivity].
  destruct (read_bool (nth 3 p 0) d1) as [[] d2]; cbn [negb run_rfc read_tree].
  - destruct (read_bool (nth 6 p 0) d2) as [[] d3]; cbn [negb run_rfc read_tree].
    + destruct (read_bool (nth 8 p 0) d3) as [[] d4]; cbn [Nat.add read_tree].
      * destruct (read_bool (nth 10 p 0) d4) as [[] d5]; cbn [b2z]; rewrite run_rfc_bind.
        -- change (kCat3456 (2 * 1 + 1)) with (pcat6 ++ [0]). rewrite <- rfc_cat_tree by exact P6.
           destruct (read_extra pcat6 0 d5) as [e d6]. cbn [run_rfc]. f_equal. change (2 ^ (2 * 1 + 1)) with 8. lia.
        -- change (kCat3456 (2 * 1 + 0)) with (pcat5 ++ [0]). rewrite <- rfc_cat_tree by exact P5.
           destruct (read_extra pcat5 0 d5) as [e d6]. cbn [run_rfc]. f_equal. change (2 ^ (2 * 1 + 0)) with 4. lia.
      * destruct (read_bool (nth 9 p 0) d4) as [[] d5]; cbn [b2z]; rewrite run_rfc_bind.
        -- change (kCat3456 (2 * 0 + 1)) with (pcat4 ++ [0]). rewrite <- rfc_cat_tree by exact P4.
           destruct (read_extra pcat4 0 d5) as [e d6]. cbn [run_rfc]. f_equal. change (2 ^ (2 * 0 + 1)) with 2. lia.
        -- change (kCat3456 (2 * 0 + 0)) with (pcat3 ++ [0]). rewrite <- rfc_cat_tree by exact P3.
           destruct (read_extra pcat3 0 d5) as [e d6]. cbn [run_rfc]. f_equal. change (2 ^ (2 * 0 + 0)) with 1. lia.
    + destruct (read_bool (nth 7 p 0) d3) as [[] d4]; cbn [negb run_rfc read_tree].
      * unfold pcat2. cbn [read_extra]. destruct (read_bool 165 d4) as [ba d5]. destruct (read_bool 145 d5) as [bb d6].
        destruct ba, bb; reflexivity.
      * unfold pcat1. cbn [read_extra]. destruct (read_bool 159 d4) as [ba d5].
        destruct ba; reflexivity.
  - destruct (read_bool (nth 4 p 0) d2) as [[] d3]; cbn [negb run_rfc read_tree read_extra]; [|reflexivity].
    destruct (read_bool (nth 5 p 0) d3) as [[] d4]; reflexivity.
Qed.

Lemma rfc_tokens_tree tp : forall fuel n ctx noeob d acc, 0 <= n < 16 ->
  tokens fuel tp n ctx noeob d acc =
  (let '((acc', eob), d') := run_rfc (coeffs_tree fuel tp n (bandp tp n ctx) noeob acc) d in (acc', eob, d')).
Proof.
  induction fuel as [|f IH]; intros n ctx noeob d acc Hn; cbn [tokens coeffs_tree]; [reflexivity|].
  assert (E16 : 16 <=? n = false) by (apply Z.leb_gt; lia). rewrite E16.
  rewrite <- bandp_bands. set (p := bandp tp n ctx).
  assert (Hafter : forall d1,
    (let '(nz, d2) := read_bool (nth 1 p 0) d1 in
     if negb nz then tokens f tp (n + 1) 0 true d2 acc else
     let '((base, extra), d3) := read_tree value_tree p d2 in
     let '(e, d4) := read_extra extra 0 d3 in
     let v := base + e in
     let '(neg, d5) := read_flag d4 in
     tokens f tp (n + 1) (if v =? 1 then 1 else 2) false d5 ((n, if neg then - v else v) :: acc)) =
    (let '((acc', eob), d') :=
       run_rfc (after_eob (coeffs_tree f tp) tp n p acc) d1 in (acc', eob, d'))).
  { intros d1. unfold after_eob. cbn [run_rfc]. destruct (read_bool (nth 1 p 0) d1) as [[] d2]; cbn [negb].
    - rewrite run_rfc_bind, <- rfc_large_tree. unfold rfc_large.
      destruct (read_tree value_tree p d2) as [[base extra] d3]. destruct (read_extra extra 0 d3) as [e d4].
      cbv zeta. cbn [run_rfc]. destruct (read_flag d4) as [neg d5].
      destruct (n + 1 <? 16) eqn:En.
      + apply Z.ltb_lt in En. apply IH. lia.
      + apply Z.ltb_ge in En. assert (n = 15) by lia. subst n. destruct f; cbn [tokens run_rfc]; reflexivity.
    - destruct (n + 1 =? 16) eqn:En.
      + apply Z.eqb_eq in En. assert (n = 15) by lia. subst n. destruct f; cbn [tokens run_rfc]; reflexivity.
      + apply Z.eqb_neq in En. apply IH. lia. }
  destruct noeob.
  - cbn [negb]. apply Hafter.
  - cbn [run_rfc]. destruct (read_bool (nth 0 p 0) d) as [[] d1]; cbn [negb]; [apply Hafter|reflexivity].
Qed.

Lemma tree_ok_bind {A B} (t : rtree A) (f : A -> rtree B) :
  tree_ok false t -> (forall a, tree_ok false (f a)) -> tree_ok false (bindt t f).
Proof.
  induction t as [a|p k IH|k IH]; intros Ht Hf; cbn [bindt tree_ok] in *.
  - apply Hf.
  - split; [apply Ht|]. intros b. apply IH; [apply Ht|exact Hf].
  - split; [reflexivity|]. intros b. apply IH; [apply Ht|exact Hf].
Qed.

Lemma cat_tree_ok : forall tab v fresh, Forall (fun t => 0 <= t <= 255) tab -> tree_ok fresh (cat_tree tab v).
Proof.
  induction tab as [|t tl IH]; intros v fresh H; cbn [cat_tree tree_ok]; [exact I|].
  destruct (t =? 0); cbn [tree_ok]; [exact I|].
  split; [exact (Forall_inv H)|]. intros b. apply IH. exact (Forall_inv_tail H).
Qed.

Lemma kcat_ok cat : Forall (fun t => 0 <= t <= 255) (kCat3456 cat).
Proof.
  unfold kCat3456. destruct (cat =? 0); [|destruct (cat =? 1); [|destruct (cat =? 2)]];
    vm_compute; repeat constructor; intros E; discriminate E.
Qed.

Lemma large_tree_ok p fresh : (forall i, 0 <= nth i p 0 <= 255) -> tree_ok fresh (large_tree p).
Proof.
  intros Hp. unfold large_tree. cbv zeta. cbn [tree_ok].
  split; [apply Hp|]. intros [|]; cbn [negb tree_ok]; [|exact I].
  split; [apply Hp|]. intros [|]; cbn [negb tree_ok].
  - split; [apply Hp|]. intros [|]; cbn [negb tree_ok].
    + split; [apply Hp|]. intros b1. split; [apply Hp|]. intros b0.
      apply tree_ok_bind; [apply cat_tree_ok, kcat_ok|]. intros a. exact I.
    + split; [apply Hp|]. intros [|]; cbn [negb tree_ok].
      * split; [lia|]. intros ba. split; [lia|]. intros bb. exact I.
      * split; [lia|]. intros b. exact I.
  - split; [apply Hp|]. intros [|]; cbn [negb tree_ok]; [|exact I].
    split; [apply Hp|]. intros b. exact I.
Qed.

Lemma coeffs_tree_ok tp : tp_ok tp -> forall fuel n ctx skip acc fresh,
  tree_ok fresh (coeffs_tree fuel tp n (bandp tp n ctx) skip acc).
Proof.
  intros Htp. induction fuel as [|f IH]; intros n ctx skip acc fresh; cbn [coeffs_tree tree_ok]; [exact I|].
  set (p := bandp tp n ctx).
  assert (Hp : forall i, 0 <= nth i p 0 <= 255) by (intros i; apply Htp).
  assert (Hafter : forall fr, tree_ok fr (after_eob (coeffs_tree f tp) tp n p acc)).
  { intros fr. unfold after_eob. cbn [tree_ok]. split; [apply Hp|]. intros [|]; cbn [negb].
    - apply tree_ok_bind; [apply large_tree_ok, Hp|]. intros v. cbn [tree_ok]. split; [reflexivity|].
      intros neg. cbv zeta. destruct (n + 1 <? 16); [apply IH|exact I].
    - destruct (n + 1 =? 16); [exact I|apply IH]. }
  destruct skip; [apply Hafter|].
  cbn [tree_ok]. split; [apply Hp|]. intros [|]; cbn [negb]; [apply Hafter|exact I].
Qed.

(** no condition on how many bytes are left *)
Theorem inline_coeffs_eq tp first ctx dqdc dqac g d : tp_ok tp -> 0 <= first < 16 ->
  bothp true g d ->
  gr_eof (snd (go_get_coeffs tp first ctx dqdc dqac g)) = false ->
  exists d', decode_block tp first ctx dqdc dqac d =
             (fst (fst (go_get_coeffs tp first ctx dqdc dqac g)),
              snd (fst (go_get_coeffs tp first ctx dqdc dqac g)), d') /\
             bothp true (snd (go_get_coeffs tp first ctx dqdc dqac g)) d'.
Proof.
  intros Htp Hf H. unfold go_get_coeffs, decode_block.
  rewrite go_coeffs_tree, rfc_tokens_tree by exact Hf.
  pose proof (tree_eq (coeffs_tree 17 tp first (bandp tp first ctx) false []) true g d
                (coeffs_tree_ok tp Htp 17%nat first ctx false [] true) H) as T.
  destruct (run_go (coeffs_tree 17 tp first (bandp tp first ctx) false []) g) as [[acc eob] g'].
  cbn [fst snd] in *. intros He. destruct (T He) as (d' & E & B). rewrite E.
  exists d'. split; [reflexivity|exact B].
Qed.

(** when the flag is raised, it stays raised: decodeMB tests it after the macroblock's blocks *)
Lemma go_get_coeffs_eof_mono tp first ctx dqdc dqac g :
  gr_eof g = true -> gr_eof (snd (go_get_coeffs tp first ctx dqdc dqac g)) = true.
Proof.
  intros H. unfold go_get_coeffs. rewrite go_coeffs_tree.
  pose proof (run_go_eof_mono (coeffs_tree 17 tp first (bandp tp first ctx) false []) g H) as M.
  destruct (run_go (coeffs_tree 17 tp first (bandp tp first ctx) false []) g) as [[acc eob] g'].
  exact M.
Qed.

(** the freshly created readers are related (at least two bytes, the first below 255) *)
Lemma bothp_init a b rest : is_byte a -> is_byte b -> Forall is_byte rest -> a < 255 ->
  bothp true (gr_init (a :: b :: rest)) (bd_init (a :: b :: rest)).
Proof.
  intros Ha Hb Hr Hlt.
  assert (Hr3 : Forall is_byte (rest ++ [0; 0; 0])).
  { apply Forall_app. split; [exact Hr|]. repeat constructor; unfold is_byte; lia. }
  assert (Hbv : bval (a :: b :: rest ++ [0; 0; 0]) < 255 * 2 ^ (8 * Z.of_nat (length (rest ++ [0; 0; 0])) + 8)).
  { cbn [bval length]. pose proof (bval_bound _ Hr3) as B3. set (m := length (rest ++ [0; 0; 0])) in *.
    replace (8 * Z.of_nat (S m)) with (8 * Z.of_nat m + 8) by lia.
    rewrite Z.pow_add_r by lia. change (2 ^ 8) with 256. set (W := 2 ^ (8 * Z.of_nat m)) in *.
    unfold is_byte in *. nia. }
  destruct (bd_init_rel a b (rest ++ [0; 0; 0]) Ha Hb Hr3 Hbv) as [D0 D1]. cbv zeta in D0.
  exists 255, (bval (a :: b :: rest ++ [0; 0; 0])), (8 * Z.of_nat (length (rest ++ [0; 0; 0])) + 8),
         (bd_init (a :: b :: rest ++ [0; 0; 0])).
  split; [|split; [exact (bd_init_zeros a b rest 3)|split; [exact D0|cbn; lia]]].
  unfold grel, pad3, gr_init. cbn [gr_range gr_rest gr_value gr_bits gr_eof app].
  split; [reflexivity|]. split; [constructor; [exact Ha|constructor; [exact Hb|exact Hr3]]|].
  split; [lia|]. split; [lia|]. split; [lia|]. split; [cbn [length]; lia|]. split; [|reflexivity].
  split; [exact D1|]. destruct D0 as (_ & _ & _ & a0 & _ & _ & _ & _ & _ & Hlt2). exact Hlt2.
Qed.

(** NewBoolReader loads before the first read *)
Lemma bothp_new a b rest : is_byte a -> is_byte b -> Forall is_byte rest -> a < 255 ->
  bothp true (gr_new (a :: b :: rest)) (bd_init (a :: b :: rest)).
Proof.
  intros Ha Hb Hr Hlt. destruct (bothp_init a b rest Ha Hb Hr Hlt) as (R & D & j & dp & H1 & H2 & H3 & H4).
  exists R, D, j, dp. split; [|split; [exact H2|split; [exact H3|exact H4]]].
  unfold gr_new. apply load_pad; [exact H1|cbn; lia|cbn in H4; lia|cbn; discriminate].
Qed.
