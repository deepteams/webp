(** Model of the Go boolean encoder (internal/bitio/writer_bool.go: BoolWriter with its run of
    pending 0xff bytes and carry propagation) and its refinement of the abstract encoder of
    Vp8BoolAbs; with the decoder refinement: [bool_roundtrip], carries included. *)
From Coq Require Import List ZArith Lia Bool.
From WebpGen Require Tables.
From Webp Require Import Vp8.Vp8Bool Vp8.Vp8BoolAbs.
Import ListNotations.
Open Scope Z_scope.

Definition kNorm : list Z := WebpGen.Tables.bitio_kNorm.
Definition kNewRange : list Z := WebpGen.Tables.bitio_kNewRange.

Record bwst : Type := mkBw {
  bw_range : Z;        (* range_ = range - 1 *)
  bw_value : Z;
  bw_run : Z;          (* pending 0xff bytes *)
  bw_nb : Z;           (* nbBits *)
  bw_buf : list Z }.   (* bytes written so far, LAST byte first *)

Definition bw_init : bwst := mkBw 254 0 0 (-8) [].

Definition inc_last (l : list Z) : list Z :=
  match l with [] => [] | b :: tl => (b + 1) mod 256 :: tl end.

Definition bw_flush (w : bwst) : bwst :=
  let s := 8 + bw_nb w in
  let bits := bw_value w / 2 ^ s in
  let v' := bw_value w - bits * 2 ^ s in
  let nb' := bw_nb w - 8 in
  if bits mod 256 =? 255 then mkBw (bw_range w) v' (bw_run w + 1) nb' (bw_buf w)
  else
    let carry := (bits / 256) mod 2 =? 1 in
    let buf1 := if carry then inc_last (bw_buf w) else bw_buf w in
    let buf2 := repeat (if carry then 0 else 255) (Z.to_nat (bw_run w)) ++ buf1 in
    mkBw (bw_range w) v' 0 nb' (bits mod 256 :: buf2).

Definition bw_norm (shift_of : Z -> Z) (r1 v1 : Z) (w : bwst) : bwst :=
  if r1 <? 127 then
    let shift := shift_of r1 in
    let w2 := mkBw (nth (Z.to_nat r1) kNewRange 0) (v1 * 2 ^ shift) (bw_run w) (bw_nb w + shift) (bw_buf w) in
    if 0 <? bw_nb w2 then bw_flush w2 else w2
  else mkBw r1 v1 (bw_run w) (bw_nb w) (bw_buf w).

Definition bw_put (bit : bool) (prob : Z) (w : bwst) : bwst :=
  let split := bw_range w * prob / 256 in
  let r1 := if bit then bw_range w - (split + 1) else split in
  let v1 := if bit then bw_value w + split + 1 else bw_value w in
  bw_norm (fun r => nth (Z.to_nat r) kNorm 0) r1 v1 w.

(** PutBitUniform: split = range_ >> 1, shift fixed to 1 *)
Definition bw_put_uniform (bit : bool) (w : bwst) : bwst :=
  let split := bw_range w / 2 in
  let r1 := if bit then bw_range w - (split + 1) else split in
  let v1 := if bit then bw_value w + split + 1 else bw_value w in
  bw_norm (fun _ => 1) r1 v1 w.

(** PutBits(value, n): n bits of value, most significant first *)
Fixpoint bw_put_bits (value : Z) (n : nat) (w : bwst) : bwst :=
  match n with
  | O => w
  | S m => bw_put_bits value m (bw_put_uniform (Z.testbit value (Z.of_nat m)) w)
  end.

(** PutSignedBits(value, n): flag "non-zero", then |value| << 1 | sign on n+1 bits *)
Definition bw_put_signed (value : Z) (n : nat) (w : bwst) : bwst :=
  let w1 := bw_put_uniform (negb (value =? 0)) w in
  if value =? 0 then w1
  else bw_put_bits (if value <? 0 then (- value) * 2 + 1 else value * 2) (S n) w1.

(** Finish: PutBits(0, 9 - nbBits); nbBits = 0; flush *)
Definition bw_finish (w : bwst) : list Z :=
  let w1 := bw_put_bits 0 (Z.to_nat (9 - bw_nb w)) w in
  let w2 := bw_flush (mkBw (bw_range w1) (bw_value w1) (bw_run w1) 0 (bw_buf w1)) in
  rev (bw_buf w2).

Fixpoint bw_encode_all (ps : list (bool * Z)) (w : bwst) : bwst :=
  match ps with
  | [] => w
  | (b, p) :: tl => bw_encode_all tl (bw_put b p w)
  end.

Definition bool_encode (ps : list (bool * Z)) : list Z := bw_finish (bw_encode_all ps bw_init).

Fixpoint ival (l : list Z) : Z :=
  match l with [] => 0 | b :: tl => b + 256 * ival tl end.

Lemma ival_repeat255 n l : ival (repeat 255 n ++ l) = 256 ^ Z.of_nat n * (ival l + 1) - 1.
Proof.
  induction n as [|n IH]; cbn [repeat app ival].
  - change (Z.of_nat 0) with 0. rewrite Z.pow_0_r. ring.
  - rewrite IH. rewrite Nat2Z.inj_succ, Z.pow_succ_r by lia. ring.
Qed.

Lemma ival_repeat0 n l : ival (repeat 0 n ++ l) = 256 ^ Z.of_nat n * ival l.
Proof.
  induction n as [|n IH]; cbn [repeat app ival].
  - change (Z.of_nat 0) with 0. rewrite Z.pow_0_r. ring.
  - rewrite IH. rewrite Nat2Z.inj_succ, Z.pow_succ_r by lia. ring.
Qed.

Lemma knorm_spec r : 0 <= r <= 126 ->
  norm_loop 8 (r + 1) 0 = (nth (Z.to_nat r) kNewRange 0 + 1, nth (Z.to_nat r) kNorm 0) /\
  1 <= nth (Z.to_nat r) kNorm 0 <= 7.
Proof. apply tab_norm_spec. vm_compute. reflexivity. Qed.

Global Opaque kNorm kNewRange.

(** With e = nbBits + 8 and P = the written bytes followed by [run] bytes 0xff:
    L = P * 2^(e+8) + value,  k = 8 * (bytes + run) + e.
    [value] may carry one bit above its e + 8 bits until the next flush: value + R <=
    2^(e+8) + 255 * 2^e.  L + R <= 2^(k+8) gives a carry a byte to land in.
    [emax]: 8 between calls, 15 inside bw_norm before its flush. *)
Definition wrel (emax : Z) (w : bwst) (R L k : Z) : Prop :=
  let e := bw_nb w + 8 in
  let v := bw_value w in
  let P := (ival (bw_buf w) + 1) * 256 ^ bw_run w - 1 in
  bw_range w + 1 = R /\ 0 <= e <= emax /\ 0 <= bw_run w /\
  Forall is_byte (bw_buf w) /\ (match bw_buf w with [] => True | b :: _ => b <> 255 end) /\
  0 <= v /\ L = P * 2 ^ (e + 8) + v /\
  k = 8 * (Z.of_nat (length (bw_buf w)) + bw_run w) + e /\
  v + R <= 2 ^ (e + 8) + 255 * 2 ^ e /\ L + R <= 2 ^ (k + 8) /\ 1 <= R <= 255.

Lemma pow256 n : 0 <= n -> 256 ^ n = 2 ^ (8 * n).
Proof. intros H. change 256 with (2 ^ 8). rewrite <- Z.pow_mul_r by lia. reflexivity. Qed.

Lemma ival_nonneg l : Forall is_byte l -> 0 <= ival l.
Proof.
  induction l as [|b tl IH]; intros H; cbn [ival]; [lia|].
  pose proof (Forall_inv H) as Hb. specialize (IH (Forall_inv_tail H)). unfold is_byte in Hb. lia.
Qed.

(** a flush moves 8 bits and a possible carry from [value] to the written number P:
    L = P * 2^(e+8) + v = (256 * P + bits) * 2^e + v' *)
Lemma flush_arith nb v R L P : 1 <= nb <= 7 -> 0 <= v -> 1 <= R <= 255 ->
  L = P * 2 ^ (nb + 8 + 8) + v -> v + R <= 2 ^ (nb + 8 + 8) + 255 * 2 ^ (nb + 8) ->
  let bits := v / 2 ^ (8 + nb) in
  let v' := v - bits * 2 ^ (8 + nb) in
  0 <= bits <= 510 /\ 0 <= v' /\ L = (256 * P + bits) * 2 ^ (nb - 8 + 8 + 8) + v' /\
  v' + R <= 2 ^ (nb - 8 + 8 + 8) + 255 * 2 ^ (nb - 8 + 8).
Proof.
  intros Hnb Hv HR HL Hb. cbv zeta.
  replace (nb + 8 + 8) with (16 + nb) in * by lia. replace (nb + 8) with (8 + nb) in * by lia.
  replace (nb - 8 + 8 + 8) with (8 + nb) by lia. replace (nb - 8 + 8) with nb by lia.
  rewrite (Z.pow_add_r 2 16 nb), (Z.pow_add_r 2 8 nb) in * by lia.
  change (2 ^ 16) with 65536 in *. change (2 ^ 8) with 256 in *.
  set (E := 2 ^ nb) in *.
  assert (HE : 2 <= E) by (unfold E; change 2 with (2 ^ 1) at 1; apply Z.pow_le_mono_r; lia).
  pose proof (Z.div_mod v (256 * E) ltac:(lia)) as Hdiv.
  pose proof (Z.mod_pos_bound v (256 * E) ltac:(lia)) as Hmod.
  set (bits := v / (256 * E)) in *.
  assert (Hbits : 0 <= bits <= 510).
  { split; [apply Z.div_pos; lia|]. assert (bits < 511); [|lia]. apply Z.div_lt_upper_bound; [lia|nia]. }
  split; [exact Hbits|]. split; [lia|]. split; [rewrite HL; nia|nia].
Qed.

Lemma flush_rel w R L k : wrel 15 w R L k -> 9 <= bw_nb w + 8 -> wrel 7 (bw_flush w) R L k.
Proof.
  destruct w as [rg v run nb buf]. unfold wrel. cbn [bw_range bw_value bw_run bw_nb bw_buf].
  intros (HR & He & Hrun & Hbytes & Hlast & Hv & HL & Hk & Hb & Ha & HRr) Hnb.
  set (P := (ival buf + 1) * 256 ^ run - 1) in *.
  destruct (flush_arith nb v R L P ltac:(lia) Hv HRr HL Hb) as (Hbits & Hv' & HL' & Hb'). cbv zeta in *.
  unfold bw_flush. cbn [bw_range bw_value bw_run bw_nb bw_buf].
  set (bits := v / 2 ^ (8 + nb)) in *. set (v' := v - bits * 2 ^ (8 + nb)) in *.
  clearbody bits. pose proof (ival_nonneg buf Hbytes) as HI.
  pose proof (Z.mod_pos_bound bits 256 ltac:(lia)) as Hd.
  assert (HQ : 1 <= 256 ^ run) by (apply (Z.pow_le_mono_r 256 0 run); lia).
  assert (Hlen : forall (x l : Z) bf, Z.of_nat (length (x :: repeat l (Z.to_nat run) ++ bf)) = Z.of_nat (length bf) + run + 1).
  { intros x l bf. cbn [length]. rewrite app_length, repeat_length. lia. }
  (* in each case the bytes and the run after the flush spell 256 * P + bits *)
  destruct (Z.eqb_spec (bits mod 256) 255) as [Ed|Ed]; cbn [bw_range bw_value bw_run bw_nb bw_buf].
  - (* a 0xff byte is held back *)
    assert (EP : (ival buf + 1) * 256 ^ (run + 1) - 1 = 256 * P + bits)
      by (rewrite Z.pow_add_r by lia; unfold P; Z.div_mod_to_equations; lia).
    rewrite EP. repeat split; try assumption; lia.
  - rewrite Z.pow_0_r, Z.mul_1_r.
    destruct (Z.eqb_spec (bits / 256 mod 2) 1) as [Ec|Ec]; cbv iota.
    + (* carry into the last written byte; the pending 0xff bytes become 0x00 *)
      destruct buf as [|b0 tl].
      { (* no byte to carry into: impossible, the interval would leave [0, 1) *)
        exfalso. rewrite Hk in Ha. cbn [ival length] in *.
        replace (8 * (Z.of_nat 0 + run) + (nb + 8) + 8) with (8 * run + (nb + 8 + 8)) in Ha by lia.
        rewrite Z.pow_add_r, <- pow256 in Ha by lia.
        assert (256 <= bits) by (clear - Ec Hbits; Z.div_mod_to_equations; lia).
        assert (HE : 0 < 2 ^ (8 + nb)) by (apply Z.pow_pos_nonneg; lia).
        replace (nb + 8 + 8) with (8 + (8 + nb)) in * by lia. rewrite (Z.pow_add_r 2 8) in * by lia.
        change (2 ^ 8) with 256 in *. unfold P in HL. clear - Ha HL H HE HRr Hv' HQ. subst v'. nia. }
      pose proof (Forall_inv Hbytes) as Hb0. unfold is_byte in Hb0.
      cbn [inc_last]. rewrite (Z.mod_small (b0 + 1) 256) by lia. rewrite Hlen. cbn [length] in Hk |- *.
      assert (EP : ival (bits mod 256 :: repeat 0 (Z.to_nat run) ++ b0 + 1 :: tl) + 1 - 1 = 256 * P + bits).
      { cbn [ival]. rewrite ival_repeat0, Z2Nat.id by lia. cbn [ival]. unfold P. cbn [ival].
        Z.div_mod_to_equations. lia. }
      rewrite EP. repeat split; try assumption; try lia.
      constructor; [unfold is_byte; lia|]. apply Forall_app. split; [apply Forall_repeat; unfold is_byte; lia|].
      constructor; [unfold is_byte; lia|exact (Forall_inv_tail Hbytes)].
    + assert (EP : ival (bits mod 256 :: repeat 255 (Z.to_nat run) ++ buf) + 1 - 1 = 256 * P + bits).
      { cbn [ival]. rewrite ival_repeat255, Z2Nat.id by lia. unfold P. Z.div_mod_to_equations. lia. }
      rewrite EP, Hlen. repeat split; try assumption; try lia.
      constructor; [unfold is_byte; lia|]. apply Forall_app. split; [apply Forall_repeat; unfold is_byte; lia|assumption].
Qed.

Lemma wrel_mono e1 e2 w R L k : e1 <= e2 -> wrel e1 w R L k -> wrel e2 w R L k.
Proof.
  unfold wrel. intros He (H1 & H2 & H3). split; [exact H1|]. split; [lia|exact H3].
Qed.

Lemma norm_rel shift_of w r1 v1 R1 L1 k t :
  wrel 8 (mkBw r1 v1 (bw_run w) (bw_nb w) (bw_buf w)) R1 L1 k ->
  norm_loop 8 R1 0 = (R1 * 2 ^ t, t) -> 0 <= t -> 128 <= R1 * 2 ^ t <= 255 ->
  (r1 < 127 -> shift_of r1 = t) ->
  wrel 8 (bw_norm shift_of r1 v1 w) (R1 * 2 ^ t) (L1 * 2 ^ t) (k + t).
Proof.
  intros Hrel Hn Ht HR2 Hshift. unfold bw_norm.
  pose proof Hrel as Hrel0.
  unfold wrel in Hrel. cbn [bw_range bw_value bw_run bw_nb bw_buf] in Hrel.
  destruct Hrel as (HR & He & Hrun & Hbytes & Hlast & Hv & HL & Hk & Hb & Ha & HRr).
  destruct (r1 <? 127) eqn:E127.
  - apply Z.ltb_lt in E127. rewrite (Hshift E127).
    assert (Hr1 : 0 <= r1 <= 126) by lia.
    destruct (knorm_spec r1 Hr1) as [Hkn Hkn2]. rewrite HR in Hkn. rewrite Hn in Hkn.
    apply pair_equal_spec in Hkn. destruct Hkn as [Hnr Hnt].
    assert (Ht7 : 1 <= t <= 7) by lia.
    set (w2 := mkBw (nth (Z.to_nat r1) kNewRange 0) (v1 * 2 ^ t) (bw_run w) (bw_nb w + t) (bw_buf w)).
    assert (Hw2 : wrel 15 w2 (R1 * 2 ^ t) (L1 * 2 ^ t) (k + t)).
    { unfold wrel, w2. cbn [bw_range bw_value bw_run bw_nb bw_buf].
      assert (Tp : 0 < 2 ^ t) by (apply Z.pow_pos_nonneg; lia).
      replace (bw_nb w + t + 8 + 8) with ((bw_nb w + 8 + 8) + t) by lia.
      replace (bw_nb w + t + 8) with ((bw_nb w + 8) + t) by lia.
      replace (k + t + 8) with ((k + 8) + t) by lia.
      rewrite (Z.pow_add_r 2 (bw_nb w + 8 + 8) t), (Z.pow_add_r 2 (bw_nb w + 8) t), (Z.pow_add_r 2 (k + 8) t) by lia.
      set (A := 2 ^ (bw_nb w + 8 + 8)) in *. set (B := 2 ^ (bw_nb w + 8)) in *.
      set (C := 2 ^ (k + 8)) in *. set (T := 2 ^ t) in *.
      split; [lia|]. split; [lia|]. split; [assumption|]. split; [assumption|]. split; [assumption|].
      split; [nia|]. split; [rewrite HL; ring|]. split; [lia|].
      split; [clear - Hb Tp; nia|]. split; [clear - Ha Tp; nia|]. lia. }
    destruct (0 <? bw_nb w2) eqn:Enb.
    + apply Z.ltb_lt in Enb. apply (wrel_mono 7 8); [lia|]. apply flush_rel; [exact Hw2|].
      unfold w2 in *. cbn [bw_nb] in *. lia.
    + apply Z.ltb_ge in Enb. unfold w2 in *. cbn [bw_nb] in Enb.
      destruct Hw2 as (G1 & G2 & G3). split; [exact G1|]. split; [|exact G3].
      cbn [bw_nb] in *. lia.
  - apply Z.ltb_ge in E127.
    assert (E0 : t = 0) by (rewrite norm8_id in Hn by lia; injection Hn as _ <-; reflexivity).
    subst t. rewrite Z.pow_0_r, !Z.mul_1_r, Z.add_0_r. exact Hrel0.
Qed.

Theorem put_rel w R L k b p : wrel 8 w R L k -> 128 <= R <= 255 -> 0 <= p <= 255 ->
  let '(R2, L2, k2) := aput b p (R, L, k) in wrel 8 (bw_put b p w) R2 L2 k2.
Proof.
  intros Hrel HR Hp.
  destruct (aput_spec b p R L k HR Hp) as (t & Ht & Hput & Hn & HR1 & HR2). cbv zeta in *.
  rewrite Hput. pose proof (nsplit_bounds R p HR Hp) as Hs.
  unfold bw_put.
  unfold wrel in Hrel.
  destruct Hrel as (ER & He & Hrun & Hbytes & Hlast & Hv & HL & Hk & Hb & Ha & HRr).
  assert (Es : nsplit R p = bw_range w * p / 256 + 1).
  { unfold nsplit, bd_split. rewrite <- ER. replace (bw_range w + 1 - 1) with (bw_range w) by lia. lia. }
  set (sg := bw_range w * p / 256) in *.
  apply norm_rel; try assumption.
  - unfold wrel. cbn [bw_range bw_value bw_run bw_nb bw_buf].
    destruct b; repeat split; try assumption; try lia.
  - intros Hlt.
    destruct (knorm_spec (if b then bw_range w - (sg + 1) else sg)) as [Hkn _].
    { destruct b; lia. }
    replace ((if b then bw_range w - (sg + 1) else sg) + 1) with (if b then R - nsplit R p else nsplit R p) in Hkn
      by (destruct b; lia).
    rewrite Hn in Hkn. apply pair_equal_spec in Hkn. destruct Hkn as [_ Hkn]. symmetry. exact Hkn.
Qed.

(** range_ in 127..254: split = range_ >> 1, new range in 64..128 *)
Lemma uniform_eq_put b w R L k : wrel 8 w R L k -> 128 <= R <= 255 ->
  bw_put_uniform b w = bw_put b 128 w.
Proof.
  intros (ER & _) HR. unfold bw_put_uniform, bw_put.
  destruct (half_range (bw_range w) b ltac:(lia)) as (-> & Hr1 & _).
  set (r1 := if b then bw_range w - (bw_range w / 2 + 1) else bw_range w / 2) in *.
  unfold bw_norm. destruct (Z.ltb_spec r1 127) as [E|E]; [|reflexivity].
  destruct (knorm_spec r1 ltac:(lia)) as [Hk _]. rewrite norm8_half in Hk by lia.
  injection Hk as _ <-. reflexivity.
Qed.

Lemma init_rel : wrel 8 bw_init 255 0 0.
Proof. unfold wrel, bw_init. cbn. repeat split; try lia. constructor. Qed.

Lemma aput_le254 b p R L k : 128 <= R <= 255 -> 0 <= p <= 255 ->
  let '(R2, _, _) := aput b p (R, L, k) in 128 <= R2 <= 254.
Proof.
  intros HR Hp. destruct (aput_spec b p R L k HR Hp) as (t & Ht & Hput & Hn & HR1 & HR2). cbv zeta in *.
  rewrite Hput. pose proof (nsplit_bounds R p HR Hp) as Hs.
  pose proof (norm8_le254 (if b then R - nsplit R p else nsplit R p) ltac:(destruct b; lia)) as H.
  rewrite Hn in H. cbn [fst] in H. lia.
Qed.

Theorem encode_all_rel : forall ps w R L k, wrel 8 w R L k -> 128 <= R <= 255 -> probs_ok ps ->
  let '(Rf, Lf, kf) := aenc ps (R, L, k) in
  wrel 8 (bw_encode_all ps w) Rf Lf kf /\ 128 <= Rf <= 255 /\ (ps <> [] -> Rf <= 254).
Proof.
  induction ps as [|[b p] tl IH]; intros w R L k Hrel HR Hps; cbn [aenc bw_encode_all].
  - split; [exact Hrel|]. split; [exact HR|]. intros H. congruence.
  - pose proof (Forall_inv Hps) as Hp. cbn [snd] in Hp. pose proof (Forall_inv_tail Hps) as Htl.
    pose proof (put_rel w R L k b p Hrel HR Hp) as H1.
    pose proof (aput_le254 b p R L k HR Hp) as H2.
    destruct (aput b p (R, L, k)) as [[R1 L1] k1].
    specialize (IH (bw_put b p w) R1 L1 k1 H1 ltac:(lia) Htl).
    destruct (aenc tl (R1, L1, k1)) as [[Rf Lf] kf] eqn:Ea.
    destruct IH as (I1 & I2 & I3). split; [exact I1|]. split; [exact I2|]. intros _.
    destruct tl as [|x tl']; [cbn [aenc] in Ea; injection Ea as <- <- <-; lia|].
    apply I3. congruence.
Qed.

Definition e_of (u : Z) : Z := if u <=? 8 then u else if u <=? 16 then u - 8 else u - 16.

(** Finish's zero bits: i written, u = (e at the start) + i.  2^i | value, and no carry bit
    from the first flush on, make value = 0 at the forced flush (not a case of flush_rel). *)
Definition zphase (w : bwst) (R L k i u : Z) : Prop :=
  wrel 8 w R L k /\ 128 <= R <= 254 /\ (2 ^ i | bw_value w) /\ bw_nb w + 8 = e_of u /\
  (9 <= u -> bw_value w < 2 ^ (bw_nb w + 16)) /\ 0 <= i /\ 0 <= u <= 17.

Lemma aput_zero R L k : 128 <= R <= 254 ->
  exists R', aput false 128 (R, L, k) = (R', L * 2, k + 1) /\ 128 <= R' <= 254.
Proof.
  intros HR.
  destruct (aput_spec false 128 R L k ltac:(lia) ltac:(lia)) as (t & Ht & Hput & Hn & HR1 & HR2). cbv zeta in *.
  assert (Hs : 64 <= nsplit R 128 <= 127) by (unfold nsplit, bd_split; Z.div_mod_to_equations; lia).
  assert (Et : t = 1).
  { destruct (Z.eq_dec t 0) as [->|H0]; [rewrite Z.pow_0_r in HR2; lia|].
    destruct (Z.eq_dec t 1) as [->|H1]; [reflexivity|].
    assert (4 <= 2 ^ t) by (change 4 with (2 ^ 2); apply Z.pow_le_mono_r; lia). nia. }
  subst t. change (2 ^ 1) with 2 in *. exists (nsplit R 128 * 2). split; [exact Hput|lia].
Qed.

Lemma flush_fields w : 0 <= 8 + bw_nb w ->
  bw_value (bw_flush w) = bw_value w mod 2 ^ (8 + bw_nb w) /\ bw_nb (bw_flush w) = bw_nb w - 8.
Proof.
  intros Hs. unfold bw_flush. cbv zeta.
  assert (Hp : 0 < 2 ^ (8 + bw_nb w)) by (apply Z.pow_pos_nonneg; lia).
  assert (E : bw_value w - bw_value w / 2 ^ (8 + bw_nb w) * 2 ^ (8 + bw_nb w) = bw_value w mod 2 ^ (8 + bw_nb w)).
  { rewrite Z.mod_eq by lia. ring. }
  destruct (bw_value w / 2 ^ (8 + bw_nb w) mod 256 =? 255); cbn [bw_value bw_nb]; rewrite E; split; reflexivity.
Qed.

Lemma e_of_succ u : 0 <= u <= 16 -> e_of (u + 1) = if e_of u =? 8 then 1 else e_of u + 1.
Proof.
  intros H. unfold e_of.
  destruct (Z.leb_spec u 8), (Z.leb_spec (u + 1) 8), (Z.leb_spec u 16), (Z.leb_spec (u + 1) 16);
    try lia; (destruct (_ =? 8) eqn:E; [apply Z.eqb_eq in E|apply Z.eqb_neq in E]; lia).
Qed.

Lemma pow2_divide_mod i m x : 0 <= i -> 0 <= m -> (2 ^ i | x) -> (2 ^ i | x mod 2 ^ m).
Proof.
  intros Hi Hm Hd. destruct (Z_le_gt_dec i m) as [Hle|Hgt].
  - rewrite Z.mod_eq by (apply Z.pow_nonzero; lia). apply Z.divide_sub_r; [exact Hd|].
    apply Z.divide_mul_l. exists (2 ^ (m - i)). rewrite <- Z.pow_add_r by lia. f_equal. lia.
  - assert (Hm2 : (2 ^ m | x)).
    { eapply Z.divide_trans; [|exact Hd]. exists (2 ^ (i - m)). rewrite <- Z.pow_add_r by lia. f_equal. lia. }
    apply Z.mod_divide in Hm2; [|apply Z.pow_nonzero; lia]. rewrite Hm2. apply Z.divide_0_r.
Qed.

Lemma zero_step w R L k i u : zphase w R L k i u -> u <= 16 ->
  exists R', zphase (bw_put_uniform false w) R' (L * 2) (k + 1) (i + 1) (u + 1).
Proof.
  intros (Hrel & HR & Hdiv & He & Hnc & Hi & Hu) Hu16.
  destruct (aput_zero R L k HR) as (R' & Ea & HR').
  pose proof (put_rel w R L k false 128 Hrel ltac:(lia) ltac:(lia)) as Hrel'. rewrite Ea in Hrel'.
  rewrite <- (uniform_eq_put false w R L k Hrel ltac:(lia)) in Hrel'.
  exists R'. split; [exact Hrel'|]. split; [exact HR'|].
  pose proof Hrel as (ER & He8 & _ & _ & _ & Hv & _).
  assert (Hsp : 63 <= bw_range w / 2 <= 126) by (Z.div_mod_to_equations; lia).
  unfold bw_put_uniform, bw_norm. cbv zeta.
  rewrite (proj2 (Z.ltb_lt _ 127)) by lia. cbn [bw_nb]. change (2 ^ 1) with 2.
  assert (Hd2 : (2 ^ (i + 1) | bw_value w * 2)).
  { rewrite Z.pow_add_r by lia. apply Z.mul_divide_mono_r. exact Hdiv. }
  rewrite e_of_succ, <- He by lia.
  destruct (Z.ltb_spec 0 (bw_nb w + 1)) as [Enb|Enb].
  - assert (Hnb0 : bw_nb w = 0) by lia.
    set (w2 := mkBw _ _ _ _ _).
    destruct (flush_fields w2) as [Fv Fn]; [unfold w2; cbn [bw_nb]; lia|].
    rewrite Fv, Fn. unfold w2. cbn [bw_value bw_nb]. rewrite Hnb0. cbn [Z.add Z.sub Z.eqb].
    split; [apply pow2_divide_mod; [lia|lia|exact Hd2]|]. split; [reflexivity|].
    split; [intros _; apply Z.mod_pos_bound; reflexivity|lia].
  - cbn [bw_value bw_nb]. split; [exact Hd2|].
    split; [destruct (Z.eqb_spec (bw_nb w + 8) 8); lia|]. split; [|lia].
    intros H9. assert (Hu8 : u <> 8) by (intros ->; change (e_of 8) with 8 in He; lia).
    specialize (Hnc ltac:(lia)).
    replace (bw_nb w + 1 + 16) with (Z.succ (bw_nb w + 16)) by lia. rewrite Z.pow_succ_r by lia. lia.
Qed.

Lemma zero_steps : forall n w R L k i u, zphase w R L k i u -> u + Z.of_nat n <= 17 ->
  exists R', zphase (bw_put_bits 0 n w) R' (L * 2 ^ Z.of_nat n) (k + Z.of_nat n) (i + Z.of_nat n) (u + Z.of_nat n).
Proof.
  induction n as [|n IH]; intros w R L k i u Hz Hn.
  - exists R. cbn [bw_put_bits]. change (Z.of_nat 0) with 0. rewrite Z.pow_0_r, Z.mul_1_r, !Z.add_0_r. exact Hz.
  - cbn [bw_put_bits]. rewrite Z.testbit_0_l.
    destruct (zero_step w R L k i u Hz ltac:(lia)) as (R1 & Hz1).
    destruct (IH _ R1 (L * 2) (k + 1) (i + 1) (u + 1) Hz1 ltac:(lia)) as (R2 & Hz2).
    exists R2. rewrite Nat2Z.inj_succ, Z.pow_succ_r by lia.
    replace (L * (2 * 2 ^ Z.of_nat n)) with (L * 2 * 2 ^ Z.of_nat n) by ring.
    replace (k + Z.succ (Z.of_nat n)) with (k + 1 + Z.of_nat n) by lia.
    replace (i + Z.succ (Z.of_nat n)) with (i + 1 + Z.of_nat n) by lia.
    replace (u + Z.succ (Z.of_nat n)) with (u + 1 + Z.of_nat n) by lia.
    exact Hz2.
Qed.

Lemma bval_rev l : bval (rev l) = ival l.
Proof.
  induction l as [|b tl IH]; cbn [rev ival]; [reflexivity|]. rewrite bval_snoc, IH. ring.
Qed.

Lemma finish_pad w R L k : wrel 8 w R L k -> 128 <= R <= 254 ->
  let n := 9 - bw_nb w in
  let w1 := bw_put_bits 0 (Z.to_nat n) w in
  exists R1, wrel 8 w1 R1 (L * 2 ^ n) (k + n) /\ bw_nb w1 = -7 /\ bw_value w1 = 0.
Proof.
  intros Hrel HR n w1. pose proof Hrel as (_ & He & _).
  set (e0 := bw_nb w + 8) in *.
  assert (Hz0 : zphase w R L k 0 e0).
  { split; [exact Hrel|]. split; [exact HR|]. split; [apply Z.divide_1_l|].
    split; [unfold e_of; destruct (Z.leb_spec e0 8); [reflexivity|lia]|].
    split; [intros; lia|]. lia. }
  assert (Hn : Z.of_nat (Z.to_nat n) = n) by (apply Z2Nat.id; unfold n; lia).
  destruct (zero_steps (Z.to_nat n) w R L k 0 e0 Hz0 ltac:(unfold n, e0 in *; lia)) as (R1 & Hz1).
  fold w1 in Hz1. rewrite Hn in Hz1. replace (e0 + n) with 17 in Hz1 by (unfold n, e0; lia).
  destruct Hz1 as (Hrel1 & _ & Hdiv1 & He1 & Hnc1 & _ & _). change (e_of 17) with 1 in He1.
  assert (Hnb1 : bw_nb w1 = -7) by lia.
  exists R1. split; [exact Hrel1|]. split; [exact Hnb1|].
  (* 2^9 divides value (n >= 9) and value < 2^9 *)
  specialize (Hnc1 ltac:(lia)). rewrite Hnb1 in Hnc1. change (2 ^ (-7 + 16)) with 512 in Hnc1.
  destruct Hrel1 as (_ & _ & _ & _ & _ & Hv1 & _).
  assert (H512 : (2 ^ 9 | bw_value w1)).
  { eapply Z.divide_trans; [|exact Hdiv1]. exists (2 ^ (0 + n - 9)).
    rewrite <- Z.pow_add_r by (unfold n, e0 in *; lia). f_equal. lia. }
  destruct H512 as [q Hq]. change (2 ^ 9) with 512 in Hq. lia.
Qed.

(** the output is the low end L of the final interval at scale J = 8 * (length - 1) >= k *)
Theorem finish_value w R L k : wrel 8 w R L k -> 128 <= R <= 254 ->
  let out := bw_finish w in
  let J := 8 * (Z.of_nat (length out) - 1) in
  k + 8 <= J /\ bval out = L * 2 ^ (J - k) /\ (2 <= length out)%nat /\ Forall is_byte out.
Proof.
  intros Hrel HR. pose proof Hrel as (_ & He & Hrun & _ & _ & _ & _ & Hk & _).
  destruct (finish_pad w R L k Hrel HR) as (R1 & Hrel1 & Hnb1 & Hv0). cbv zeta in *.
  set (n := 9 - bw_nb w) in *.
  unfold bw_finish. fold n. set (w1 := bw_put_bits 0 (Z.to_nat n) w) in *.
  destruct Hrel1 as (_ & _ & Hrun1 & Hbytes1 & _ & _ & HL1 & Hk1 & _).
  (* the forced flush of an empty value register writes one zero byte *)
  unfold bw_flush. cbn [bw_range bw_value bw_run bw_nb bw_buf]. rewrite Hv0.
  change (0 / 2 ^ (8 + 0)) with 0. change (0 mod 256 =? 255) with false. cbv iota.
  change (0 / 256 mod 2 =? 1) with false. cbv iota. cbn [bw_buf]. change (0 mod 256) with 0.
  set (l := 0 :: repeat 255 (Z.to_nat (bw_run w1)) ++ bw_buf w1).
  assert (Hlen : Z.of_nat (length (rev l)) = Z.of_nat (length (bw_buf w1)) + bw_run w1 + 1).
  { rewrite rev_length. unfold l. cbn [length]. rewrite app_length, repeat_length. lia. }
  rewrite Hlen, bval_rev.
  rewrite Hnb1 in Hk1, HL1. rewrite Hv0, Z.add_0_r in HL1. change (2 ^ (-7 + 8 + 8)) with 512 in HL1.
  split; [unfold n in *; lia|]. split; [|split].
  - unfold l. cbn [ival]. rewrite ival_repeat255, Z2Nat.id by lia.
    replace (8 * (Z.of_nat (length (bw_buf w1)) + bw_run w1 + 1 - 1) - k) with (n - 1) by lia.
    replace (2 ^ n) with (2 * 2 ^ (n - 1)) in HL1
      by (rewrite <- Z.pow_succ_r by (unfold n; lia); f_equal; lia).
    lia.
  - (* k >= 0, so there are at least 8 + 9 bits *)
    assert (2 <= Z.of_nat (length (rev l))); [|lia]. rewrite Hlen. unfold n in *. lia.
  - apply Forall_rev. unfold l. constructor; [unfold is_byte; lia|]. apply Forall_app. split; [|exact Hbytes1].
    apply Forall_repeat. unfold is_byte. lia.
Qed.

Lemma bool_encode_spec ps : probs_ok ps -> ps <> [] ->
  let '(Rf, Lf, kf) := aenc ps (255, 0, 0) in
  let out := bool_encode ps in
  let J := 8 * (Z.of_nat (length out) - 1) in
  kf + 8 <= J /\ bval out = Lf * 2 ^ (J - kf) /\ (2 <= length out)%nat /\ Forall is_byte out /\
  128 <= Rf <= 254.
Proof.
  intros Hps Hne.
  pose proof (encode_all_rel ps bw_init 255 0 0 init_rel ltac:(lia) Hps) as Henc.
  destruct (aenc ps (255, 0, 0)) as [[Rf Lf] kf]. destruct Henc as (Hrel & HRf & HRf2). specialize (HRf2 Hne).
  destruct (finish_value _ Rf Lf kf Hrel ltac:(lia)) as (H1 & H2 & H3 & H4).
  unfold bool_encode. cbv zeta. repeat split; try assumption; lia.
Qed.

(** the RFC decoder reads zeros beyond its input: trailing zero bytes change nothing *)
Definition same_upto_zeros (d d' : bdec) : Prop :=
  bd_value d = bd_value d' /\ bd_range d = bd_range d' /\ bd_count d = bd_count d' /\
  exists z, bd_rest d' = bd_rest d ++ repeat 0 z.

Lemma normalize_zeros : forall fuel v r c rest z pos pos',
  let '(v1, r1, c1, rest1, _) := bd_normalize fuel v r c rest pos in
  exists z2 p2', bd_normalize fuel v r c (rest ++ repeat 0 z) pos' = (v1, r1, c1, rest1 ++ repeat 0 z2, p2').
Proof.
  induction fuel as [|f IH]; intros v r c rest z pos pos'; cbn [bd_normalize].
  - exists z, pos'. reflexivity.
  - destruct (r <? 128); [|exists z, pos'; reflexivity].
    unfold bd_shift1. destruct (c + 1 =? 8); [|apply IH].
    destruct rest as [|b rest']; [|apply IH].
    destruct z as [|z']; cbn [app repeat]; [apply (IH _ _ _ [] 0%nat)|].
    rewrite Z.add_0_r. apply (IH _ _ _ [] z').
Qed.

Lemma read_bool_zeros p d d' : same_upto_zeros d d' ->
  fst (read_bool p d) = fst (read_bool p d') /\ same_upto_zeros (snd (read_bool p d)) (snd (read_bool p d')).
Proof.
  intros (Ev & Er & Ec & z & Erest). unfold read_bool. rewrite <- Ev, <- Er, <- Ec, Erest.
  set (split := bd_split (bd_range d) p).
  destruct (if split * 256 <=? bd_value d then _ else _) as [[bit range1] value1].
  pose proof (normalize_zeros 8 value1 range1 (bd_count d) (bd_rest d) z (bd_pos d) (bd_pos d')) as H.
  destruct (bd_normalize 8 value1 range1 (bd_count d) (bd_rest d) (bd_pos d)) as [[[[v1 r1] c1] rest1] p1].
  destruct H as (z2 & p2' & ->). cbn [fst snd]. split; [reflexivity|].
  repeat split; cbn; try reflexivity. exists z2. reflexivity.
Qed.

Lemma rfc_bits_zeros : forall probs d d', same_upto_zeros d d' -> rfc_bits probs d = rfc_bits probs d'.
Proof.
  induction probs as [|p tl IH]; intros d d' H; [reflexivity|]. cbn [rfc_bits].
  destruct (read_bool_zeros p d d' H) as [H1 H2].
  destruct (read_bool p d) as [b d1]. destruct (read_bool p d') as [b' d1']. cbn [fst snd] in *.
  subst b'. f_equal. apply IH. exact H2.
Qed.

Lemma bd_init_zeros a b rest z : same_upto_zeros (bd_init (a :: b :: rest)) (bd_init ((a :: b :: rest) ++ repeat 0 z)).
Proof. cbn [app bd_init]. repeat split; cbn; try reflexivity. exists z. reflexivity. Qed.

Theorem bool_roundtrip : forall ps z, probs_ok ps ->
  rfc_bits (map snd ps) (bd_init (bool_encode ps ++ repeat 0 z)) = map fst ps.
Proof.
  intros ps z Hps.
  destruct ps as [|bp tl]; [reflexivity|]. set (ps := bp :: tl) in *.
  pose proof (bool_encode_spec ps Hps ltac:(discriminate)) as Hfin.
  pose proof (abs_roundtrip ps 255 0 0 Hps ltac:(lia)) as Habs.
  destruct (aenc ps (255, 0, 0)) as [[Rf Lf] kf].
  destruct Habs as (Hk0 & _ & Habs). cbv zeta in Hfin.
  set (out := bool_encode ps) in *.
  destruct Hfin as (HkJ & Hval & Hlen & Hbytes & HRf).
  (* enough zeros for the refinement, then drop / add zeros freely *)
  set (zz := (length ps + 2)%nat).
  destruct out as [|a [|b rest]] eqn:Eout; [cbn in Hlen; lia|cbn in Hlen; lia|].
  transitivity (rfc_bits (map snd ps) (bd_init ((a :: b :: rest) ++ repeat 0 zz))).
  { rewrite <- (rfc_bits_zeros _ _ _ (bd_init_zeros a b rest z)).
    apply rfc_bits_zeros. apply bd_init_zeros. }
  set (J0 := 8 * (Z.of_nat (length (a :: b :: rest)) - 1)) in *.
  set (J := J0 + 8 * Z.of_nat zz).
  set (X := bval ((a :: b :: rest) ++ repeat 0 zz)).
  assert (EX : X = Lf * 2 ^ (J - kf)).
  { unfold X. rewrite bval_app_zeros, Hval. rewrite <- Z.mul_assoc, <- Z.pow_add_r by lia. f_equal. f_equal. unfold J. lia. }
  assert (HP : 0 < 2 ^ (J - kf)) by (apply Z.pow_pos_nonneg; unfold J; lia).
  destruct (Habs J X ltac:(unfold J; lia) ltac:(rewrite EX; nia)) as [Hin Hdec].
  rewrite Z.mul_0_l, Z.sub_0_r, Z.add_0_l in *.
  rewrite <- Hdec.
  pose proof (Forall_inv Hbytes) as Ha. pose proof (Forall_inv (Forall_inv_tail Hbytes)) as Hb.
  pose proof (Forall_inv_tail (Forall_inv_tail Hbytes)) as Hr.
  assert (Hr2 : Forall is_byte (rest ++ repeat 0 zz)).
  { apply Forall_app. split; [exact Hr|]. apply Forall_repeat. unfold is_byte. lia. }
  assert (EJ : 8 * Z.of_nat (length (rest ++ repeat 0 zz)) + 8 = J).
  { rewrite app_length, repeat_length, Nat2Z.inj_add. unfold J, J0. cbn [length]. rewrite !Nat2Z.inj_succ. lia. }
  change ((a :: b :: rest) ++ repeat 0 zz) with (a :: b :: (rest ++ repeat 0 zz)) in *.
  destruct (bd_init_rel a b (rest ++ repeat 0 zz) Ha Hb Hr2) as [Hrel0 HX0].
  { rewrite EJ. fold X. lia. }
  rewrite EJ in Hrel0. fold X in Hrel0, HX0.
  replace (J - 0) with J by lia.
  apply rfc_refines_abs; try assumption; try lia.
  - clear - Hps. unfold probs_ok in Hps. induction Hps; cbn [map]; constructor; assumption.
  - rewrite map_length. unfold J, zz. rewrite Nat2Z.inj_add. unfold J0. cbn [length]. rewrite !Nat2Z.inj_succ. lia.
Qed.
