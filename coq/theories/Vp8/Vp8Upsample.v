(** Fancy (9-3-3-1) chroma upsampling of one pair of rows and the fixed-point
    YUV -> RGB conversion (internal/dsp/upsample.go, yuv.go).  Reference
    definitions per channel, models of the Go formulas (U and V packed in one
    uint32; clip through a table), and proofs that they coincide. *)
From Coq Require Import List ZArith Lia Bool.
From Webp Require Import Vp8.Vp8Bool Vp8.Vp8Syntax.
Import ListNotations.
Open Scope Z_scope.

(* lia for goals with division or modulo by constants *)
Ltac dlia := Z.div_mod_to_equations; lia.

Definition tap9331 (a b c d : Z) : Z := (9 * a + 3 * b + 3 * c + d + 8) / 16.
Definition tap31 (a b : Z) : Z := (3 * a + b + 2) / 4.

Definition mult_hi (v c : Z) : Z := (v * c) / 256.
Definition yuv_clip8 (v : Z) : Z := if v <? 0 then 0 else if 16383 <? v then 255 else v / 64.
Definition yuv_r (y v : Z) : Z := yuv_clip8 (mult_hi y 19077 + mult_hi v 26149 - 14234).
Definition yuv_g (y u v : Z) : Z := yuv_clip8 (mult_hi y 19077 - mult_hi u 6419 - mult_hi v 13320 + 8708).
Definition yuv_b (y u : Z) : Z := yuv_clip8 (mult_hi y 19077 + mult_hi u 33050 - 17685).
Definition yuv_rgb (y u v : Z) : list Z := [yuv_r y v; yuv_g y u v; yuv_b y u].

(** one pair of rows: chroma rows of length (w+1)/2, luma rows of length w (the
    bottom luma row is absent for the last row of an odd-height picture).
    Sample x > 0 of the top row takes 9 parts of the nearest chroma sample of
    the top chroma row, 3 of its horizontal and 3 of its vertical neighbour, 1
    of the diagonal one; sample 0 and (for even widths) the last sample have no
    horizontal neighbour: 3 parts / 1 part vertically. *)
Definition chroma_at (near far : list Z) (w x : Z) : Z :=
  let n i := nthZ near i 0 in let f i := nthZ far i 0 in
  if (x =? 0) then tap31 (n 0) (f 0)
  else if (x =? w - 1) && Z.even w then tap31 (n ((w - 1) / 2)) (f ((w - 1) / 2))
  else
    let k := (x + 1) / 2 in   (* pixel pair index: samples 2k-1 and 2k lie between chroma k-1 and k *)
    if Z.odd x then tap9331 (n (k - 1)) (n k) (f (k - 1)) (f k)
    else tap9331 (n k) (n (k - 1)) (f k) (f (k - 1)).

Definition upsample_row (y near_u near_v far_u far_v : list Z) : list Z :=
  let w := Z.of_nat (length y) in
  concat (map (fun '(x, yy) =>
                 yuv_rgb yy (chroma_at near_u far_u w x) (chroma_at near_v far_v w x))
              (combine (zrange 0 w) y)).

Definition upsample_pair (top_y : list Z) (bot_y : option (list Z)) (top_u top_v bot_u bot_v : list Z)
  : list Z * option (list Z) :=
  (upsample_row top_y top_u top_v bot_u bot_v,
   match bot_y with
   | Some by_ => Some (upsample_row by_ bot_u bot_v top_u top_v)
   | None => None
   end).

Definition pack (u v : Z) : Z := u + 65536 * v.
Definition lo8 (x : Z) : Z := x mod 256.
Definition hi8 (x : Z) : Z := (x / 65536) mod 256.
Definition w32 (x : Z) : Z := x mod 4294967296.

(** interior pixel pair: returns the four packed chroma values (top uv0, uv1, bottom uv0, uv1) *)
Definition go_diamond (tl t l cur : Z) : Z * Z * Z * Z :=
  let avg := w32 (tl + t + l + cur + 524296) in            (* 0x00080008 *)
  let diag12 := w32 (avg + 2 * (t + l)) / 8 in
  let diag03 := w32 (avg + 2 * (tl + cur)) / 8 in
  (w32 (diag12 + tl) / 2, w32 (diag03 + t) / 2, w32 (diag03 + l) / 2, w32 (diag12 + cur) / 2).

Definition go_edge (a b : Z) : Z := w32 (3 * a + b + 131074) / 4.   (* 0x00020002 *)

(** clip through vp8kClip: table entry i is min(i >> 6, 255) *)
Definition go_clip_tab (i : Z) : Z := let v := i / 64 in if v <? 0 then 0 else if 255 <? v then 255 else v.
Definition go_yuv_clip (v : Z) : Z := if v <? 0 then 0 else if 16383 <? v then 255 else go_clip_tab v.

Definition byte (x : Z) : Prop := 0 <= x <= 255.

(** lane separation: a packed value is low + 65536 * high with low < 65536; a right
    shift leaks low bits of the high lane into the top of the low lane, where the
    final "& 0xff" never looks *)
Lemma w32_small x : 0 <= x < 4294967296 -> w32 x = x.
Proof. intros H. unfold w32. apply Z.mod_small. exact H. Qed.

Lemma shr_lanes k a b : (k = 2 \/ k = 4 \/ k = 8) -> 0 <= a < 65536 -> 0 <= b ->
  (a + 65536 * b) / k = a / k + (65536 / k) * (b mod k) + 65536 * (b / k).
Proof. intros [ -> | [ -> | -> ] ] Ha Hb; change (65536 / 2) with 32768; change (65536 / 4) with 16384; change (65536 / 8) with 8192; dlia. Qed.

Lemma lanes_out s g h : 0 <= s < 8192 -> 0 <= g < 8 -> 0 <= h ->
  lo8 ((s + 8192 * g + 65536 * h) / 2) = (s / 2) mod 256 /\
  hi8 ((s + 8192 * g + 65536 * h) / 2) = (h / 2) mod 256.
Proof. intros Hs Hg Hh. unfold lo8, hi8. split; dlia. Qed.

Lemma half_eighth x y : 0 <= x -> (x / 8 + y) / 2 = (x + 8 * y) / 16.
Proof. intros. dlia. Qed.

(** one output of the diamond kernel, lanes given separately (sums below 2^12 keep them apart) *)
Lemma diamond_lane au av yu yv :
  0 <= au < 4096 -> 0 <= av < 4096 -> 0 <= yu <= 255 -> 0 <= yv <= 255 ->
  lo8 (w32 (w32 (pack au av) / 8 + pack yu yv) / 2) = ((au + 8 * yu) / 16) mod 256 /\
  hi8 (w32 (w32 (pack au av) / 8 + pack yu yv) / 2) = ((av + 8 * yv) / 16) mod 256.
Proof.
  intros Hau Hav Hyu Hyv. unfold pack.
  rewrite (w32_small (au + 65536 * av)) by lia.
  rewrite (shr_lanes 8 au av) by (auto; lia). change (65536 / 8) with 8192.
  assert (Hg : 0 <= av mod 8 < 8) by (apply Z.mod_pos_bound; lia).
  assert (Hq : 0 <= av / 8 < 512) by dlia.
  assert (Ha8 : 0 <= au / 8 < 512) by dlia.
  rewrite w32_small by lia.
  replace (au / 8 + 8192 * (av mod 8) + 65536 * (av / 8) + (yu + 65536 * yv))
    with ((au / 8 + yu) + 8192 * (av mod 8) + 65536 * (av / 8 + yv)) by lia.
  destruct (lanes_out (au / 8 + yu) (av mod 8) (av / 8 + yv) ltac:(lia) Hg ltac:(lia)) as [E1 E2].
  rewrite E1, E2, !half_eighth by lia. split; reflexivity.
Qed.

Theorem go_edge_eq : forall au av bu bv, byte au -> byte av -> byte bu -> byte bv ->
  let r := go_edge (pack au av) (pack bu bv) in
  lo8 r = tap31 au bu /\ hi8 r = tap31 av bv.
Proof.
  unfold byte, go_edge. intros au av bu bv Hau Hav Hbu Hbv. cbv zeta.
  replace (3 * pack au av + pack bu bv + 131074) with ((3 * au + bu + 2) + 65536 * (3 * av + bv + 2))
    by (unfold pack; lia).
  rewrite w32_small by lia.
  rewrite (shr_lanes 4) by (auto; lia). change (65536 / 4) with 16384.
  unfold lo8, hi8, tap31. split; dlia.
Qed.

Lemma tap9331_sum s a b c d : s = a + b + c + d -> byte a -> byte b -> byte c -> byte d ->
  ((s + 8 + 2 * (b + c) + 8 * a) / 16) mod 256 = tap9331 a b c d.
Proof. unfold byte, tap9331. intros -> Ha Hb Hc Hd. rewrite Z.mod_small by dlia. f_equal. dlia. Qed.

Theorem go_diamond_eq : forall tlu tlv tu tv lu lv cu cv,
  byte tlu -> byte tlv -> byte tu -> byte tv -> byte lu -> byte lv -> byte cu -> byte cv ->
  let '(a, b, c, d) := go_diamond (pack tlu tlv) (pack tu tv) (pack lu lv) (pack cu cv) in
  lo8 a = tap9331 tlu tu lu cu /\ hi8 a = tap9331 tlv tv lv cv /\
  lo8 b = tap9331 tu tlu cu lu /\ hi8 b = tap9331 tv tlv cv lv /\
  lo8 c = tap9331 lu tlu cu tu /\ hi8 c = tap9331 lv tlv cv tv /\
  lo8 d = tap9331 cu tu lu tlu /\ hi8 d = tap9331 cv tv lv tlv.
Proof.
  intros tlu tlv tu tv lu lv cu cv H1 H2 H3 H4 H5 H6 H7 H8.
  unfold go_diamond. cbv zeta.
  set (su := tlu + tu + lu + cu + 8). set (sv := tlv + tv + lv + cv + 8).
  assert (Hsu : 8 <= su <= 1028) by (unfold byte in *; unfold su; lia).
  assert (Hsv : 8 <= sv <= 1028) by (unfold byte in *; unfold sv; lia).
  assert (Eavg : w32 (pack tlu tlv + pack tu tv + pack lu lv + pack cu cv + 524296) = pack su sv)
    by (unfold byte in *; rewrite w32_small by (unfold pack; lia); unfold pack, su, sv; lia).
  rewrite Eavg. clear Eavg.
  replace (pack su sv + 2 * (pack tu tv + pack lu lv)) with (pack (su + 2 * (tu + lu)) (sv + 2 * (tv + lv)))
    by (unfold pack; lia).
  replace (pack su sv + 2 * (pack tlu tlv + pack cu cv)) with (pack (su + 2 * (tlu + cu)) (sv + 2 * (tlv + cv)))
    by (unfold pack; lia).
  assert (L : forall xu xv yu yv, 0 <= xu <= 510 -> 0 <= xv <= 510 -> 0 <= yu <= 255 -> 0 <= yv <= 255 ->
            lo8 (w32 (w32 (pack (su + 2 * xu) (sv + 2 * xv)) / 8 + pack yu yv) / 2) = ((su + 2 * xu + 8 * yu) / 16) mod 256 /\
            hi8 (w32 (w32 (pack (su + 2 * xu) (sv + 2 * xv)) / 8 + pack yu yv) / 2) = ((sv + 2 * xv + 8 * yv) / 16) mod 256).
  { intros xu xv yu yv Hxu Hxv Hyu Hyv. apply diamond_lane; clear - Hsu Hsv Hxu Hxv Hyu Hyv; lia. }
  unfold byte in H1, H2, H3, H4, H5, H6, H7, H8.
  destruct (L (tu + lu) (tv + lv) tlu tlv) as [-> ->]; [lia..|].
  destruct (L (tlu + cu) (tlv + cv) tu tv) as [-> ->]; [lia..|].
  destruct (L (tlu + cu) (tlv + cv) lu lv) as [-> ->]; [lia..|].
  destruct (L (tu + lu) (tv + lv) cu cv) as [-> ->]; [lia..|].
  clear L Hsu Hsv. unfold su, sv.
  repeat split; apply tap9331_sum; solve [assumption | clear; lia].
Qed.

Theorem go_yuv_clip_eq : forall v, go_yuv_clip v = yuv_clip8 v.
Proof.
  intros v. unfold go_yuv_clip, yuv_clip8, go_clip_tab. cbv zeta.
  destruct (v <? 0) eqn:E1; [reflexivity|]. destruct (16383 <? v) eqn:E2; [reflexivity|].
  destruct (v / 64 <? 0) eqn:E3; [dlia|]. destruct (255 <? v / 64) eqn:E4; [dlia|]. reflexivity.
Qed.

Theorem taps_are_bytes : forall a b c d, byte a -> byte b -> byte c -> byte d ->
  byte (tap9331 a b c d) /\ byte (tap31 a b).
Proof. unfold byte, tap9331, tap31. intros. split; dlia. Qed.
