(** Encoder-side data path pieces relevant to "no drift" (C06): the encoder's inverse
    transform on a reference block, its quantiser step sizes (setupSegment) against the
    decoder's dequantisation factors derived from the header the encoder writes
    (writeQuantParams), skipped macroblocks, and the range of coded levels. *)
From Coq Require Import List ZArith Lia Bool.
From WebpGen Require Tables.
From Webp Require Import Base.Res Vp8.Vp8Bool Vp8.Vp8Tables Vp8.Vp8Syntax Vp8.Vp8Kernels Vp8.Vp8KernelProofs
  Vp8.Vp8Recon Vp8.Vp8Filter Vp8.Vp8Spec.
Import ListNotations.
Open Scope Z_scope.

(** dsp.iTransformOne(ref, in, dst): dst = clip8(ref + (x >> 3)) with the same two passes
    as the decoder's transformOne *)
Definition enc_itransform (ref c : list Z) : list Z :=
  map (fun '(r, x) => clamp255 (r + x)) (combine ref (go_transform_one c)).

Theorem itransform_eq_transform : forall ref c, enc_itransform ref c = add_residual ref (idct c).
Proof. intros ref c. unfold enc_itransform, add_residual. rewrite go_transform_one_eq_idct. reflexivity. Qed.

(** setupSegment: quantiser step sizes of a segment with index q; the deltas are the
    ones written by writeQuantParams (fields of q_hdr) *)
Definition enc_clamp (v lo hi : Z) : Z := if v <? lo then lo else if hi <? v then hi else v.
Definition enc_dq (qh : q_hdr) (q : Z) : dqf :=
  let y2dc := nthZ dc_table (enc_clamp (q + q_y2dc qh) 0 127) 0 * 2 in
  mkDq (nthZ dc_table (enc_clamp (q + q_y1dc qh) 0 127) 0)
       (nthZ ac_table (enc_clamp q 0 127) 0)
       (if y2dc <? 8 then 8 else y2dc)
       (nthZ WebpGen.Tables.lossy_KAcTable2 (enc_clamp (q + q_y2ac qh) 0 127) 0)
       (nthZ dc_table (enc_clamp (q + q_uvdc qh) 0 117) 0)
       (nthZ ac_table (enc_clamp (q + q_uvac qh) 0 127) 0).

Definition enc_tab_ok (j : Z) : bool :=
  (nthZ WebpGen.Tables.lossy_KAcTable2 j 0 =? Z.max 8 (nthZ ac_table j 0 * 155 / 100)) &&
  (8 <=? nthZ dc_table j 0 * 2).

Lemma enc_tab_sweep : forallb enc_tab_ok (zrange 0 128) = true.
Proof. vm_compute. reflexivity. Qed.

Theorem enc_dequant_eq_dec : forall qh q, enc_dq qh q = dq_of qh q.
Proof.
  intros qh q. unfold enc_dq, dq_of, qidx.
  change enc_clamp with (fun v lo hi => clampz lo hi v). cbv beta zeta.
  assert (T : forall x, enc_tab_ok (clampz 0 127 x) = true).
  { intros x. apply (zrange_forallb _ _ _ _ enc_tab_sweep). pose proof (clampz_range 0 127 x). lia. }
  f_equal.
  - specialize (T (q + q_y2dc qh)). apply andb_true_iff in T. destruct T as [_ T].
    rewrite (proj2 (Z.ltb_ge _ 8)) by (apply Z.leb_le; exact T). apply Z.mul_comm.
  - specialize (T (q + q_y2ac qh)). apply andb_true_iff in T. destruct T as [T _].
    apply Z.eqb_eq. exact T.
  - symmetry. apply uvdc_cap.
Qed.

(** A skipped macroblock (all levels zero): the decoder's skip path adds a zero residual,
    i.e. reconstructs the prediction alone. *)
Lemma clamp255_byte p : 0 <= p <= 255 -> clamp255 (p + 0) = p.
Proof. intros H. rewrite Z.add_0_r. apply clampz_id. exact H. Qed.

Lemma add_zero_residual pred : Forall (fun x => 0 <= x <= 255) pred ->
  add_residual pred (repeat 0 (length pred)) = pred.
Proof.
  unfold add_residual. induction 1 as [|p tl Hp _ IH]; cbn [length repeat combine map]; [reflexivity|].
  rewrite IH, clamp255_byte by exact Hp. reflexivity.
Qed.

Theorem skip_sound : forall pred, length pred = 16%nat -> Forall (fun x => 0 <= x <= 255) pred ->
  idct (repeat 0 16) = repeat 0 16 /\ iwht (repeat 0 16) = repeat 0 16 /\
  add_residual pred (idct (repeat 0 16)) = pred.
Proof.
  intros pred Hl Hf. split; [reflexivity|]. split; [reflexivity|].
  change (idct (repeat 0 16)) with (repeat 0 16). rewrite <- Hl. apply add_zero_residual. exact Hf.
Qed.

(** Every level magnitude 1..2114 (the encoder caps at 2047) has exactly one token:
    a leaf of the value tree with base <= a < base + 2^(number of extra bits). *)
Fixpoint tree_leaves {A} (t : tree A) : list A :=
  match t with Leaf a => [a] | Node _ z o => tree_leaves z ++ tree_leaves o end.

Definition level_leaves (a : Z) : list (Z * list Z) :=
  filter (fun '(base, extra) => (base <=? a) && (a <? base + 2 ^ Z.of_nat (length extra)))
         (tree_leaves value_tree).

(** half-open intervals from lo to hi, each starting where the previous one ends *)
Fixpoint chained (lo : Z) (ivs : list (Z * Z)) (hi : Z) : bool :=
  match ivs with
  | [] => lo =? hi
  | (l, h) :: tl => (l =? lo) && (l <? h) && chained h tl hi
  end.

Definition inside (a : Z) (iv : Z * Z) : bool := (fst iv <=? a) && (a <? snd iv).

Lemma chained_le : forall ivs lo hi, chained lo ivs hi = true -> lo <= hi.
Proof.
  induction ivs as [|[l h] tl IH]; intros lo hi H; cbn [chained] in H.
  - apply Z.eqb_eq in H. lia.
  - rewrite !andb_true_iff in H. destruct H as [[E L] T]. apply Z.eqb_eq in E. apply Z.ltb_lt in L.
    specialize (IH h hi T). lia.
Qed.

Lemma chained_count a : forall ivs lo hi, chained lo ivs hi = true ->
  length (filter (inside a) ivs) = if (lo <=? a) && (a <? hi) then 1%nat else 0%nat.
Proof.
  induction ivs as [|[l h] tl IH]; intros lo hi H; cbn [chained filter] in *.
  - apply Z.eqb_eq in H. subst hi. destruct (Z.leb_spec lo a), (Z.ltb_spec a lo); try reflexivity; lia.
  - rewrite !andb_true_iff in H. destruct H as [[E Hlt] Ht].
    apply Z.eqb_eq in E. apply Z.ltb_lt in Hlt. subst l.
    pose proof (chained_le tl h hi Ht) as Hh. specialize (IH h hi Ht).
    unfold inside at 1. cbn [fst snd].
    destruct (Z.leb_spec lo a), (Z.ltb_spec a h), (Z.leb_spec h a), (Z.ltb_spec a hi);
      cbn [andb length] in *; lia.
Qed.

Lemma filter_map_length {A B} (g : A -> B) (f : B -> bool) l :
  length (filter (fun x => f (g x)) l) = length (filter f (map g l)).
Proof.
  induction l as [|x l IH]; cbn [filter map]; [reflexivity|].
  destruct (f (g x)); cbn [length]; rewrite IH; reflexivity.
Qed.

(** the leaves, in tree order, are consecutive intervals [base, base + 2^extra bits) *)
Theorem level_range : forall a, 1 <= a <= 2114 -> length (level_leaves a) = 1%nat.
Proof.
  intros a H. unfold level_leaves.
  rewrite (filter_ext _ (fun x => inside a (let '(base, extra) := x in (base, base + 2 ^ Z.of_nat (length extra)))))
    by (intros [base extra]; reflexivity).
  rewrite filter_map_length, (chained_count a _ 1 2115) by reflexivity.
  destruct (Z.leb_spec 1 a), (Z.ltb_spec a 2115); try reflexivity; lia.
Qed.

(** with equal step sizes both sides store the same 16-bit product (a congruence, nothing more) *)
Theorem level_store_agrees : forall level dqe dqd, dqe = dqd -> wrap16 (level * dqe) = wrap16 (level * dqd).
Proof. intros level dqe dqd ->. reflexivity. Qed.

(** Shape of the no-drift claim for an encoder data path [enc] (source, options, choices ->
    bytes and reference reconstruction): the specification decodes the bytes, before the loop
    filter, to that reconstruction.  Vp8NoDrift.no_drift proves it for the model enc_frame. *)
Definition no_drift_statement {Src Opts Choices : Type}
  (enc : Src -> Opts -> Choices -> list Z * (Z * Z * planes)) (wf : Src -> Opts -> Choices -> Prop) : Prop :=
  forall s o c, wf s o c -> decode_unfiltered (fst (enc s o c)) = Ok (snd (enc s o c)).
