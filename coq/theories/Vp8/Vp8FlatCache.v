(** The output cache of the lossy decoder as a flat buffer: reconstructRow's transfer loops
    ("yOut := dec.cacheY[mbX*16+mbY*16*yStride:]; for j { copy(yOut[j*yStride:...], ...) }", the same
    with 8 for U and V) write every macroblock's samples at flat index  y*stride + x ; after the
    loops over all macroblocks the flat buffer is the plane the macroblock-grid model assembles
    (Vp8Filter.plane_rows), row after row. *)
From Coq Require Import List ZArith Lia Bool.
From WebpGen Require Consts.
From Webp Require Import Base.ListFacts Vp8.Vp8Recon Vp8.Vp8Filter.
Import ListNotations.
Open Scope Z_scope.

Definition fget (c : list Z) (i : Z) : Z := nth (Z.to_nat i) c 0.

(** Go's copy(dst[off:off+len(src)], src) *)
Fixpoint copy_nat (c : list Z) (off : nat) (src : list Z) : list Z :=
  match c with
  | [] => []
  | h :: t =>
    match off with
    | S o => h :: copy_nat t o src
    | O => match src with [] => c | s :: st => s :: copy_nat t O st end
    end
  end.
Definition copy_at (c : list Z) (off : Z) (src : list Z) : list Z := copy_nat c (Z.to_nat off) src.

Lemma copy_nat_length : forall c off src, length (copy_nat c off src) = length c.
Proof.
  induction c as [|h t IH]; intros off src; cbn [copy_nat]; [reflexivity|].
  destruct off; [destruct src|]; cbn [length]; try reflexivity; f_equal; apply IH.
Qed.

Lemma copy_nat_nth : forall c off src i, (off + length src <= length c)%nat ->
  nth i (copy_nat c off src) 0 =
  if ((off <=? i) && (i <? off + length src))%nat then nth (i - off) src 0 else nth i c 0.
Proof.
  induction c as [|h t IH]; intros off src i H.
  - destruct src, off; cbn in H; try lia. destruct i; reflexivity.
  - destruct off as [|o]; cbn [copy_nat].
    + destruct src as [|s st]; [reflexivity|]. destruct i; [reflexivity|]. cbn [nth].
      rewrite IH by (cbn in H; lia). rewrite Nat.sub_0_r. reflexivity.
    + destruct i; [reflexivity|]. cbn [nth]. rewrite IH by (cbn in H; lia). reflexivity.
Qed.

Lemma copy_at_length c off src : length (copy_at c off src) = length c.
Proof. apply copy_nat_length. Qed.




Lemma copy_at_get c off src i : 0 <= off -> off + Z.of_nat (length src) <= Z.of_nat (length c) -> 0 <= i ->
  fget (copy_at c off src) i =
  if (off <=? i) && (i <? off + Z.of_nat (length src)) then fget src (i - off) else fget c i.
Proof.
  intros H0 H1 Hi. unfold fget, copy_at. rewrite copy_nat_nth by lia.
  apply if_ext; [rewrite !andb_true_iff, Nat.leb_le, Nat.ltb_lt; lia|]. intros _. f_equal. lia.
Qed.

Fixpoint loopn (n : nat) (v : Z) (body : Z -> list Z -> list Z) (c : list Z) : list Z :=
  match n with
  | O => c
  | S m => loopn m (v + 1) body (body v c)
  end.
Definition for_range (lo hi : Z) (body : Z -> list Z -> list Z) (c : list Z) : list Z :=
  loopn (Z.to_nat (hi - lo)) lo body c.

(** cell (x, y) of a buffer of rows of S samples ([S], the stride, hides the successor of nat
    from here on) *)
Definition cget (S : Z) (c : list Z) (x y : Z) : Z := fget c (y * S + x).
Section LoopSpec.
  Variables (S Ht : Z) (lo0 hi0 : Z).
  (* [owns v x y]: cell (x,y) is written (only) by iteration v, with value [val v c x y] computed from
     the buffer c the iteration starts from, through cells no other iteration of the loop writes *)
  Variables (owns : Z -> Z -> Z -> bool) (val : Z -> list Z -> Z -> Z -> Z) (body : Z -> list Z -> list Z).
  Hypothesis owns_unique : forall v v' x y, lo0 <= v < hi0 -> lo0 <= v' < hi0 ->
    owns v x y = true -> owns v' x y = true -> v = v'.
  Hypothesis body_len : forall v c, length (body v c) = length c.
  Hypothesis body_spec : forall v c x y, lo0 <= v < hi0 ->
    length c = Z.to_nat (S * Ht) -> 0 <= x < S -> 0 <= y < Ht ->
    cget S (body v c) x y = if owns v x y then val v c x y else cget S c x y.
  Hypothesis val_frame : forall v c c' x y, lo0 <= v < hi0 -> 0 <= x < S -> 0 <= y < Ht -> owns v x y = true ->
    (forall x' y', 0 <= x' < S -> 0 <= y' < Ht -> (forall u, lo0 <= u < hi0 -> u <> v -> owns u x' y' = false) ->
                   cget S c x' y' = cget S c' x' y') ->
    val v c x y = val v c' x y.

  Lemma loop_spec n : forall lo c x y, lo0 <= lo -> lo + Z.of_nat n <= hi0 ->
    length c = Z.to_nat (S * Ht) -> 0 <= x < S -> 0 <= y < Ht ->
    length (loopn n lo body c) = length c /\
    (forall v, lo <= v < lo + Z.of_nat n -> owns v x y = true -> cget S (loopn n lo body c) x y = val v c x y) /\
    ((forall v, lo <= v < lo + Z.of_nat n -> owns v x y = false) -> cget S (loopn n lo body c) x y = cget S c x y).
  Proof.
    induction n as [|n IH]; intros lo c x y Hlo Hhi Hlen Hx Hy.
    - cbn [loopn]. split; [reflexivity|]. split; [intros v Hv; lia|reflexivity].
    - cbn [loopn].
      destruct (IH (lo + 1) (body lo c) x y ltac:(lia) ltac:(lia) ltac:(rewrite body_len; exact Hlen) Hx Hy)
        as (L & A & B).
      split; [rewrite L; apply body_len|]. split.
      + intros v Hv Ho. destruct (Z.eq_dec v lo) as [->|Hne].
        * rewrite B.
          { rewrite body_spec by (try assumption; lia). rewrite Ho. reflexivity. }
          intros v' Hv'. destruct (owns v' x y) eqn:E; [|reflexivity].
          assert (lo = v') by (apply (owns_unique lo v' x y); try assumption; lia). lia.
        * rewrite (A v) by (try assumption; lia).
          apply val_frame; try assumption; [lia|].
          intros x' y' Hx' Hy' Hnone. rewrite body_spec by (try assumption; lia).
          rewrite Hnone by lia. reflexivity.
      + intros Hnone. rewrite B by (intros v Hv; apply Hnone; lia).
        rewrite body_spec by (try assumption; lia). rewrite Hnone by lia. reflexivity.
  Qed.
End LoopSpec.

Lemma loopn_length body : (forall v c, length (body v c) = length c) ->
  forall n lo c, length (loopn n lo body c) = length c.
Proof. intros Hb. induction n as [|n IH]; intros lo c; cbn [loopn]; [reflexivity|]. rewrite IH. apply Hb. Qed.


(** [loop_spec] for a whole [for_range]: a region [inreg] is written, cell (x, y) of it by iteration
    [idx x y]; [val] may read cells outside the region and cells of its own iteration *)
Section RangeSpec.
  Variables (S Ht lo hi : Z) (inreg : Z -> Z -> bool) (idx : Z -> Z -> Z).
  Variables (val : Z -> list Z -> Z -> Z -> Z) (body : Z -> list Z -> list Z).
  Hypothesis lo_hi : lo <= hi.
  Hypothesis idx_range : forall x y, 0 <= x < S -> 0 <= y < Ht -> inreg x y = true -> lo <= idx x y < hi.
  Hypothesis body_len : forall v c, length (body v c) = length c.
  Hypothesis body_spec : forall v c x y, lo <= v < hi ->
    length c = Z.to_nat (S * Ht) -> 0 <= x < S -> 0 <= y < Ht ->
    cget S (body v c) x y = if inreg x y && (idx x y =? v) then val v c x y else cget S c x y.
  Hypothesis val_frame : forall c c' x y, 0 <= x < S -> 0 <= y < Ht -> inreg x y = true ->
    (forall x' y', 0 <= x' < S -> 0 <= y' < Ht -> (inreg x' y' = true -> idx x' y' = idx x y) ->
                   cget S c x' y' = cget S c' x' y') ->
    val (idx x y) c x y = val (idx x y) c' x y.

  Lemma for_range_spec c x y : length c = Z.to_nat (S * Ht) -> 0 <= x < S -> 0 <= y < Ht ->
    cget S (for_range lo hi body c) x y = if inreg x y then val (idx x y) c x y else cget S c x y.
  Proof.
    intros Hlen Hx Hy. unfold for_range.
    set (owns := fun v x y => inreg x y && (idx x y =? v)).
    destruct (loop_spec S Ht lo hi owns val body) with (n := Z.to_nat (hi - lo)) (lo := lo) (c := c) (x := x) (y := y)
      as (_ & A & B); try assumption; try lia.
    - unfold owns. intros v v' x1 y1 _ _ [_ H1]%andb_true_iff [_ H2]%andb_true_iff. lia.
    - unfold owns. intros v c1 c2 x1 y1 Hv Hx1 Hy1 [Hr <-%Z.eqb_eq]%andb_true_iff Hsame.
      apply val_frame; try assumption. intros x' y' Hx' Hy' Hin. apply Hsame; try assumption.
      intros u Hu Hne. destruct (inreg x' y'); [|reflexivity]. apply Z.eqb_neq. rewrite Hin; auto.
    - destruct (inreg x y) eqn:E.
      + apply A; [pose proof (idx_range x y Hx Hy E); lia|]. unfold owns. rewrite E, Z.eqb_refl. reflexivity.
      + apply B. intros v _. unfold owns. rewrite E. reflexivity.
  Qed.
End RangeSpec.

Lemma for_range_spec0 S Ht lo hi inreg idx (val : Z -> Z -> Z -> Z) body : lo <= hi ->
  (forall x y, 0 <= x < S -> 0 <= y < Ht -> inreg x y = true -> lo <= idx x y < hi) ->
  (forall v c, length (body v c) = length c) ->
  (forall v c x y, lo <= v < hi -> length c = Z.to_nat (S * Ht) -> 0 <= x < S -> 0 <= y < Ht ->
     cget S (body v c) x y = if inreg x y && (idx x y =? v) then val v x y else cget S c x y) ->
  forall c x y, length c = Z.to_nat (S * Ht) -> 0 <= x < S -> 0 <= y < Ht ->
  cget S (for_range lo hi body c) x y = if inreg x y then val (idx x y) x y else cget S c x y.
Proof. intros H1 H2 H3 H4. apply (for_range_spec S Ht lo hi inreg idx (fun v _ => val v)); auto. Qed.

Lemma row_bounds S Ht y : 0 < S -> 0 <= y < Ht -> 0 <= y * S /\ y * S + S <= S * Ht.
Proof. nia. Qed.

Lemma same_row S y y' x x0 len : 0 <= x < S -> 0 <= x0 -> x0 + len <= S ->
  y * S + x0 <= y' * S + x < y * S + x0 + len <-> y' = y /\ x0 <= x < x0 + len.
Proof.
  intros Hx Hx0 Hl. split; [|intros [-> H]; lia]. intros H.
  assert (y' = y); [|subst; lia]. destruct (Z.lt_trichotomy y' y) as [Hlt|[Heq|Hgt]]; [|exact Heq|]; exfalso.
  - assert (y' * S + S <= y * S) by nia. lia.
  - assert (y * S + S <= y' * S) by nia. lia.
Qed.

Lemma copy_at_cell S Ht c x0 y src x y' :
  length c = Z.to_nat (S * Ht) -> 0 <= x0 -> x0 + Z.of_nat (length src) <= S -> 0 <= y < Ht ->
  0 <= x < S -> 0 <= y' < Ht ->
  cget S (copy_at c (y * S + x0) src) x y' =
    if (y' =? y) && (x0 <=? x) && (x <? x0 + Z.of_nat (length src)) then fget src (x - x0) else cget S c x y'.
Proof.
  intros Hl Hx0 Hx0n Hy Hx Hy'. unfold cget.
  destruct (row_bounds S Ht y ltac:(lia) Hy), (row_bounds S Ht y' ltac:(lia) Hy').
  rewrite copy_at_get by lia. apply if_ext.
  - pose proof (same_row S y y' x x0 (Z.of_nat (length src))). lia.
  - intros E. replace y' with y by lia. f_equal. lia.
Qed.

(** * one block: n rows of n samples, cell origin (x0, y0), i.e. flat offset y0*S + x0 *)
Definition store_block (S n base : Z) (blk : list (list Z)) (c : list Z) : list Z :=
  for_range 0 n (fun j c => copy_at c (base + j * S) (nth (Z.to_nat j) blk [])) c.

Definition blk_ok (n : Z) (blk : list (list Z)) : Prop :=
  Z.of_nat (length blk) = n /\ Forall (fun r => Z.of_nat (length r) = n) blk.

Lemma blk_ok_row n blk j : blk_ok n blk -> 0 <= j < n -> Z.of_nat (length (nth (Z.to_nat j) blk [])) = n.
Proof. intros [H1 H2] Hj. rewrite Forall_forall in H2. apply H2, nth_In. lia. Qed.

Lemma store_block_length S n base blk c : length (store_block S n base blk c) = length c.
Proof. apply loopn_length. intros v c'. apply copy_at_length. Qed.

Lemma store_block_spec S Ht n x0 y0 blk c x y :
  0 < n -> 0 <= x0 -> x0 + n <= S -> 0 <= y0 -> y0 + n <= Ht -> blk_ok n blk ->
  length c = Z.to_nat (S * Ht) -> 0 <= x < S -> 0 <= y < Ht ->
  cget S (store_block S n (y0 * S + x0) blk c) x y =
    if (y0 <=? y) && (y <? y0 + n) && (x0 <=? x) && (x <? x0 + n)
    then fget (nth (Z.to_nat (y - y0)) blk []) (x - x0) else cget S c x y.
Proof.
  intros Hn Hx0 Hx0n Hy0 Hy0n Hb Hlen Hx Hy.
  apply (for_range_spec0 S Ht 0 n (fun x y => (y0 <=? y) && (y <? y0 + n) && (x0 <=? x) && (x <? x0 + n))
           (fun _ y => y - y0) (fun j x _ => fget (nth (Z.to_nat j) blk []) (x - x0))); try assumption; try lia.
  - intros. apply copy_at_length.
  - intros j c1 x1 y1 Hj Hl1 Hx1 Hy1. pose proof (blk_ok_row n blk j Hb Hj) as Hr.
    replace (y0 * S + x0 + j * S) with ((y0 + j) * S + x0) by ring.
    rewrite (copy_at_cell S Ht), Hr by lia.
    apply if_ext; [lia|reflexivity].
Qed.

(** * one macroblock row, then all rows: "yOut := dec.cacheY[mbX*16 + mbY*16*yStride:]",
    yStride = 16*mbW (8 for U, V) *)
Definition dpix : mbpix := mkPix [] [] [].

Definition store_mbrow (n W mby : Z) (sel : mbpix -> list (list Z)) (row : list mbpix) (c : list Z) : list Z :=
  for_range 0 W (fun mbx c =>
    store_block (n * W) n (mbx * n + mby * n * (n * W)) (sel (nth (Z.to_nat mbx) row dpix)) c) c.

Definition store_frame (n W H : Z) (sel : mbpix -> list (list Z)) (rows : list (list mbpix)) (c : list Z) : list Z :=
  for_range 0 H (fun mby c => store_mbrow n W mby sel (nth (Z.to_nat mby) rows []) c) c.

Definition row_ok (n W : Z) (sel : mbpix -> list (list Z)) (row : list mbpix) : Prop :=
  Z.of_nat (length row) = W /\ Forall (fun p => blk_ok n (sel p)) row.

Lemma store_mbrow_length n W mby sel row c : length (store_mbrow n W mby sel row c) = length c.
Proof. apply loopn_length. intros v c'. apply store_block_length. Qed.

Lemma band_div n x k : 0 < n -> k * n <= x < k * n + n <-> x / n = k.
Proof.
  intros Hn. pose proof (Z.div_mod x n ltac:(lia)). pose proof (Z.mod_pos_bound x n Hn).
  split; [intros Hk; symmetry; apply (Z.div_unique x n k (x - k * n)); lia|intros <-; lia].
Qed.

Lemma band_mod n x : 0 < n -> x - x / n * n = x mod n.
Proof. intros Hn. rewrite Z.mod_eq by lia. ring. Qed.

Lemma div_range n x W : 0 < n -> 0 <= x < n * W -> 0 <= x / n < W.
Proof. intros Hn Hx. split; [apply Z.div_pos; lia|apply Z.div_lt_upper_bound; lia]. Qed.

Lemma store_mbrow_spec n W H mby sel row c x y :
  0 < n -> 0 < W -> 0 <= mby < H -> row_ok n W sel row ->
  length c = Z.to_nat (n * W * (n * H)) -> 0 <= x < n * W -> 0 <= y < n * H ->
  cget (n * W) (store_mbrow n W mby sel row c) x y =
    if (mby * n <=? y) && (y <? mby * n + n)
    then fget (nth (Z.to_nat (y - mby * n)) (sel (nth (Z.to_nat (x / n)) row dpix)) []) (x mod n)
    else cget (n * W) c x y.
Proof.
  intros Hn HW Hmby [Hr1 Hr2] Hlen Hx Hy.
  apply (for_range_spec0 (n * W) (n * H) 0 W (fun _ y => (mby * n <=? y) && (y <? mby * n + n)) (fun x _ => x / n)
           (fun mbx x y => fget (nth (Z.to_nat (y - mby * n)) (sel (nth (Z.to_nat mbx) row dpix)) []) (x mod n)));
    try assumption; try lia.
  - intros x1 y1 Hx1 _ _. apply div_range; assumption.
  - intros. apply store_block_length.
  - intros mbx c1 x1 y1 Hv Hl1 Hx1 Hy1.
    replace (mbx * n + mby * n * (n * W)) with (mby * n * (n * W) + mbx * n) by ring.
    rewrite (store_block_spec (n * W) (n * H)) by (try assumption; try nia; rewrite Forall_forall in Hr2; apply Hr2, nth_In; lia).
    pose proof (band_div n x1 mbx Hn). apply if_ext; [lia|].
    intros E. replace mbx with (x1 / n) by lia. rewrite band_mod by exact Hn. reflexivity.
Qed.

Definition grid_ok (n W H : Z) (sel : mbpix -> list (list Z)) (rows : list (list mbpix)) : Prop :=
  Z.of_nat (length rows) = H /\ Forall (row_ok n W sel) rows.

Lemma store_frame_length n W H sel rows c : length (store_frame n W H sel rows c) = length c.
Proof. apply loopn_length. intros v c'. apply store_mbrow_length. Qed.

Theorem store_frame_cell n W H sel rows c x y :
  0 < n -> 0 < W -> 0 < H -> grid_ok n W H sel rows ->
  length c = Z.to_nat (n * W * (n * H)) -> 0 <= x < n * W -> 0 <= y < n * H ->
  cget (n * W) (store_frame n W H sel rows c) x y =
    fget (nth (Z.to_nat (y mod n)) (sel (nth (Z.to_nat (x / n)) (nth (Z.to_nat (y / n)) rows []) dpix)) []) (x mod n).
Proof.
  intros Hn HW HH [Hg1 Hg2] Hlen Hx Hy.
  apply (for_range_spec0 (n * W) (n * H) 0 H (fun _ _ => true) (fun _ y => y / n)
           (fun mby x y => fget (nth (Z.to_nat (y mod n)) (sel (nth (Z.to_nat (x / n)) (nth (Z.to_nat mby) rows []) dpix)) []) (x mod n)));
    try assumption; try lia.
  - intros x1 y1 _ Hy1 _. apply div_range; lia.
  - intros. apply store_mbrow_length.
  - intros mby c1 x1 y1 Hv Hl1 Hx1 Hy1.
    rewrite (store_mbrow_spec n W H) by (try assumption; rewrite Forall_forall in Hg2; apply Hg2, nth_In; lia).
    pose proof (band_div n y1 mby Hn). apply if_ext; [lia|].
    intros E. replace mby with (y1 / n) by lia. rewrite band_mod by exact Hn. reflexivity.
Qed.



Lemma hcat_length a b : length (hcat a b) = Nat.min (length a) (length b).
Proof. unfold hcat. rewrite map_length, combine_length. reflexivity. Qed.

Lemma hcat_nth a b j : length a = length b -> (j < length a)%nat ->
  nth j (hcat a b) [] = nth j a [] ++ nth j b [].
Proof.
  intros Hl Hj. unfold hcat.
  change (@nil Z) with ((fun '(x, y) => x ++ y) (@nil Z, @nil Z)) at 1.
  rewrite map_nth, combine_nth by exact Hl. reflexivity.
Qed.

Lemma hcat_all_length n bs : Forall (blk_ok (Z.of_nat n)) bs -> length (hcat_all n bs) = n.
Proof.
  induction bs as [|b tl IH]; intros H; cbn [hcat_all]; [apply repeat_length|].
  rewrite hcat_length, IH by exact (Forall_inv_tail H). destruct (Forall_inv H) as [Hb _]. lia.
Qed.

Lemma hcat_all_row n : forall bs j, Forall (blk_ok (Z.of_nat n)) bs -> (j < n)%nat ->
  length (nth j (hcat_all n bs) []) = (length bs * n)%nat /\
  forall mbx ix, (mbx < length bs)%nat -> (ix < n)%nat ->
    nth (mbx * n + ix) (nth j (hcat_all n bs) []) 0 = nth ix (nth j (nth mbx bs []) []) 0.
Proof.
  induction bs as [|b tl IH]; intros j H Hj.
  - cbn [hcat_all length]. split; [|intros mbx ix Hm; cbn in Hm; lia].
    rewrite nth_repeat. reflexivity.
  - destruct (Forall_inv H) as [Hb1 Hb2]. pose proof (Forall_inv_tail H) as Ht.
    destruct (IH j Ht Hj) as [L N]. cbn [hcat_all].
    rewrite hcat_nth by (rewrite ?hcat_all_length by exact Ht; lia).
    assert (Hrow : length (nth j b []) = n).
    { rewrite Forall_forall in Hb2. apply Nat2Z.inj, Hb2, nth_In. lia. }
    split; [rewrite app_length, L, Hrow; cbn [length]; lia|].
    intros mbx ix Hm Hi. destruct mbx as [|mbx].
    + cbn [Nat.mul Nat.add nth]. apply app_nth1. lia.
    + cbn [nth]. rewrite app_nth2 by lia. rewrite Hrow.
      replace (S mbx * n + ix - n)%nat with (mbx * n + ix)%nat by lia.
      apply N; [cbn in Hm; lia|exact Hi].
Qed.

Lemma to_nat_cell q n r : 0 <= q -> 0 <= n -> 0 <= r ->
  Z.to_nat (q * n + r) = (Z.to_nat q * Z.to_nat n + Z.to_nat r)%nat.
Proof. intros. rewrite Z2Nat.inj_add, Z2Nat.inj_mul by nia. reflexivity. Qed.

Lemma to_nat_lt_mul y a b : 0 <= a -> 0 <= b -> 0 <= y < a * b -> (Z.to_nat y < Z.to_nat a * Z.to_nat b)%nat.
Proof. intros. rewrite <- Z2Nat.inj_mul by assumption. lia. Qed.

Lemma to_nat_divmod n y : 0 < n -> 0 <= y ->
  Z.to_nat y = (Z.to_nat (y / n) * Z.to_nat n + Z.to_nat (y mod n))%nat /\ (Z.to_nat (y mod n) < Z.to_nat n)%nat.
Proof.
  intros Hn Hy. pose proof (Z.mod_pos_bound y n Hn). pose proof (Z.div_pos y n Hy Hn).
  rewrite <- to_nat_cell by lia. split; [f_equal; rewrite Z.mul_comm; apply Z.div_mod|]; lia.
Qed.

(** the plane is the concatenation over macroblock rows of the [hcat_all] rows: the flat index splits
    twice by [concat_nth_uniform] (through [to_nat_divmod]) and once by [hcat_all_row] *)
Lemma plane_rows_cell n W H sel rows x y :
  0 < n -> 0 < W -> 0 < H -> grid_ok n W H sel rows -> 0 <= x < n * W -> 0 <= y < n * H ->
  length (concat (plane_rows sel (Z.to_nat n) rows)) = Z.to_nat (n * W * (n * H)) /\
  cget (n * W) (concat (plane_rows sel (Z.to_nat n) rows)) x y =
    fget (nth (Z.to_nat (y mod n)) (sel (nth (Z.to_nat (x / n)) (nth (Z.to_nat (y / n)) rows []) dpix)) []) (x mod n).
Proof.
  intros Hn HW HH [Hg1 Hg2] Hx Hy. rewrite Forall_forall in Hg2.
  set (nn := Z.to_nat n). set (Wn := Z.to_nat W).
  set (f := fun r : list mbpix => hcat_all nn (map sel r)).
  assert (Hblk : forall row, In row rows -> Forall (blk_ok (Z.of_nat nn)) (map sel row) /\ length row = Wn).
  { intros row [R1 R2]%Hg2. split; [|lia]. unfold nn. rewrite Z2Nat.id, Forall_map by lia. exact R2. }
  assert (Hf : Forall (fun r => length r = nn) (map f rows)).
  { apply Forall_forall. intros r (row & <- & Hin)%in_map_iff. apply hcat_all_length, Hblk, Hin. }
  assert (Hplane : plane_rows sel nn rows = concat (map f rows)) by apply flat_map_concat_map.
  assert (Hprow : Forall (fun r => length r = (Wn * nn)%nat) (plane_rows sel nn rows)).
  { rewrite Hplane. apply Forall_forall. intros r (l & (row & <- & Hin)%in_map_iff & Hr)%in_concat.
    apply In_nth with (d := []) in Hr as (j & Hj & <-). destruct (Hblk row Hin) as [K1 K2].
    unfold f in *. rewrite hcat_all_length in Hj by exact K1.
    rewrite (proj1 (hcat_all_row nn (map sel row) j K1 Hj)), map_length, K2. reflexivity. }
  assert (Hpl : length (plane_rows sel nn rows) = (Z.to_nat H * nn)%nat).
  { rewrite Hplane, (concat_length_uniform _ nn Hf), map_length. f_equal. lia. }
  split; [rewrite (concat_length_uniform _ _ Hprow), Hpl; unfold nn, Wn; rewrite <- !Z2Nat.inj_mul by nia; f_equal; ring|].
  destruct (to_nat_divmod n y Hn ltac:(lia)) as [Ey By], (to_nat_divmod n x Hn ltac:(lia)) as [Ex Bx].
  pose proof (div_range n y H Hn Hy). pose proof (div_range n x W Hn Hx).
  fold nn in Ey, By, Ex, Bx. unfold cget, fget.
  rewrite to_nat_cell, Z2Nat.inj_mul by lia. fold nn Wn. rewrite (Nat.mul_comm nn Wn).
  rewrite (concat_nth_uniform 0 _ _ _ _ Hprow) by (rewrite ?Hpl; apply to_nat_lt_mul; lia). rewrite Hplane, Ey.
  rewrite (concat_nth_uniform [] _ nn _ _ Hf) by (rewrite ?map_length; lia).
  rewrite (nth_indep _ [] (f [])), map_nth by (rewrite map_length; lia).
  destruct (Hblk (nth (Z.to_nat (y / n)) rows [])) as [K1 K2]; [apply nth_In; lia|]. rewrite Ex.
  rewrite (proj2 (hcat_all_row nn _ _ K1 By)) by (rewrite ?map_length; lia).
  rewrite (nth_indep _ [] (sel dpix)), map_nth by (rewrite map_length; lia). reflexivity.
Qed.

Lemma cells_ext S Ht a b : 0 < S -> length a = Z.to_nat (S * Ht) -> length b = Z.to_nat (S * Ht) ->
  (forall x y, 0 <= x < S -> 0 <= y < Ht -> cget S a x y = cget S b x y) -> a = b.
Proof.
  intros HS La Lb Hc. apply nth_ext with (d := 0) (d' := 0); [congruence|]. intros i Hi.
  pose proof (Z.div_mod (Z.of_nat i) S ltac:(lia)). pose proof (Z.mod_pos_bound (Z.of_nat i) S HS).
  specialize (Hc (Z.of_nat i mod S) (Z.of_nat i / S)). unfold cget, fget in Hc.
  replace (Z.to_nat (Z.of_nat i / S * S + Z.of_nat i mod S)) with i in Hc by lia. apply Hc; [assumption|].
  split; [apply Z.div_pos; lia|apply Z.div_lt_upper_bound; lia].
Qed.

(** after the transfer loops of all macroblocks the flat buffer is the grid model's plane, row after row *)
Theorem store_frame_eq n W H sel rows c :
  0 < n -> 0 < W -> 0 < H -> grid_ok n W H sel rows ->
  length c = Z.to_nat (n * W * (n * H)) ->
  store_frame n W H sel rows c = concat (plane_rows sel (Z.to_nat n) rows).
Proof.
  intros Hn HW HH Hg Hlen. apply (cells_ext (n * W) (n * H)); [nia|rewrite store_frame_length; exact Hlen| |].
  - apply (plane_rows_cell n W H sel rows 0 0); try assumption; nia.
  - intros x y Hx Hy. rewrite store_frame_cell by assumption. symmetry. apply (plane_rows_cell n W H); assumption.
Qed.



Lemma fget_repeat v k i : 0 <= i < Z.of_nat k -> fget (repeat v k) i = v.
Proof. intros H. unfold fget. rewrite (nth_indep _ 0 v) by (rewrite repeat_length; lia). apply nth_repeat. Qed.

(** * the regions of dec.yuvB (generated constants): stride 32, 26 rows; luma block at cell (8, 1)
    with 4 above-right samples, U at (8, 18), V at (24, 18).  [4 <= X0]: the four columns kept left of
    the block; [tr = 4 -> 12 <= n]: the above-right samples are copied beside rows 3, 7, 11. *)
Definition geo_ok (S Ht n tr X0 Y0 : Z) : Prop :=
  4 <= n /\ 4 <= X0 /\ 0 <= tr /\ X0 + n + tr <= S /\ 1 <= Y0 /\ Y0 + n <= Ht /\ (tr = 0 \/ (tr = 4 /\ 12 <= n)).

Lemma yuvb_layout :
  WebpGen.Consts.lossy_BPS = 32 /\ WebpGen.Consts.lossy_YUVSize = 32 * 26 /\
  WebpGen.Consts.lossy_YOff = 1 * 32 + 8 /\ WebpGen.Consts.lossy_UOff = 18 * 32 + 8 /\
  WebpGen.Consts.lossy_VOff = 18 * 32 + 24 /\
  geo_ok 32 26 16 4 8 1 /\ geo_ok 32 26 8 0 8 18 /\ geo_ok 32 26 8 0 24 18.
Proof. unfold geo_ok. repeat (split; [try reflexivity; lia|]). lia. Qed.

(** (buffer, top samples) when macroblock mbx of row mby is about to be prepared; [abv_row k i]: last
    row of macroblock k of the row above, [prev i j]: the macroblock to the left *)
Definition entry_state (S Ht n tr X0 Y0 mbx mby mbW : Z) (tops : list (list Z)) (c : list Z)
  (abv_row prev : Z -> Z -> Z) : Prop :=
  length c = Z.to_nat (S * Ht) /\
  (0 < mbx -> forall i j, 0 <= i < n -> 0 <= j < n -> cget S c (X0 + i) (Y0 + j) = prev i j) /\
  (0 < mbx -> 0 < mby -> forall i, n - 4 <= i < n -> cget S c (X0 + i) (Y0 - 1) = abv_row (mbx - 1) i) /\
  (mby = 0 -> forall i, 0 <= i < n + tr -> cget S c (X0 + i) (Y0 - 1) = 127) /\
  (mbx = 0 -> forall j, 0 <= j < n -> cget S c (X0 - 1) (Y0 + j) = 129) /\
  (mbx = 0 -> cget S c (X0 - 1) (Y0 - 1) = if 0 <? mby then 129 else 127) /\
  (0 < mby -> forall k, mbx <= k < mbW ->
     Z.of_nat (length (nth (Z.to_nat k) tops [])) = n /\
     forall i, 0 <= i < n -> fget (nth (Z.to_nat k) tops []) i = abv_row k i).

(** what the predictors read around the block (row above, left column, corner, above-right samples with
    their copies beside rows 3, 7, 11): the values of Vp8Recon.mk_edges *)
Definition context_cells (S n tr X0 Y0 mbx mby mbW : Z) (is4 : bool) (P : list Z) (abv_row prev : Z -> Z -> Z) : Prop :=
  (forall i, 0 <= i < n -> cget S P (X0 + i) (Y0 - 1) = if 0 <? mby then abv_row mbx i else 127) /\
  (forall j, 0 <= j < n -> cget S P (X0 - 1) (Y0 + j) = if 0 <? mbx then prev (n - 1) j else 129) /\
  cget S P (X0 - 1) (Y0 - 1) = (if 0 <? mby then (if 0 <? mbx then abv_row (mbx - 1) (n - 1) else 129) else 127) /\
  (is4 = true -> forall i r, 0 <= i < tr -> 0 <= r <= 3 ->
     cget S P (X0 + n + i) (Y0 - 1 + 4 * r) =
       if 0 <? mby then (if mbx + 1 <? mbW then abv_row (mbx + 1) i else abv_row mbx (n - 1)) else 127).

(** * the work buffer of reconstructRow (dec.yuvB, stride BPS): n x n samples at cell (X0, Y0), the row
    above at y = Y0-1 (with [tr] more samples to the right for luma), the column to the left at
    x = X0-1 (the code keeps 4 columns) *)
Section WorkBuf.
  Variables (S Ht n tr X0 Y0 : Z).
  (* macroblock (mbx, mby) of a row of mbW; [abv_row], [prev] as in [entry_state] *)
  Variables (mbx mby mbW : Z) (is4 : bool) (tops tops' : list (list Z)) (buf : list Z).
  Variables (abv_row prev : Z -> Z -> Z) (blk : list (list Z)).

  Definition put_cells (c : list Z) (x0 y : Z) (src : list Z) : list Z := copy_at c (y * S + x0) src.
  Definition row_cells (c : list Z) (x0 y : Z) (len : nat) : list Z :=
    map (fun k => cget S c (x0 + Z.of_nat k) y) (seq 0 len).

  Lemma put_cells_length c x0 y src : length (put_cells c x0 y src) = length c.
  Proof. apply copy_at_length. Qed.

  Lemma put_cells_spec c x0 y src x y' :
    length c = Z.to_nat (S * Ht) -> 0 <= x0 -> x0 + Z.of_nat (length src) <= S -> 0 <= y < Ht ->
    0 <= x < S -> 0 <= y' < Ht ->
    cget S (put_cells c x0 y src) x y' =
      if (y' =? y) && (x0 <=? x) && (x <? x0 + Z.of_nat (length src)) then fget src (x - x0) else cget S c x y'.
  Proof. apply copy_at_cell. Qed.

  Lemma row_cells_length c x0 y len : length (row_cells c x0 y len) = len.
  Proof. unfold row_cells. rewrite map_length, seq_length. reflexivity. Qed.

  Lemma nth_row_cells c x0 y len m : (m < len)%nat -> nth m (row_cells c x0 y len) 0 = cget S c (x0 + Z.of_nat m) y.
  Proof.
    intros Hm. exact (nth_map_seq (fun k => cget S c (x0 + Z.of_nat k) y) 0 0 len m Hm).
  Qed.

  Lemma fget_row_cells c x0 y len k : 0 <= k < Z.of_nat len -> fget (row_cells c x0 y len) k = cget S c (x0 + k) y.
  Proof. intros Hk. unfold fget. rewrite nth_row_cells by lia. f_equal. lia. Qed.

  Hypothesis geo : geo_ok S Ht n tr X0 Y0.

  (** "Rotate left samples from the previous block": for j := -1; j < n; j++ { copy(buf[base+j*bps-4 : base+j*bps], buf[base+j*bps+n-4 : base+j*bps+n]) } *)
  Definition rotate (c : list Z) : list Z :=
    for_range (-1) n (fun j c => put_cells c (X0 - 4) (Y0 + j) (row_cells c (X0 + n - 4) (Y0 + j) 4)) c.

  Lemma rotate_length c : length (rotate c) = length c.
  Proof. apply loopn_length. intros. apply put_cells_length. Qed.

  Lemma rotate_spec c x y : length c = Z.to_nat (S * Ht) -> 0 <= x < S -> 0 <= y < Ht ->
    cget S (rotate c) x y =
      if (Y0 - 1 <=? y) && (y <? Y0 + n) && (X0 - 4 <=? x) && (x <? X0) then cget S c (x + n) y else cget S c x y.
  Proof.
    destruct geo as (G1 & G2 & G3 & G4 & G5 & G6 & G7).
    apply (for_range_spec S Ht (-1) n (fun x y => (Y0 - 1 <=? y) && (y <? Y0 + n) && (X0 - 4 <=? x) && (x <? X0))
             (fun _ y => y - Y0) (fun _ c x y => cget S c (x + n) y)); try lia.
    - intros. apply put_cells_length.
    - intros j c1 x1 y1 Hj Hl1 Hx1 Hy1.
      rewrite put_cells_spec, row_cells_length by (rewrite ?row_cells_length; try assumption; lia).
      change (Z.of_nat 4) with 4.
      apply if_ext; [lia|]. intros E. rewrite fget_row_cells by lia. replace (Y0 + j) with y1 by lia. f_equal. lia.
    - intros c1 c2 x1 y1 Hx1 Hy1 E Hsame. apply Hsame; [lia|lia|reflexivity].
  Qed.

  (** start of a row: "for j := 0; j < n; j++ { buf[base+j*bps-1] = 129 }", then the corner
      (129 below the first row) or, on the first row, 127 from the corner to the end of the row above *)
  Definition init_left (c : list Z) : list Z :=
    for_range 0 n (fun j c => put_cells c (X0 - 1) (Y0 + j) [129]) c.
  Definition init_corner (mby : Z) (c : list Z) : list Z :=
    if 0 <? mby then put_cells c (X0 - 1) (Y0 - 1) [129]
    else put_cells c (X0 - 1) (Y0 - 1) (repeat 127 (Z.to_nat (n + tr + 1))).

  Lemma init_left_length c : length (init_left c) = length c.
  Proof. apply loopn_length. intros. apply put_cells_length. Qed.

  Lemma init_corner_length my c : length (init_corner my c) = length c.
  Proof. unfold init_corner. destruct (0 <? my); apply put_cells_length. Qed.

  Lemma init_left_spec c x y : length c = Z.to_nat (S * Ht) -> 0 <= x < S -> 0 <= y < Ht ->
    cget S (init_left c) x y = if (Y0 <=? y) && (y <? Y0 + n) && (x =? X0 - 1) then 129 else cget S c x y.
  Proof.
    destruct geo as (G1 & G2 & G3 & G4 & G5 & G6 & G7).
    apply (for_range_spec0 S Ht 0 n (fun x y => (Y0 <=? y) && (y <? Y0 + n) && (x =? X0 - 1))
             (fun _ y => y - Y0) (fun _ _ _ => 129)); try lia.
    - intros. apply put_cells_length.
    - intros j c1 x1 y1 Hj Hl1 Hx1 Hy1. rewrite put_cells_spec by (cbn [length]; try assumption; lia).
      change (Z.of_nat (length [129])) with 1.
      apply if_ext; [lia|]. intros E. replace (x1 - (X0 - 1)) with 0 by lia. reflexivity.
  Qed.

  Lemma init_corner_spec my c x y : length c = Z.to_nat (S * Ht) -> 0 <= x < S -> 0 <= y < Ht ->
    cget S (init_corner my c) x y =
      if 0 <? my then (if (y =? Y0 - 1) && (x =? X0 - 1) then 129 else cget S c x y)
      else (if (y =? Y0 - 1) && (X0 - 1 <=? x) && (x <? X0 + n + tr) then 127 else cget S c x y).
  Proof.
    intros Hlen Hx Hy. destruct geo as (G1 & G2 & G3 & G4 & G5 & G6 & G7).
    unfold init_corner. destruct (0 <? my).
    - rewrite put_cells_spec by (cbn [length]; try assumption; lia). change (Z.of_nat (length [129])) with 1.
      apply if_ext; [lia|]. intros E. replace (x - (X0 - 1)) with 0 by lia. reflexivity.
    - rewrite put_cells_spec, repeat_length, Z2Nat.id by (rewrite ?repeat_length; try assumption; lia).
      apply if_ext; [lia|]. intros E. apply fget_repeat. lia.
  Qed.

  (** "Replicate top-right below for each sub-block row": for r := 1; r <= 3; r++ { copy(topRight[r*4*bps:...+4], topRight[:4]) } *)
  Definition replicate (c : list Z) : list Z :=
    for_range 1 4 (fun r c => put_cells c (X0 + n) (Y0 - 1 + 4 * r) (row_cells c (X0 + n) (Y0 - 1) 4)) c.

  Lemma replicate_length c : length (replicate c) = length c.
  Proof. apply loopn_length. intros. apply put_cells_length. Qed.

  Lemma replicate_spec c x y : tr = 4 -> length c = Z.to_nat (S * Ht) -> 0 <= x < S -> 0 <= y < Ht ->
    cget S (replicate c) x y =
      if (X0 + n <=? x) && (x <? X0 + n + 4) && (Y0 + 3 <=? y) && (y <=? Y0 + 11) && ((y - Y0 + 1) mod 4 =? 0)
      then cget S c x (Y0 - 1) else cget S c x y.
  Proof.
    intros Htr. destruct geo as (G1 & G2 & G3 & G4 & G5 & G6 & G7).
    apply (for_range_spec S Ht 1 4
             (fun x y => (X0 + n <=? x) && (x <? X0 + n + 4) && (Y0 + 3 <=? y) && (y <=? Y0 + 11) && ((y - Y0 + 1) mod 4 =? 0))
             (fun _ y => (y - Y0 + 1) / 4) (fun _ c x _ => cget S c x (Y0 - 1))); try lia.
    - intros x1 y1 _ _ E. Z.div_mod_to_equations. lia.
    - intros. apply put_cells_length.
    - intros r c1 x1 y1 Hr Hl1 Hx1 Hy1.
      rewrite put_cells_spec, row_cells_length by (rewrite ?row_cells_length; try assumption; lia).
      change (Z.of_nat 4) with 4.
      apply if_ext; [Z.div_mod_to_equations; lia|]. intros E. rewrite fget_row_cells by lia. f_equal. lia.
    - intros c1 c2 x1 y1 Hx1 Hy1 E Hsame. apply Hsame; [lia|lia|lia].
  Qed.

  Hypothesis Hmbx : 0 <= mbx < mbW.
  Hypothesis Hmby : 0 <= mby.

  (** the state after the two start-of-row steps is the entry state of macroblock 0 *)
  Theorem workbuf_row_start : length buf = Z.to_nat (S * Ht) ->
    (0 < mby -> forall k, 0 <= k < mbW ->
       Z.of_nat (length (nth (Z.to_nat k) tops [])) = n /\
       forall i, 0 <= i < n -> fget (nth (Z.to_nat k) tops []) i = abv_row k i) ->
    entry_state S Ht n tr X0 Y0 0 mby mbW tops (init_corner mby (init_left buf)) abv_row prev.
  Proof using geo Hmby.
    intros Hlen0 Ht0. destruct geo as (G1 & G2 & G3 & G4 & G5 & G6 & G7).
    assert (L1 : length (init_left buf) = Z.to_nat (S * Ht)) by (rewrite init_left_length; exact Hlen0).
    split; [rewrite init_corner_length; exact L1|]. split; [intros; lia|]. split; [intros; lia|].
    split; [|split; [|split; [|exact Ht0]]].
    - intros -> i Hi. rewrite init_corner_spec, (if_false (0 <? 0)), if_true by (try assumption; lia). reflexivity.
    - intros _ j Hj. rewrite init_corner_spec, init_left_spec by (try assumption; lia).
      destruct (0 <? mby); rewrite if_false by lia; apply if_true; lia.
    - intros _. rewrite init_corner_spec by (try assumption; lia). destruct (0 <? mby); apply if_true; lia.
  Qed.

  (** reconstructRow before predicting macroblock (mbx, mby): rotate (mbx > 0), "copy(buf[base-bps:],
      topYUV.Y[:])" (mby > 0), and for 4x4-predicted luma the above-right samples (next macroblock's top
      samples, or the last one repeated on the right-most macroblock) with their copies beside rows 3, 7, 11 *)
  Definition prep (mbx mby mbW : Z) (is4 : bool) (tops : list (list Z)) (c : list Z) : list Z :=
    let c1 := if 0 <? mbx then rotate c else c in
    let c2 := if 0 <? mby then put_cells c1 X0 (Y0 - 1) (nth (Z.to_nat mbx) tops []) else c1 in
    if is4 && (0 <? tr) then
      replicate (if 0 <? mby
                 then put_cells c2 (X0 + n) (Y0 - 1)
                        (if mbW - 1 <=? mbx then repeat (fget (nth (Z.to_nat mbx) tops []) (n - 1)) 4
                         else firstn 4 (nth (Z.to_nat (mbx + 1)) tops []))
                 else c2)
    else c2.

  Hypothesis Hentry : entry_state S Ht n tr X0 Y0 mbx mby mbW tops buf abv_row prev.

    (* the buffer after each step of [prep] *)
    Let c1 := if 0 <? mbx then rotate buf else buf.
    Let c2 := if 0 <? mby then put_cells c1 X0 (Y0 - 1) (nth (Z.to_nat mbx) tops []) else c1.
    Let c3 := if 0 <? mby
              then put_cells c2 (X0 + n) (Y0 - 1)
                     (if mbW - 1 <=? mbx then repeat (fget (nth (Z.to_nat mbx) tops []) (n - 1)) 4
                      else firstn 4 (nth (Z.to_nat (mbx + 1)) tops []))
              else c2.

    Lemma prep_c1_length : length c1 = length buf.
    Proof. unfold c1. case (0 <? mbx); [apply rotate_length|reflexivity]. Qed.

    Lemma prep_c2_length : length c2 = length buf.
    Proof. unfold c2. case (0 <? mby); [rewrite put_cells_length|]; apply prep_c1_length. Qed.

    Lemma prep_c3_length : length c3 = length buf.
    Proof. unfold c3. case (0 <? mby); [rewrite put_cells_length|]; apply prep_c2_length. Qed.

    Lemma prep_length : length (prep mbx mby mbW is4 tops buf) = length buf.
    Proof.
      change (length (if is4 && (0 <? tr) then replicate c3 else c2) = length buf).
      case (is4 && (0 <? tr)); [rewrite replicate_length; apply prep_c3_length|apply prep_c2_length].
    Qed.

    Lemma prep_c1_spec x y : 0 <= x < S -> 0 <= y < Ht ->
      cget S c1 x y = if (0 <? mbx) && ((Y0 - 1 <=? y) && (y <? Y0 + n) && (X0 - 4 <=? x) && (x <? X0))
                      then cget S buf (x + n) y else cget S buf x y.
    Proof. intros Hx Hy. unfold c1. case (0 <? mbx); [apply rotate_spec; try assumption; apply Hentry|reflexivity]. Qed.

    Lemma prep_c2_spec x y : 0 <= x < S -> 0 <= y < Ht ->
      cget S c2 x y = if (0 <? mby) && ((y =? Y0 - 1) && (X0 <=? x) && (x <? X0 + n))
                      then abv_row mbx (x - X0) else cget S c1 x y.
    Proof.
      intros Hx Hy. destruct geo as (G1 & G2 & G3 & G4 & G5 & G6 & G7). destruct Hentry as (Hlen & Hprev & Hptop & Htop0 & Hleft0 & Hcorner0 & Htops). unfold c2.
      case (Z.ltb_spec 0 mby); intros Hy0; [|reflexivity].
      destruct (Htops Hy0 mbx ltac:(lia)) as [T1 T2].
      rewrite put_cells_spec, T1 by (rewrite ?T1, ?prep_c1_length; try assumption; lia).
      apply if_ext; [lia|]. intros E. apply T2. lia.
    Qed.

    Lemma prep_c3_spec x y : tr = 4 -> 0 <= x < S -> 0 <= y < Ht ->
      cget S c3 x y = if (0 <? mby) && ((y =? Y0 - 1) && (X0 + n <=? x) && (x <? X0 + n + 4))
                      then (if mbx + 1 <? mbW then abv_row (mbx + 1) (x - (X0 + n)) else abv_row mbx (n - 1))
                      else cget S c2 x y.
    Proof.
      intros Htr Hx Hy. destruct geo as (G1 & G2 & G3 & G4 & G5 & G6 & G7). destruct Hentry as (Hlen & Hprev & Hptop & Htop0 & Hleft0 & Hcorner0 & Htops).
      pose proof prep_c2_length as L2. unfold c3.
      case (Z.ltb_spec 0 mby); intros Hy0; [|reflexivity].
      destruct (Htops Hy0 mbx ltac:(lia)) as [_ T]. case (Z.leb_spec (mbW - 1) mbx); intros Hl.
      - rewrite put_cells_spec, repeat_length by (rewrite ?repeat_length, ?L2; try assumption; lia).
        change (Z.of_nat 4) with 4. apply if_ext; [lia|]. intros E.
        rewrite fget_repeat, if_false by lia. apply T. lia.
      - destruct (Htops Hy0 (mbx + 1) ltac:(lia)) as [T1 T2].
        assert (L : Z.of_nat (length (firstn 4 (nth (Z.to_nat (mbx + 1)) tops []))) = 4) by (rewrite firstn_length; lia).
        rewrite put_cells_spec, L by (rewrite ?L, ?L2; try assumption; lia).
        apply if_ext; [lia|]. intros E. unfold fget. rewrite nth_firstn_lt, if_true by lia. apply T2. lia.
    Qed.

    Lemma prep_c1_right x y : X0 <= x < S -> 0 <= y < Ht -> cget S c1 x y = cget S buf x y.
    Proof. intros Hx Hy. destruct geo as (G1 & G2 & _). rewrite prep_c1_spec by lia. apply if_false. lia. Qed.

    Lemma prep_low x y : 0 <= x < X0 + n -> 0 <= y < Ht ->
      cget S (prep mbx mby mbW is4 tops buf) x y = cget S c2 x y.
    Proof.
      intros Hx Hy. destruct geo as (G1 & G2 & G3 & G4 & G5 & G6 & G7). destruct Hentry as (Hlen & _).
      change (cget S (if is4 && (0 <? tr) then replicate c3 else c2) x y = cget S c2 x y).
      destruct (is4 && (0 <? tr)) eqn:E4; [|reflexivity].
      rewrite replicate_spec, if_false, prep_c3_spec, if_false by (rewrite ?prep_c3_length; try assumption; lia). reflexivity.
    Qed.

    Lemma prep_right i r : is4 = true -> 0 <= i < tr -> 0 <= r <= 3 ->
      cget S (prep mbx mby mbW is4 tops buf) (X0 + n + i) (Y0 - 1 + 4 * r) =
        if 0 <? mby then (if mbx + 1 <? mbW then abv_row (mbx + 1) i else abv_row mbx (n - 1)) else 127.
    Proof.
      intros -> Hi Hr. destruct geo as (G1 & G2 & G3 & G4 & G5 & G6 & G7). destruct Hentry as (Hlen & Hprev & Hptop & Htop0 & Hleft0 & Hcorner0 & Htops).
      change (cget S (if true && (0 <? tr) then replicate c3 else c2) (X0 + n + i) (Y0 - 1 + 4 * r) =
              if 0 <? mby then (if mbx + 1 <? mbW then abv_row (mbx + 1) i else abv_row mbx (n - 1)) else 127).
      rewrite (if_true (true && (0 <? tr))), replicate_spec by (rewrite ?prep_c3_length; try assumption; lia).
      assert (E3 : cget S c3 (X0 + n + i) (Y0 - 1) =
                   if 0 <? mby then (if mbx + 1 <? mbW then abv_row (mbx + 1) i else abv_row mbx (n - 1)) else 127).
      { rewrite prep_c3_spec by lia. case (Z.ltb_spec 0 mby); intros Hy0.
        - rewrite if_true by lia. replace (X0 + n + i - (X0 + n)) with i by lia. reflexivity.
        - cbn [andb]. rewrite prep_c2_spec, if_false, prep_c1_right by lia.
          replace (X0 + n + i) with (X0 + (n + i)) by lia. apply Htop0; lia. }
      replace (Y0 - 1 + 4 * r - Y0 + 1) with (r * 4) by lia. rewrite Z.mod_mul by lia.
      destruct (Z.eq_dec r 0) as [->|Hr0]; [rewrite if_false by lia|rewrite if_true by lia; exact E3].
      replace (Y0 - 1 + 4 * 0) with (Y0 - 1) by lia. exact E3.
    Qed.

    (** the cells the predictors read hold what the grid model's border rules (Vp8Recon.mk_edges) say *)
    Theorem workbuf_prep_edges :
      let P := prep mbx mby mbW is4 tops buf in
      length P = length buf /\ context_cells S n tr X0 Y0 mbx mby mbW is4 P abv_row prev.
    Proof using geo Hmbx Hmby Hentry.
      cbv zeta. destruct geo as (G1 & G2 & G3 & G4 & G5 & G6 & G7). destruct Hentry as (Hlen & Hprev & Hptop & Htop0 & Hleft0 & Hcorner0 & Htops).
      split; [apply prep_length|]. split; [|split; [|split]].
      - intros i Hi. rewrite prep_low, prep_c2_spec by lia. case (Z.ltb_spec 0 mby); intros Hy0.
        + rewrite if_true by lia. f_equal. lia.
        + cbn [andb]. rewrite prep_c1_right by lia. apply Htop0; lia.
      - intros j Hj. rewrite prep_low, prep_c2_spec, if_false, prep_c1_spec by lia.
        case (Z.ltb_spec 0 mbx); intros Hx0.
        + rewrite if_true by lia. replace (X0 - 1 + n) with (X0 + (n - 1)) by lia. apply Hprev; lia.
        + apply Hleft0; lia.
      - rewrite prep_low, prep_c2_spec, if_false, prep_c1_spec by lia.
        case (Z.ltb_spec 0 mbx); intros Hx0; [|rewrite Hcorner0 by lia; destruct (0 <? mby); reflexivity].
        rewrite if_true by lia. replace (X0 - 1 + n) with (X0 + (n - 1)) by lia.
        case (Z.ltb_spec 0 mby); intros Hy0; [apply Hptop|apply Htop0]; lia.
      - intros H4 i r. apply prep_right. exact H4.
    Qed.

    Lemma prep_row0 : mby = 0 -> forall i, 0 <= i < n + tr ->
      cget S (prep mbx mby mbW is4 tops buf) (X0 + i) (Y0 - 1) = 127.
    Proof.
      intros Hy0 i Hi. destruct geo as (G1 & G2 & G3 & G4 & G5 & G6 & G7). destruct Hentry as (Hlen & Hprev & Hptop & Htop0 & Hleft0 & Hcorner0 & Htops).
      assert (E2 : cget S c2 (X0 + i) (Y0 - 1) = 127).
      { rewrite prep_c2_spec, if_false, prep_c1_right by lia. apply Htop0; lia. }
      change (cget S (if is4 && (0 <? tr) then replicate c3 else c2) (X0 + i) (Y0 - 1) = 127).
      destruct (is4 && (0 <? tr)) eqn:E4; [|exact E2].
      rewrite replicate_spec, if_false, prep_c3_spec, if_false by (rewrite ?prep_c3_length; try assumption; lia). exact E2.
    Qed.

    (** storing the reconstructed block and stashing its last row in the top samples gives the entry
        state of the next macroblock *)
    Theorem workbuf_next_entry :
      blk_ok n blk ->
      (forall k, mbx < k -> nth (Z.to_nat k) tops' [] = nth (Z.to_nat k) tops []) ->
      entry_state S Ht n tr X0 Y0 (mbx + 1) mby mbW tops'
        (store_block S n (Y0 * S + X0) blk (prep mbx mby mbW is4 tops buf))
        abv_row (fun i j => fget (nth (Z.to_nat j) blk []) i).
    Proof using geo Hmbx Hmby Hentry.
      intros Hb Htp. destruct geo as (G1 & G2 & G3 & G4 & G5 & G6 & G7).
      destruct workbuf_prep_edges as (LP & C1 & _). destruct Hentry as (Hlen & Hprev & Hptop & Htop0 & Hleft0 & Hcorner0 & Htops).
      assert (LPc : length (prep mbx mby mbW is4 tops buf) = Z.to_nat (S * Ht)) by (rewrite LP; exact Hlen).
      split; [rewrite store_block_length; exact LPc|]. split; [|split; [|split; [|split; [|split]]]]; try (intros; lia).
      - intros _ i j Hi Hj. rewrite (store_block_spec S Ht), if_true by (try assumption; lia).
        f_equal; [f_equal|]; lia.
      - intros _ Hy0 i Hi. rewrite (store_block_spec S Ht), if_false, C1, if_true by (try assumption; lia).
        f_equal. lia.
      - intros Hy0 i Hi. rewrite (store_block_spec S Ht), if_false by (try assumption; lia).
        apply prep_row0; assumption.
      - intros Hy0 k Hk. rewrite Htp by lia. apply Htops; [exact Hy0|lia].
    Qed.
End WorkBuf.

Lemma last_row_get n p : blk_ok n p -> last_row p = nth (Z.to_nat (n - 1)) p [].
Proof. intros [H _]. unfold last_row. rewrite last_nth. f_equal. lia. Qed.

Lemma fget_last n p j : blk_ok n p -> 0 <= j < n -> last (nth (Z.to_nat j) p []) 0 = fget (nth (Z.to_nat j) p []) (n - 1).
Proof. intros Hp Hj. rewrite last_nth. unfold fget. f_equal. pose proof (blk_ok_row n p j Hp Hj). lia. Qed.

Lemma last_col_get n p j : blk_ok n p -> 0 <= j < n -> fget (last_col p) j = fget (nth (Z.to_nat j) p []) (n - 1).
Proof.
  intros Hp Hj. rewrite <- (fget_last n p j Hp Hj). unfold fget at 1, last_col.
  rewrite (nth_indep _ 0 (last [] 0)), (map_nth (fun r => last r 0)) by (rewrite map_length; destruct Hp; lia). reflexivity.
Qed.

(** * Vp8Recon.mk_edges cell by cell: the right-hand sides of [workbuf_prep_edges] with abv_row k i =
    sample i of row 15 of macroblock k above, prev i j = sample (i, j) of the macroblock to the left *)
Theorem mk_edges_y_cells (above left al ar : option mbpix) :
  (forall p, In (Some p) [above; left; al; ar] -> blk_ok 16 (px_y p)) ->
  let e := mk_edges above left al ar in
  (forall i, 0 <= i < 16 ->
     fget (e_above_y e) i = match above with Some p => fget (nth 15 (px_y p) []) i | None => 127 end) /\
  (forall j, 0 <= j < 16 ->
     fget (e_left_y e) j = match left with Some p => fget (nth (Z.to_nat j) (px_y p) []) 15 | None => 129 end) /\
  e_corner_y e = match above with
                 | None => 127
                 | Some _ => match al with Some p => fget (nth 15 (px_y p) []) 15 | None => 129 end
                 end /\
  (forall i, 0 <= i < 4 ->
     fget (e_ar e) i = match above with
                       | None => 127
                       | Some p => match ar with
                                   | Some q => fget (nth 15 (px_y q) []) i
                                   | None => fget (nth 15 (px_y p) []) 15
                                   end
                       end).
Proof.
  intros Hok. cbv zeta. unfold mk_edges. cbn [e_above_y e_left_y e_corner_y e_ar].
  assert (Hlr : forall p, In (Some p) [above; left; al; ar] ->
            last_row (px_y p) = nth 15 (px_y p) [] /\ last (nth 15 (px_y p) []) 0 = fget (nth 15 (px_y p) []) 15).
  { intros p Hp%Hok. split; [apply (last_row_get 16 _ Hp)|apply (fget_last 16 _ 15 Hp); lia]. }
  split; [|split; [|split]].
  - intros i Hi. destruct above as [p|]; [|apply fget_repeat; lia]. rewrite (proj1 (Hlr p ltac:(cbn; auto))). reflexivity.
  - intros j Hj. destruct left as [p|]; [|apply fget_repeat; lia]. apply (last_col_get 16); [apply Hok; cbn; auto|exact Hj].
  - destruct above as [p|]; [|reflexivity]. destruct al as [q|]; [|reflexivity].
    destruct (Hlr q ltac:(cbn; auto)) as [-> ->]. reflexivity.
  - intros i Hi. destruct above as [p|]; [|apply fget_repeat; lia]. destruct ar as [q|].
    + rewrite (proj1 (Hlr q ltac:(cbn; auto))). unfold fget. apply nth_firstn_lt. lia.
    + destruct (Hlr p ltac:(cbn; auto)) as [-> ->]. apply fget_repeat. lia.
Qed.

(** * doFilter's passes over the output cache; [f] is the grid model's 8-sample edge function
    (Vp8Filter.apply_win) *)
Section Window.
  Variable f : list Z -> list Z.
  Hypothesis f_len : forall l, length l = 8%nat -> length (f l) = 8%nat.

  Lemma apply_win_length off (row : list Z) : (off + 8 <= length row)%nat -> length (apply_win f off row) = length row.
  Proof.
    intros H. unfold apply_win. rewrite !app_length, firstn_length, skipn_length, f_len by (rewrite firstn_length, skipn_length; lia). lia.
  Qed.

  Lemma nth_apply_win off (row : list Z) i : (off + 8 <= length row)%nat -> (i < length row)%nat ->
    nth i (apply_win f off row) 0 =
    if ((off <=? i) && (i <? off + 8))%nat then nth (i - off) (f (firstn 8 (skipn off row))) 0 else nth i row 0.
  Proof.
    intros H Hi. unfold apply_win.
    assert (L8 : length (f (firstn 8 (skipn off row))) = 8%nat).
    { apply f_len. rewrite firstn_length, skipn_length. lia. }
    destruct (Nat.leb_spec off i) as [H1|H1]; cbn [andb].
    - rewrite app_nth2 by (rewrite firstn_length; lia). rewrite firstn_length, Nat.min_l by lia.
      destruct (Nat.ltb_spec i (off + 8)) as [H2|H2].
      + apply app_nth1. lia.
      + rewrite app_nth2 by lia. rewrite L8, nth_skipn_add. f_equal. lia.
    - rewrite app_nth1 by (rewrite firstn_length; lia). apply nth_firstn_lt. lia.
  Qed.

  (** a line of [len] cells, [g] before a pass and [g'] after it, whose window at [off] went through [f] *)
  Lemma apply_win_line (g g' : nat -> Z) off len : (off + 8 <= len)%nat ->
    (forall m, (m < len)%nat ->
       g' m = if ((off <=? m) && (m <? off + 8))%nat then nth (m - off) (f (map g (seq off 8))) 0 else g m) ->
    map g' (seq 0 len) = apply_win f off (map g (seq 0 len)).
  Proof.
    intros Hoff Hg.
    assert (Ewin : firstn 8 (skipn off (map g (seq 0 len))) = map g (seq off 8)).
    { apply nth_ext with (d := 0) (d' := 0); [rewrite firstn_length, skipn_length, !map_length, !seq_length; lia|].
      intros k Hk. rewrite firstn_length, skipn_length, map_length, seq_length in Hk.
      rewrite nth_firstn_lt, nth_skipn_add, !nth_map_seq by lia. reflexivity. }
    apply nth_ext with (d := 0) (d' := 0); [rewrite apply_win_length; rewrite !map_length, !seq_length; lia|].
    intros m Hm. rewrite map_length, seq_length in Hm.
    rewrite nth_apply_win, Ewin, !nth_map_seq by (rewrite ?map_length, ?seq_length; lia). apply Hg, Hm.
  Qed.
End Window.

(** horizontal passes: "for j := 0; j < n; j++ { off := base + j*bps; ... p[off-4] .. p[off+3] ... }" with
    base = mbY*n*stride + mbX*n (macroblock edge) or base + 4k (inner edges) *)
Section FilterPass.
  Variables (S Ht : Z) (f : list Z -> list Z).
  Hypothesis f_len : forall l, length l = 8%nat -> length (f l) = 8%nat.

  Definition hpass (xe y0 n : Z) (c : list Z) : list Z :=
    for_range 0 n (fun j c => put_cells S c (xe - 4) (y0 + j) (f (row_cells S c (xe - 4) (y0 + j) 8))) c.

  Lemma hpass_length xe y0 n c : length (hpass xe y0 n c) = length c.
  Proof. apply loopn_length. intros. apply put_cells_length. Qed.

  Lemma hpass_spec xe y0 n c x y : 4 <= xe -> xe + 4 <= S -> 0 <= y0 -> y0 + n <= Ht -> 0 <= n ->
    length c = Z.to_nat (S * Ht) -> 0 <= x < S -> 0 <= y < Ht ->
    cget S (hpass xe y0 n c) x y =
      if (y0 <=? y) && (y <? y0 + n) && (xe - 4 <=? x) && (x <? xe + 4)
      then fget (f (row_cells S c (xe - 4) y 8)) (x - (xe - 4)) else cget S c x y.
  Proof.
    intros Hxe Hxe2 Hy0 Hy0n Hn.
    apply (for_range_spec S Ht 0 n (fun x y => (y0 <=? y) && (y <? y0 + n) && (xe - 4 <=? x) && (x <? xe + 4))
             (fun _ y => y - y0) (fun _ c x y => fget (f (row_cells S c (xe - 4) y 8)) (x - (xe - 4)))); try lia.
    - intros. apply put_cells_length.
    - intros j c1 x1 y1 Hj Hl1 Hx1 Hy1.
      rewrite (put_cells_spec S Ht), f_len by (rewrite ?f_len; try apply row_cells_length; try assumption; lia).
      change (Z.of_nat 8) with 8. apply if_ext; [lia|]. intros E. replace (y0 + j) with y1 by lia. reflexivity.
    - intros c1 c2 x1 y1 Hx1 Hy1 E Hsame. do 2 f_equal. unfold row_cells. apply map_ext_in. intros k Hk%in_seq.
      apply Hsame; [lia|lia|reflexivity].
  Qed.

  (** any segment of a row of the band that contains the window is rewritten by apply_win at the
      window's position (edge_h: left block ++ current block, position n-4; inner_h: current block,
      positions 0, 4, 8) *)
  Theorem hpass_row xe y0 n c j xs len :
    4 <= xe -> xe + 4 <= S -> 0 <= y0 -> y0 + n <= Ht -> length c = Z.to_nat (S * Ht) ->
    0 <= j < n -> 0 <= xs -> xs <= xe - 4 -> xe + 4 <= xs + Z.of_nat len -> xs + Z.of_nat len <= S ->
    row_cells S (hpass xe y0 n c) xs (y0 + j) len =
    apply_win f (Z.to_nat (xe - 4 - xs)) (row_cells S c xs (y0 + j) len).
  Proof.
    intros Hxe Hxe2 Hy0 Hy0n Hlen Hj Hxs Hxs2 Hxl HxS. apply (apply_win_line f f_len); [lia|]. intros m Hm.
    rewrite hpass_spec by (try assumption; lia).
    apply if_ext; [rewrite !andb_true_iff, Nat.leb_le, Nat.ltb_lt; lia|]. intros E.
    unfold fget. f_equal; [lia|]. f_equal. unfold row_cells. rewrite (map_seq_shift 8 (Z.to_nat (xe - 4 - xs))).
    apply map_ext. intros k. f_equal. lia.
  Qed.
End FilterPass.

Section FilterGrid.
  Variables (S Ht : Z) (f : list Z -> list Z).
  Hypothesis f_len : forall l, length l = 8%nat -> length (f l) = 8%nat.

  (** the n x n block of the buffer at cell (x0, y0), as the grid model's list of rows *)
  Definition block_at (c : list Z) (x0 y0 : Z) (n : nat) : list (list Z) :=
    map (fun j => row_cells S c x0 (y0 + Z.of_nat j) n) (seq 0 n).

  Lemma row_cells_app c x0 y a b :
    row_cells S c x0 y (a + b) = row_cells S c x0 y a ++ row_cells S c (x0 + Z.of_nat a) y b.
  Proof.
    unfold row_cells. rewrite seq_app, map_app. f_equal. cbn [Nat.add]. rewrite map_seq_shift.
    apply map_ext. intros k. f_equal. lia.
  Qed.

  Lemma combine_map_same {A B C} (g : A -> B) (h : A -> C) : forall l, combine (map g l) (map h l) = map (fun x => (g x, h x)) l.
  Proof. induction l as [|x l IH]; [reflexivity|]. cbn [map combine]. f_equal. exact IH. Qed.

  (** macroblock edge: filterLoop26At / simpleHFilter16At at base = mbY*n*stride + mbX*n *)
  Theorem hpass_edge_h x0 y0 (n : nat) c :
    (4 <= n)%nat -> Z.of_nat n <= x0 -> x0 + Z.of_nat n <= S -> 0 <= y0 -> y0 + Z.of_nat n <= Ht ->
    length c = Z.to_nat (S * Ht) ->
    let c' := hpass S f x0 y0 (Z.of_nat n) c in
    (block_at c' (x0 - Z.of_nat n) y0 n, block_at c' x0 y0 n) =
    edge_h n f (block_at c (x0 - Z.of_nat n) y0 n) (block_at c x0 y0 n).
  Proof.
    intros Hn Hx0 Hx0n Hy0 Hy0n Hlen. cbv zeta. unfold edge_h, block_at.
    rewrite combine_map_same, !map_map.
    assert (Hrow : forall j, In j (seq 0 n) ->
              row_cells S (hpass S f x0 y0 (Z.of_nat n) c) (x0 - Z.of_nat n) (y0 + Z.of_nat j) n ++
              row_cells S (hpass S f x0 y0 (Z.of_nat n) c) x0 (y0 + Z.of_nat j) n =
              apply_win f (n - 4) (row_cells S c (x0 - Z.of_nat n) (y0 + Z.of_nat j) n ++ row_cells S c x0 (y0 + Z.of_nat j) n)).
    { intros j Hj%in_seq.
      pose proof (hpass_row S Ht f f_len x0 y0 (Z.of_nat n) c (Z.of_nat j) (x0 - Z.of_nat n) (n + n)
                    ltac:(lia) ltac:(lia) Hy0 Hy0n Hlen ltac:(lia) ltac:(lia) ltac:(lia) ltac:(lia) ltac:(lia)) as E.
      rewrite !row_cells_app in E. replace (x0 - Z.of_nat n + Z.of_nat n) with x0 in E by lia.
      replace (Z.to_nat (x0 - 4 - (x0 - Z.of_nat n))) with (n - 4)%nat in E by lia. exact E. }
    f_equal; apply map_ext_in; intros j Hj; rewrite <- (Hrow j Hj).
    - rewrite firstn_app, row_cells_length, Nat.sub_diag, firstn_all2 by (rewrite row_cells_length; lia).
      cbn [firstn]. rewrite app_nil_r. reflexivity.
    - rewrite skipn_app, row_cells_length, Nat.sub_diag, skipn_all2 by (rewrite row_cells_length; lia). reflexivity.
  Qed.

  (** inner edges: hFilter16iAt / hFilter8iAt / simpleHFilter16iAt: "for k := 1; k <= 3; k++ {
      filterLoop24HAt(p, base+k*4, ...) }" (chroma: one window at 0) *)
  Definition hpasses (x0 y0 : Z) (n : nat) (offs : list nat) (c : list Z) : list Z :=
    fold_left (fun c o => hpass S f (x0 + Z.of_nat o + 4) y0 (Z.of_nat n) c) offs c.

  Theorem hpasses_inner_h x0 y0 (n : nat) : 0 <= x0 -> x0 + Z.of_nat n <= S -> 0 <= y0 -> y0 + Z.of_nat n <= Ht ->
    forall offs c, Forall (fun o => (o + 8 <= n)%nat) offs -> length c = Z.to_nat (S * Ht) ->
    block_at (hpasses x0 y0 n offs c) x0 y0 n = inner_h f offs (block_at c x0 y0 n).
  Proof.
    intros Hx0 Hx0n Hy0 Hy0n. induction offs as [|o tl IH]; intros c Ho Hlen.
    - unfold inner_h. cbn [hpasses fold_left apply_wins]. rewrite map_id. reflexivity.
    - pose proof (Forall_inv Ho) as Ho1. cbv beta in Ho1.
      cbn [hpasses fold_left]. fold (hpasses x0 y0 n tl (hpass S f (x0 + Z.of_nat o + 4) y0 (Z.of_nat n) c)).
      rewrite (IH _ (Forall_inv_tail Ho)) by (rewrite hpass_length; exact Hlen). unfold inner_h, block_at. rewrite !map_map.
      apply map_ext_in. intros j Hj%in_seq. cbn [apply_wins]. f_equal.
      rewrite (hpass_row S Ht f f_len) by (try assumption; lia). f_equal. lia.
  Qed.
End FilterGrid.

(** * doFilter's vertical passes: "for i := 0; i < width; i++ { off := base + i; ... p[off-4*bps] .. p[off+3*bps] ... }" *)
Section FilterPassV.
  Variables (S Ht : Z) (f : list Z -> list Z).
  Hypothesis f_len : forall l, length l = 8%nat -> length (f l) = 8%nat.

  Definition col_cells (c : list Z) (x y0 : Z) (len : nat) : list Z :=
    map (fun k => cget S c x (y0 + Z.of_nat k)) (seq 0 len).

  Lemma col_cells_length c x y0 len : length (col_cells c x y0 len) = len.
  Proof. unfold col_cells. rewrite map_length, seq_length. reflexivity. Qed.

  (** the samples of one column written back one by one (the code computes all new values from
      the samples read before it stores any) *)
  Fixpoint put_col (c : list Z) (x y : Z) (vals : list Z) : list Z :=
    match vals with
    | [] => c
    | v :: tl => put_col (put_cells S c x y [v]) x (y + 1) tl
    end.

  Lemma put_col_length : forall vals c x y, length (put_col c x y vals) = length c.
  Proof. induction vals as [|v tl IH]; intros c x y; cbn [put_col]; [reflexivity|]. rewrite IH. apply put_cells_length. Qed.

  Lemma put_col_spec : forall vals c x y x' y',
    length c = Z.to_nat (S * Ht) -> 0 <= x < S -> 0 <= y -> y + Z.of_nat (length vals) <= Ht ->
    0 <= x' < S -> 0 <= y' < Ht ->
    cget S (put_col c x y vals) x' y' =
      if (x' =? x) && (y <=? y') && (y' <? y + Z.of_nat (length vals)) then fget vals (y' - y) else cget S c x' y'.
  Proof.
    induction vals as [|v tl IH]; intros c x y x' y' Hlen Hx Hy Hyl Hx' Hy'; cbn [put_col].
    - symmetry. apply if_false. change (Z.of_nat (length [])) with 0. lia.
    - cbn [length] in *. rewrite Nat2Z.inj_succ in *. unfold Z.succ in *. pose proof (Zle_0_nat (length tl)) as Hl.
      rewrite IH, (put_cells_spec S Ht) by (rewrite ?put_cells_length; cbn [length]; try assumption; lia).
      change (Z.of_nat (length [v])) with 1. destruct (Z.eq_dec y' y) as [->|Hne].
      + rewrite if_false by lia. apply if_ext; [lia|]. intros E.
        replace (x' - x) with 0 by lia. rewrite Z.sub_diag. reflexivity.
      + rewrite (if_false ((y' =? y) && _ && _)) by lia. apply if_ext; [lia|]. intros E. unfold fget.
        replace (Z.to_nat (y' - y)) with (Datatypes.S (Z.to_nat (y' - (y + 1)))) by lia. reflexivity.
  Qed.

  Definition vpass (x0 ye n : Z) (c : list Z) : list Z :=
    for_range 0 n (fun i c => put_col c (x0 + i) (ye - 4) (f (col_cells c (x0 + i) (ye - 4) 8))) c.

  Lemma vpass_length x0 ye n c : length (vpass x0 ye n c) = length c.
  Proof. apply loopn_length. intros. apply put_col_length. Qed.

  Lemma vpass_spec x0 ye n c x y : 0 <= x0 -> x0 + n <= S -> 4 <= ye -> ye + 4 <= Ht -> 0 <= n ->
    length c = Z.to_nat (S * Ht) -> 0 <= x < S -> 0 <= y < Ht ->
    cget S (vpass x0 ye n c) x y =
      if (x0 <=? x) && (x <? x0 + n) && (ye - 4 <=? y) && (y <? ye + 4)
      then fget (f (col_cells c x (ye - 4) 8)) (y - (ye - 4)) else cget S c x y.
  Proof.
    intros Hx0 Hx0n Hye Hye2 Hn.
    apply (for_range_spec S Ht 0 n (fun x y => (x0 <=? x) && (x <? x0 + n) && (ye - 4 <=? y) && (y <? ye + 4))
             (fun x _ => x - x0) (fun _ c x y => fget (f (col_cells c x (ye - 4) 8)) (y - (ye - 4)))); try lia.
    - intros. apply put_col_length.
    - intros i c1 x1 y1 Hi Hl1 Hx1 Hy1.
      rewrite put_col_spec, f_len by (rewrite ?f_len; try apply col_cells_length; try assumption; lia).
      change (Z.of_nat 8) with 8. apply if_ext; [lia|]. intros E. replace (x0 + i) with x1 by lia. reflexivity.
    - intros c1 c2 x1 y1 Hx1 Hy1 E Hsame. do 2 f_equal. unfold col_cells. apply map_ext_in. intros k Hk%in_seq.
      apply Hsame; [lia|lia|reflexivity].
  Qed.

  (** the same for a segment of a column *)
  Theorem vpass_col x0 ye n c i ys len :
    0 <= x0 -> x0 + n <= S -> 4 <= ye -> ye + 4 <= Ht -> length c = Z.to_nat (S * Ht) ->
    0 <= i < n -> 0 <= ys -> ys <= ye - 4 -> ye + 4 <= ys + Z.of_nat len -> ys + Z.of_nat len <= Ht ->
    col_cells (vpass x0 ye n c) (x0 + i) ys len =
    apply_win f (Z.to_nat (ye - 4 - ys)) (col_cells c (x0 + i) ys len).
  Proof.
    intros Hx0 Hx0n Hye Hye2 Hlen Hi Hys Hys2 Hyl HyH. apply (apply_win_line f f_len); [lia|]. intros m Hm.
    rewrite vpass_spec by (try assumption; lia).
    apply if_ext; [rewrite !andb_true_iff, Nat.leb_le, Nat.ltb_lt; lia|]. intros E.
    unfold fget. f_equal; [lia|]. f_equal. unfold col_cells. rewrite (map_seq_shift 8 (Z.to_nat (ye - 4 - ys))).
    apply map_ext. intros k. f_equal. lia.
  Qed.
End FilterPassV.

(** * the vertical pass against the grid model's edge_v (stated there through transposition) *)
Section FilterGridV.
  Variables (S Ht : Z) (f : list Z -> list Z).
  Hypothesis f_len : forall l, length l = 8%nat -> length (f l) = 8%nat.

  Lemma transpose_aux_grid (g : nat -> nat -> Z) (h : nat) : forall w a,
    transpose_aux w (map (fun j => map (fun i => g i j) (seq a w)) (seq 0 h)) =
    map (fun i => map (fun j => g i j) (seq 0 h)) (seq a w).
  Proof.
    induction w as [|w IH]; intros a; [reflexivity|].
    cbn [transpose_aux seq map]. rewrite !map_map. cbn [hd tl]. f_equal. apply IH.
  Qed.

  Lemma transpose_grid (g : nat -> nat -> Z) (w h : nat) : (0 < h)%nat ->
    transpose (map (fun j => map (fun i => g i j) (seq 0 w)) (seq 0 h)) =
    map (fun i => map (fun j => g i j) (seq 0 h)) (seq 0 w).
  Proof.
    intros Hh. unfold transpose.
    replace (length (hd [] (map (fun j => map (fun i => g i j) (seq 0 w)) (seq 0 h)))) with w.
    - apply transpose_aux_grid.
    - destruct h as [|h]; [lia|]. cbn [seq map hd]. rewrite map_length, seq_length. reflexivity.
  Qed.

  (** w columns, h rows at cell (x0, y0): as rows, and as columns *)
  Definition rect_at (c : list Z) (x0 y0 : Z) (w h : nat) : list (list Z) :=
    map (fun j => row_cells S c x0 (y0 + Z.of_nat j) w) (seq 0 h).
  Definition cols_at (c : list Z) (x0 y0 : Z) (w h : nat) : list (list Z) :=
    map (fun i => col_cells S c (x0 + Z.of_nat i) y0 h) (seq 0 w).

  Lemma transpose_rect c x0 y0 w h : (0 < h)%nat -> transpose (rect_at c x0 y0 w h) = cols_at c x0 y0 w h.
  Proof. exact (transpose_grid (fun i j => cget S c (x0 + Z.of_nat i) (y0 + Z.of_nat j)) w h). Qed.

  Lemma transpose_cols c x0 y0 w h : (0 < w)%nat -> transpose (cols_at c x0 y0 w h) = rect_at c x0 y0 w h.
  Proof. exact (transpose_grid (fun j i => cget S c (x0 + Z.of_nat i) (y0 + Z.of_nat j)) h w). Qed.

  Lemma rect_at_split c x0 y0 w h1 h2 :
    rect_at c x0 y0 w (h1 + h2) = rect_at c x0 y0 w h1 ++ rect_at c x0 (y0 + Z.of_nat h1) w h2.
  Proof.
    unfold rect_at. rewrite seq_app, map_app. f_equal. cbn [Nat.add]. rewrite (map_seq_shift h2 h1).
    apply map_ext. intros k. f_equal. lia.
  Qed.

  Lemma block_at_rect c x0 y0 n : block_at S c x0 y0 n = rect_at c x0 y0 n n.
  Proof. reflexivity. Qed.

  Lemma rect_at_length c x0 y0 w h : length (rect_at c x0 y0 w h) = h.
  Proof. unfold rect_at. rewrite map_length, seq_length. reflexivity. Qed.

  Lemma vpass_cols x0 ye n c ys w h :
    0 <= x0 -> x0 + n <= S -> 4 <= ye -> ye + 4 <= Ht -> length c = Z.to_nat (S * Ht) -> Z.of_nat w <= n ->
    0 <= ys -> ys <= ye - 4 -> ye + 4 <= ys + Z.of_nat h -> ys + Z.of_nat h <= Ht ->
    cols_at (vpass S f x0 ye n c) x0 ys w h = map (apply_win f (Z.to_nat (ye - 4 - ys))) (cols_at c x0 ys w h).
  Proof.
    intros. unfold cols_at. rewrite map_map. apply map_ext_in. intros i Hi%in_seq.
    apply (vpass_col S Ht f f_len); try assumption; lia.
  Qed.

  (** macroblock edge: filterLoop26VAt / SimpleVFilter16 at base = mbY*n*stride + mbX*n (the edge at
      row ye) *)
  Theorem vpass_edge_v x0 ye (n : nat) c :
    (4 <= n)%nat -> 0 <= x0 -> x0 + Z.of_nat n <= S -> Z.of_nat n <= ye -> ye + Z.of_nat n <= Ht ->
    length c = Z.to_nat (S * Ht) ->
    let c' := vpass S f x0 ye (Z.of_nat n) c in
    (block_at S c' x0 (ye - Z.of_nat n) n, block_at S c' x0 ye n) =
    edge_v n f (block_at S c x0 (ye - Z.of_nat n) n) (block_at S c x0 ye n).
  Proof.
    intros Hn Hx0 Hx0n Hye Hyen Hlen. cbv zeta. unfold edge_v.
    assert (Hstack : block_at S c x0 (ye - Z.of_nat n) n ++ block_at S c x0 ye n = rect_at c x0 (ye - Z.of_nat n) n (n + n)).
    { rewrite !block_at_rect, rect_at_split. replace (ye - Z.of_nat n + Z.of_nat n) with ye by lia. reflexivity. }
    rewrite Hstack, transpose_rect by lia.
    replace (n - 4)%nat with (Z.to_nat (ye - 4 - (ye - Z.of_nat n))) by lia.
    rewrite <- (vpass_cols x0 ye (Z.of_nat n)), transpose_cols, rect_at_split by (try assumption; lia).
    rewrite firstn_app, skipn_app, rect_at_length, Nat.sub_diag, firstn_all2, skipn_all2 by (rewrite rect_at_length; lia).
    cbn [firstn skipn app]. rewrite app_nil_r. replace (ye - Z.of_nat n + Z.of_nat n) with ye by lia. reflexivity.
  Qed.

  (** inner edges: vFilter16iAt / vFilter8iAt / SimpleVFilter16i: "for k := 1; k <= 3; k++ { filterLoop24VAt(p, base+k*4*bps, ...) }" *)
  Definition vpasses (x0 y0 : Z) (n : nat) (offs : list nat) (c : list Z) : list Z :=
    fold_left (fun c o => vpass S f x0 (y0 + Z.of_nat o + 4) (Z.of_nat n) c) offs c.

  Theorem vpasses_inner_v x0 y0 (n : nat) : (0 < n)%nat -> 0 <= x0 -> x0 + Z.of_nat n <= S -> 0 <= y0 -> y0 + Z.of_nat n <= Ht ->
    forall offs c, Forall (fun o => (o + 8 <= n)%nat) offs -> length c = Z.to_nat (S * Ht) ->
    block_at S (vpasses x0 y0 n offs c) x0 y0 n = inner_v f offs (block_at S c x0 y0 n).
  Proof.
    intros Hn Hx0 Hx0n Hy0 Hy0n.
    assert (Hcols : forall offs c, Forall (fun o => (o + 8 <= n)%nat) offs -> length c = Z.to_nat (S * Ht) ->
              cols_at (vpasses x0 y0 n offs c) x0 y0 n n = map (apply_wins f offs) (cols_at c x0 y0 n n)).
    { induction offs as [|o tl IH]; intros c Ho Hlen; cbn [vpasses fold_left apply_wins]; [rewrite map_id; reflexivity|].
      pose proof (Forall_inv Ho) as Ho1. cbv beta in Ho1.
      fold (vpasses x0 y0 n tl (vpass S f x0 (y0 + Z.of_nat o + 4) (Z.of_nat n) c)).
      rewrite (IH _ (Forall_inv_tail Ho)), vpass_cols, map_map by (rewrite ?vpass_length; try assumption; lia).
      apply map_ext. intros col. do 2 f_equal. lia. }
    intros offs c Ho Hlen. unfold inner_v.
    rewrite !block_at_rect, transpose_rect, <- Hcols, transpose_cols by assumption. reflexivity.
  Qed.
End FilterGridV.
