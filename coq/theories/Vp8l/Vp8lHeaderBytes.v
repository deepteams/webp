(** The first five bytes of an emitted VP8L stream: the signature 0x2f and the
    little-endian packing of the 14+14+1+3 header bits (width-1, height-1, alpha
    hint, version 0).  Exported for composing the ALPH chunk model (C07) with
    [emit_decode]: DecodeAlpha rebuilds exactly such a 5-byte header (alpha bit 0)
    in front of the ALPH payload, which is the encoder's stream minus its first
    five bytes. *)
From Coq Require Import List ZArith Lia Bool.
From Coq Require Import ZifyBool ZifyNat.
From Webp Require Import Base.Res Base.Bytes Vp8l.Vp8lPixel Vp8l.Vp8lArr Vp8l.Vp8lPrefix Vp8l.Vp8lCanon
  Vp8l.Vp8lTransforms Vp8l.Vp8lSpec Vp8l.Vp8lEmit Vp8l.Vp8lEntropy Vp8l.Vp8lCodeLens Vp8l.Vp8lEmitDecode.
Import ListNotations.
Open Scope Z_scope.

Lemma bits_value_put_bits : forall n v, bits_value (put_bits n v) = v mod 2 ^ Z.of_nat n.
Proof.
  induction n as [|n IH]; intros v; [cbn; now rewrite Z.mod_1_r|].
  cbn [put_bits bits_value]. rewrite IH.
  replace (2 ^ Z.of_nat (S n)) with (2 * 2 ^ Z.of_nat n) by (rewrite Nat2Z.inj_succ, Z.pow_succ_r by lia; reflexivity).
  rewrite Z.rem_mul_r by (try lia; apply Z.pow_pos_nonneg; lia).
  rewrite Zmod_odd. reflexivity.
Qed.

Lemma put_bits_split : forall a b v, put_bits (a + b) v = put_bits a v ++ put_bits b (v / 2 ^ Z.of_nat a).
Proof.
  induction a as [|a IH]; intros b v; [cbn [Nat.add put_bits app]; now rewrite Z.div_1_r|].
  cbn [Nat.add put_bits app]. rewrite IH. f_equal. f_equal.
  rewrite Z.div_div by (try lia; apply Z.pow_pos_nonneg; lia).
  f_equal. rewrite Nat2Z.inj_succ, Z.pow_succ_r by lia. reflexivity.
Qed.

Lemma put_bits_concat : forall a b x y, 0 <= x < 2 ^ Z.of_nat a ->
  put_bits a x ++ put_bits b y = put_bits (a + b) (x + 2 ^ Z.of_nat a * y).
Proof.
  induction a as [|a IH]; intros b x y Hx.
  - cbn [Nat.add put_bits app]. f_equal. change (2 ^ Z.of_nat 0) with 1 in *. lia.
  - cbn [Nat.add put_bits app].
    assert (E : 2 ^ Z.of_nat (S a) = 2 * 2 ^ Z.of_nat a) by (rewrite Nat2Z.inj_succ, Z.pow_succ_r by lia; reflexivity).
    assert (0 < 2 ^ Z.of_nat a) by (apply Z.pow_pos_nonneg; lia).
    rewrite E in *.
    replace (x + 2 * 2 ^ Z.of_nat a * y) with (x + 2 * (2 ^ Z.of_nat a * y)) by lia.
    rewrite Z.odd_add_mul_2.
    replace ((x + 2 * (2 ^ Z.of_nat a * y)) / 2) with (x / 2 + 2 ^ Z.of_nat a * y)
      by (rewrite (Z.mul_comm 2), Z.div_add by lia; reflexivity).
    rewrite <- IH by (split; [apply Z.div_pos; lia|apply Z.div_lt_upper_bound; lia]).
    reflexivity.
Qed.

Lemma bytes_of_bits_fuel_byte fuel v rest :
  bytes_of_bits_fuel (S fuel) (put_bits 8 v ++ rest) = v mod 256 :: bytes_of_bits_fuel fuel rest.
Proof.
  cbn [bytes_of_bits_fuel]. cbn [put_bits app].
  cbn [firstn skipn].
  f_equal. change 256 with (2 ^ Z.of_nat 8). rewrite <- bits_value_put_bits. reflexivity.
Qed.

Lemma bytes_of_bits_word v rest :
  bytes_of_bits (put_bits 32 v ++ rest) = le32 v ++ bytes_of_bits rest.
Proof.
  unfold bytes_of_bits. rewrite app_length, put_bits_length.
  replace (S ((32 + length rest) / 8)) with (S (S (S (S (S (length rest / 8))))))
    by (change 32%nat with (4 * 8)%nat; rewrite Nat.div_add_l by lia; lia).
  change 32%nat with (8 + (8 + (8 + 8)))%nat.
  rewrite (put_bits_split 8 (8 + (8 + 8))), (put_bits_split 8 (8 + 8)), (put_bits_split 8 8). rewrite <- !app_assoc.
  rewrite !bytes_of_bits_fuel_byte.
  unfold le32. cbn [app]. change (2 ^ Z.of_nat 8) with 256.
  rewrite !Z.div_div by lia. reflexivity.
Qed.

Lemma emit_header_bits p : 1 <= p_w p <= 16384 -> 1 <= p_h p <= 16384 -> 0 <= p_alpha p <= 1 ->
  exists rest, emit_bits p =
    put_bits 32 ((p_w p - 1) + (p_h p - 1) * 16384 + p_alpha p * 268435456) ++ rest.
Proof.
  intros Hw Hh Ha. unfold emit_bits.
  destruct (emit_transforms (p_transforms p) (p_w p) (p_h p)) as [tb cw].
  unfold putZ. change (Z.to_nat 14) with 14%nat. change (Z.to_nat 1) with 1%nat. change (Z.to_nat 3) with 3%nat.
  match goal with |- exists rest, ?A ++ ?B ++ ?C ++ ?D ++ ?R = _ => exists R; generalize R end.
  intros R.
  rewrite !app_assoc.
  rewrite (put_bits_concat 14 14) by (change (2 ^ Z.of_nat 14) with 16384; lia).
  rewrite (put_bits_concat (14 + 14) 1) by (change (2 ^ Z.of_nat (14 + 14)) with 268435456; change (2 ^ Z.of_nat 14) with 16384; lia).
  rewrite (put_bits_concat (14 + 14 + 1) 3)
    by (change (2 ^ Z.of_nat (14 + 14 + 1)) with 536870912; change (2 ^ Z.of_nat (14 + 14)) with 268435456; change (2 ^ Z.of_nat 14) with 16384; lia).
  change (14 + 14 + 1 + 3)%nat with 32%nat.
  change (2 ^ Z.of_nat (14 + 14 + 1)) with 536870912. change (2 ^ Z.of_nat (14 + 14)) with 268435456. change (2 ^ Z.of_nat 14) with 16384.
  f_equal. f_equal. lia.
Qed.

Lemma wf_plan_dims p : wf_plan p -> 1 <= p_w p <= 16384 /\ 1 <= p_h p <= 16384 /\ 0 <= p_alpha p <= 1.
Proof. intros H. destruct (wf_plan_common p H) as (Hw & Hh & Ha & _). auto. Qed.

Theorem emit_header_bytes : forall p, wf_plan p ->
  exists payload, emit p =
    47 :: le32 ((p_w p - 1) + (p_h p - 1) * 16384 + p_alpha p * 268435456) ++ payload.
Proof.
  intros p Hwf. destruct (wf_plan_dims p Hwf) as (Hw & Hh & Ha).
  destruct (emit_header_bits p Hw Hh Ha) as [rest Hr].
  exists (bytes_of_bits rest). unfold emit. rewrite Hr, bytes_of_bits_word. reflexivity.
Qed.

(** What DecodeAlpha does: a fresh header with alpha bit 0 in front of the stream
    minus its first five bytes decodes to the pixels of the plan. *)
Corollary decode_rebuilt_header : forall p w h,
  wf_plan p -> p_alpha p = 0 -> p_w p = w -> p_h p = h ->
  decode (47 :: le32 ((w - 1) + (h - 1) * 16384) ++ skipn 5 (emit p)) = Ok (sem p).
Proof.
  intros p w h Hwf Ha Hw Hh. destruct (emit_header_bytes p Hwf) as [payload E].
  rewrite Ha, Hw, Hh in E. replace (w - 1 + (h - 1) * 16384 + 0 * 268435456) with (w - 1 + (h - 1) * 16384) in E by lia.
  rewrite <- (emit_decode p Hwf). f_equal. rewrite E.
  unfold le32. cbn [app skipn]. reflexivity.
Qed.
