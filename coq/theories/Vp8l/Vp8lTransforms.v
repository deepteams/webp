(** The four VP8L transforms (RFC 9649 §4), forward (encoder side) and inverse
    (decoder side), over row-major pixel lists, and the four theorems
    [inverse (forward x) = x].

    Everything position dependent (predictor mode / cross-colour multipliers of
    the tile a pixel lies in, palette lookup) enters through a function argument,
    so the theorems hold for every tile size, every tile-data image and every
    palette; the specification decoder instantiates the functions with lookups
    into the decoded sub-images. *)
From Coq Require Import List ZArith Lia Bool.
From Coq Require Import ZifyBool ZifyNat.
From Webp Require Import Vp8l.Vp8lPixel.
Import ListNotations.
Open Scope Z_scope.

(** * Position-tracking map over a row-major image of width [w] *)

Definition next_xy (w x y : Z) : Z * Z := if x + 1 <? w then (x + 1, y) else (0, y + 1).

Fixpoint map_xy (f : Z -> Z -> px -> px) (w x y : Z) (l : list px) : list px :=
  match l with
  | [] => []
  | p :: tl => let '(x', y') := next_xy w x y in f x y p :: map_xy f w x' y' tl
  end.

Lemma map_xy_length f w x y l : length (map_xy f w x y l) = length l.
Proof.
  revert x y; induction l as [|p tl IH]; intros x y; cbn [map_xy length]; [reflexivity|].
  destruct (next_xy w x y) as [x' y']. cbn [length]. now rewrite IH.
Qed.

Lemma map_xy_inverse f g w l :
  (forall x y p, wf_px p -> g x y (f x y p) = p) ->
  Forall wf_px l -> forall x y, map_xy g w x y (map_xy f w x y l) = l.
Proof.
  intros Hgf Hl. induction Hl as [|p tl Hp _ IH]; intros x y; [reflexivity|].
  cbn [map_xy]. destruct (next_xy w x y) as [x' y'] eqn:E.
  cbn [map_xy]. rewrite E. rewrite Hgf by exact Hp. now rewrite IH.
Qed.

(** * Subtract green *)

Definition sg_fwd (p : px) : px := mkpx (pa p) (b8 (pr p - pg p)) (pg p) (b8 (pb p - pg p)).
Definition sg_inv (p : px) : px := mkpx (pa p) (b8 (pr p + pg p)) (pg p) (b8 (pb p + pg p)).

Lemma sg_inv_fwd p : wf_px p -> sg_inv (sg_fwd p) = p.
Proof.
  destruct p as [a r g b]. unfold wf_px, sg_inv, sg_fwd; cbn [pa pr pg pb].
  intros (Ha & Hr & Hg & Hb). f_equal; now apply b8_sub_add.
Qed.

Lemma sg_inv_wf p : wf_px p -> wf_px (sg_inv p).
Proof. unfold wf_px, chan_ok, sg_inv; cbn [pa pr pg pb]. rewrite !b8_mod. lia. Qed.

Definition subtract_green_fwd (img : list px) : list px := map sg_fwd img.
Definition subtract_green_inv (img : list px) : list px := map sg_inv img.

Theorem inv_subtract_green_fwd : forall img,
  Forall wf_px img -> subtract_green_inv (subtract_green_fwd img) = img.
Proof.
  intros img H. unfold subtract_green_inv, subtract_green_fwd.
  induction H as [|p tl Hp _ IH]; cbn [map]; [reflexivity|].
  now rewrite sg_inv_fwd, IH.
Qed.

(** * Cross-colour.  The multipliers of a tile are the channels of one pixel of
      the transform-data image: red = red_to_blue, green = green_to_blue,
      blue = green_to_red (ColorTransformElement). *)

Definition cc_fwd (m p : px) : px :=
  mkpx (pa p)
       (b8 (pr p - color_delta (pb m) (pg p)))
       (pg p)
       (b8 (pb p - color_delta (pg m) (pg p) - color_delta (pr m) (pr p))).

Definition cc_inv (m p : px) : px :=
  let r := b8 (pr p + color_delta (pb m) (pg p)) in
  mkpx (pa p) r (pg p)
       (b8 (pb p + color_delta (pg m) (pg p) + color_delta (pr m) r)).

Lemma cc_inv_fwd m p : wf_px p -> cc_inv m (cc_fwd m p) = p.
Proof.
  destruct p as [a r g b]. unfold wf_px, cc_inv, cc_fwd; cbn [pa pr pg pb].
  intros (Ha & Hr & Hg & Hb). rewrite (b8_sub_add r) by exact Hr. f_equal.
  rewrite <- Z.sub_add_distr, <- Z.add_assoc. now apply b8_sub_add.
Qed.

Lemma cc_inv_wf m p : wf_px p -> wf_px (cc_inv m p).
Proof. unfold wf_px, chan_ok, cc_inv; cbn [pa pr pg pb]. rewrite !b8_mod. lia. Qed.

Section CrossColor.
  (** [mult x y] = the multiplier pixel of the tile containing (x, y). *)
  Variable mult : Z -> Z -> px.
  Variable w : Z.
  Definition cross_color_fwd (img : list px) : list px :=
    map_xy (fun x y p => cc_fwd (mult x y) p) w 0 0 img.
  Definition cross_color_inv (img : list px) : list px :=
    map_xy (fun x y p => cc_inv (mult x y) p) w 0 0 img.

  Theorem inv_cross_color_fwd_gen : forall img,
    Forall wf_px img -> cross_color_inv (cross_color_fwd img) = img.
  Proof.
    intros img H. unfold cross_color_inv, cross_color_fwd.
    apply (map_xy_inverse (fun x y p => cc_fwd (mult x y) p) (fun x y p => cc_inv (mult x y) p)).
    - intros x y p Hp. apply cc_inv_fwd, Hp.
    - exact H.
  Qed.
End CrossColor.

(** * Predictor *)

(** The 14 prediction modes on the neighbours L, T, TR, TL. *)
Definition pred14 (mode : Z) (L T TR TL : px) : px :=
  match mode with
  | 0 => px_black
  | 1 => L
  | 2 => T
  | 3 => TR
  | 4 => TL
  | 5 => avg2 (avg2 L TR) T
  | 6 => avg2 L TL
  | 7 => avg2 L T
  | 8 => avg2 TL T
  | 9 => avg2 T TR
  | 10 => avg2 (avg2 L TL) (avg2 T TR)
  | 11 => select L T TL
  | 12 => clamp_add_sub_full L T TL
  | 13 => clamp_add_sub_half (avg2 L T) TL
  | _ => px_black
  end.

(** Prediction for the pixel at (x, y) from the pixels before it in scan order;
    [acc] holds them most recent first, so L = acc[0], TR = acc[w-2] (for the
    rightmost pixel of a row this is the leftmost pixel of the current row, as
    the format prescribes), T = acc[w-1], TL = acc[w].  Edge rules: (0,0) is
    predicted as opaque black, the rest of the top row by L, the left column by T. *)
Definition pred_px (wn : nat) (mode : Z) (x y : Z) (acc : list px) : px :=
  if y =? 0 then (if x =? 0 then px_black else hd px_zero acc)
  else if x =? 0 then nth (wn - 1) acc px_zero
  else match skipn (wn - 2) acc with
       | tr :: t :: tl :: _ => pred14 mode (hd px_zero acc) t tr tl
       | _ => px_zero
       end.

Section Predictor.
  (** [mode_at x y] = prediction mode of the tile containing (x, y). *)
  Variable mode_at : Z -> Z -> Z.
  Variable w : Z.
  Variable wn : nat.      (* the width again, as the list offset of T/TR/TL; the decoder passes [Z.to_nat w] *)

  Definition pred_at (x y : Z) (acc : list px) : px :=
    pred_px wn (mode_at x y) x y acc.

  (** Forward: residual = pixel - prediction from the *original* neighbours. *)
  Fixpoint pred_fwd_from (x y : Z) (acc : list px) (l : list px) : list px :=
    match l with
    | [] => []
    | p :: tl =>
      let '(x', y') := next_xy w x y in
      px_sub p (pred_at x y acc) :: pred_fwd_from x' y' (p :: acc) tl
    end.

  (** Inverse: pixel = residual + prediction from the already *decoded* neighbours. *)
  Fixpoint pred_inv_from (x y : Z) (acc : list px) (l : list px) : list px :=
    match l with
    | [] => []
    | r :: tl =>
      let '(x', y') := next_xy w x y in
      let p := px_add r (pred_at x y acc) in
      p :: pred_inv_from x' y' (p :: acc) tl
    end.

  Definition predictor_fwd (img : list px) : list px := pred_fwd_from 0 0 [] img.
  Definition predictor_inv (img : list px) : list px := pred_inv_from 0 0 [] img.

  Lemma pred_inv_fwd_from : forall l, Forall wf_px l -> forall x y acc,
    pred_inv_from x y acc (pred_fwd_from x y acc l) = l.
  Proof.
    intros l Hl. induction Hl as [|p tl Hp _ IH]; intros x y acc; [reflexivity|].
    cbn [pred_fwd_from]. destruct (next_xy w x y) as [x' y'] eqn:E.
    cbn [pred_inv_from]. rewrite E. rewrite px_add_sub by exact Hp. now rewrite IH.
  Qed.

  Theorem inv_predictor_fwd_gen : forall img,
    Forall wf_px img -> predictor_inv (predictor_fwd img) = img.
  Proof. intros img H. apply pred_inv_fwd_from, H. Qed.

  Lemma pred_inv_from_length : forall l x y acc, length (pred_inv_from x y acc l) = length l.
  Proof.
    induction l as [|r tl IH]; intros x y acc; [reflexivity|].
    cbn [pred_inv_from]. destruct (next_xy w x y) as [x' y']. cbn [length]. now rewrite IH.
  Qed.
End Predictor.

(** Tile lookup used by the decoder: the data image has [tw = subsample w bits]
    columns; the tile of (x, y) is (x >> bits, y >> bits). *)
Definition tile_index (tw bits x y : Z) : Z := Z.shiftr y bits * tw + Z.shiftr x bits.

(** * Colour indexing with pixel packing *)

(** Packing exponent chosen by the palette size: 3 (8 indices per pixel) for
    <= 2 colours, 2 for <= 4, 1 for <= 16, 0 otherwise. *)
Definition ci_bits (ncolors : Z) : Z :=
  if ncolors <=? 2 then 3 else if ncolors <=? 4 then 2 else if ncolors <=? 16 then 1 else 0.

Fixpoint unpack_vals (k : nat) (m : Z) (v : Z) : list Z :=
  match k with O => [] | S k' => v mod m :: unpack_vals k' m (v / m) end.

Fixpoint pack_vals (m : Z) (l : list Z) : Z :=
  match l with [] => 0 | v :: tl => v + m * pack_vals m tl end.

Fixpoint rows {A} (n k : nat) (l : list A) : list (list A) :=
  match n with O => [] | S n' => firstn k l :: rows n' k (skipn k l) end.

Section ColorIndex.
  Variable look : Z -> px.          (* palette lookup, index -> colour *)
  Variable find : px -> Z.          (* encoder side: colour -> index *)
  Variable wb : Z.                  (* packing exponent 0..3 *)
  Variable w : nat.                 (* unpacked width *)

  Definition ppb : nat := Z.to_nat (2 ^ wb).           (* indices per packed pixel *)
  Definition bmod : Z := 2 ^ (8 / 2 ^ wb).             (* 2^(bits per index) *)
  Definition pw : nat := Z.to_nat (subsample (Z.of_nat w) wb).  (* packed width *)

  Definition unpack_row (row : list px) : list Z :=
    firstn w (flat_map (fun p => unpack_vals ppb bmod (pg p)) row).
  Definition pack_row (row : list Z) : list px :=
    map (fun c => mkpx 255 0 (pack_vals bmod c) 0) (rows pw ppb row).

  Definition color_index_inv (h : nat) (img : list px) : list px :=
    flat_map (fun r => map look (unpack_row r)) (rows h pw img).
  Definition color_index_fwd (h : nat) (img : list px) : list px :=
    flat_map (fun r => pack_row (map find r)) (rows h w img).
End ColorIndex.

Lemma unpack_pack_vals m : 1 < m -> forall l k,
  Forall (fun v => 0 <= v < m) l -> (length l <= k)%nat ->
  unpack_vals k m (pack_vals m l) = l ++ repeat 0 (k - length l).
Proof.
  intros Hm l. induction l as [|v tl IH]; intros k Hl Hk.
  - cbn [pack_vals length app]. rewrite Nat.sub_0_r. clear Hk.
    induction k as [|k IHk]; [reflexivity|]. cbn [unpack_vals repeat].
    rewrite Z.mod_0_l, Z.div_0_l by lia. now rewrite IHk.
  - destruct k as [|k]; [cbn [length] in Hk; lia|].
    inversion Hl as [|? ? Hv Htl]; subst.
    cbn [pack_vals unpack_vals length app]. cbn [length] in Hk.
    rewrite (Z.mul_comm m), Z_mod_plus_full, Z_div_plus_full by lia.
    rewrite Z.mod_small, Z.div_small by lia. rewrite Z.add_0_l.
    rewrite IH by (assumption || lia). reflexivity.
Qed.

Lemma rows_pad_firstn {A} (pad : list A -> list A) (k : nat) :
  (0 < k)%nat -> (forall c : list A, length c = k -> pad c = []) ->
  forall n (l : list A), (length l <= n * k)%nat ->
  firstn (length l) (flat_map (fun c => c ++ pad c) (rows n k l)) = l.
Proof.
  intros Hk Hpad n. induction n as [|n IH]; intros l Hl.
  - destruct l; [reflexivity|cbn [length] in Hl; lia].
  - cbn [rows flat_map]. rewrite Nat.mul_succ_l in Hl.
    destruct (Nat.le_gt_cases k (length l)) as [Hge|Hlt].
    + assert (Hf : length (firstn k l) = k) by (rewrite firstn_length; lia).
      rewrite (Hpad _ Hf), app_nil_r.
      rewrite <- (firstn_skipn k l) at 1. rewrite app_length, Hf.
      rewrite firstn_app, Hf.
      replace (k + length (skipn k l) - k)%nat with (length (skipn k l)) by lia.
      rewrite firstn_all2 by (rewrite firstn_length; lia).
      rewrite IH by (rewrite skipn_length; lia).
      apply firstn_skipn.
    + rewrite (@firstn_all2 A k l) by lia.
      rewrite <- app_assoc. rewrite firstn_app, Nat.sub_diag. cbn [firstn].
      rewrite firstn_all, app_nil_r. reflexivity.
Qed.

Lemma flat_map_map {A B C} (f : A -> B) (g : B -> list C) l :
  flat_map g (map f l) = flat_map (fun x => g (f x)) l.
Proof. induction l as [|a tl IH]; cbn [map flat_map]; [reflexivity|now rewrite IH]. Qed.

Lemma rows_Forall {A} (P : A -> Prop) n k (l : list A) :
  Forall P l -> Forall (Forall P) (rows n k l).
Proof.
  revert l; induction n as [|n IH]; intros l H; cbn [rows]; constructor.
  - rewrite <- (firstn_skipn k l) in H. apply Forall_app in H. apply H.
  - apply IH. rewrite <- (firstn_skipn k l) in H. apply Forall_app in H. apply H.
Qed.

Lemma rows_length_le {A} n k (l : list A) : Forall (fun c => (length c <= k)%nat) (rows n k l).
Proof.
  revert l; induction n as [|n IH]; intros l; cbn [rows]; constructor; [|apply IH].
  rewrite firstn_length. lia.
Qed.

Lemma flat_map_ext_Forall {A B} (f g : A -> list B) (P : A -> Prop) l :
  (forall a, P a -> f a = g a) -> Forall P l -> flat_map f l = flat_map g l.
Proof.
  intros Hfg H. induction H as [|a tl Ha _ IH]; cbn [flat_map]; [reflexivity|].
  now rewrite Hfg, IH.
Qed.

Lemma rows_concat {A} n k (l : list A) :
  (length l <= n * k)%nat -> concat (rows n k l) = l.
Proof.
  revert l; induction n as [|n IH]; intros l H.
  - destruct l; [reflexivity|cbn [length] in H; lia].
  - cbn [rows concat]. rewrite IH by (rewrite skipn_length; lia). apply firstn_skipn.
Qed.

Lemma rows_length_eq {A} n k (l : list A) :
  length l = (n * k)%nat -> Forall (fun c => length c = k) (rows n k l).
Proof.
  revert l; induction n as [|n IH]; intros l H; cbn [rows]; constructor.
  - rewrite firstn_length. lia.
  - apply IH. rewrite skipn_length. lia.
Qed.

Lemma rows_app_first {A} (n k : nat) (a b : list A) :
  length a = k -> rows (S n) k (a ++ b) = a :: rows n k b.
Proof.
  intros H. cbn [rows]. rewrite firstn_app, skipn_app, <- H, Nat.sub_diag, firstn_all, skipn_all.
  cbn [firstn skipn app]. now rewrite app_nil_r.
Qed.

Section ColorIndexProof.
  Variable look : Z -> px.
  Variable find : px -> Z.
  Variable wb : Z.
  Variable w : nat.
  Hypothesis Hwb : 0 <= wb <= 3.
  Hypothesis Hw : (0 < w)%nat.

  Lemma ppb_pos : (0 < ppb wb)%nat.
  Proof. unfold ppb. assert (0 < 2 ^ wb) by (apply Z.pow_pos_nonneg; lia). lia. Qed.

  Lemma bmod_gt1 : 1 < bmod wb.
  Proof.
    unfold bmod. assert (H : wb = 0 \/ wb = 1 \/ wb = 2 \/ wb = 3) by lia.
    destruct H as [ -> | [ -> | [ -> | -> ] ] ]; reflexivity.
  Qed.

  Lemma pw_covers : (w <= pw wb w * ppb wb)%nat.
  Proof.
    unfold pw, ppb, subsample.
    assert (H : wb = 0 \/ wb = 1 \/ wb = 2 \/ wb = 3) by lia.
    destruct H as [ -> | [ -> | [ -> | -> ] ] ]; cbn; lia.
  Qed.

  Lemma unpack_pack_row (row : list Z) :
    length row = w -> Forall (fun v => 0 <= v < bmod wb) row ->
    unpack_row wb w (pack_row wb w row) = row.
  Proof.
    intros Hlen Hrow. unfold unpack_row, pack_row.
    rewrite flat_map_map. cbn [pg].
    rewrite (flat_map_ext_Forall _ (fun c => c ++ repeat 0 (ppb wb - length c))
               (fun c => Forall (fun v => 0 <= v < bmod wb) c /\ (length c <= ppb wb)%nat)).
    - rewrite <- Hlen. apply rows_pad_firstn.
      + apply ppb_pos.
      + intros c Hc. rewrite Hc, Nat.sub_diag. reflexivity.
      + rewrite Hlen. apply pw_covers.
    - intros c [Hc1 Hc2]. apply unpack_pack_vals; [apply bmod_gt1|assumption|assumption].
    - apply Forall_forall. intros c Hin. split.
      + pose proof (rows_Forall _ (pw wb w) (ppb wb) row Hrow) as HF.
        rewrite Forall_forall in HF. apply HF, Hin.
      + pose proof (rows_length_le (pw wb w) (ppb wb) row) as HF.
        rewrite Forall_forall in HF. apply HF, Hin.
  Qed.

  Lemma pack_row_length (row : list Z) : length (pack_row wb w row) = pw wb w.
  Proof.
    unfold pack_row. rewrite map_length. generalize (pw wb w) as n. intros n.
    revert row; induction n as [|n IH]; intros row; cbn [rows length]; [reflexivity|now rewrite IH].
  Qed.

  (** Image-level theorem; hypothesis: every pixel's index is in range for the
      packing and looks up to the pixel itself. *)
  Theorem inv_color_index_fwd_gen : forall (h : nat) (img : list px),
    length img = (h * w)%nat ->
    Forall (fun p => 0 <= find p < bmod wb /\ look (find p) = p) img ->
    color_index_inv look wb w h (color_index_fwd find wb w h img) = img.
  Proof.
    intros h. induction h as [|h IH]; intros img Hlen Himg.
    - destruct img; [reflexivity|cbn [length] in Hlen; lia].
    - assert (Hrl : length (firstn w img) = w) by (rewrite firstn_length; lia).
      assert (Ef : color_index_fwd find wb w (S h) img =
                   pack_row wb w (map find (firstn w img)) ++ color_index_fwd find wb w h (skipn w img))
        by reflexivity.
      rewrite Ef. unfold color_index_inv at 1.
      rewrite rows_app_first by apply pack_row_length.
      cbn [flat_map].
      fold (color_index_inv look wb w h (color_index_fwd find wb w h (skipn w img))).
      rewrite <- (firstn_skipn w img) in Himg. apply Forall_app in Himg. destruct Himg as [H1 H2].
      rewrite IH; [|rewrite skipn_length; lia|exact H2].
      rewrite unpack_pack_row.
      + rewrite map_map.
        rewrite <- (firstn_skipn w img) at 3. f_equal.
        clear - H1. induction H1 as [|p tl [_ Hp] _ IHl]; cbn [map]; [reflexivity|]. now rewrite Hp, IHl.
      + now rewrite map_length.
      + clear - H1. induction H1 as [|p tl [Hp _] _ IHl]; cbn [map]; constructor; assumption.
  Qed.
End ColorIndexProof.

Fixpoint index_of (p : px) (pal : list px) : Z :=
  match pal with
  | [] => 0
  | q :: tl => if px_eqb p q then 0 else 1 + index_of p tl
  end.
Definition pal_look (pal : list px) (i : Z) : px := nth (Z.to_nat i) pal px_zero.

Lemma index_of_spec p pal : In p pal ->
  0 <= index_of p pal < Z.of_nat (length pal) /\ pal_look pal (index_of p pal) = p.
Proof.
  unfold pal_look. induction pal as [|q tl IH]; intros Hin; [destruct Hin|].
  cbn [index_of length]. destruct (px_eqb p q) eqn:E.
  - apply px_eqb_eq in E. subst q. split; [lia|reflexivity].
  - destruct Hin as [->|Hin].
    + assert (px_eqb p p = true) by now apply px_eqb_eq. congruence.
    + destruct (IH Hin) as [Hr Hl]. split; [lia|].
      replace (Z.to_nat (1 + index_of p tl)) with (S (Z.to_nat (index_of p tl))) by lia.
      exact Hl.
Qed.
