(** ARGB pixels of the WebP lossless format as four channel values, and the
    per-channel arithmetic the bitstream specification uses (RFC 9649 §4):
    addition/subtraction modulo 256, Average2, Select, ClampAddSubtractFull/Half,
    the cross-colour delta, the colour-cache hash.  Channels are unbounded [Z];
    every operation that the format defines modulo 256 writes the [mod]. *)
From Coq Require Import List ZArith Lia Bool.
From Coq Require Import ZifyBool.
Import ListNotations.
Open Scope Z_scope.

(* global to every importer: the [lia] goals of the Vp8l files contain [/] and [mod] by
   constants *)
Ltac Zify.zify_post_hook ::= Z.div_mod_to_equations.

Record px := mkpx { pa : Z; pr : Z; pg : Z; pb : Z }.

Definition chan_ok (c : Z) : Prop := 0 <= c < 256.
Definition wf_px (p : px) : Prop :=
  chan_ok (pa p) /\ chan_ok (pr p) /\ chan_ok (pg p) /\ chan_ok (pb p).

Definition chan_okb (c : Z) : bool := (0 <=? c) && (c <? 256).
Definition wf_pxb (p : px) : bool :=
  chan_okb (pa p) && chan_okb (pr p) && chan_okb (pg p) && chan_okb (pb p).

Lemma wf_pxb_spec p : wf_pxb p = true <-> wf_px p.
Proof. unfold wf_pxb, wf_px, chan_okb, chan_ok. lia. Qed.

Definition px_eqb (p q : px) : bool :=
  (pa p =? pa q) && (pr p =? pr q) && (pg p =? pg q) && (pb p =? pb q).

Lemma px_eqb_eq p q : px_eqb p q = true <-> p = q.
Proof.
  destruct p, q; unfold px_eqb; cbn [pa pr pg pb]. split.
  - intros H. f_equal; lia.
  - intros [= -> -> -> ->]. lia.
Qed.

(** [x mod 256], computed without a division when x is within one period of the
    byte range (always the case for sums/differences of bytes); [b8_mod] is the
    defining equation and the only fact proofs use. *)
Definition b8 (x : Z) : Z :=
  if x <? 0 then (if -256 <=? x then x + 256 else x mod 256)
  else if x <? 256 then x
  else if x <? 512 then x - 256 else x mod 256.

Lemma b8_mod x : b8 x = x mod 256.
Proof.
  unfold b8. destruct (x <? 0) eqn:E1.
  - destruct (-256 <=? x) eqn:E2; lia.
  - destruct (x <? 256) eqn:E3; [lia|]. destruct (x <? 512) eqn:E4; lia.
Qed.

Lemma b8_range x : chan_ok (b8 x).
Proof. unfold chan_ok. rewrite b8_mod. lia. Qed.

Definition px_zero : px := mkpx 0 0 0 0.        (* 0x00000000 *)
Definition px_black : px := mkpx 255 0 0 0.     (* 0xff000000 *)

Definition px_add (p q : px) : px :=
  mkpx (b8 (pa p + pa q)) (b8 (pr p + pr q)) (b8 (pg p + pg q)) (b8 (pb p + pb q)).
Definition px_sub (p q : px) : px :=
  mkpx (b8 (pa p - pa q)) (b8 (pr p - pr q)) (b8 (pg p - pg q)) (b8 (pb p - pb q)).

Lemma px_add_wf p q : wf_px (px_add p q).
Proof. unfold wf_px, px_add; cbn [pa pr pg pb]. repeat split; apply b8_range. Qed.
Lemma px_sub_wf p q : wf_px (px_sub p q).
Proof. unfold wf_px, px_sub; cbn [pa pr pg pb]. repeat split; apply b8_range. Qed.

(** The law every inverse transform rests on, for a channel and for a pixel. *)
Lemma b8_sub_add x y : chan_ok x -> b8 (b8 (x - y) + y) = x.
Proof. unfold chan_ok. rewrite !b8_mod. lia. Qed.

Lemma b8_add_sub x y : chan_ok x -> b8 (b8 (x + y) - y) = x.
Proof. unfold chan_ok. rewrite !b8_mod. lia. Qed.

Lemma px_add_sub p q : wf_px p -> px_add (px_sub p q) q = p.
Proof.
  destruct p as [a r g b]. unfold wf_px, px_add, px_sub; cbn [pa pr pg pb].
  intros (Ha & Hr & Hg & Hb). f_equal; now apply b8_sub_add.
Qed.

Lemma px_sub_add p q : wf_px p -> px_sub (px_add p q) q = p.
Proof.
  destruct p as [a r g b]. unfold wf_px, px_add, px_sub; cbn [pa pr pg pb].
  intros (Ha & Hr & Hg & Hb). f_equal; now apply b8_add_sub.
Qed.

(** Packed 32-bit view (alpha in bits 31..24, red 23..16, green 15..8, blue 7..0). *)
Definition argb_of_px (p : px) : Z := ((pa p * 256 + pr p) * 256 + pg p) * 256 + pb p.

Definition px_of_argb (v : Z) : px :=
  mkpx ((v / 16777216) mod 256) ((v / 65536) mod 256) ((v / 256) mod 256) (v mod 256).

Lemma px_of_argb_of_px p : wf_px p -> px_of_argb (argb_of_px p) = p.
Proof.
  destruct p as [a r g b]. unfold wf_px, chan_ok, px_of_argb, argb_of_px; cbn [pa pr pg pb].
  intros (Ha & Hr & Hg & Hb). f_equal; lia.
Qed.

Lemma px_of_argb_wf v : wf_px (px_of_argb v).
Proof. unfold wf_px, px_of_argb, chan_ok; cbn [pa pr pg pb]. lia. Qed.

Lemma argb_of_px_range p : wf_px p -> 0 <= argb_of_px p < 4294967296.
Proof.
  destruct p as [a r g b]. unfold wf_px, chan_ok, argb_of_px; cbn [pa pr pg pb]. lia.
Qed.

(** Average2 of the specification: per channel (a + b) div 2. *)
Definition avg2 (p q : px) : px :=
  mkpx (Z.div2 (pa p + pa q)) (Z.div2 (pr p + pr q)) (Z.div2 (pg p + pg q)) (Z.div2 (pb p + pb q)).

Lemma avg2_wf p q : wf_px p -> wf_px q -> wf_px (avg2 p q).
Proof. unfold wf_px, chan_ok, avg2; cbn [pa pr pg pb]. rewrite !Z.div2_div. lia. Qed.

(** Select (predictor 11): Manhattan distances of the estimate L+T-TL to L and T. *)
Definition select (L T TL : px) : px :=
  let dl := Z.abs (pa T - pa TL) + Z.abs (pr T - pr TL) + Z.abs (pg T - pg TL) + Z.abs (pb T - pb TL) in
  let dt := Z.abs (pa L - pa TL) + Z.abs (pr L - pr TL) + Z.abs (pg L - pg TL) + Z.abs (pb L - pb TL) in
  if dl <? dt then L else T.

Definition clamp8 (x : Z) : Z := if x <? 0 then 0 else if 255 <? x then 255 else x.

Lemma clamp8_range x : chan_ok (clamp8 x).
Proof. unfold chan_ok, clamp8. destruct (x <? 0) eqn:E1; [lia|]. destruct (255 <? x) eqn:E2; lia. Qed.

Definition clamp_add_sub_full (a b c : px) : px :=
  mkpx (clamp8 (pa a + pa b - pa c)) (clamp8 (pr a + pr b - pr c))
       (clamp8 (pg a + pg b - pg c)) (clamp8 (pb a + pb b - pb c)).

(** Clamp(a + (a - b) / 2) with C division (truncation toward zero). *)
Definition clamp_add_sub_half (a b : px) : px :=
  mkpx (clamp8 (pa a + Z.quot (pa a - pa b) 2)) (clamp8 (pr a + Z.quot (pr a - pr b) 2))
       (clamp8 (pg a + Z.quot (pg a - pg b) 2)) (clamp8 (pb a + Z.quot (pb a - pb b) 2)).

(** int8 reading of a byte and the cross-colour delta (t * c) >> 5 on int8 values
    (arithmetic shift = floor division). *)
Definition int8 (x : Z) : Z := let y := b8 x in if y <? 128 then y else y - 256.
Definition color_delta (t c : Z) : Z := Z.shiftr (int8 t * int8 c) 5.

Lemma color_delta_div t c : color_delta t c = (int8 t * int8 c) / 32.
Proof. unfold color_delta. now rewrite Z.shiftr_div_pow2 by lia. Qed.

(** Colour-cache slot of a pixel: (0x1e35a7bd * argb) mod 2^32 >> (32 - bits). *)
Definition cache_hash (bits : Z) (p : px) : Z :=
  Z.shiftr (Z.land (506832829 * argb_of_px p) 4294967295) (32 - bits).

Lemma cache_hash_div bits p : 0 <= bits <= 32 ->
  cache_hash bits p = ((506832829 * argb_of_px p) mod 4294967296) / 2 ^ (32 - bits).
Proof.
  intros H. unfold cache_hash. rewrite Z.shiftr_div_pow2 by lia.
  change 4294967295 with (Z.ones 32). rewrite Z.land_ones by lia. reflexivity.
Qed.

(** ceil (size / 2^bits). *)
Definition subsample (size bits : Z) : Z := (size + 2 ^ bits - 1) / 2 ^ bits.

(** Linear-time list reversal ([List.rev] is quadratic when executed). *)
Definition frev {A} (l : list A) : list A := rev_append l [].
Lemma frev_rev {A} (l : list A) : frev l = rev l.
Proof. unfold frev. symmetry. apply rev_alt. Qed.
