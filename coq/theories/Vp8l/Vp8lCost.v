(** C05, codec layer (specification model of VP8L, Vp8lSpec): explicit resource
    bounds that hold for EVERY input, valid or not.

    - fuel: every fuelled loop of the decoder is started with fuel that is a linear
      function of the declared (and range-checked) size it works on — the entropy loop
      with [1 + w*h], the code-length loop with [1 + alphabet] — and that fuel is
      always sufficient: no run ever ends in [E_FUEL].  So the number of loop
      iterations is at most 1 + (number of pixels), resp. 1 + (alphabet size);
    - input: the bit stream only shrinks (at most 8 * len(input) bits are ever read);
    - allocation: the pixel list produced by an entropy-coded image has exactly
      [w*h] entries (never more), a backward reference can only be taken inside the
      pixels already produced and never beyond the end of the image; the declared
      dimensions are at most 2^14 each, i.e. at most 2^28 pixels;
    - the model never returns [Panic].

    Nothing here depends on the prefix codes being well formed. *)
From Coq Require Import List ZArith Lia Bool.
From Coq Require Import ZifyBool ZifyNat.
From Webp Require Import Base.Res Vp8l.Vp8lPixel Vp8l.Vp8lArr Vp8l.Vp8lPrefix Vp8l.Vp8lTransforms
  Vp8l.Vp8lEntropy Vp8l.Vp8lSpec.
Import ListNotations.
Open Scope Z_scope.

(** "reads some bits or fails cleanly": the stream shrinks, no fuel error, no panic *)
Definition shrinks {A} (s : bits) (r : Res (A * bits)) : Prop :=
  match r with
  | Ok (_, s') => (length s' <= length s)%nat
  | Err e => e <> E_FUEL
  | Panic => False
  end.

(** no fuel error, no panic *)
Definition clean {A} (r : Res A) : Prop :=
  match r with Ok _ => True | Err e => e <> E_FUEL | Panic => False end.

Lemma shrinks_weaken {A} s s1 (r : Res (A * bits)) : (length s1 <= length s)%nat -> shrinks s1 r -> shrinks s r.
Proof. intros H. unfold shrinks. destruct r as [[a s']|e|]; auto. lia. Qed.

Lemma bind_post {A B} s (r : Res (A * bits)) (f : A * bits -> Res B) (Q : Res B -> Prop) :
  shrinks s r ->
  (forall e, e <> E_FUEL -> Q (Err e)) ->
  (forall a s', (length s' <= length s)%nat -> Q (f (a, s'))) ->
  Q (bind r f).
Proof. intros Hr He Hk. destruct r as [[a s']|e|]; cbn in *; [apply Hk; exact Hr|apply He; exact Hr|contradiction]. Qed.

Lemma bind_shrinks {A B} s (r : Res (A * bits)) (f : A * bits -> Res (B * bits)) :
  shrinks s r -> (forall a s', (length s' <= length s)%nat -> shrinks s' (f (a, s'))) -> shrinks s (bind r f).
Proof.
  intros Hr Hk. apply (bind_post s r f (shrinks s) Hr); [intros e He; exact He|].
  intros a s' Hl. eapply shrinks_weaken; [exact Hl|apply Hk; exact Hl].
Qed.

Lemma ok_shrinks {A} s (a : A) s' : (length s' <= length s)%nat -> shrinks s (Ok (a, s')).
Proof. intros H. exact H. Qed.

Lemma err_shrinks {A} s e : e <> E_FUEL -> @shrinks A s (Err e).
Proof. intros H. exact H. Qed.

#[local] Hint Resolve ok_shrinks err_shrinks : cost.

Ltac nofuel := (unfold E_TRUNC, E_CODE, E_SYNTAX, E_FUEL; intros HH; discriminate HH).

Lemma read_bits_spec n : forall s,
  match read_bits n s with
  | Ok (v, s') => 0 <= v < 2 ^ Z.of_nat n /\ (length s' <= length s)%nat
  | Err e => e <> E_FUEL
  | Panic => False
  end.
Proof.
  induction n as [|n IH]; intros s; cbn [read_bits]; [split; [cbn; lia|lia]|].
  destruct s as [|b tl]; [nofuel|].
  specialize (IH tl). destruct (read_bits n tl) as [[v s']|e|]; cbn [bind]; auto.
  destruct IH as [Hv Hl]. split; [|cbn [length]; lia].
  rewrite Nat2Z.inj_succ, Z.pow_succ_r by lia. destruct b; lia.
Qed.

Lemma read_bits_shrinks n s : shrinks s (read_bits n s).
Proof. pose proof (read_bits_spec n s) as H. unfold shrinks. destruct (read_bits n s) as [[v s']|e|]; tauto. Qed.

Lemma read_bitsZ_shrinks n s : shrinks s (read_bitsZ n s).
Proof. apply read_bits_shrinks. Qed.

Lemma read_symbol_shrinks t : forall s, shrinks s (read_symbol t s).
Proof.
  induction t as [v|l IHl r IHr|]; intros s; cbn [read_symbol]; [cbn; lia| |nofuel].
  destruct s as [|b tl]; [nofuel|].
  destruct b; eapply shrinks_weaken; try apply IHl; try apply IHr; cbn [length]; lia.
Qed.

#[local] Hint Resolve read_bits_shrinks read_bitsZ_shrinks read_symbol_shrinks : cost.

Lemma lz_value_spec p s : 0 <= p ->
  match lz_value p s with
  | Ok (v, s') => 1 <= v /\ (length s' <= length s)%nat
  | Err e => e <> E_FUEL
  | Panic => False
  end.
Proof.
  intros Hp. unfold lz_value. destruct (p <? 4); [split; lia|].
  unfold read_bitsZ. pose proof (read_bits_spec (Z.to_nat ((p - 2) / 2)) s) as H.
  destruct (read_bits _ s) as [[x s']|e|]; cbn [bind]; auto.
  destruct H as [Hx Hl]. split; [|exact Hl].
  assert (0 <= 2 ^ ((p - 2) / 2)) by (apply Z.pow_nonneg; lia).
  assert (0 <= (2 + p mod 2) * 2 ^ ((p - 2) / 2)) by (apply Z.mul_nonneg_nonneg; lia).
  lia.
Qed.

Lemma lz_value_shrinks p s : shrinks s (lz_value p s).
Proof.
  unfold lz_value. destruct (p <? 4); [apply ok_shrinks; lia|].
  apply bind_shrinks; [apply read_bitsZ_shrinks|]. intros x s' Hl. apply ok_shrinks. lia.
Qed.

Lemma plane_to_dist_pos w code : 1 <= plane_to_dist w code.
Proof.
  unfold plane_to_dist. destruct (Z.ltb_spec 120 code); [lia|].
  destruct (nth _ plane_lut (0, 0)) as [dx dy]. destruct (Z.ltb_spec (dx + dy * w) 1); lia.
Qed.

(** The entropy loop: one iteration per token, at least one pixel per token. *)
Lemma pixels_loop_cost : forall fuel c total pos x y cache acc s,
  0 <= pos -> length acc = Z.to_nat pos -> (Z.to_nat (total - pos) < fuel)%nat ->
  match pixels_loop fuel c total pos x y cache acc s with
  | Ok (acc', s') => length acc' = Z.to_nat (Z.max pos total) /\ (length s' <= length s)%nat
  | Err e => e <> E_FUEL
  | Panic => False
  end.
Proof.
  induction fuel as [|f IH]; intros c total pos x y cache acc s Hp Hacc Hf; [lia|].
  cbn [pixels_loop].
  destruct (Z.leb_spec total pos) as [Hdone|Hmore]; [split; lia|].
  set (g := group_at c x y).
  apply (bind_post s (read_symbol (g_green g) s)); [auto with cost|intros e He; exact He|].
  intros sym s1 Hl1. cbv beta iota.
  destruct (Z.ltb_spec sym 256) as [Hlit|Hnolit].
  - (* literal *)
    apply (bind_post s1 (read_symbol (g_red g) s1)); [auto with cost|intros e He; exact He|].
    intros r s2 Hl2. cbv beta iota.
    apply (bind_post s2 (read_symbol (g_blue g) s2)); [auto with cost|intros e He; exact He|].
    intros b s3 Hl3. cbv beta iota.
    apply (bind_post s3 (read_symbol (g_alpha g) s3)); [auto with cost|intros e He; exact He|].
    intros a s4 Hl4. cbv beta iota.
    destruct (next_xy (e_w c) x y) as [x' y'].
    specialize (IH c total (pos + 1) x' y' (cache_insert (e_cache_bits c) cache (mkpx a r sym b))
                   (mkpx a r sym b :: acc) s4 ltac:(lia) ltac:(cbn [length]; lia) ltac:(lia)).
    destruct (pixels_loop f c total (pos + 1) x' y' _ _ s4) as [[acc' s']|e|]; auto.
    destruct IH as (H1 & H3). split; lia.
  - destruct (Z.ltb_spec sym 280) as [Hcopy|Hcache].
    + (* backward reference *)
      pose proof (lz_value_spec (sym - 256) s1 ltac:(lia)) as Hlen.
      destruct (lz_value (sym - 256) s1) as [[len s2]|e|]; cbn [bind]; auto.
      destruct Hlen as [Hlen1 Hl2].
      apply (bind_post s2 (read_symbol (g_dist g) s2)); [auto with cost|intros e He; exact He|].
      intros dsym s3 Hl3. cbv beta iota.
      apply (bind_post s3 (lz_value dsym s3)); [apply lz_value_shrinks|intros e He; exact He|].
      intros dcode s4 Hl4. cbv beta iota.
      pose proof (plane_to_dist_pos (e_w c) dcode) as Hd.
      set (dist := plane_to_dist (e_w c) dcode) in *.
      destruct ((pos <? dist) || (total - pos <? len)) eqn:Eguard; [nofuel|].
      apply orb_false_iff in Eguard. destruct Eguard as [G1 G2].
      assert (Hnew : length (copy_pixels (Z.to_nat len) (Z.to_nat dist) acc) = Z.to_nat len).
      { apply copy_pixels_length; [lia|]. intros ->. cbn [length] in Hacc. lia. }
      specialize (IH c total (pos + len) ((pos + len) mod e_w c) ((pos + len) / e_w c)
                     (fold_left (cache_insert (e_cache_bits c)) (copy_pixels (Z.to_nat len) (Z.to_nat dist) acc) cache)
                     (rev_append (copy_pixels (Z.to_nat len) (Z.to_nat dist) acc) acc) s4
                     ltac:(lia) ltac:(rewrite rev_append_rev, app_length, rev_length, Hnew; lia) ltac:(lia)).
      destruct (pixels_loop f c total (pos + len) _ _ _ _ s4) as [[acc' s']|e|]; auto.
      destruct IH as (H1 & H3). split; lia.
    + (* colour cache *)
      destruct (next_xy (e_w c) x y) as [x' y'].
      set (p := arr_get px_zero cache (sym - 280)).
      specialize (IH c total (pos + 1) x' y' (cache_insert (e_cache_bits c) cache p) (p :: acc) s1
                     ltac:(lia) ltac:(cbn [length]; lia) ltac:(lia)).
      destruct (pixels_loop f c total (pos + 1) x' y' _ _ s1) as [[acc' s']|e|]; auto.
      destruct IH as (H1 & H3). split; lia.
Qed.

(** An entropy-coded image of declared size w x h: with fuel 1 + w*h the loop always
    terminates by itself, consumes only input bits, and yields exactly w*h pixels. *)
Theorem decode_pixels_cost c w h s :
  match decode_pixels c w h s with
  | Ok (px, s') => length px = Z.to_nat (w * h) /\ (length s' <= length s)%nat
  | Err e => e <> E_FUEL
  | Panic => False
  end.
Proof.
  unfold decode_pixels.
  pose proof (pixels_loop_cost (S (Z.to_nat (w * h))) c (w * h) 0 0 0 arr_empty [] s
                ltac:(lia) eq_refl ltac:(lia)) as H.
  destruct (pixels_loop _ c (w * h) 0 0 0 arr_empty [] s) as [[acc s']|e|]; cbn [bind]; auto.
  destruct H as (H1 & H3). split; [|exact H3].
  rewrite frev_rev, rev_length, H1. lia.
Qed.

Lemma tree_of_lens_clean lens : clean (tree_of_lens lens).
Proof.
  unfold tree_of_lens. destruct (negb (lens_in_range lens)); [cbn; nofuel|].
  destruct (lens_items lens) as [|[l sym] [|i2 tl]]; [cbn; nofuel|exact I|].
  destruct (kraft_sum lens =? 32768); [exact I|cbn; nofuel].
Qed.

Lemma bind_plain_shrinks {A B} s (r : Res A) (f : A -> Res (B * bits)) :
  clean r -> (forall a, shrinks s (f a)) -> shrinks s (bind r f).
Proof. intros Hr Hk. destruct r as [a|e|]; cbn in *; [apply Hk|exact Hr|contradiction]. Qed.

(** [step x] peels one [bind] off a [shrinks] goal; [x] names the value read (and [s], in
    [step_as], the remaining stream). *)
Ltac step_as x s :=
  let H := fresh "Hshr" in
  first [ apply bind_shrinks; [solve [auto with cost]|intros x s H; cbv beta iota]
        | apply bind_plain_shrinks; [solve [auto using tree_of_lens_clean]|intros x] ].
Ltac step x := let s := fresh "s" in step_as x s.
Ltac fin := first [ apply err_shrinks; nofuel | apply ok_shrinks; lia ].

Lemma read_simple_lens_shrinks alphabet s : shrinks s (read_simple_lens alphabet s).
Proof.
  unfold read_simple_lens. step n2. step first8. step sym0.
  destruct (alphabet <=? sym0); [fin|]. destruct (n2 =? 1); [|fin].
  step sym1. destruct (alphabet <=? sym1); fin.
Qed.

Lemma read_cl_lens_shrinks order : forall n acc s, shrinks s (read_cl_lens order n acc s).
Proof.
  induction order as [|o otl IH]; intros [|n] acc s; cbn [read_cl_lens]; try fin.
  step v. eapply shrinks_weaken; [|apply IH]. lia.
Qed.

(** The code-length loop: every iteration assigns at least one symbol of the alphabet,
    so fuel 1 + (remaining symbols) is always enough. *)
Lemma read_lens_loop_shrinks : forall fuel clt ntok nsym prev acc s,
  (Z.to_nat nsym < fuel)%nat -> shrinks s (read_lens_loop fuel clt ntok nsym prev acc s).
Proof.
  induction fuel as [|f IH]; intros clt ntok nsym prev acc s Hf; [lia|].
  cbn [read_lens_loop]. destruct ((nsym <=? 0) || (ntok <=? 0)) eqn:E; [fin|].
  apply orb_false_iff in E. destruct E as [E1 E2].
  step_as c s'. destruct (c <? 16).
  - eapply shrinks_weaken; [|apply IH; lia]. lia.
  - destruct (if c =? 16 then (2%nat, 3) else if c =? 17 then (3%nat, 3) else (7%nat, 11)) as [eb off] eqn:Eo.
    assert (Hoff : 3 <= off) by (destruct (c =? 16); [|destruct (c =? 17)]; injection Eo as _ <-; lia).
    pose proof (read_bits_spec eb s') as Hb.
    destruct (read_bits eb s') as [[x s2]|e|]; cbn [bind]; [|exact Hb|contradiction].
    destruct Hb as [Hx Hl]. destruct (Z.ltb_spec nsym (off + x)); [fin|].
    eapply shrinks_weaken; [|apply IH; lia]. lia.
Qed.

Lemma read_normal_lens_shrinks alphabet s : shrinks s (read_normal_lens alphabet s).
Proof.
  unfold read_normal_lens. step n.
  apply bind_shrinks; [apply read_cl_lens_shrinks|intros cl s2 Hl2; cbv beta iota].
  step clt. step usemax.
  apply bind_shrinks.
  - destruct (usemax =? 1); [|fin]. step k. step m. destruct (alphabet <? 2 + m); fin.
  - intros ntok s5 Hl5. cbv beta iota. apply read_lens_loop_shrinks. lia.
Qed.

Lemma read_code_shrinks alphabet s : shrinks s (read_code alphabet s).
Proof.
  unfold read_code. step simple.
  apply bind_shrinks; [destruct (simple =? 1); [apply read_simple_lens_shrinks|apply read_normal_lens_shrinks]|].
  intros lens s2 Hl2. cbv beta iota. step t. fin.
Qed.
#[local] Hint Resolve read_code_shrinks : cost.

Lemma read_group_shrinks cs s : shrinks s (read_group cs s).
Proof. unfold read_group. step tg. step tr. step tb. step ta. step td. fin. Qed.
#[local] Hint Resolve read_group_shrinks : cost.

Lemma read_groups_shrinks n : forall cs acc s, shrinks s (read_groups n cs acc s).
Proof.
  induction n as [|n IH]; intros cs acc s; cbn [read_groups]; [fin|].
  step g. eapply shrinks_weaken; [|apply IH]. lia.
Qed.
#[local] Hint Resolve read_groups_shrinks : cost.

Lemma read_cache_bits_shrinks s : shrinks s (read_cache_bits s).
Proof.
  unfold read_cache_bits. step f. destruct (f =? 1); [|fin]. step b.
  destruct ((b <? 1) || (11 <? b)); fin.
Qed.
#[local] Hint Resolve read_cache_bits_shrinks : cost.

Lemma decode_pixels_shrinks c w h s : shrinks s (decode_pixels c w h s).
Proof.
  pose proof (decode_pixels_cost c w h s) as H. unfold shrinks.
  destruct (decode_pixels c w h s) as [[px s']|e|]; tauto.
Qed.
#[local] Hint Resolve decode_pixels_shrinks : cost.

(** A sub-image (transform data, colour table, meta prefix image) of declared size w x h:
    never out of fuel, yields exactly w*h pixels. *)
Theorem decode_sub_image_cost w h s :
  match decode_sub_image w h s with
  | Ok (px, s') => length px = Z.to_nat (w * h) /\ (length s' <= length s)%nat
  | Err e => e <> E_FUEL
  | Panic => False
  end.
Proof.
  unfold decode_sub_image.
  apply (bind_post s (read_cache_bits s)); [auto with cost|auto|]. intros cb s1 Hl1. cbv beta iota.
  apply (bind_post s1 (read_groups 1 (cache_size_of cb) [] s1)); [auto with cost|auto|]. intros gs s2 Hl2. cbv beta iota.
  pose proof (decode_pixels_cost (mkectx w cb 0 0 arr_empty (arr_of_list gs)) w h s2) as H.
  destruct (decode_pixels _ w h s2) as [[px s']|e|]; auto. destruct H. split; [auto|lia].
Qed.

Lemma decode_sub_image_shrinks w h s : shrinks s (decode_sub_image w h s).
Proof.
  pose proof (decode_sub_image_cost w h s) as H. unfold shrinks.
  destruct (decode_sub_image w h s) as [[px s']|e|]; tauto.
Qed.
#[local] Hint Resolve decode_sub_image_shrinks : cost.

Lemma read_transform_shrinks seen w h s : shrinks s (read_transform seen w h s).
Proof.
  unfold read_transform. step ty. destruct (existsb (Z.eqb ty) seen); [fin|].
  destruct (ty =? 2); [fin|]. destruct (ty =? 3).
  - step n. step pal. fin.
  - step b. step data. destruct ((ty =? 0) && negb (forallb (fun p => pg p <? 14) data)); fin.
Qed.

Lemma read_transforms_shrinks fuel : forall seen acc w h s, shrinks s (read_transforms fuel seen acc w h s).
Proof.
  induction fuel as [|f IH]; intros seen acc w h s; cbn [read_transforms]; [fin|].
  step present. destruct (present =? 0); [fin|].
  apply bind_shrinks; [apply read_transform_shrinks|]. intros [t w'] s2 Hl2. cbv beta iota.
  eapply shrinks_weaken; [|apply IH]. lia.
Qed.

Definition dims_ok (w h : Z) : Prop := 1 <= w <= 16384 /\ 1 <= h <= 16384 /\ w * h <= 268435456.

(** For EVERY byte string: the VP8L decoder model never runs out of fuel (all its loops
    terminate within fuel that is linear in the declared pixel count / alphabet size),
    never panics, and the dimensions it accepts are at most 2^14 x 2^14 = 2^28 pixels,
    whatever the header says. *)
Theorem decode_full_cost bytes :
  match decode_full bytes with
  | Ok d => dims_ok (d_w d) (d_h d)
  | Err e => e <> E_FUEL
  | Panic => False
  end.
Proof.
  unfold decode_full. destruct bytes as [|b0 rest]; [nofuel|].
  (* the match accepts the first byte 47 = 0b101111 only: one case split per bit *)
  destruct b0 as [|p|p]; try nofuel. do 6 (destruct p as [p|p|]; try nofuel).
  set (s := bits_of_bytes rest).
  pose proof (read_bits_spec 14 s) as H1.
  destruct (read_bits 14 s) as [[w1 s1]|e|]; cbn [bind]; auto. destruct H1 as [Hw1 _].
  pose proof (read_bits_spec 14 s1) as H2.
  destruct (read_bits 14 s1) as [[h1 s2]|e|]; cbn [bind]; auto. destruct H2 as [Hh1 _].
  change (2 ^ Z.of_nat 14) with 16384 in *.
  apply (bind_post s2 (read_bits 1 s2)); [auto with cost|auto|]. intros alpha s3 _. cbv beta iota.
  apply (bind_post s3 (read_bits 3 s3)); [auto with cost|auto|]. intros ver s4 _. cbv beta iota.
  destruct (negb (ver =? 0)); [nofuel|].
  apply (bind_post s4 (read_transforms 5 [] [] (w1 + 1) (h1 + 1) s4)); [apply read_transforms_shrinks|auto|].
  intros [ts cw] s5 _. cbv beta iota.
  apply (bind_post s5 (read_cache_bits s5)); [auto with cost|auto|]. intros cb s6 _. cbv beta iota.
  apply (bind_post s6 (read_bits 1 s6)); [auto with cost|auto|]. intros hasmeta s7 _. cbv beta iota.
  match goal with |- context [bind ?r _] => apply (bind_post s7 r) end.
  - destruct (hasmeta =? 1); [|cbn; lia].
    apply bind_shrinks; [auto with cost|]. intros b s8 Hl8. cbv beta iota.
    apply bind_shrinks; [auto with cost|]. intros mi s9 Hl9. cbv beta iota. cbn. lia.
  - auto.
  - intros [[mb mw] meta] s8 _. cbv beta iota.
    apply (bind_post s8 (read_groups (Z.to_nat (fold_left Z.max meta 0 + 1)) (cache_size_of cb) [] s8)); [auto with cost|auto|].
    intros gs s9 _. cbv beta iota.
    match goal with |- context [bind ?r _] => apply (bind_post s9 r) end; [auto with cost|auto|].
    intros coded s10 _. cbv beta iota. cbn [d_w d_h]. unfold dims_ok.
    assert ((w1 + 1) * (h1 + 1) <= 16384 * 16384) by (apply Z.mul_le_mono_nonneg; lia). lia.
Qed.

Theorem decode_cost bytes :
  match decode bytes with
  | Ok img => dims_ok (i_w img) (i_h img)
  | Err e => e <> E_FUEL
  | Panic => False
  end.
Proof.
  unfold decode. pose proof (decode_full_cost bytes) as H.
  destruct (decode_full bytes) as [d|e|]; cbn [bind]; auto.
Qed.

(** [decode_cost] on a concrete stream (it decodes to a 1x1 image; the statement does not
    say so). *)
Example decode_cost_example :
  exists img, decode [47; 0; 0; 0; 0; 136; 136; 8] = Ok img \/ exists e, decode [47; 0; 0; 0; 0; 136; 136; 8] = Err e /\ e <> E_FUEL.
Proof.
  destruct (decode [47; 0; 0; 0; 0; 136; 136; 8]) as [img|e|] eqn:E.
  - exists img. left. reflexivity.
  - exists (mkimage 0 0 []). right. exists e. split; [reflexivity|].
    pose proof (decode_cost [47; 0; 0; 0; 0; 136; 136; 8]) as H. rewrite E in H. exact H.
  - pose proof (decode_cost [47; 0; 0; 0; 0; 136; 136; 8]) as H. rewrite E in H. contradiction.
Qed.
