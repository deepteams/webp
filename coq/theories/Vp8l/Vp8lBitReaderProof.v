(** The 64-bit window of LosslessReader holds bits [8*base, 8*base + 64) of V = le_value data,
    [br_bit] of them consumed.  [inv]: the state ReadBits leaves (fewer than 8 pending bits);
    [winv]: the weaker state between the symbol decoder's operations (Vp8lBitReaderFill).
    [bitreader_window_refines]: in-bounds ReadBits = the bit-list reader, flag clear. *)
From Coq Require Import List ZArith Lia Bool.
From Coq Require Import ZifyBool ZifyNat.
From Webp Require Import Base.Res Vp8l.Vp8lPow2 Vp8l.Vp8lPrefix Vp8l.Vp8lBitReader.
From Webp Require Import Base.ListFacts.
Import ListNotations.
Open Scope Z_scope.

Definition bytes_ok (d : list Z) : Prop := Forall (fun b => 0 <= b < 256) d.

Lemma le_value_bound d : bytes_ok d -> 0 <= le_value d < 2 ^ (8 * Z.of_nat (length d)).
Proof.
  induction 1 as [|b tl Hb _ IH]; [cbn; lia|].
  cbn [le_value length]. rewrite Nat2Z.inj_succ.
  replace (8 * Z.succ (Z.of_nat (length tl))) with (8 + 8 * Z.of_nat (length tl)) by lia.
  rewrite Z.pow_add_r by lia. change (2 ^ 8) with 256. lia.
Qed.

Lemma le_value_byte d : bytes_ok d -> forall i, 0 <= i ->
  byte_at d i = (le_value d / 2 ^ (8 * i)) mod 256.
Proof.
  induction 1 as [|b tl Hb Htl IH]; intros i Hi.
  - unfold byte_at. cbn [le_value]. rewrite Z.div_0_l by p2.
    destruct (Z.to_nat i); reflexivity.
  - unfold byte_at in *. cbn [le_value].
    destruct (Z.eq_dec i 0) as [->|Hne].
    + cbn [Z.to_nat nth]. change (2 ^ (8 * 0)) with 1. rewrite Z.div_1_r.
      replace (b + 256 * le_value tl) with (b + le_value tl * 256) by lia.
      rewrite Z.mod_add by lia. symmetry. apply Z.mod_small. exact Hb.
    + replace (Z.to_nat i) with (S (Z.to_nat (i - 1))) by lia. cbn [nth].
      rewrite IH by lia.
      replace (8 * i) with (8 + 8 * (i - 1)) by lia. rewrite Z.pow_add_r by lia.
      rewrite <- Z.div_div by p2. change (2 ^ 8) with 256.
      replace ((b + 256 * le_value tl) / 256) with (le_value tl)
        by (replace (b + 256 * le_value tl) with (b + le_value tl * 256) by lia;
            rewrite Z.div_add by lia; rewrite (Z.div_small b) by lia; lia).
      reflexivity.
Qed.

Lemma le_value_firstn d : bytes_ok d -> forall n, le_value (firstn n d) = le_value d mod 2 ^ (8 * Z.of_nat n).
Proof.
  induction 1 as [|b tl Hb Htl IH]; intros n.
  - rewrite firstn_nil. cbn [le_value]. now rewrite Z.mod_0_l by p2.
  - destruct n as [|n]; [cbn; now rewrite Z.mod_1_r|].
    cbn [firstn le_value]. rewrite IH. rewrite Nat2Z.inj_succ.
    replace (8 * Z.succ (Z.of_nat n)) with (8 + 8 * Z.of_nat n) by lia. rewrite Z.pow_add_r by lia.
    change (2 ^ 8) with 256.
    rewrite (Z.rem_mul_r (b + 256 * le_value tl) 256 (2 ^ (8 * Z.of_nat n))) by p2.
    replace (b + 256 * le_value tl) with (b + le_value tl * 256) by lia.
    rewrite Z.mod_add, Z.div_add by lia.
    rewrite (Z.mod_small b), (Z.div_small b) by lia. rewrite Z.add_0_l. lia.
Qed.

Lemma byte_bits_value_small : forall n b, 0 <= b < 2 ^ Z.of_nat n -> bits_value (byte_bits n b) = b.
Proof.
  induction n as [|n IH]; intros b Hb; [cbn in *; lia|].
  cbn [byte_bits bits_value].
  assert (E : 2 ^ Z.of_nat (S n) = 2 * 2 ^ Z.of_nat n) by (rewrite Nat2Z.inj_succ, Z.pow_succ_r by lia; reflexivity).
  rewrite IH by (split; [apply Z.div_pos; lia|apply Z.div_lt_upper_bound; lia]).
  rewrite (Z.div_mod b 2) at 3 by lia. rewrite Zmod_odd. destruct (Z.odd b); lia.
Qed.

Lemma bits_value_app a b : bits_value (a ++ b) = bits_value a + 2 ^ Z.of_nat (length a) * bits_value b.
Proof.
  induction a as [|x a IH]; [cbn [app bits_value length]; change (2 ^ Z.of_nat 0) with 1; lia|].
  cbn [app bits_value length]. rewrite IH, Nat2Z.inj_succ, Z.pow_succ_r by lia. lia.
Qed.

Lemma byte_bits_length n b : length (byte_bits n b) = n.
Proof. revert b; induction n as [|n IH]; intros b; cbn [byte_bits length]; [reflexivity|now rewrite IH]. Qed.

Lemma bits_of_bytes_value d : bytes_ok d -> bits_value (bits_of_bytes d) = le_value d.
Proof.
  induction 1 as [|b tl Hb _ IH]; [reflexivity|].
  unfold bits_of_bytes in *. cbn [flat_map le_value]. rewrite bits_value_app, byte_bits_length, IH.
  rewrite byte_bits_value_small by (cbn; lia). reflexivity.
Qed.

Lemma bits_of_bytes_length d : length (bits_of_bytes d) = (8 * length d)%nat.
Proof.
  induction d as [|b tl IH]; [reflexivity|]. unfold bits_of_bytes in *. cbn [flat_map length].
  rewrite app_length, byte_bits_length, IH. lia.
Qed.

Lemma read_bits_value : forall n s, (n <= length s)%nat ->
  read_bits n s = Ok (bits_value s mod 2 ^ Z.of_nat n, skipn n s).
Proof.
  induction n as [|n IH]; intros s Hn.
  - cbn [read_bits skipn]. change (2 ^ Z.of_nat 0) with 1. now rewrite Z.mod_1_r.
  - destruct s as [|b tl]; [cbn in Hn; lia|]. cbn [read_bits skipn bits_value]. cbn [length] in Hn.
    rewrite IH by lia. cbn [bind]. f_equal. f_equal.
    rewrite Nat2Z.inj_succ, Z.pow_succ_r by lia.
    pose proof (bits_value_nonneg tl).
    rewrite Z.rem_mul_r by p2.
    replace ((if b then 1 else 0) + 2 * bits_value tl) with ((if b then 1 else 0) + bits_value tl * 2) by lia.
    rewrite Z.mod_add, Z.div_add by lia. destruct b; cbn; lia.
Qed.

Lemma bits_value_skipn : forall n s, bits_value (skipn n s) = bits_value s / 2 ^ Z.of_nat n.
Proof.
  induction n as [|n IH]; intros s; [cbn [skipn]; change (2 ^ Z.of_nat 0) with 1; now rewrite Z.div_1_r|].
  destruct s as [|b tl].
  - cbn [skipn bits_value]. now rewrite Z.div_0_l by p2.
  - cbn [skipn bits_value]. rewrite IH, Nat2Z.inj_succ, Z.pow_succ_r by lia.
    rewrite <- Z.div_div by p2.
    replace ((if b then 1 else 0) + 2 * bits_value tl) with ((if b then 1 else 0) + bits_value tl * 2) by lia.
    rewrite Z.div_add by lia. destruct b; reflexivity.
Qed.

Section Reader.
  Variable data : list Z.
  Hypothesis Hdata : bytes_ok data.
  Let V := le_value data.
  Let L := Z.of_nat (length data).

  Definition base (r : breader) : Z := if L <? 8 then 0 else br_pos r - 8.

  (** [p] = number of bits consumed so far *)
  Definition pinv (r : breader) (p : Z) : Prop :=
    br_eos r = false /\ br_data r = data /\ 0 <= br_bit r /\ br_pos r <= L /\
    (L < 8 -> br_pos r = L) /\ (8 <= L -> 8 <= br_pos r) /\
    br_val r = (V / 2 ^ (8 * base r)) mod 2 ^ 64 /\ p = 8 * base r + br_bit r.

  Definition inv (r : breader) (p : Z) : Prop :=
    pinv r p /\ (br_pos r < L -> br_bit r < 8) /\ p <= 8 * L.

  Lemma V_bound : 0 <= V < 2 ^ (8 * L).
  Proof. unfold V, L. apply le_value_bound, Hdata. Qed.

  Lemma pinv_eos r p : pinv r p -> br_eos r = false.
  Proof. intros H. apply H. Qed.

  Lemma pinv_len r p : pinv r p -> br_len r = L.
  Proof. intros (_ & Hd & _). unfold br_len. now rewrite Hd. Qed.

  Lemma pinv_val r p : pinv r p -> br_val r = (V / 2 ^ (8 * base r)) mod 2 ^ 64.
  Proof. intros H. apply H. Qed.

  (** All but the window's content; the window reaches byte [br_pos r] or beyond (data shorter than
      the window).  With this [base r] stays an atom for lia. *)
  Lemma pinv_arith r p : pinv r p ->
    0 <= br_bit r /\ br_pos r <= L /\ p = 8 * base r + br_bit r /\ 0 <= base r /\
    8 * br_pos r <= 8 * base r + 64 /\ (8 <= L -> base r = br_pos r - 8) /\ (L < 8 -> br_pos r = L).
  Proof.
    intros (_ & _ & Hb & Hpos & Hs & Hl & _ & Hpp). unfold base in *.
    destruct (L <? 8) eqn:E; lia.
  Qed.

  Lemma inv_new : inv (br_new data) 0.
  Proof.
    pose proof V_bound as VB.
    assert (Hv : le_value (firstn (Nat.min 8 (length data)) data) = V mod 2 ^ 64).
    { rewrite (le_value_firstn data Hdata). fold V.
      destruct (Z.le_ge_cases 8 L) as [H8|H8].
      - now replace (Nat.min 8 (length data)) with 8%nat by lia.
      - replace (Nat.min 8 (length data)) with (length data) by lia. fold L.
        assert (2 ^ (8 * L) <= 2 ^ 64) by (apply Z.pow_le_mono_r; lia).
        now rewrite !Z.mod_small by lia. }
    unfold inv, pinv, br_new, base. cbn [br_eos br_data br_bit br_pos br_val]. rewrite Hv. clear Hv.
    destruct (L <? 8) eqn:E.
    - replace (Nat.min 8 (length data)) with (length data) by lia. fold L.
      change (2 ^ (8 * 0)) with 1. rewrite Z.div_1_r. repeat split; lia.
    - replace (Nat.min 8 (length data)) with 8%nat by lia.
      change (Z.of_nat 8 - 8) with 0. change (2 ^ (8 * 0)) with 1. rewrite Z.div_1_r. repeat split; lia.
  Qed.

  Lemma pinv_set_bit r p k : pinv r p -> 0 <= br_bit r + k -> pinv (br_set_bit (br_bit r + k) r) (p + k).
  Proof.
    intros (He & Hd & Hb & Hpos & Hs & Hl & Hv & Hpp) Hk.
    repeat split; try assumption.
    change (p + k = 8 * base r + (br_bit r + k)). rewrite Hpp. ring.
  Qed.

  Lemma pinv_load r p k w : pinv r p -> 0 < k <= 8 -> br_pos r + k <= L -> 8 * k <= br_bit r ->
    w = (V / 2 ^ (8 * br_pos r)) mod 2 ^ (8 * k) ->
    pinv (mkbr (br_val r / 2 ^ (8 * k) + w * 2 ^ (64 - 8 * k)) (br_data r) (br_pos r + k)
               (br_bit r - 8 * k) (br_eos r)) p.
  Proof.
    intros Hp Hk Hfit Hbit ->.
    destruct (pinv_arith r p Hp) as (Hb & Hpos & Hpp & Hb0 & Hwin & Hbase & Hshort).
    assert (Eb : base r = br_pos r - 8) by lia.
    assert (E8 : (L <? 8) = false) by lia.
    rewrite (pinv_val r p Hp), Eb. rewrite Eb in Hpp.
    destruct Hp as (He & Hd & _).
    unfold pinv, base. cbn [br_eos br_data br_bit br_pos br_val]. rewrite E8.
    split; [exact He|]. split; [exact Hd|]. split; [lia|]. split; [lia|]. split; [lia|]. split; [lia|].
    split; [|lia].
    set (X := V / 2 ^ (8 * (br_pos r - 8))).
    replace (V / 2 ^ (8 * br_pos r)) with (X / 2 ^ 64)
      by (unfold X; rewrite div_pow_pow by lia; do 2 f_equal; lia).
    rewrite window_shift by lia.
    unfold X. rewrite div_pow_pow by lia. do 3 f_equal. lia.
  Qed.

  Lemma shift_loop_inv : forall fuel r p, pinv r p -> (Z.to_nat (br_bit r / 8) < fuel)%nat ->
    pinv (br_shift_loop fuel r) p /\
    (br_pos (br_shift_loop fuel r) < L -> br_bit (br_shift_loop fuel r) < 8).
  Proof.
    induction fuel as [|fuel IH]; intros r p Hp Hf; [lia|].
    cbn [br_shift_loop]. rewrite (pinv_len r p Hp).
    destruct (pinv_arith r p Hp) as (Hb & Hpos & _ & Hb0 & _ & Hbase & Hshort).
    destruct ((8 <=? br_bit r) && (br_pos r <? L))%bool eqn:E.
    - apply IH.
      + apply (pinv_load r p 1); [exact Hp|lia|lia|lia|].
        destruct Hp as (_ & -> & _). apply (le_value_byte data Hdata). lia.
      + cbn [br_bit].
        replace (br_bit r - 8) with (br_bit r + (-1) * 8) by lia. rewrite Z.div_add by lia.
        assert (1 <= br_bit r / 8) by (apply Z.div_le_lower_bound; lia). lia.
    - split; [exact Hp|]. lia.
  Qed.

  Lemma not_eos r p : pinv r p -> br_bit r <= 64 -> br_is_eos r = false.
  Proof.
    intros Hp H. unfold br_is_eos. rewrite (pinv_eos r p Hp). cbn [orb].
    replace (64 <? br_bit r) with false by lia. apply andb_false_r.
  Qed.

  Lemma shift_bytes_inv r p : pinv r p -> p <= 8 * L -> inv (br_shift_bytes r) p.
  Proof.
    intros Hp Hle. unfold br_shift_bytes. cbv zeta.
    destruct (shift_loop_inv (S (Z.to_nat (br_bit r / 8))) r p Hp ltac:(lia)) as (Hp2 & Hsm2).
    set (r2 := br_shift_loop _ r) in *.
    rewrite (not_eos r2 p Hp2) by (destruct (pinv_arith r2 p Hp2) as (? & ? & ? & ? & ? & _); lia).
    split; [exact Hp2|]. split; assumption.
  Qed.

  Lemma shift_bytes_eos r p : pinv r p -> 8 <= L -> 8 * L < p -> br_is_eos (br_shift_bytes r) = true.
  Proof.
    intros Hp H8 Hover. unfold br_shift_bytes. cbv zeta.
    destruct (shift_loop_inv (S (Z.to_nat (br_bit r / 8))) r p Hp ltac:(lia)) as (Hp2 & Hsm2).
    set (r2 := br_shift_loop _ r) in *.
    assert (Heos : br_is_eos r2 = true).
    { unfold br_is_eos. rewrite (pinv_eos r2 p Hp2), (pinv_len r2 p Hp2). cbn [orb].
      destruct (pinv_arith r2 p Hp2) as (? & ? & ? & ? & ? & ? & _). lia. }
    rewrite Heos. reflexivity.
  Qed.

  (** ReadBits(n) on a clear flag: prefetch, advance the bit position, shiftBytes *)
  Lemma read_bits_unfold r p n : pinv r p -> 0 <= n <= 24 ->
    br_read_bits n r = (br_prefetch r mod 2 ^ n, br_shift_bytes (br_set_bit (br_bit r + n) r)) /\
    pinv (br_set_bit (br_bit r + n) r) (p + n).
  Proof.
    intros Hp Hn. split.
    - unfold br_read_bits.
      replace (negb (br_eos r) && (0 <=? n) && (n <=? 24))%bool with true; [reflexivity|].
      rewrite (pinv_eos r p Hp). lia.
    - apply pinv_set_bit; [exact Hp|]. destruct (pinv_arith r p Hp) as (? & _). lia.
  Qed.

  (** n <= 32: PrefetchBits returns a uint32 *)
  Lemma prefetch_field r p n : pinv r p -> 0 <= n <= 32 -> br_bit r + n <= 64 ->
    br_prefetch r mod 2 ^ n = (V / 2 ^ p) mod 2 ^ n.
  Proof.
    intros Hp Hn Hroom.
    destruct (Z.eq_dec n 0) as [->|Hn0]; [change (2 ^ 0) with 1; now rewrite !Z.mod_1_r|].
    destruct (pinv_arith r p Hp) as (Hb & _ & Hpp & Hb0 & _).
    unfold br_prefetch. rewrite (Z.mod_small (br_bit r) 64) by lia.
    rewrite mod_mod_pow by lia.
    rewrite (pinv_val r p Hp), window_field by lia.
    now rewrite div_pow_pow, <- Hpp by lia.
  Qed.

  (** [inv] without "fewer than 8 pending bits", which SetBitPos breaks; [slack] bits may be consumed
      before the next refill: 56 after shiftBytes, at least 32 after FillBitWindow (it refills once
      32 are pending).  [inv] is slack = 56; lemmas are proved for [winv] and specialised. *)
  Definition winv (r : breader) (p slack : Z) : Prop :=
    pinv r p /\ br_bit r <= 64 /\ p <= 8 * L /\ 0 <= slack <= 56 /\
    (br_bit r + slack <= 64 \/ br_pos r = L).

  Lemma inv_winv r p slack : inv r p -> 0 <= slack <= 56 -> winv r p slack.
  Proof.
    intros (Hp & Hsmall & Hple) Hsl.
    destruct (pinv_arith r p Hp) as (? & ? & ? & ? & ? & _).
    split; [exact Hp|]. lia.
  Qed.

  Lemma winv_not_eos r p slack : winv r p slack -> br_is_eos r = false.
  Proof. intros (Hp & H64 & _). exact (not_eos r p Hp H64). Qed.

  Lemma winv_room r p slack k : winv r p slack -> 0 <= k <= slack -> p + k <= 8 * L -> br_bit r + k <= 64.
  Proof.
    intros (Hp & _ & _ & _ & Hor) Hk Hfit.
    destruct (pinv_arith r p Hp) as (? & ? & ? & ? & ? & _). lia.
  Qed.

  Lemma read_bits_winv r p slack n : winv r p slack -> 0 <= n <= 24 -> n <= slack -> p + n <= 8 * L ->
    fst (br_read_bits n r) = (V / 2 ^ p) mod 2 ^ n /\ inv (snd (br_read_bits n r)) (p + n).
  Proof.
    intros W Hn Hsl Hfit. pose proof (winv_room r p slack n W ltac:(lia) Hfit) as Hroom.
    destruct W as (Hp & _).
    destruct (read_bits_unfold r p n Hp Hn) as [-> Hp1]. cbn [fst snd].
    split; [apply (prefetch_field r p n Hp); lia|apply shift_bytes_inv; assumption].
  Qed.

  Lemma inv_not_eos r p : inv r p -> br_is_eos r = false.
  Proof. intros H. exact (winv_not_eos r p 56 (inv_winv r p 56 H ltac:(lia))). Qed.

  Lemma read_bits_inv r p n : inv r p -> 0 <= n <= 24 -> p + n <= 8 * L ->
    fst (br_read_bits n r) = (V / 2 ^ p) mod 2 ^ n /\ inv (snd (br_read_bits n r)) (p + n).
  Proof. intros H Hn Hfit. apply (read_bits_winv r p 56 n (inv_winv r p 56 H ltac:(lia))); lia. Qed.
End Reader.

Fixpoint spec_reads (ns : list Z) (s : bits) : list Z :=
  match ns with
  | [] => []
  | n :: tl => match read_bitsZ n s with
               | Ok (v, s') => v :: spec_reads tl s'
               | _ => []
               end
  end.

Definition total (ns : list Z) : Z := fold_right Z.add 0 ns.

Lemma total_nonneg ns : Forall (fun n => 0 <= n) ns -> 0 <= total ns.
Proof. induction 1 as [|n tl Hn _ IH]; cbn [total fold_right]; [lia|]. fold (total tl). lia. Qed.

Lemma spec_reads_cons data : bytes_ok data -> forall n tl p,
  0 <= p -> 0 <= n -> p + n <= 8 * Z.of_nat (length data) ->
  spec_reads (n :: tl) (skipn (Z.to_nat p) (bits_of_bytes data)) =
  (le_value data / 2 ^ p) mod 2 ^ n :: spec_reads tl (skipn (Z.to_nat (p + n)) (bits_of_bytes data)).
Proof.
  intros Hd n tl p Hp Hn Hfit. cbn [spec_reads]. unfold read_bitsZ.
  rewrite read_bits_value by (rewrite skipn_length, bits_of_bytes_length; lia).
  rewrite bits_value_skipn, (bits_of_bytes_value data Hd), !Z2Nat.id by lia.
  rewrite skipn_plus. do 3 f_equal. lia.
Qed.

Lemma run_refines data : bytes_ok data -> forall ns r p,
  inv data r p -> Forall (fun n => 0 <= n <= 24) ns -> p + total ns <= 8 * Z.of_nat (length data) ->
  br_run ns r = map (fun v => (v, false)) (spec_reads ns (skipn (Z.to_nat p) (bits_of_bytes data))).
Proof.
  intros Hd. induction ns as [|n tl IH]; intros r p Hinv Hns Htot; [reflexivity|].
  inversion Hns as [|? ? Hn Htl]; subst. cbn [total fold_right] in Htot. fold (total tl) in Htot.
  assert (Htl0 : 0 <= total tl) by (apply total_nonneg; eapply Forall_impl; [|exact Htl]; cbn; lia).
  assert (Hp0 : 0 <= p) by (destruct (pinv_arith data r p (proj1 Hinv)) as (? & ? & ? & ? & _); lia).
  destruct (read_bits_inv data Hd r p n Hinv Hn ltac:(lia)) as [Hv Hinv'].
  rewrite (spec_reads_cons data Hd) by lia.
  cbn [br_run map]. replace (0 <=? n) with true by lia.
  destruct (br_read_bits n r) as [v r']. cbn [fst snd] in Hv, Hinv'.
  now rewrite (IH r' (p + n) Hinv' Htl ltac:(lia)), Hv, (inv_not_eos data r' (p + n) Hinv').
Qed.

Theorem bitreader_window_refines : forall data ns,
  bytes_ok data -> Forall (fun n => 0 <= n <= 24) ns -> total ns <= 8 * Z.of_nat (length data) ->
  br_run ns (br_new data) = map (fun v => (v, false)) (spec_reads ns (bits_of_bytes data)).
Proof.
  intros data ns Hd Hns Htot.
  exact (run_refines data Hd ns (br_new data) 0 (inv_new data Hd) Hns Htot).
Qed.

Lemma spec_reads_length : forall ns s, Forall (fun n => 0 <= n) ns -> total ns <= Z.of_nat (length s) ->
  length (spec_reads ns s) = length ns.
Proof.
  induction ns as [|n tl IH]; intros s Hns Htot; [reflexivity|].
  inversion Hns as [|? ? Hn Htl]; subst. cbn [total fold_right] in Htot. fold (total tl) in Htot.
  pose proof (total_nonneg tl Htl) as Htl0.
  cbn [spec_reads]. unfold read_bitsZ. rewrite read_bits_value by lia. cbn [length].
  rewrite IH; [reflexivity|exact Htl|rewrite skipn_length; lia].
Qed.

(** The read that crosses the end of a buffer of at least 8 bytes raises the flag.
    (With fewer than 8 bytes the code raises it only once more than 64 bits have
    been consumed: IsEndOfStream tests bitPos > 64 — reads between the end of such a
    short buffer and bit 64 return zeros without any flag.) *)
Lemma read_past_end_sets_eos data : bytes_ok data -> 8 <= Z.of_nat (length data) ->
  forall r p n, inv data r p -> 0 <= n <= 24 -> 8 * Z.of_nat (length data) < p + n ->
  br_is_eos (snd (br_read_bits n r)) = true.
Proof.
  intros Hd H8 r p n (Hp & _) Hn Hover.
  destruct (read_bits_unfold data r p n Hp Hn) as [-> Hp1]. cbn [snd].
  exact (shift_bytes_eos data Hd _ (p + n) Hp1 H8 Hover).
Qed.
