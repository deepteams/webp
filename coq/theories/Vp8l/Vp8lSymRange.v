(** C05, codec layer: a symbol decoded with a prefix code built from a code-length vector
    is an index of that vector — the guard behind every table lookup that follows a
    ReadSymbol (colour-cache index, length/distance prefix, code-length code): for EVERY
    length vector the decoder accepts and EVERY bit stream,
    0 <= symbol < number of code lengths (= alphabet size). *)
From Coq Require Import List ZArith Lia Bool Sorting.Sorted.
From Coq Require Import ZifyBool ZifyNat.
From Webp Require Import Base.Res Vp8l.Vp8lArr Vp8l.Vp8lPrefix Vp8l.Vp8lCanon.
Import ListNotations.
Open Scope Z_scope.

Lemma read_symbol_leaf t : forall d s v s', read_symbol t s = Ok (v, s') -> exists k, In (k, v) (leaves d t).
Proof.
  induction t as [x|l IHl r IHr|]; intros d s v s' H; cbn [read_symbol] in H.
  - injection H as <- _. exists d. left. reflexivity.
  - destruct s as [|b tl]; [discriminate|]. cbn [leaves]. destruct b.
    + destruct (IHr (d + 1) tl v s' H) as [k Hk]. exists k. apply in_or_app. right. exact Hk.
    + destruct (IHl (d + 1) tl v s' H) as [k Hk]. exists k. apply in_or_app. left. exact Hk.
  - discriminate.
Qed.

Theorem symbol_in_alphabet lens t s v s' :
  tree_of_lens lens = Ok t -> read_symbol t s = Ok (v, s') -> 0 <= v < Z.of_nat (length lens).
Proof.
  intros Ht Hr.
  assert (exists k, In (k, v) (lens_items lens)) as [k Hk]; [|apply lens_items_In in Hk; tauto].
  destruct (tree_of_lens_inv lens t Ht) as [(l0 & s0 & -> & ->)|(_ & <- & _)].
  - injection Hr as <- _. exists l0. now left.
  - exact (read_symbol_leaf t 0 s v s' Hr).
Qed.
