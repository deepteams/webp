(** Implementation model of /repo's Huffman lookup tables (internal/lossless/huffman.go):
    [lut_build] transcribes BuildHuffmanTable (symbols sorted by (length, symbol), bit-reversed
    key advanced by getNextKey, replicate step, second-level tables sized by nextTableBitSize and
    linked from the root slot), [lut_read] transcribes ReadSymbol.  They are compared with [walk],
    the canonical code tree followed along the bits of a window; second-level tables: [Vp8lLut2]. *)
From Coq Require Import List ZArith Lia Bool Sorting.Sorted.
From Coq Require Import ZifyBool ZifyNat.
From Webp Require Import Base.Res Vp8l.Vp8lPow2 Vp8l.Vp8lArr Vp8l.Vp8lPrefix Vp8l.Vp8lCanon.
Import ListNotations.
Open Scope Z_scope.

Definition entry : Type := (Z * Z)%type.        (* (Bits, Value) *)
Definition entry0 : entry := (0, 0).

(** getNextKey(key, len): reverse(reverse(key, len) + 1, len). *)
Fixpoint next_key (n : nat) (key : Z) : Z :=
  match n with
  | O => key
  | S n' => if Z.odd (key / 2 ^ Z.of_nat n') then next_key n' key
            else key mod 2 ^ Z.of_nat n' + 2 ^ Z.of_nat n'
  end.

(** replicateValue(table[base:], step, cnt*step, code): slots base + k*step, k < cnt. *)
Fixpoint replicate (cnt : nat) (tab : arr entry) (base step : Z) (code : entry) : arr entry :=
  match cnt with
  | O => tab
  | S c => replicate c (arr_set tab (base + Z.of_nat c * step) code) base step code
  end.

(** nextTableBitSize(count, len, rootBits), with count[l] = number of symbols of
    length l not yet placed (= those in [items], the current one included). *)
Definition count_rem (items : list (Z * Z)) (l : Z) : Z :=
  Z.of_nat (length (filter (fun it => fst it =? l) items)).

Fixpoint next_table_bits (fuel : nat) (items : list (Z * Z)) (len left root : Z) : Z :=
  match fuel with
  | O => len - root
  | S f =>
    if 15 <=? len then len - root
    else let left := left - count_rem items len in
         if left <=? 0 then len - root
         else next_table_bits f items (len + 1) (left * 2) root
  end.

Record lstate := mkl { l_key : Z; l_tab : arr entry; l_low : Z; l_off : Z; l_size : Z }.

Fixpoint lut_fill (root : Z) (items : list (Z * Z)) (st : lstate) : lstate :=
  match items with
  | [] => st
  | (l, s) :: tl =>
    if l <=? root then
      let tab := replicate (Z.to_nat (2 ^ (root - l))) (l_tab st) (l_key st) (2 ^ l) (l, s) in
      lut_fill root tl (mkl (next_key (Z.to_nat l) (l_key st)) tab (l_low st) (l_off st) (l_size st))
    else
      let pre := l_key st mod 2 ^ root in
      let st1 :=
        if pre =? l_low st then st
        else
          let off := l_off st + l_size st in
          let tb := next_table_bits 16 items l (2 ^ (l - root)) root in
          mkl (l_key st) (arr_set (l_tab st) pre (tb + root, off)) pre off (2 ^ tb) in
      let step := 2 ^ (l - root) in
      let tab := replicate (Z.to_nat (l_size st1 / step)) (l_tab st1) (l_off st1 + l_key st / 2 ^ root) step (l - root, s) in
      lut_fill root tl (mkl (next_key (Z.to_nat l) (l_key st)) tab (l_low st1) (l_off st1) (l_size st1))
  end.

(** BuildHuffmanTable(rootBits, codeLengths): error unless exactly one symbol is
    used or the code is complete. *)
Definition lut_build (root : Z) (lens : list Z) : Res (arr entry) :=
  if negb (lens_in_range lens) then Err E_CODE else
  match lens_items lens with
  | [] => Err E_CODE
  | [(_, s)] => Ok (replicate (Z.to_nat (2 ^ root)) arr_empty 0 1 (0, s))
  | items =>
    if kraft_sum lens =? 32768
    then Ok (l_tab (lut_fill root items (mkl 0 arr_empty (-1) 0 (2 ^ root))))
    else Err E_CODE
  end.

(** ReadSymbol(table, prefetch) -> (value, bits used) *)
Definition lut_read (root : Z) (tab : arr entry) (w : Z) : Z * Z :=
  let '(b, v) := arr_get entry0 tab (w mod 2 ^ root) in
  let nb := b - root in
  if 0 <? nb then
    let '(b2, v2) := arr_get entry0 tab (v + (w / 2 ^ root) mod 2 ^ nb) in
    (v2, root + b2)
  else (v, b).

(** The specification side: walk the code tree along the bits of [w], least
    significant bit first; returns the symbol and the number of bits consumed. *)
Definition bump (r : option (Z * Z)) : option (Z * Z) :=
  match r with Some (v, n) => Some (v, n + 1) | None => None end.

Fixpoint walk (t : tree) (w : Z) : option (Z * Z) :=
  match t with
  | Leaf v => Some (v, 0)
  | Hole => None
  | Node l r => if Z.odd w then bump (walk r (w / 2)) else bump (walk l (w / 2))
  end.

Lemma walk_Node l r w v n : walk (Node l r) w = Some (v, n) ->
  exists n', n = n' + 1 /\ walk (if Z.odd w then r else l) (w / 2) = Some (v, n').
Proof.
  cbn [walk]. intros H.
  destruct (Z.odd w); [destruct (walk r (w / 2)) as [[v' n']|]|destruct (walk l (w / 2)) as [[v' n']|]];
    cbn [bump] in H; try discriminate; injection H as <- <-; eauto.
Qed.

Lemma walk_nonneg t : forall w v n, walk t w = Some (v, n) -> 0 <= n.
Proof.
  induction t as [s|l IHl r IHr|]; intros w v n H; [injection H as _ <-; lia| |discriminate].
  apply walk_Node in H. destruct H as (n' & -> & H).
  destruct (Z.odd w); [apply IHr in H|apply IHl in H]; lia.
Qed.

(** [walk] is [read_symbol] on the bit list of the window. *)
Lemma walk_read_symbol t : forall w v n k rest, walk t w = Some (v, n) -> (Z.to_nat n <= k)%nat ->
  read_symbol t (put_bits k w ++ rest) = Ok (v, put_bits (k - Z.to_nat n) (w / 2 ^ n) ++ rest).
Proof.
  induction t as [s|l IHl r IHr|]; intros w v n k rest H Hk; [| |discriminate].
  - injection H as <- <-. cbn [read_symbol]. rewrite Nat.sub_0_r. change (2 ^ 0) with 1. now rewrite Z.div_1_r.
  - apply walk_Node in H. destruct H as (n' & -> & H). pose proof (walk_nonneg _ _ _ _ H) as Hn'.
    destruct k as [|k']; [lia|]. cbn [put_bits app read_symbol].
    replace (S k' - Z.to_nat (n' + 1))%nat with (k' - Z.to_nat n')%nat by lia.
    replace (w / 2 ^ (n' + 1)) with (w / 2 / 2 ^ n')
      by (rewrite pow2_double, Z.div_div by p2; reflexivity).
    destruct (Z.odd w); [apply IHr|apply IHl]; (assumption || lia).
Qed.

Lemma walk_complete t : complete t -> forall w, exists v n, walk t w = Some (v, n).
Proof.
  induction t as [v|l IHl r IHr|]; intros Hc w; cbn [complete] in Hc; [cbn; eauto| |contradiction].
  destruct Hc as [Hl Hr]. cbn [walk]. destruct (Z.odd w).
  - destruct (IHr Hr (w / 2)) as (v & n & ->). cbn; eauto.
  - destruct (IHl Hl (w / 2)) as (v & n & ->). cbn; eauto.
Qed.

Lemma walk_depth_le m : forall t k w v n, walk t w = Some (v, n) ->
  Forall (fun it => fst it <= m) (leaves k t) -> k + n <= m.
Proof.
  induction t as [a|a IHa b IHb|]; intros k w v n H HF; [| |discriminate].
  - injection H as _ <-. inversion HF; subst. cbn [fst] in *. lia.
  - apply walk_Node in H. destruct H as (n' & -> & H).
    cbn [leaves] in HF. apply Forall_app in HF. destruct HF as [Fa Fb].
    destruct (Z.odd w); [specialize (IHb _ _ _ _ H Fb)|specialize (IHa _ _ _ _ H Fa)]; lia.
Qed.

Lemma walk_agree t : forall w w' v n, walk t w = Some (v, n) ->
  w mod 2 ^ n = w' mod 2 ^ n -> walk t w' = Some (v, n).
Proof.
  induction t as [s|l IHl r IHr|]; intros w w' v n H Hm; [exact H| |discriminate].
  apply walk_Node in H. destruct H as (n' & -> & H). pose proof (walk_nonneg _ _ _ _ H) as Hn'.
  (* the windows agree on bit 0 and, shifted, on the next n' bits *)
  rewrite pow2_double in Hm by lia.
  assert (Hp : 0 < 2 ^ n') by p2.
  rewrite !Z.rem_mul_r, !Zmod_odd in Hm by lia.
  pose proof (Z.mod_pos_bound (w / 2) (2 ^ n') Hp). pose proof (Z.mod_pos_bound (w' / 2) (2 ^ n') Hp).
  assert (Hodd : Z.odd w = Z.odd w') by (destruct (Z.odd w), (Z.odd w'); (reflexivity || lia)).
  assert (Hhigh : (w / 2) mod 2 ^ n' = (w' / 2) mod 2 ^ n') by (rewrite Hodd in Hm; lia).
  cbn [walk]. rewrite <- Hodd.
  destruct (Z.odd w); [rewrite (IHr _ _ _ _ H Hhigh)|rewrite (IHl _ _ _ _ H Hhigh)]; reflexivity.
Qed.

Lemma walk_low m t dn w : complete t -> Forall (fun it => fst it <= m) (leaves dn t) ->
  walk t (w mod 2 ^ (m - dn)) = walk t w.
Proof.
  intros Hc Hle. destruct (walk_complete t Hc w) as (v & n & Ew). rewrite Ew.
  pose proof (walk_nonneg _ _ _ _ Ew). pose proof (walk_depth_le m t dn w v n Ew Hle).
  apply (walk_agree t w _ v n Ew). symmetry. apply mod_mod_pow. lia.
Qed.

Lemma replicate_get : forall cnt tab base step code j, 0 <= base -> 0 < step ->
  arr_get entry0 (replicate cnt tab base step code) j =
  if (base <=? j) && ((j - base) mod step =? 0) && ((j - base) / step <? Z.of_nat cnt)
  then code else arr_get entry0 tab j.
Proof.
  induction cnt as [|c IH]; intros tab base step code j Hb Hs.
  - cbn [replicate]. destruct (base <=? j) eqn:E; cbn [andb]; [|reflexivity].
    assert (0 <= (j - base) / step) by (apply Z.div_pos; lia).
    replace ((j - base) / step <? Z.of_nat 0) with false by lia. now rewrite andb_false_r.
  - cbn [replicate]. rewrite IH by assumption.
    destruct ((base <=? j) && ((j - base) mod step =? 0) && ((j - base) / step <? Z.of_nat c))%bool eqn:E1.
    + replace ((base <=? j) && ((j - base) mod step =? 0) && ((j - base) / step <? Z.of_nat (S c)))%bool with true; [reflexivity|].
      symmetry. apply andb_true_iff in E1. destruct E1 as [E1 E3]. rewrite E1. cbn [andb]. lia.
    + destruct (Z.eq_dec j (base + Z.of_nat c * step)) as [->|Hne].
      * rewrite arr_get_set_same by nia.
        replace (base + Z.of_nat c * step - base) with (Z.of_nat c * step) by lia.
        rewrite Z.mod_mul, Z.div_mul by lia.
        replace (base <=? base + Z.of_nat c * step) with true by nia.
        cbn [andb Z.eqb]. replace (Z.of_nat c <? Z.of_nat (S c)) with true by lia. reflexivity.
      * rewrite arr_get_set_other by nia.
        replace ((base <=? j) && ((j - base) mod step =? 0) && ((j - base) / step <? Z.of_nat (S c)))%bool with false; [reflexivity|].
        symmetry. apply andb_false_iff. apply andb_false_iff in E1.
        destruct E1 as [E1|E1]; [left; exact E1|].
        destruct ((base <=? j) && ((j - base) mod step =? 0))%bool eqn:E0; [right|left; reflexivity].
        apply andb_true_iff in E0. destruct E0 as [Ea Eb].
        assert (Hdm : j - base = step * ((j - base) / step)).
        { pose proof (Z.div_mod (j - base) step ltac:(lia)). lia. }
        destruct (Z.ltb_spec ((j - base) / step) (Z.of_nat (S c))); [|reflexivity].
        assert ((j - base) / step = Z.of_nat c) by lia. exfalso. apply Hne. nia.
Qed.

Lemma next_key_left d key : 0 <= key < 2 ^ Z.of_nat d -> next_key (S d) key = key + 2 ^ Z.of_nat d.
Proof. intros H. cbn [next_key]. rewrite Z.div_small, Z.mod_small by lia. reflexivity. Qed.

Lemma next_key_right d key : 0 <= key < 2 ^ Z.of_nat d ->
  next_key (S d) (key + 2 ^ Z.of_nat d) = next_key d (key + 2 ^ Z.of_nat d).
Proof.
  intros H. cbn [next_key].
  replace (key + 2 ^ Z.of_nat d) with (key + 1 * 2 ^ Z.of_nat d) by lia.
  rewrite Z.div_add, Z.div_small by lia. reflexivity.
Qed.

Lemma next_key_high n : forall d key, (n <= d)%nat -> 0 <= key ->
  key mod 2 ^ Z.of_nat n <> 2 ^ Z.of_nat n - 1 ->
  next_key n (key + 2 ^ Z.of_nat d) = next_key n key.
Proof.
  induction n as [|n IH]; intros d key Hn Hk Hnot.
  - exfalso. apply Hnot. change (2 ^ Z.of_nat 0) with 1. rewrite Z.mod_1_r. reflexivity.
  - cbn [next_key].
    assert (Hp : 0 < 2 ^ Z.of_nat n) by p2.
    assert (E : 2 ^ Z.of_nat d = 2 ^ (Z.of_nat d - Z.of_nat n) * 2 ^ Z.of_nat n).
    { rewrite <- Z.pow_add_r by lia. f_equal. lia. }
    assert (Ediv : (key + 2 ^ Z.of_nat d) / 2 ^ Z.of_nat n = key / 2 ^ Z.of_nat n + 2 ^ (Z.of_nat d - Z.of_nat n)).
    { rewrite E, Z.div_add by lia. reflexivity. }
    assert (Emod : (key + 2 ^ Z.of_nat d) mod 2 ^ Z.of_nat n = key mod 2 ^ Z.of_nat n).
    { rewrite E, Z.mod_add by lia. reflexivity. }
    rewrite Ediv, Emod, Z.odd_add, Z.odd_pow by lia. change (Z.odd 2) with false. rewrite xorb_false_r.
    destruct (Z.odd (key / 2 ^ Z.of_nat n)) eqn:Eo; [|reflexivity].
    apply IH; [lia|lia|].
    intros Hall. apply Hnot.
    rewrite Nat2Z.inj_succ, Z.pow_succ_r by lia.
    rewrite Z.mul_comm, Z.rem_mul_r by lia. rewrite Hall.
    rewrite Zmod_odd, Eo. lia.
Qed.

(** the two [next_key] steps below a node amount to the step of the node itself *)
Lemma next_key_node d key : 0 <= key < 2 ^ Z.of_nat d -> key <> 2 ^ Z.of_nat d - 1 ->
  key + 2 ^ Z.of_nat d <> 2 ^ Z.of_nat (S d) - 1 /\
  next_key (S d) (key + 2 ^ Z.of_nat d) = next_key d key.
Proof.
  intros Hk Hne. rewrite Nat2Z.inj_succ, <- Z.add_1_r, pow2_double by lia. split; [lia|].
  rewrite next_key_right by lia. apply next_key_high; [lia|lia|]. rewrite Z.mod_small by lia. lia.
Qed.

(** what [replicate] writes from [key] with step P, Q times: a residue class modulo P *)
Lemma class_cond P Q key j : 0 < P -> 0 < Q -> 0 <= key < P ->
  ((key <=? j) && ((j - key) mod P =? 0) && ((j - key) / P <? Q))%bool =
  ((0 <=? j) && (j <? P * Q) && (j mod P =? key))%bool.
Proof.
  intros HP HQ Hk. apply eq_true_iff_eq.
  rewrite !andb_true_iff, !Z.leb_le, !Z.ltb_lt, !Z.eqb_eq. split.
  - intros [[H1 H2] H3].
    pose proof (Z.div_mod (j - key) P ltac:(lia)) as E. rewrite H2 in E.
    assert (Hq : 0 <= (j - key) / P) by (apply Z.div_pos; lia).
    split; [split; [lia|nia]|].
    symmetry. apply (Z.mod_unique j P ((j - key) / P) key); lia.
  - intros [[H1 H2] H3].
    pose proof (Z.div_mod j P ltac:(lia)) as E. rewrite H3 in E.
    assert (Hq : 0 <= j / P) by (apply Z.div_pos; lia).
    assert (Hjk : j - key = (j / P) * P) by lia.
    split; [split; [nia|rewrite Hjk; apply Z.mod_mul; lia]|].
    rewrite Hjk, Z.div_mul by lia. nia.
Qed.

(** a class modulo P is two classes modulo 2P, told apart by the next bit: the children of a node *)
Lemma split_class P key j : 0 < P -> 0 <= key < P -> 0 <= j ->
  (j mod P =? key) = ((j mod (2 * P) =? key) || (j mod (2 * P) =? key + P))%bool /\
  (j mod (2 * P) = key -> Z.odd (j / P) = false) /\
  (j mod (2 * P) = key + P -> Z.odd (j / P) = true) /\
  j / P / 2 = j / (2 * P).
Proof.
  intros HP Hk Hj.
  assert (E : j mod (2 * P) = j mod P + P * ((j / P) mod 2)).
  { rewrite (Z.mul_comm 2 P). apply Z.rem_mul_r; lia. }
  pose proof (Z.mod_pos_bound j P HP) as B.
  rewrite (Zmod_odd (j / P)) in E.
  split; [|split; [|split]].
  - destruct (Z.odd (j / P)); apply eq_true_iff_eq; rewrite orb_true_iff, !Z.eqb_eq; lia.
  - intros H. destruct (Z.odd (j / P)); [lia|reflexivity].
  - intros H. destruct (Z.odd (j / P)); [reflexivity|lia].
  - rewrite Z.div_div by lia. f_equal. lia.
Qed.

Lemma class_children d key j : 0 <= key < 2 ^ Z.of_nat d -> 0 <= j ->
  (j mod 2 ^ Z.of_nat d = key <->
   j mod 2 ^ Z.of_nat (S d) = key \/ j mod 2 ^ Z.of_nat (S d) = key + 2 ^ Z.of_nat d) /\
  (j mod 2 ^ Z.of_nat (S d) = key -> Z.odd (j / 2 ^ Z.of_nat d) = false) /\
  (j mod 2 ^ Z.of_nat (S d) = key + 2 ^ Z.of_nat d -> Z.odd (j / 2 ^ Z.of_nat d) = true) /\
  j / 2 ^ Z.of_nat d / 2 = j / 2 ^ Z.of_nat (S d).
Proof.
  intros Hk Hj. rewrite Nat2Z.inj_succ, <- Z.add_1_r, pow2_double by lia.
  destruct (split_class (2 ^ Z.of_nat d) key j ltac:(p2) Hk Hj) as (Hs & Hl & Hr & Hd).
  split; [|tauto]. rewrite <- !Z.eqb_eq, Hs. apply orb_true_iff.
Qed.

(** the entry a slot gets from the sub-tree [t] that owns it: [d] = bits already used to get there *)
Definition slot_of (t : tree) (d : Z) (j : Z) : entry :=
  match walk t (j / 2 ^ d) with Some (v, n) => (d + n, v) | None => entry0 end.

Section Fill.
  Variable R : Z.
  Hypothesis HR : 0 <= R.

  (** Where [lut_fill] puts the leaves below [key] at depth [dn]: the root table (sh = 0, 2^R slots
      at 0, indexed by the key) or the current second-level table (sh = R, 2^tb slots at
      [l_off st], indexed by the key bits above R). *)
  Definition fill_place (st : lstate) (dn : nat) (key sh off tb : Z) : Prop :=
    (sh = 0 /\ off = 0 /\ tb = R) \/
    (sh = R /\ R < Z.of_nat dn /\ off = l_off st /\ 0 <= off /\ l_low st = key mod 2 ^ R /\ l_size st = 2 ^ tb).

  Lemma fill_place_sh st dn key sh off tb : fill_place st dn key sh off tb -> 0 <= sh <= Z.of_nat dn /\ 0 <= off.
  Proof. intros [(-> & -> & _)|(-> & ? & _ & ? & _)]; lia. Qed.

  Lemma fill_place_next st st1 dn key key' sh off tb : fill_place st dn key sh off tb ->
    l_low st1 = l_low st -> l_off st1 = l_off st -> l_size st1 = l_size st ->
    (R < Z.of_nat dn -> key' mod 2 ^ R = key mod 2 ^ R) -> fill_place st1 (S dn) key' sh off tb.
  Proof.
    intros [H|(-> & Hdn & -> & Hoff & Hlow & Hsize)] L O S K; [left; exact H|right].
    rewrite L, O, S, (K Hdn). repeat split; try assumption; lia.
  Qed.

  (** [key <> 2^dn - 1]: getNextKey has no successor for the all-ones key (the last code word). *)
  Lemma fill_tree : forall t dn key st rest sh off tb,
    complete t -> fill_place st dn key sh off tb ->
    Forall (fun it => fst it <= sh + tb) (leaves (Z.of_nat dn) t) ->
    0 <= key < 2 ^ Z.of_nat dn -> l_key st = key ->
    exists st', lut_fill R (leaves (Z.of_nat dn) t ++ rest) st = lut_fill R rest st' /\
      l_low st' = l_low st /\ l_off st' = l_off st /\ l_size st' = l_size st /\
      (key <> 2 ^ Z.of_nat dn - 1 -> l_key st' = next_key dn key) /\
      forall j, arr_get entry0 (l_tab st') j =
        let x := j - off in
        if (0 <=? x) && (x <? 2 ^ tb) && (x mod 2 ^ (Z.of_nat dn - sh) =? key / 2 ^ sh)
        then slot_of t (Z.of_nat dn - sh) x else arr_get entry0 (l_tab st) j.
  Proof.
    induction t as [v|l IHl r IHr|]; intros dn key st rest sh off tb Hc Hpl Hle Hk Hst;
      cbn [complete] in Hc; [| |contradiction];
      destruct (fill_place_sh _ _ _ _ _ _ Hpl) as [Hsh Hoff];
      set (e := Z.of_nat dn - sh) in *;
      assert (HP : 0 < 2 ^ e) by p2;
      assert (HS : 0 < 2 ^ sh) by p2;
      assert (Ed : 2 ^ Z.of_nat dn = 2 ^ e * 2 ^ sh) by (apply pow2_split; lia);
      assert (Hkq : 0 <= key / 2 ^ sh < 2 ^ e)
        by (split; [apply Z.div_pos; lia|apply Z.div_lt_upper_bound; lia]).
    - set (d := Z.of_nat dn) in *. cbn [leaves app].
      pose proof (Forall_inv Hle) as Hd. cbn [fst] in Hd.
      assert (HQ : 0 < 2 ^ (tb - e)) by p2.
      assert (Estep : lut_fill R ((d, v) :: rest) st =
                lut_fill R rest (mkl (next_key (Z.to_nat d) key)
                  (replicate (Z.to_nat (2 ^ (tb - e))) (l_tab st) (off + key / 2 ^ sh) (2 ^ e) (e, v))
                  (l_low st) (l_off st) (l_size st))).
      { cbn [lut_fill]. rewrite Hst. destruct Hpl as [(-> & -> & ->)|(-> & Hdn & -> & _ & Hlow & Hsize)].
        - replace (d <=? R) with true by lia. unfold e. now rewrite Z.sub_0_r, Z.pow_0_r, Z.div_1_r.
        - replace (d <=? R) with false by lia. rewrite <- Hlow, Z.eqb_refl, Hsize.
          replace (2 ^ tb / 2 ^ (d - R)) with (2 ^ (tb - e)); [reflexivity|].
          rewrite (pow2_split tb e) by lia. now rewrite Z.div_mul by lia. }
      eexists. split; [exact Estep|]. cbn [l_low l_off l_size l_key l_tab].
      split; [reflexivity|]. split; [reflexivity|]. split; [reflexivity|]. split.
      + intros _. unfold d. now rewrite Nat2Z.id.
      + intros j. cbv zeta. rewrite replicate_get, Z2Nat.id by lia.
        replace (j - (off + key / 2 ^ sh)) with ((j - off) - key / 2 ^ sh) by lia.
        replace (off + key / 2 ^ sh <=? j) with (key / 2 ^ sh <=? j - off) by lia.
        rewrite class_cond by lia. rewrite (Z.mul_comm (2 ^ e)), <- pow2_split by lia.
        unfold slot_of. cbn [walk]. now rewrite Z.add_0_r.
    - destruct Hc as [Hcl Hcr]. cbn [leaves] in *.
      replace (Z.of_nat dn + 1) with (Z.of_nat (S dn)) in * by lia.
      apply Forall_app in Hle. destruct Hle as [Hlel Hler].
      rewrite <- app_assoc.
      assert (HPd : 0 < 2 ^ Z.of_nat dn) by p2.
      assert (E2 : 2 ^ Z.of_nat (S dn) = 2 * 2 ^ Z.of_nat dn) by (rewrite Nat2Z.inj_succ; apply pow2_double; lia).
      assert (Ee : Z.of_nat (S dn) - sh = e + 1) by (unfold e; lia).
      assert (E2e : 2 ^ (e + 1) = 2 * 2 ^ e) by (apply pow2_double; lia).
      assert (Hkl : 0 <= key < 2 ^ Z.of_nat (S dn)) by (clear - Hk E2; lia).
      assert (Hkr : 0 <= key + 2 ^ Z.of_nat dn < 2 ^ Z.of_nat (S dn)) by (clear - Hk E2; lia).
      destruct (IHl (S dn) key st (leaves (Z.of_nat (S dn)) r ++ rest) sh off tb Hcl
                  (fill_place_next st st dn key key sh off tb Hpl eq_refl eq_refl eq_refl (fun _ => eq_refl))
                  Hlel Hkl Hst) as (st1 & F1 & L1 & O1 & S1 & K1 & T1).
      rewrite F1.
      assert (Hk1 : l_key st1 = key + 2 ^ Z.of_nat dn) by (rewrite K1 by (clear - Hk E2; lia); apply next_key_left; exact Hk).
      assert (Hpl1 : fill_place st1 (S dn) (key + 2 ^ Z.of_nat dn) sh off tb).
      { apply (fill_place_next st st1 dn key); try assumption. intros Hdn.
        rewrite (pow2_split (Z.of_nat dn) R), Z.mod_add by (try apply Z.pow_nonzero; lia). reflexivity. }
      destruct (IHr (S dn) (key + 2 ^ Z.of_nat dn) st1 rest sh off tb Hcr Hpl1 Hler Hkr Hk1)
        as (st2 & F2 & L2 & O2 & S2 & K2 & T2).
      exists st2. split; [exact F2|]. split; [congruence|]. split; [congruence|]. split; [congruence|]. split.
      + intros Hne. destruct (next_key_node dn key Hk Hne) as [Hne' <-]. exact (K2 Hne').
      + intros j. rewrite T2, T1. cbv zeta. rewrite Ee, E2e.
        replace ((key + 2 ^ Z.of_nat dn) / 2 ^ sh) with (key / 2 ^ sh + 2 ^ e)
          by (rewrite Ed, Z.div_add by lia; reflexivity).
        set (x := j - off).
        destruct (0 <=? x) eqn:Ex; cbn [andb]; [|reflexivity].
        destruct (x <? 2 ^ tb) eqn:Et; cbn [andb]; [|reflexivity].
        destruct (split_class (2 ^ e) (key / 2 ^ sh) x HP Hkq ltac:(lia)) as (Hs & Hl0 & Hr1 & Hdiv).
        rewrite Hs. unfold slot_of. cbn [walk]. rewrite E2e, <- Hdiv.
        destruct (x mod (2 * 2 ^ e) =? key / 2 ^ sh + 2 ^ e) eqn:Eb.
        * rewrite orb_true_r. apply Z.eqb_eq in Eb. rewrite (Hr1 Eb).
          destruct (walk r (x / 2 ^ e / 2)) as [[v n]|]; cbn [bump]; [|reflexivity].
          f_equal. clear. lia.
        * rewrite orb_false_r.
          destruct (x mod (2 * 2 ^ e) =? key / 2 ^ sh) eqn:Ea; [|reflexivity].
          apply Z.eqb_eq in Ea. rewrite (Hl0 Ea).
          destruct (walk l (x / 2 ^ e / 2)) as [[v n]|]; cbn [bump]; [|reflexivity].
          f_equal. clear. lia.
  Qed.
End Fill.

Lemma fill_subtree R t dn key st rest : 0 <= R ->
  complete t -> Forall (fun it => fst it <= R) (leaves (Z.of_nat dn) t) ->
  0 <= key < 2 ^ Z.of_nat dn -> l_key st = key ->
  exists st', lut_fill R (leaves (Z.of_nat dn) t ++ rest) st = lut_fill R rest st' /\
    l_low st' = l_low st /\ l_off st' = l_off st /\ l_size st' = l_size st /\
    (key <> 2 ^ Z.of_nat dn - 1 -> l_key st' = next_key dn key) /\
    forall j, arr_get entry0 (l_tab st') j =
      if (0 <=? j) && (j <? 2 ^ R) && (j mod 2 ^ Z.of_nat dn =? key)
      then slot_of t (Z.of_nat dn) j else arr_get entry0 (l_tab st) j.
Proof.
  intros HR Hc Hle Hk Hst.
  destruct (fill_tree R HR t dn key st rest 0 0 R Hc (or_introl (conj eq_refl (conj eq_refl eq_refl))) Hle Hk Hst)
    as (st' & F & L & O & S & K & T).
  exists st'. repeat (split; [assumption|]). intros j. rewrite T. cbv zeta.
  now rewrite !Z.sub_0_r, Z.pow_0_r, Z.div_1_r.
Qed.

(* used where [injection] would start evaluating the table inside [Ok] *)
Lemma Ok_inj {A} (a b : A) : @Ok A a = Ok b -> a = b.
Proof. intros H. now injection H. Qed.

Lemma accepted_inv root lens t tab : tree_of_lens lens = Ok t -> lut_build root lens = Ok tab ->
  (exists l s, lens_items lens = [(l, s)] /\ t = Leaf s /\
               tab = replicate (Z.to_nat (2 ^ root)) arr_empty 0 1 (0, s)) \/
  (complete t /\ leaves 0 t = lens_items lens /\
   tab = l_tab (lut_fill root (lens_items lens) (mkl 0 arr_empty (-1) 0 (2 ^ root)))).
Proof.
  intros Ht Hb. unfold lut_build in Hb. destruct (negb (lens_in_range lens)); [discriminate|].
  destruct (tree_of_lens_inv lens t Ht) as [(l & s & Ei & ->)|(Hc & El & Hlen)].
  - left. exists l, s. rewrite Ei in Hb. apply Ok_inj in Hb. auto.
  - right. destruct (lens_items lens) as [|[l0 s0] [|y tl]]; [cbn in Hlen; lia ..|].
    destruct (kraft_sum lens =? 32768); [|discriminate]. apply Ok_inj in Hb. auto.
Qed.

Lemma one_symbol_slot root s j : 0 <= root -> 0 <= j < 2 ^ root ->
  arr_get entry0 (replicate (Z.to_nat (2 ^ root)) arr_empty 0 1 (0, s)) j = (0, s).
Proof.
  intros Hr Hj. rewrite replicate_get, Z.sub_0_r, Z.mod_1_r, Z.div_1_r, Z2Nat.id by lia.
  now replace ((0 <=? j) && (0 =? 0) && (j <? 2 ^ root))%bool with true by lia.
Qed.

Lemma root_entry : forall root m lens t tab w,
  0 <= m <= root -> Forall (fun l => l <= m) lens ->
  tree_of_lens lens = Ok t -> lut_build root lens = Ok tab -> 0 <= w ->
  exists v n, walk t w = Some (v, n) /\ arr_get entry0 tab (w mod 2 ^ root) = (n, v) /\ 0 <= n <= m.
Proof.
  intros root m lens t tab w Hroot Hlens Ht Hb Hw.
  assert (B : 0 <= w mod 2 ^ root < 2 ^ root) by (apply Z.mod_pos_bound; p2).
  destruct (accepted_inv root lens t tab Ht Hb) as [(l0 & s0 & Ei & -> & ->)|(Hc & El & ->)].
  - exists s0, 0. split; [reflexivity|]. split; [apply one_symbol_slot; lia|lia].
  - assert (Hm : Forall (fun it => fst it <= m) (leaves (Z.of_nat 0) t)).
    { cbn [Z.of_nat]. rewrite El. apply Forall_forall. intros [l s] Hin. apply lens_items_In in Hin.
      destruct Hin as (Hs & <- & _). rewrite Forall_forall in Hlens. apply Hlens, nth_In. lia. }
    assert (Hle : Forall (fun it => fst it <= root) (leaves (Z.of_nat 0) t))
      by (eapply Forall_impl; [|exact Hm]; cbn; lia).
    destruct (fill_subtree root t 0%nat 0 (mkl 0 arr_empty (-1) 0 (2 ^ root)) [] ltac:(lia) Hc Hle
                ltac:(cbn; lia) eq_refl) as (st' & F & _ & _ & _ & _ & T).
    rewrite app_nil_r in F. cbn [Z.of_nat] in F. rewrite El in F. cbn [lut_fill] in F.
    destruct (walk_complete t Hc w) as (v & n & Ew). exists v, n. split; [exact Ew|].
    rewrite F, T. cbn [Z.of_nat]. rewrite Z.pow_0_r, Z.mod_1_r.
    replace ((0 <=? w mod 2 ^ root) && (w mod 2 ^ root <? 2 ^ root) && (0 =? 0))%bool with true by lia.
    unfold slot_of. rewrite Z.pow_0_r, Z.div_1_r.
    pose proof (walk_low root t 0 w Hc Hle) as Hwl. rewrite Z.sub_0_r in Hwl. rewrite Hwl, Ew. pose proof (walk_nonneg _ _ _ _ Ew). pose proof (walk_depth_le m t 0 w v n Ew Hm).
    split; [reflexivity|lia].
Qed.

Theorem lut_decode_eq_canonical_root : forall root lens t tab w,
  0 <= root -> Forall (fun l => l <= root) lens ->
  tree_of_lens lens = Ok t -> lut_build root lens = Ok tab -> 0 <= w ->
  exists v n, walk t w = Some (v, n) /\ lut_read root tab w = (v, n).
Proof.
  intros root lens t tab w Hroot Hlens Ht Hb Hw.
  destruct (root_entry root root lens t tab w ltac:(lia) Hlens Ht Hb Hw) as (v & n & Ew & Ee & Hn).
  exists v, n. split; [exact Ew|]. unfold lut_read. rewrite Ee.
  now replace (0 <? n - root) with false by lia.
Qed.

Definition lut_decode_eq_canonical_statement : Prop :=
  forall root lens t tab w, 1 <= root <= 15 ->
  tree_of_lens lens = Ok t -> lut_build root lens = Ok tab -> 0 <= w ->
  exists v n, walk t w = Some (v, n) /\ lut_read root tab w = (v, n).
