(** The operations the symbol decoder uses (FillBitWindow, PrefetchBits, SetBitPos(BitPos + k))
    mixed with ReadBits, against the fields (V / 2^p) mod 2^n of V = le_value data (LSB-first bit
    order; beyond the data the integer has zero bits).

    [bitreader_script_refines] is about scripts that keep the decoder's discipline ([wf_script]):
    between two refills no more bits are consumed than the window is known to hold (56 after a
    ReadBits, at least 32 after a FillBitWindow), and nothing beyond the data.  decodeImageData
    keeps it: FillBitWindow, green and red (<= 15 bits each), FillBitWindow, blue and alpha. *)
From Coq Require Import List ZArith Lia Bool.
From Coq Require Import ZifyBool ZifyNat.
From Webp Require Import Base.Res Vp8l.Vp8lPow2 Vp8l.Vp8lPrefix Vp8l.Vp8lBitReader Vp8l.Vp8lBitReaderProof.
Import ListNotations.
Open Scope Z_scope.

Section Fill.
  Variable data : list Z.
  Hypothesis Hdata : bytes_ok data.
  Let V := le_value data.
  Let L := Z.of_nat (length data).

  (** SetBitPos(BitPos + k) *)
  Lemma set_bit_winv r p slack k : winv data r p slack -> 0 <= k <= slack -> p + k <= 8 * L ->
    winv data (br_set_bit (br_bit r + k) r) (p + k) (slack - k).
  Proof.
    intros W Hk Hfit. pose proof (winv_room data r p slack k W Hk Hfit) as Hroom.
    destruct W as (Hp & H64 & Hple & Hsl & Hor).
    destruct (pinv_arith data r p Hp) as (Hb & _).
    split; [apply pinv_set_bit; [exact Hp|lia]|].
    unfold br_set_bit. cbn [br_bit br_pos]. unfold L in *. lia.
  Qed.

  (** PrefetchBits: 32 bits inside the window, or the window holds the end of the data, above
      which the integer has no bits *)
  Lemma prefetch_val r p slack : winv data r p slack -> (br_bit r <= 32 \/ br_pos r = L) -> p < 8 * L ->
    br_prefetch r = (V / 2 ^ p) mod 2 ^ 32.
  Proof.
    unfold V, L. intros (Hp & H64 & Hple & _) [H32|HposL] Hlt.
    - rewrite <- (prefetch_field data r p 32 Hp) by lia.
      unfold br_prefetch. now rewrite Z.mod_mod by lia.
    - destruct (pinv_arith data r p Hp) as (Hb & _ & Hpp & Hb0 & Hwin & _).
      unfold br_prefetch. rewrite (Z.mod_small (br_bit r) 64) by lia.
      rewrite (pinv_val data r p Hp).
      rewrite (Z.mod_small (_ / 2 ^ (8 * base data r))); [now rewrite div_pow_pow, <- Hpp by lia|].
      pose proof (V_bound data Hdata) as VB.
      split; [apply Z.div_pos; [lia|p2]|].
      apply Z.div_lt_upper_bound; [p2|]. rewrite pow2_add by lia.
      eapply Z.lt_le_trans; [apply VB|]. apply Z.pow_le_mono_r; lia.
  Qed.

  Lemma four_bytes i : 0 <= i ->
    byte_at data i + 256 * byte_at data (i + 1) + 65536 * byte_at data (i + 2) + 16777216 * byte_at data (i + 3)
    = (V / 2 ^ (8 * i)) mod 2 ^ (8 * 4).
  Proof.
    intros Hi. unfold V.
    rewrite !(le_value_byte data Hdata) by lia.
    replace (8 * (i + 3)) with (8 * i + 8 + 8 + 8) by lia.
    replace (8 * (i + 2)) with (8 * i + 8 + 8) by lia.
    replace (8 * (i + 1)) with (8 * i + 8) by lia.
    rewrite <- !div_pow_pow by lia. generalize (le_value data / 2 ^ (8 * i)). intros X.
    change (2 ^ (8 * 4)) with (2 ^ 8 * (2 ^ 8 * (2 ^ 8 * 2 ^ 8))).
    rewrite !Z.rem_mul_r by lia. change 256 with (2 ^ 8). lia.
  Qed.

  (** FillBitWindow: afterwards 32 bits lie inside the window, or the window holds the end of the data *)
  Lemma fill_winv r p slack : winv data r p slack ->
    winv data (br_fill r) p (Z.max slack 32) /\ (br_bit (br_fill r) <= 32 \/ br_pos (br_fill r) = L).
  Proof.
    unfold L. intros (Hp & H64 & Hple & Hsl & Hor).
    unfold br_fill. rewrite (pinv_len data r p Hp).
    destruct (32 <=? br_bit r) eqn:E32.
    - destruct (br_pos r + 4 <=? Z.of_nat (length data)) eqn:E4.
      + (* four bytes at once *)
        destruct (pinv_arith data r p Hp) as (_ & _ & _ & Hb0 & _ & Hbase & Hshort).
        assert (Ew : byte_at (br_data r) (br_pos r) + 256 * byte_at (br_data r) (br_pos r + 1)
                     + 65536 * byte_at (br_data r) (br_pos r + 2) + 16777216 * byte_at (br_data r) (br_pos r + 3)
                     = (V / 2 ^ (8 * br_pos r)) mod 2 ^ (8 * 4))
          by (destruct Hp as (_ & -> & _); apply four_bytes; lia).
        split; [split; [apply (pinv_load data r p 4 _ Hp); [lia|lia|lia|exact Ew]|]|];
          cbn [br_bit br_pos]; lia.
      + (* near the end: shiftBytes *)
        pose proof (shift_bytes_inv data Hdata r p Hp Hple) as Hinv.
        split; [apply inv_winv; [exact Hinv|lia]|].
        destruct Hinv as (Hp2 & Hsm2 & _). destruct (pinv_arith data _ p Hp2) as (_ & Hpos2 & _). lia.
    - split; [split; [exact Hp|]|]; lia.
  Qed.
End Fill.

(** the specification of a script in the encoding of [br_run] (n >= 0 ReadBits(n); -1 FillBitWindow +
    PrefetchBits; -100-k SetBitPos(BitPos + k)): fields of the little-endian integer *)
Fixpoint spec_script (V : Z) (ops : list Z) (p : Z) : list (Z * bool) :=
  match ops with
  | [] => []
  | op :: tl =>
    if 0 <=? op then ((V / 2 ^ p) mod 2 ^ op, false) :: spec_script V tl (p + op)
    else if op =? -1 then ((V / 2 ^ p) mod 2 ^ 32, false) :: spec_script V tl p
    else (0, false) :: spec_script V tl (p + (-100 - op))
  end.

(** the decoder's discipline: [slack] bits may be consumed before the next refill; nothing is
    consumed beyond bit [lim] = 8 * length; a prefetch happens strictly inside the data (p < lim):
    exactly at the end of the data the window can stand at bitPos = 64, where PrefetchBits shifts
    by bitPos & 63 = 0 and returns bits already read *)
Fixpoint wf_script (lim : Z) (ops : list Z) (p slack : Z) : Prop :=
  match ops with
  | [] => True
  | op :: tl =>
    if 0 <=? op then op <= 24 /\ op <= slack /\ p + op <= lim /\ wf_script lim tl (p + op) 56
    else if op =? -1 then p < lim /\ wf_script lim tl p (Z.max slack 32)
    else let k := -100 - op in 0 <= k <= slack /\ p + k <= lim /\ wf_script lim tl (p + k) (slack - k)
  end.

Lemma script_refines data : bytes_ok data -> forall ops r p slack,
  winv data r p slack -> wf_script (8 * Z.of_nat (length data)) ops p slack ->
  br_run ops r = spec_script (le_value data) ops p.
Proof.
  intros Hd. induction ops as [|op tl IH]; intros r p slack W Hwf; [reflexivity|].
  cbn [br_run spec_script wf_script] in *.
  destruct (0 <=? op) eqn:E0.
  - destruct Hwf as (H24 & Hsl & Hfit & Hwf).
    destruct (read_bits_winv data Hd r p slack op W ltac:(lia) Hsl Hfit) as [Hv Hinv].
    destruct (br_read_bits op r) as [v r']. cbn [fst snd] in Hv, Hinv.
    now rewrite (IH r' (p + op) 56 (inv_winv data r' (p + op) 56 Hinv ltac:(lia)) Hwf), Hv, (inv_not_eos data r' _ Hinv).
  - destruct (op =? -1) eqn:E1.
    + destruct Hwf as (Hlt & Hwf).
      destruct (fill_winv data Hd r p slack W) as (W' & Hdis).
      rewrite (IH (br_fill r) p (Z.max slack 32) W' Hwf), (winv_not_eos data _ _ _ W').
      now rewrite (prefetch_val data Hd (br_fill r) p (Z.max slack 32) W' Hdis Hlt).
    + destruct Hwf as (Hk & Hfit & Hwf).
      pose proof (set_bit_winv data r p slack (-100 - op) W Hk Hfit) as W'.
      now rewrite (IH _ (p + (-100 - op)) (slack - (-100 - op)) W' Hwf), (winv_not_eos data _ _ _ W').
Qed.

Theorem bitreader_script_refines : forall data ops,
  bytes_ok data -> wf_script (8 * Z.of_nat (length data)) ops 0 56 ->
  br_run ops (br_new data) = spec_script (le_value data) ops 0.
Proof.
  intros data ops Hd Hwf.
  apply (script_refines data Hd ops (br_new data) 0 56); [|exact Hwf].
  apply inv_winv; [apply inv_new; exact Hd|lia].
Qed.

(** The discipline is decidable: the boolean checker the runner evaluates on every script of the
    correspondence run (scripts it accepts get the specification side [spec_script] printed next
    to the model's result). *)
Fixpoint wf_scriptb (lim : Z) (ops : list Z) (p slack : Z) : bool :=
  match ops with
  | [] => true
  | op :: tl =>
    if 0 <=? op then (op <=? 24) && (op <=? slack) && (p + op <=? lim) && wf_scriptb lim tl (p + op) 56
    else if op =? -1 then (p <? lim) && wf_scriptb lim tl p (Z.max slack 32)
    else let k := -100 - op in
         (0 <=? k) && (k <=? slack) && (p + k <=? lim) && wf_scriptb lim tl (p + k) (slack - k)
  end.

Lemma wf_scriptb_sound lim : forall ops p slack, wf_scriptb lim ops p slack = true -> wf_script lim ops p slack.
Proof.
  induction ops as [|op tl IH]; intros p slack H; cbn [wf_scriptb wf_script] in *; [exact I|].
  destruct (0 <=? op).
  - apply andb_prop in H. destruct H as [H H4]. apply andb_prop in H. destruct H as [H H3].
    apply andb_prop in H. destruct H as [H1 H2].
    split; [lia|]. split; [lia|]. split; [lia|]. apply IH. exact H4.
  - destruct (op =? -1).
    + apply andb_prop in H. destruct H as [H1 H2]. split; [lia|]. apply IH. exact H2.
    + cbv zeta in H. apply andb_prop in H. destruct H as [H H4]. apply andb_prop in H. destruct H as [H H3].
      apply andb_prop in H. destruct H as [H1 H2].
      split; [lia|]. split; [lia|]. apply IH. exact H4.
Qed.

Theorem bitreader_script_refines_checked : forall data ops,
  bytes_ok data -> wf_scriptb (8 * Z.of_nat (length data)) ops 0 56 = true ->
  br_run ops (br_new data) = spec_script (le_value data) ops 0.
Proof. intros data ops Hd H. apply bitreader_script_refines; [exact Hd|]. apply wf_scriptb_sound. exact H. Qed.

(** Non-vacuity: a 12-byte buffer, a read, then the symbol-decoder pattern twice. *)
Example script_example :
  let data := [1; 2; 3; 4; 5; 6; 7; 8; 9; 10; 11; 12] in
  let ops := [14; -1; -107; -115; 3; -1; -110; -1; -132; 14] in
  wf_script (8 * Z.of_nat (length data)) ops 0 56 /\
  br_run ops (br_new data) = spec_script (le_value data) ops 0.
Proof. split; [cbn; lia|vm_compute; reflexivity]. Qed.
