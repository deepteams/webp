(** Two-level case of the Huffman lookup tables: second-level tables sized by
    nextTableBitSize and linked from the root slot.  Completes
    [Vp8lLut.lut_decode_eq_canonical_statement]. *)
From Coq Require Import List ZArith Lia Bool Sorting.Sorted.
From Coq Require Import ZifyBool ZifyNat.
From Webp Require Import Base.Res Vp8l.Vp8lPow2 Vp8l.Vp8lArr Vp8l.Vp8lPrefix Vp8l.Vp8lCanon Vp8l.Vp8lLut.
Import ListNotations.
Open Scope Z_scope.

(** nodes of level [len] covered by the leaves of depth l <= [len], 2^(len - l) each *)
Fixpoint wlev (len : Z) (items : list (Z * Z)) : Z :=
  match items with
  | [] => 0
  | it :: tl => (if fst it <=? len then 2 ^ (len - fst it) else 0) + wlev len tl
  end.

Lemma wlev_app len a b : wlev len (a ++ b) = wlev len a + wlev len b.
Proof. induction a as [|x a IH]; cbn [app wlev]; [reflexivity|]. rewrite IH. lia. Qed.

Lemma wlev_nonneg len items : 0 <= wlev len items.
Proof.
  induction items as [|x tl IH]; cbn [wlev]; [lia|].
  destruct (fst x <=? len) eqn:E; [|lia]. assert (0 < 2 ^ (len - fst x)) by p2. lia.
Qed.

Lemma count_rem_app a b l : count_rem (a ++ b) l = count_rem a l + count_rem b l.
Proof. unfold count_rem. rewrite filter_app, app_length. lia. Qed.

Lemma count_rem_nonneg a l : 0 <= count_rem a l.
Proof. unfold count_rem. lia. Qed.

Lemma count_rem_zero items l : Forall (fun it => fst it <> l) items -> count_rem items l = 0.
Proof.
  unfold count_rem. induction 1 as [|x tl Hx _ IH]; [reflexivity|]. cbn [filter].
  replace (fst x =? l) with false by lia. exact IH.
Qed.

Lemma wlev_succ len items : wlev (len + 1) items = 2 * wlev len items + count_rem items (len + 1).
Proof.
  induction items as [|x tl IH]; [reflexivity|]. cbn [wlev]. rewrite IH.
  unfold count_rem. cbn [filter].
  destruct (fst x <=? len) eqn:E1.
  - replace (fst x <=? len + 1) with true by lia. replace (fst x =? len + 1) with false by lia.
    replace (len + 1 - fst x) with (Z.succ (len - fst x)) by lia. rewrite Z.pow_succ_r by lia. lia.
  - destruct (fst x =? len + 1) eqn:E2.
    + replace (fst x <=? len + 1) with true by lia. replace (len + 1 - fst x) with 0 by lia. cbn [length]. lia.
    + replace (fst x <=? len + 1) with false by lia. lia.
Qed.

Lemma wlev_below len items : Forall (fun it => len < fst it) items -> wlev len items = 0.
Proof.
  induction 1 as [|x tl Hx _ IH]; [reflexivity|]. cbn [wlev]. replace (fst x <=? len) with false by lia. lia.
Qed.

Lemma wlev_complete hgt : forall t d, complete t -> Forall (fun it => fst it <= hgt) (leaves d t) ->
  wlev hgt (leaves d t) = 2 ^ (hgt - d).
Proof.
  induction t as [v|l IHl r IHr|]; intros d Hc Hle; cbn [complete leaves] in *; [| |contradiction].
  - inversion Hle; subst. cbn [wlev fst] in *. replace (d <=? hgt) with true by lia. lia.
  - destruct Hc as [Hcl Hcr]. apply Forall_app in Hle. destruct Hle as [Hl Hr].
    pose proof (complete_depth_le hgt l (d + 1) Hcl Hl) as Hd.
    rewrite wlev_app, IHl, IHr by assumption.
    replace (hgt - d) with (Z.succ (hgt - (d + 1))) by lia. rewrite Z.pow_succ_r by lia. lia.
Qed.

Lemma wlev_scale hgt len items : len <= hgt -> Forall (fun it => fst it <= hgt) items ->
  wlev hgt items = wlev len items * 2 ^ (hgt - len) + wlev hgt (filter (fun it => len <? fst it) items).
Proof.
  intros Hl. induction 1 as [|x tl Hx _ IH]; [reflexivity|]. cbn [wlev filter]. rewrite IH.
  replace (fst x <=? hgt) with true by lia.
  destruct (fst x <=? len) eqn:E.
  - replace (len <? fst x) with false by lia.
    replace (hgt - fst x) with ((len - fst x) + (hgt - len)) by lia. rewrite Z.pow_add_r by lia. lia.
  - replace (len <? fst x) with true by lia. cbn [wlev]. replace (fst x <=? hgt) with true by lia. lia.
Qed.

Lemma wlev_pos_in hgt items x : In x items -> fst x <= hgt -> 0 < wlev hgt items.
Proof.
  induction items as [|y tl IH]; intros Hin Hx; [destruct Hin|]. cbn [wlev].
  pose proof (wlev_nonneg hgt tl).
  destruct Hin as [->|Hin].
  - replace (fst x <=? hgt) with true by lia. assert (0 < 2 ^ (hgt - fst x)) by p2. lia.
  - specialize (IH Hin Hx). destruct (fst y <=? hgt); [|lia].
    assert (0 <= 2 ^ (hgt - fst y)) by (apply Z.pow_nonneg; lia). lia.
Qed.

Lemma wlev_strict hgt len t d x : complete t -> Forall (fun it => fst it <= hgt) (leaves d t) ->
  d <= len -> len < hgt -> In x (leaves d t) -> len < fst x ->
  wlev len (leaves d t) < 2 ^ (len - d).
Proof.
  intros Hc Hle Hd Hl Hin Hx.
  pose proof (wlev_complete hgt t d Hc Hle) as K.
  rewrite (wlev_scale hgt len) in K by (assumption || lia).
  assert (Hdeep : 0 < wlev hgt (filter (fun it => len <? fst it) (leaves d t))).
  { apply (wlev_pos_in hgt _ x); [apply filter_In; split; [exact Hin|lia]|].
    rewrite Forall_forall in Hle. apply Hle, Hin. }
  assert (E : 2 ^ (hgt - d) = 2 ^ (len - d) * 2 ^ (hgt - len)) by (rewrite <- Z.pow_add_r by lia; f_equal; lia).
  assert (0 < 2 ^ (hgt - len)) by p2.
  nia.
Qed.

(** nextTableBitSize returns the height of the sub-tree: its [left] is, at level [len],
    2^(len - R) - 2 * wlev (len - 1) lv (level-[len] nodes not covered by shorter leaves), positive
    below the deepest level ([wlev_strict]). *)
Lemma ntb_spec R hgt lv rest t : complete t -> lv = leaves R t ->
  Forall (fun it => fst it <= hgt) lv -> (exists x, In x lv /\ fst x = hgt) ->
  Forall (fun it => hgt <= fst it) rest -> hgt <= 15 ->
  forall fuel len, R <= len <= hgt -> (Z.to_nat (15 - len) < fuel)%nat ->
  next_table_bits fuel (lv ++ rest) len (2 ^ (len - R) - 2 * wlev (len - 1) lv) R = hgt - R.
Proof.
  intros Hc -> Hle (x & Hin & Hxhgt) Hrest H15.
  induction fuel as [|fuel IH]; intros len Hlen Hf; [lia|].
  cbn [next_table_bits]. destruct (15 <=? len) eqn:E15; [lia|].
  rewrite count_rem_app.
  assert (Ew : 2 ^ (len - R) - 2 * wlev (len - 1) (leaves R t) - (count_rem (leaves R t) len + count_rem rest len)
               = 2 ^ (len - R) - wlev len (leaves R t) - count_rem rest len).
  { pose proof (wlev_succ (len - 1) (leaves R t)) as S. replace (len - 1 + 1) with len in S by lia. lia. }
  rewrite Ew.
  destruct (Z.eq_dec len hgt) as [->|Hne].
  - rewrite (wlev_complete hgt t R Hc Hle). pose proof (count_rem_nonneg rest hgt).
    replace (2 ^ (hgt - R) - 2 ^ (hgt - R) - count_rem rest hgt <=? 0) with true by lia. reflexivity.
  - assert (Hlt : len < hgt) by lia.
    rewrite (count_rem_zero rest len) by (eapply Forall_impl; [|exact Hrest]; cbn; intros; lia).
    pose proof (wlev_strict hgt len t R x Hc Hle ltac:(lia) Hlt Hin ltac:(lia)) as Hs.
    replace (2 ^ (len - R) - wlev len (leaves R t) - 0 <=? 0) with false by lia.
    replace ((2 ^ (len - R) - wlev len (leaves R t) - 0) * 2) with (2 ^ (len + 1 - R) - 2 * wlev (len + 1 - 1) (leaves R t)).
    + apply IH; lia.
    + replace (len + 1 - 1) with len by lia.
      replace (len + 1 - R) with (Z.succ (len - R)) by lia. rewrite Z.pow_succ_r by lia. lia.
Qed.

Fixpoint maxd (l : list (Z * Z)) : Z :=
  match l with [] => 0 | x :: tl => Z.max (fst x) (maxd tl) end.

Lemma maxd_ge l : Forall (fun it => fst it <= maxd l) l.
Proof.
  induction l as [|x tl IH]; constructor; cbn [maxd]; [lia|].
  eapply Forall_impl; [|exact IH]. cbn. intros; lia.
Qed.

Lemma maxd_in l : l <> [] -> Forall (fun it => 0 <= fst it) l -> exists x, In x l /\ fst x = maxd l.
Proof.
  induction l as [|x tl IH]; intros Hne Hpos; [congruence|].
  inversion Hpos as [|? ? Hx Htl]; subst. cbn [maxd].
  destruct tl as [|y tl'].
  - exists x. split; [now left|]. cbn [maxd]. lia.
  - destruct (IH ltac:(congruence) Htl) as (z & Hz & Ez).
    destruct (Z.max_spec (fst x) (maxd (y :: tl'))) as [[_ ->]|[_ ->]].
    + exists z. split; [now right|exact Ez].
    + exists x. split; [now left|reflexivity].
Qed.

Lemma leaves_nonempty t : complete t -> forall d, leaves d t <> [].
Proof.
  induction t as [v|l IHl r IHr|]; intros Hc d; cbn [complete leaves] in *; [congruence| |contradiction].
  destruct Hc as [Hl _]. specialize (IHl Hl (d + 1)). destruct (leaves (d + 1) l); [congruence|]. cbn. congruence.
Qed.

Definition lut_alloc (R : Z) (items : list (Z * Z)) (l : Z) (st : lstate) : lstate :=
  let pre := l_key st mod 2 ^ R in
  let off := l_off st + l_size st in
  let tb := next_table_bits 16 items l (2 ^ (l - R)) R in
  mkl (l_key st) (arr_set (l_tab st) pre (tb + R, off)) pre off (2 ^ tb).

Lemma alloc_step R l s tl st : R < l -> l_key st mod 2 ^ R <> l_low st ->
  lut_fill R ((l, s) :: tl) st = lut_fill R ((l, s) :: tl) (lut_alloc R ((l, s) :: tl) l st).
Proof.
  intros Hl Hne. cbn [lut_fill]. replace (l <=? R) with false by lia.
  replace (l_key st mod 2 ^ R =? l_low st) with false by lia.
  unfold lut_alloc at 1. cbn [l_key l_low].
  rewrite Z.eqb_refl. reflexivity.
Qed.

Definition endof (st : lstate) : Z := l_off st + l_size st.

(** slots owned by the sub-tree below [key]: its class in the root table and the tables [lo, hi) it allocated *)
Definition in_region (R : Z) (dn : nat) (key lo hi j : Z) : Prop :=
  (0 <= j < 2 ^ R /\ j mod 2 ^ Z.of_nat dn = key) \/ (lo <= j < hi).

(** Effect of filling the leaves of [t] (depth [dn] <= R, below [key]): tables only appended, nothing
    below [endof st] outside the class touched, [l_low] unchanged or inside the class, and windows
    ending in [key] read what [walk] finds from ANY table agreeing on the region (later fills
    cannot spoil it). *)
Definition lut_filled (R : Z) (t : tree) (dn : nat) (key : Z) (st st' : lstate) : Prop :=
  endof st <= endof st' /\ 0 <= l_off st' /\
  (key <> 2 ^ Z.of_nat dn - 1 -> l_key st' = next_key dn key) /\
  (l_low st' = l_low st \/ (0 <= l_low st' < 2 ^ R /\ l_low st' mod 2 ^ Z.of_nat dn = key)) /\
  (forall j, j < endof st -> ~ (0 <= j < 2 ^ R /\ j mod 2 ^ Z.of_nat dn = key) ->
             arr_get entry0 (l_tab st') j = arr_get entry0 (l_tab st) j) /\
  (forall w v n, 0 <= w -> w mod 2 ^ Z.of_nat dn = key -> walk t (w / 2 ^ Z.of_nat dn) = Some (v, n) ->
     forall tab'', (forall j, in_region R dn key (endof st) (endof st') j ->
                              arr_get entry0 tab'' j = arr_get entry0 (l_tab st') j) ->
     lut_read R tab'' w = (v, Z.of_nat dn + n)).

Section Top.
  Variable R : Z.
  Hypothesis HR : 0 <= R.

  Lemma fill_root_leaf v0 dn key st rest :
    Z.of_nat dn <= R -> 0 <= key < 2 ^ Z.of_nat dn -> l_key st = key -> 0 <= l_off st ->
    exists st', lut_fill R (leaves (Z.of_nat dn) (Leaf v0) ++ rest) st = lut_fill R rest st' /\
                lut_filled R (Leaf v0) dn key st st'.
  Proof.
    intros Hdn Hk Hst Hoff. set (d := Z.of_nat dn) in *.
    assert (HP : 0 < 2 ^ d) by p2.
    destruct (fill_subtree R (Leaf v0) dn key st rest ltac:(lia) I ltac:(repeat constructor; exact Hdn) Hk Hst)
      as (st' & F & L & O & S & K & T). fold d in T.
    exists st'. split; [exact F|]. unfold lut_filled, endof. rewrite O, S. fold d.
    split; [lia|]. split; [exact Hoff|]. split; [exact K|]. split; [now left|]. split.
    - intros j _ Hnot. rewrite T.
      destruct ((0 <=? j) && (j <? 2 ^ R) && (j mod 2 ^ d =? key))%bool eqn:E; [|reflexivity].
      exfalso. apply Hnot. lia.
    - intros w v n Hw Hwk Hwalk tab'' Hag. injection Hwalk as <- <-.
      assert (Hr : 0 <= w mod 2 ^ R < 2 ^ R) by (apply Z.mod_pos_bound; p2).
      assert (Hrm : (w mod 2 ^ R) mod 2 ^ d = key).
      { rewrite <- Hwk. rewrite (pow2_split R d), Z.mul_comm, Z.rem_mul_r by p2.
        rewrite Z.mul_comm, Z.mod_add by (apply Z.pow_nonzero; lia). apply Z.mod_mod, Z.pow_nonzero; lia. }
      unfold lut_read. rewrite Hag by (left; split; assumption). rewrite T.
      replace ((0 <=? w mod 2 ^ R) && (w mod 2 ^ R <? 2 ^ R) && ((w mod 2 ^ R) mod 2 ^ d =? key))%bool with true by lia.
      unfold slot_of. cbn [walk]. replace (0 <? d + 0 - R) with false by lia. now rewrite Z.add_0_r.
  Qed.

  Lemma fill_second_level l r dn key st rest :
    complete l -> complete r -> Z.of_nat dn = R ->
    StronglySorted Rle (leaves (Z.of_nat dn) (Node l r) ++ rest) ->
    Forall (fun it => fst it <= 15) (leaves (Z.of_nat dn) (Node l r)) ->
    0 <= key < 2 ^ Z.of_nat dn -> l_key st = key -> key <> l_low st ->
    2 ^ R <= endof st -> 0 <= l_off st ->
    exists st', lut_fill R (leaves (Z.of_nat dn) (Node l r) ++ rest) st = lut_fill R rest st' /\
                lut_filled R (Node l r) dn key st st'.
  Proof.
    intros Hcl Hcr EdR Hs H15 Hk Hst Hlow Hend Hoff.
    assert (HR2 : 0 < 2 ^ R) by p2.
    assert (HkR : 0 <= key < 2 ^ R) by (rewrite <- EdR; exact Hk).
    assert (Hkey : key mod 2 ^ R = key) by (apply Z.mod_small; exact HkR).
    remember (leaves (Z.of_nat dn) (Node l r)) as lv eqn:Dlv.
    assert (Hge : Forall (fun it => R + 1 <= fst it) lv).
    { rewrite Dlv, EdR. cbn [leaves]. apply Forall_app. split; apply leaves_depth_ge. }
    set (hgt := maxd lv).
    assert (Hlehgt : Forall (fun it => fst it <= hgt) lv) by apply maxd_ge.
    destruct (maxd_in lv) as (xm & Hxm & Exhgt).
    { rewrite Dlv. apply leaves_nonempty. cbn. auto. }
    { eapply Forall_impl; [|exact Hge]. cbn. lia. }
    fold hgt in Exhgt.
    assert (Hhgt15 : hgt <= 15) by (rewrite <- Exhgt; rewrite Forall_forall in H15; apply H15; exact Hxm).
    assert (HRhgt : R < hgt) by (rewrite <- Exhgt; rewrite Forall_forall in Hge; specialize (Hge xm Hxm); lia).
    assert (Hrest : Forall (fun it => hgt <= fst it) rest).
    { apply Forall_forall. intros y Hy. rewrite <- Exhgt. eapply SS_app_le; eassumption. }
    set (tb := hgt - R) in *.
    assert (Htb2 : 0 < 2 ^ tb) by (unfold tb; p2).
    assert (Ealloc : lut_fill R (lv ++ rest) st = lut_fill R (lv ++ rest)
              (mkl key (arr_set (l_tab st) key (tb + R, endof st)) key (endof st) (2 ^ tb))).
    { destruct lv as [|[l1 v1] lvtl]; [destruct Hxm|].
      assert (Hl1 : R < l1 <= hgt) by (inversion Hge; inversion Hlehgt; subst; cbn [fst] in *; lia).
      assert (Hmin : Forall (fun it => l1 - 1 < fst it) ((l1, v1) :: lvtl)).
      { pose proof (SS_head_min _ _ (SS_prefix _ _ Hs)) as M. eapply Forall_impl; [|exact M]. cbn. lia. }
      pose proof (ntb_spec R hgt _ rest (Node l r) (conj Hcl Hcr) ltac:(rewrite <- EdR; exact Dlv) Hlehgt
                    (ex_intro _ xm (conj Hxm Exhgt)) Hrest Hhgt15 16%nat l1) as N.
      rewrite (wlev_below (l1 - 1) _ Hmin), Z.mul_0_r, Z.sub_0_r in N. cbn [app] in N |- *.
      rewrite alloc_step by (rewrite ?Hst, ?Hkey; (lia || exact Hlow)).
      unfold lut_alloc. rewrite N, Hst, Hkey by lia. reflexivity. }
    rewrite Ealloc. clear Ealloc.
    set (sta := mkl key (arr_set (l_tab st) key (tb + R, endof st)) key (endof st) (2 ^ tb)).
    assert (Elv2 : lv = leaves (Z.of_nat (S dn)) l ++ leaves (Z.of_nat (S dn)) r).
    { rewrite Dlv. cbn [leaves]. now replace (Z.of_nat dn + 1) with (Z.of_nat (S dn)) by lia. }
    replace hgt with (R + tb) in Hlehgt by (unfold tb; lia).
    rewrite Elv2 in Hlehgt. apply Forall_app in Hlehgt. destruct Hlehgt as [HleL HleR].
    rewrite Elv2, <- app_assoc.
    assert (HPd : 0 < 2 ^ Z.of_nat dn) by p2.
    assert (E2 : 2 ^ Z.of_nat (S dn) = 2 * 2 ^ Z.of_nat dn) by (rewrite Nat2Z.inj_succ; apply pow2_double; lia).
    assert (HoffA : 0 <= endof st) by lia.
    assert (HRdn : R < Z.of_nat (S dn)) by lia.
    assert (Hkl : 0 <= key < 2 ^ Z.of_nat (S dn)) by lia.
    assert (Hkr : 0 <= key + 2 ^ Z.of_nat dn < 2 ^ Z.of_nat (S dn)) by lia.
    destruct (fill_tree R HR l (S dn) key sta (leaves (Z.of_nat (S dn)) r ++ rest) R (endof st) tb Hcl
                (or_intror (conj eq_refl (conj HRdn (conj eq_refl (conj HoffA (conj (eq_sym Hkey) eq_refl))))))
                HleL Hkl eq_refl)
      as (st1 & F1 & L1 & O1 & S1 & K1 & T1).
    rewrite F1.
    assert (Hk1 : l_key st1 = key + 2 ^ Z.of_nat dn) by (rewrite K1 by lia; apply next_key_left; lia).
    assert (Hlow1 : l_low st1 = (key + 2 ^ Z.of_nat dn) mod 2 ^ R).
    { rewrite L1. cbn [l_low sta]. rewrite EdR. replace (key + 2 ^ R) with (key + 1 * 2 ^ R) by lia.
      rewrite Z.mod_add by lia. now rewrite Hkey. }
    destruct (fill_tree R HR r (S dn) (key + 2 ^ Z.of_nat dn) st1 rest R (endof st) tb Hcr
                (or_intror (conj eq_refl (conj HRdn (conj (eq_sym O1) (conj HoffA (conj Hlow1 S1))))))
                HleR Hkr Hk1)
      as (st2 & F2 & L2 & O2 & S2 & K2 & T2).
    exists st2. split; [exact F2|].
    assert (Eend2 : endof st2 = endof st + 2 ^ tb) by (unfold endof at 1; rewrite O2, O1, S2, S1; reflexivity).
    assert (Tab2 : forall j, arr_get entry0 (l_tab st2) j =
             let x := j - endof st in
             if (0 <=? x) && (x <? 2 ^ tb)
             then (if Z.odd x then slot_of r 1 x else slot_of l 1 x)
             else if j =? key then (tb + R, endof st) else arr_get entry0 (l_tab st) j).
    { intros j. rewrite T2, T1. cbv zeta. cbn [l_tab sta].
      replace (Z.of_nat (S dn) - R) with 1 by lia.
      replace ((key + 2 ^ Z.of_nat dn) / 2 ^ R) with 1
        by (rewrite EdR; replace (key + 2 ^ R) with (key + 1 * 2 ^ R) by lia; rewrite Z.div_add, Z.div_small by lia; reflexivity).
      replace (key / 2 ^ R) with 0 by (rewrite Z.div_small by exact HkR; reflexivity).
      change (2 ^ 1) with 2.
      destruct (0 <=? j - endof st) eqn:E0; cbn [andb].
      - destruct (j - endof st <? 2 ^ tb) eqn:E1; cbn [andb].
        + rewrite (Zmod_odd (j - endof st)). destruct (Z.odd (j - endof st)); reflexivity.
        + rewrite arr_get_set_other by lia. now replace (j =? key) with false by lia.
      - destruct (Z.eq_dec j key) as [->|Hjk].
        + rewrite arr_get_set_same by lia. now rewrite Z.eqb_refl.
        + rewrite arr_get_set_other by lia. now replace (j =? key) with false by lia. }
    clear T1 T2 F1 F2.
    split; [lia|]. split; [rewrite O2, O1; exact HoffA|]. split.
    { intros Hnk. destruct (next_key_node dn key Hk Hnk) as [Hne' <-]. exact (K2 Hne'). }
    split.
    { right. rewrite L2, L1. cbn [l_low sta]. rewrite EdR. split; [exact HkR|exact Hkey]. }
    split.
    - intros j Hj Hnot. rewrite Tab2. cbv zeta.
      replace (0 <=? j - endof st) with false by lia. cbn [andb].
      destruct (j =? key) eqn:Ejk; [|reflexivity]. exfalso. apply Hnot.
      assert (j = key) by lia. subst j. rewrite EdR. split; [exact HkR|exact Hkey].
    - (* the read: root slot [key] links to the table, which is indexed by the next tb bits *)
      intros w v n Hw Hwk Hwalk tab'' Hag.
      unfold lut_read. rewrite EdR in Hwk, Hwalk.
      rewrite Hag by (left; rewrite Hwk, EdR; split; [exact HkR|exact Hkey]).
      rewrite Hwk, Tab2. cbv zeta.
      replace (0 <=? key - endof st) with false by lia. cbn [andb]. rewrite Z.eqb_refl.
      replace (0 <? tb + R - R) with true by (unfold tb; lia). replace (tb + R - R) with tb by lia.
      set (W := w / 2 ^ R) in *. set (x := W mod 2 ^ tb).
      assert (Hx : 0 <= x < 2 ^ tb) by (apply Z.mod_pos_bound; lia).
      rewrite Hag by (right; rewrite Eend2; lia).
      rewrite Tab2. cbv zeta. replace (endof st + x - endof st) with x by lia.
      replace ((0 <=? x) && (x <? 2 ^ tb))%bool with true by lia.
      assert (HleN : Forall (fun it => fst it <= R + tb) (leaves (Z.of_nat dn) (Node l r))).
      { cbn [leaves]. replace (Z.of_nat dn + 1) with (Z.of_nat (S dn)) by lia. apply Forall_app. now split. }
      pose proof (walk_low (R + tb) (Node l r) (Z.of_nat dn) W (conj Hcl Hcr) HleN) as Wl.
      rewrite EdR in Wl. replace (R + tb - R) with tb in Wl by lia. fold x in Wl. rewrite <- Wl in Hwalk.
      apply walk_Node in Hwalk. destruct Hwalk as (n' & -> & Hwalk).
      unfold slot_of. change (2 ^ 1) with 2.
      destruct (Z.odd x); rewrite Hwalk; f_equal; lia.
  Qed.

  (** above depth R the right half is filled after the left and leaves it alone *)
  Lemma filled_node l r dn key st st1 st2 :
    Z.of_nat (S dn) <= R -> 0 <= key < 2 ^ Z.of_nat dn -> 2 ^ R <= endof st ->
    lut_filled R l (S dn) key st st1 -> lut_filled R r (S dn) (key + 2 ^ Z.of_nat dn) st1 st2 ->
    lut_filled R (Node l r) dn key st st2.
  Proof.
    intros HdnR Hk Hend (En1 & Of1 & K1 & Lo1 & Fr1 & Rd1) (En2 & Of2 & K2 & Lo2 & Fr2 & Rd2).
    assert (HP : 0 < 2 ^ Z.of_nat dn) by p2.
    assert (Hcls : forall j, 0 <= j -> j mod 2 ^ Z.of_nat (S dn) = key \/ j mod 2 ^ Z.of_nat (S dn) = key + 2 ^ Z.of_nat dn ->
                     j mod 2 ^ Z.of_nat dn = key)
      by (intros j Hj; apply (class_children dn key j Hk Hj)).
    split; [clear - En1 En2; lia|]. split; [exact Of2|]. split.
    { intros Hnk. destruct (next_key_node dn key Hk Hnk) as [Hne' <-]. exact (K2 Hne'). }
    split.
    { destruct Lo2 as [->|[Hb Hm]]; [destruct Lo1 as [->|[Hb Hm]]; [now left|]|]; right; (split; [exact Hb|]);
        (apply Hcls; [clear - Hb; lia|tauto]). }
    split.
    - intros j Hj Hnot. transitivity (arr_get entry0 (l_tab st1) j).
      + apply Fr2; [clear - Hj En1; lia|]. intros [Hb Hm]. apply Hnot. split; [exact Hb|].
        apply Hcls; [clear - Hb; lia|now right].
      + apply Fr1; [exact Hj|]. intros [Hb Hm]. apply Hnot. split; [exact Hb|].
        apply Hcls; [clear - Hb; lia|now left].
    - intros w v n Hw Hwk Hwalk tab'' Hag.
      destruct (class_children dn key w Hk Hw) as (Hsc & Hl0 & Hr1 & Hdiv).
      apply walk_Node in Hwalk. destruct Hwalk as (n' & -> & Hwalk). rewrite Hdiv in Hwalk.
      replace (Z.of_nat dn + (n' + 1)) with (Z.of_nat (S dn) + n') by (clear; lia).
      destruct (proj1 Hsc Hwk) as [Hwl|Hwr].
      + rewrite (Hl0 Hwl) in Hwalk. apply (Rd1 w v n' Hw Hwl Hwalk).
        intros j Hreg. rewrite Hag.
        *          apply Fr2; [destruct Hreg as [[Hb _]|Hb]; clear - Hb Hend En1; lia|].
          intros [Hb Hm]. destruct Hreg as [[_ Hm']|Hb']; [rewrite Hm' in Hm; clear - Hm HP; lia|clear - Hb Hb' Hend; lia].
        * destruct Hreg as [[Hb Hm]|Hb]; [left; split; [exact Hb|apply Hcls; [clear - Hb; lia|now left]]|right; clear - Hb En2; lia].
      + rewrite (Hr1 Hwr) in Hwalk. apply (Rd2 w v n' Hw Hwr Hwalk).
        intros j Hreg. apply Hag.
        destruct Hreg as [[Hb Hm]|Hb]; [left; split; [exact Hb|apply Hcls; [clear - Hb; lia|now right]]|right; clear - Hb En1; lia].
  Qed.

  (** Induction down to depth R.  No root slot of the class is the prefix [l_low st] of the current
      second-level table, so the first symbol longer than R allocates a new one. *)
  Lemma fill_top : forall t dn key st rest,
    complete t -> Z.of_nat dn <= R ->
    StronglySorted Rle (leaves (Z.of_nat dn) t ++ rest) ->
    Forall (fun it => fst it <= 15) (leaves (Z.of_nat dn) t) ->
    0 <= key < 2 ^ Z.of_nat dn -> l_key st = key ->
    (forall j, 0 <= j < 2 ^ R -> j mod 2 ^ Z.of_nat dn = key -> j <> l_low st) ->
    2 ^ R <= endof st -> 0 <= l_off st ->
    exists st', lut_fill R (leaves (Z.of_nat dn) t ++ rest) st = lut_fill R rest st' /\ lut_filled R t dn key st st'.
  Proof.
    induction t as [v0|l IHl r IHr|]; intros dn key st rest Hc Hdn Hs H15 Hk Hst Hlow Hend Hoff;
      cbn [complete] in Hc; [apply fill_root_leaf; assumption| |contradiction].
    destruct Hc as [Hcl Hcr].
    destruct (Z.eq_dec (Z.of_nat dn) R) as [EdR|HdR].
    - apply fill_second_level; try assumption.
      apply Hlow; rewrite EdR in *; [exact Hk|apply Z.mod_small; exact Hk].
    - assert (HdnR : Z.of_nat (S dn) <= R) by lia.
      assert (HP : 0 < 2 ^ Z.of_nat dn) by p2.
      assert (E2 : 2 ^ Z.of_nat (S dn) = 2 * 2 ^ Z.of_nat dn) by (rewrite Nat2Z.inj_succ; apply pow2_double; lia).
      assert (Hcls : forall j, 0 <= j -> j mod 2 ^ Z.of_nat (S dn) = key \/ j mod 2 ^ Z.of_nat (S dn) = key + 2 ^ Z.of_nat dn ->
                       j mod 2 ^ Z.of_nat dn = key)
        by (intros j Hj; apply (class_children dn key j Hk Hj)).
      assert (Hkl : 0 <= key < 2 ^ Z.of_nat (S dn)) by (clear - Hk E2; lia).
      assert (Hkr : 0 <= key + 2 ^ Z.of_nat dn < 2 ^ Z.of_nat (S dn)) by (clear - Hk E2; lia).
      cbn [leaves] in *. replace (Z.of_nat dn + 1) with (Z.of_nat (S dn)) in * by (clear; lia).
      apply Forall_app in H15. destruct H15 as [H15l H15r].
      rewrite <- app_assoc in *.
      destruct (IHl (S dn) key st (leaves (Z.of_nat (S dn)) r ++ rest) Hcl HdnR Hs H15l Hkl Hst
                  ltac:(intros j Hj Hm; apply Hlow; [exact Hj|apply Hcls; [clear - Hj; lia|now left]]) Hend Hoff)
        as (st1 & F1 & Fd1).
      rewrite F1.
      pose proof Fd1 as (En1 & Of1 & K1 & Lo1 & _).
      assert (Hk1 : l_key st1 = key + 2 ^ Z.of_nat dn)
        by (rewrite K1 by (clear - Hk E2; lia); apply next_key_left; exact Hk).
      assert (Hlow1 : forall j, 0 <= j < 2 ^ R -> j mod 2 ^ Z.of_nat (S dn) = key + 2 ^ Z.of_nat dn -> j <> l_low st1).
      { intros j Hj Hm. destruct Lo1 as [->|[_ Hlm]]; [apply Hlow; [exact Hj|apply Hcls; [clear - Hj; lia|now right]]|].
        intros ->. rewrite Hlm in Hm. clear - Hm HP. lia. }
      assert (Hend1 : 2 ^ R <= endof st1) by (clear - Hend En1; lia).
      destruct (IHr (S dn) (key + 2 ^ Z.of_nat dn) st1 rest Hcr HdnR (SS_suffix _ _ Hs) H15r Hkr Hk1 Hlow1 Hend1 Of1)
        as (st2 & F2 & Fd2).
      exists st2. split; [exact F2|]. exact (filled_node l r dn key st st1 st2 HdnR Hk Hend Fd1 Fd2).
  Qed.
End Top.

(** every accepted length vector, root size (0: all symbols behind one link) and window *)
Theorem lut_read_eq_walk : forall root lens t tab w, 0 <= root ->
  tree_of_lens lens = Ok t -> lut_build root lens = Ok tab -> 0 <= w ->
  exists v n, walk t w = Some (v, n) /\ lut_read root tab w = (v, n).
Proof.
  intros root lens t tab w Hroot Ht Hb Hw.
  destruct (accepted_inv root lens t tab Ht Hb) as [(l0 & s0 & Ei & -> & ->)|(Hc & El & ->)].
  - exists s0, 0. split; [reflexivity|].
    unfold lut_read. rewrite one_symbol_slot by (try apply Z.mod_pos_bound; p2).
    now replace (0 <? 0 - root) with false by lia.
  - assert (Hl15 : Forall (fun it => fst it <= 15) (leaves (Z.of_nat 0) t)).
    { cbn [Z.of_nat]. rewrite El. eapply Forall_impl; [|apply lens_items_range]. cbn. lia. }
    assert (Hss : StronglySorted Rle (leaves (Z.of_nat 0) t ++ [])).
    { cbn [Z.of_nat]. rewrite app_nil_r, El. apply lens_items_sorted. }
    destruct (fill_top root ltac:(lia) t 0%nat 0 (mkl 0 arr_empty (-1) 0 (2 ^ root)) [] Hc ltac:(cbn; lia) Hss Hl15
                ltac:(cbn; lia) eq_refl ltac:(cbn [l_low]; intros; lia) ltac:(unfold endof; cbn [l_off l_size]; lia) ltac:(cbn; lia))
      as (st' & F & _ & _ & _ & _ & _ & Rd).
    rewrite app_nil_r in F. cbn [Z.of_nat] in F. rewrite El in F. cbn [lut_fill] in F.
    destruct (walk_complete t Hc w) as (v & n & Ew). exists v, n. split; [exact Ew|].
    rewrite F.
    pose proof (Rd w v n Hw ltac:(change (2 ^ Z.of_nat 0) with 1; apply Z.mod_1_r)
                  ltac:(change (2 ^ Z.of_nat 0) with 1; rewrite Z.div_1_r; exact Ew) (l_tab st') ltac:(reflexivity)) as E.
    cbn [Z.of_nat] in E. rewrite Z.add_0_l in E. exact E.
Qed.

Theorem lut_decode_eq_canonical : lut_decode_eq_canonical_statement.
Proof. intros root lens t tab w Hroot. apply lut_read_eq_walk. lia. Qed.
