(** Boolean well-formedness checker for plans, sound for [wf_plan] — so that
    [emit_decode] applies to every plan on which the checker says true.  The
    harness runs the extracted checker on every plan it generates. *)
From Coq Require Import List ZArith Lia Bool.
From Coq Require Import ZifyBool ZifyNat.
From Webp Require Import Base.Res Vp8l.Vp8lPixel Vp8l.Vp8lArr Vp8l.Vp8lPrefix Vp8l.Vp8lCanon Vp8l.Vp8lTransforms
  Vp8l.Vp8lSpec Vp8l.Vp8lEmit Vp8l.Vp8lEntropy Vp8l.Vp8lCodeLens Vp8l.Vp8lEmitDecode.
From Webp Require Import Base.ListFacts.
Import ListNotations.
Open Scope Z_scope.

(** takes every [_ && _ = true] hypothesis apart; the pieces are then used by [lia] and
    [assumption] only, never by name *)
Ltac split_andb :=
  repeat match goal with
         | H : (_ && _)%bool = true |- _ => apply andb_prop in H; destruct H
         end.

Definition list_eqb (a b : list Z) : bool := if list_eq_dec Z.eq_dec a b then true else false.
Lemma list_eqb_eq a b : list_eqb a b = true -> a = b.
Proof. unfold list_eqb. destruct (list_eq_dec Z.eq_dec a b); [auto|discriminate]. Qed.

Definition usedb (lens : list Z) (s : Z) : bool :=
  (0 <=? s) && (s <? Z.of_nat (length lens)) && negb (nth (Z.to_nat s) lens 0 =? 0).
Lemma usedb_ok lens s : usedb lens s = true -> used lens s.
Proof. unfold usedb, used. intros H. split_andb. lia. Qed.

Definition cltok_okb (cl : list Z) (t : cltok) : bool :=
  match t with
  | CLlit l => (0 <=? l) && (l <? 16) && usedb cl l
  | CLrep16 n => (3 <=? n) && (n <=? 6) && usedb cl 16
  | CLrep17 n => (3 <=? n) && (n <=? 10) && usedb cl 17
  | CLrep18 n => (11 <=? n) && (n <=? 138) && usedb cl 18
  end.
Lemma cltok_okb_ok cl t : cltok_okb cl t = true -> cltok_ok cl t.
Proof. destruct t; cbn; intros H; split_andb; (split; [lia|now apply usedb_ok]). Qed.

Definition wf_codeb (alphabet : Z) (cp : codeplan) : bool :=
  match cp with
  | CSimple [s0] => (0 <=? s0) && (s0 <? 256) && (s0 <? alphabet)
  | CSimple [s0; s1] => (0 <=? s0) && (s0 <? 256) && (s0 <? alphabet) && (0 <=? s1) && (s1 <? 256) && (s1 <? alphabet)
  | CSimple _ => false
  | CNormal ncl cl usemax toks =>
    (4 <=? ncl) && (ncl <=? 19) && forallb (fun c => (0 <=? c) && (c <? 8)) cl &&
    list_eqb (cl_written ncl cl) cl && is_ok (tree_of_lens cl) && forallb (cltok_okb cl) toks &&
    (0 <? alphabet) &&
    (((usemax =? -1) && (toks_span toks =? alphabet)) ||
     ((0 <=? usemax) && (usemax <=? 7) && (2 <=? Z.of_nat (length toks)) && (Z.of_nat (length toks) <=? alphabet) &&
      (Z.of_nat (length toks) - 2 <? 2 ^ (2 + 2 * usemax)) && (toks_span toks <=? alphabet)))
  end.

Lemma wf_codeb_ok alphabet cp : wf_codeb alphabet cp = true -> wf_code alphabet cp.
Proof.
  destruct cp as [syms|ncl cl usemax toks]; cbn [wf_codeb wf_code].
  - destruct syms as [|s0 [|s1 [|s2 tl]]]; intros H; try discriminate; split_andb; lia.
  - intros H. split_andb.
    split; [lia|]. split; [eapply forallb_Forall; [|eassumption]; cbn; intros; lia|].
    split; [now apply list_eqb_eq|]. split; [assumption|].
    split; [eapply forallb_Forall; [apply cltok_okb_ok|eassumption]|]. split; [lia|].
    match goal with H : (_ || _)%bool = true |- _ => apply orb_prop in H; destruct H as [H|H] end; split_andb.
    + left. lia.
    + right. lia.
Qed.

Definition token_okb (lg lr lb la ld : list Z) (w total pos : Z) (t : token) : bool :=
  match t with
  | TLit p => wf_pxb p && usedb lg (pg p) && usedb lr (pr p) && usedb lb (pb p) && usedb la (pa p)
  | TCache k => (0 <=? k) && usedb lg (280 + k)
  | TCopy len dc =>
    (1 <=? len) && (1 <=? dc) && (1 <=? plane_to_dist w dc) && (plane_to_dist w dc <=? pos) &&
    (len <=? total - pos) && (0 <=? fst (fst (lz_prefix len))) && (fst (fst (lz_prefix len)) <? 24) &&
    usedb lg (256 + fst (fst (lz_prefix len))) && usedb ld (fst (fst (lz_prefix dc)))
  end.

Lemma token_okb_ok lg lr lb la ld w total pos t :
  token_okb lg lr lb la ld w total pos t = true -> token_ok lg lr lb la ld w total pos t.
Proof.
  destruct t as [p|k|len dc]; cbn [token_okb token_ok]; intros H; split_andb.
  - split; [now apply wf_pxb_spec|]. split; [now apply usedb_ok|]. split; [now apply usedb_ok|].
    split; now apply usedb_ok.
  - split; [lia|now apply usedb_ok].
  - split; [lia|]. split; [lia|]. split; [lia|]. split; [lia|]. split; [lia|].
    split; now apply usedb_ok.
Qed.

Fixpoint tokens_okb (lg lr lb la ld : list Z) (w total pos : Z) (toks : list token) : bool :=
  match toks with
  | [] => pos =? total
  | t :: tl => (pos <? total) && token_okb lg lr lb la ld w total pos t &&
               tokens_okb lg lr lb la ld w total (pos + token_len t) tl
  end.

Lemma tokens_okb_ok lg lr lb la ld w total : forall toks pos,
  tokens_okb lg lr lb la ld w total pos toks = true -> tokens_ok lg lr lb la ld w total pos toks.
Proof.
  induction toks as [|t tl IH]; intros pos H; cbn [tokens_okb tokens_ok] in *; [lia|].
  split_andb. split; [lia|]. split; [now apply token_okb_ok|now apply IH].
Qed.

Definition cache_okb (cb : Z) : bool := (cb =? 0) || ((1 <=? cb) && (cb <=? 11)).

Definition wf_groupb (cb : Z) (g : list codeplan) : bool :=
  match g with
  | [cg; cr; cbl; ca; cd] =>
    let a0 := 280 + cache_size_of cb in
    wf_codeb a0 cg && wf_codeb 256 cr && wf_codeb 256 cbl && wf_codeb 256 ca && wf_codeb 40 cd &&
    is_ok (tree_of_lens (code_lens a0 cg)) && is_ok (tree_of_lens (code_lens 256 cr)) &&
    is_ok (tree_of_lens (code_lens 256 cbl)) && is_ok (tree_of_lens (code_lens 256 ca)) &&
    is_ok (tree_of_lens (code_lens 40 cd))
  | _ => false
  end.

Lemma wf_groupb_ok cb g : wf_groupb cb g = true -> wf_group cb g.
Proof.
  destruct g as [|cg [|cr [|cbl [|ca [|cd [|x tl]]]]]]; cbn [wf_groupb]; intros H; try discriminate.
  cbv zeta in H. split_andb.
  exists cg, cr, cbl, ca, cd. split; [reflexivity|]. cbv zeta.
  split; [now apply wf_codeb_ok|]. split; [now apply wf_codeb_ok|]. split; [now apply wf_codeb_ok|].
  split; [now apply wf_codeb_ok|]. split; [now apply wf_codeb_ok|].
  repeat split; assumption.
Qed.

Definition wf_eimgb (w h : Z) (ep : eplan) : bool :=
  cache_okb (ep_cache_bits ep) &&
  match ep_codes ep with
  | [g] =>
    wf_groupb (ep_cache_bits ep) g &&
    let gl := lens_of (ep_cache_bits ep) g in
    tokens_okb (gl_g gl) (gl_r gl) (gl_b gl) (gl_a gl) (gl_d gl) w (w * h) 0 (ep_tokens ep)
  | _ => false
  end.

Lemma wf_eimgb_ok w h ep : wf_eimgb w h ep = true -> wf_eimg w h ep.
Proof.
  unfold wf_eimgb, wf_eimg. intros H. split_andb.
  split; [unfold cache_okb in *; lia|].
  destruct (ep_codes ep) as [|g [|g2 tl]]; try discriminate.
  cbv zeta in *. split_andb.
  match goal with Hg : wf_groupb _ _ = true |- _ => apply wf_groupb_ok in Hg; destruct Hg as (cg & cr & cbl & ca & cd & E & Hrest) end.
  subst g. cbn [lens_of gl_g gl_r gl_b gl_a gl_d] in *.
  exists cg, cr, cbl, ca, cd. split; [reflexivity|]. cbv zeta in *.
  destruct Hrest as (R1 & R2 & R3 & R4 & R5 & R6 & R7 & R8 & R9 & R10).
  repeat split; try assumption. now apply tokens_okb_ok.
Qed.

Definition wf_tplanb (cw h : Z) (t : tplan) : bool :=
  match t with
  | TPPred bits sub =>
    (2 <=? bits) && (bits <=? 9) && wf_eimgb (subsample cw bits) (subsample h bits) sub &&
    forallb (fun p => pg p <? 14) (sem_eimg (subsample cw bits) sub)
  | TPCross bits sub => (2 <=? bits) && (bits <=? 9) && wf_eimgb (subsample cw bits) (subsample h bits) sub
  | TPSubGreen => true
  | TPIndex n sub => (1 <=? n) && (n <=? 256) && wf_eimgb n 1 sub
  end.

Lemma wf_tplanb_ok cw h t : wf_tplanb cw h t = true -> wf_tplan cw h t.
Proof.
  destruct t; cbn [wf_tplanb wf_tplan]; intros H; split_andb; try exact I.
  - split; [lia|]. split; [now apply wf_eimgb_ok|assumption].
  - split; [lia|now apply wf_eimgb_ok].
  - split; [lia|now apply wf_eimgb_ok].
Qed.

Fixpoint wf_tplansb (cw h : Z) (seen : list Z) (ts : list tplan) : bool :=
  match ts with
  | [] => true
  | t :: tl => wf_tplanb cw h t && negb (existsb (Z.eqb (tplan_type t)) seen) &&
               wf_tplansb (next_width cw t) h (tplan_type t :: seen) tl
  end.

Lemma wf_tplansb_ok h : forall ts cw seen, wf_tplansb cw h seen ts = true -> wf_tplans cw h seen ts.
Proof.
  induction ts as [|t tl IH]; intros cw seen H; cbn [wf_tplansb wf_tplans] in *; [exact I|].
  split_andb. split; [now apply wf_tplanb_ok|]. split; [|now apply IH].
  now destruct (existsb (Z.eqb (tplan_type t)) seen).
Qed.

Definition dims_okb (p : plan) : bool :=
  (1 <=? p_w p) && (p_w p <=? 16384) && (1 <=? p_h p) && (p_h p <=? 16384) &&
  (0 <=? p_alpha p) && (p_alpha p <=? 1) && (Z.of_nat (length (p_transforms p)) <=? 4).

Definition token_okb_m (gls : list glens) (w total mb mw : Z) (meta : arr Z) (pos : Z) (t : token) : bool :=
  let i := gidx mb mw meta (pos mod w) (pos / w) in
  (0 <=? i) && (i <? Z.of_nat (length gls)) &&
  let gl := nth (Z.to_nat i) gls glens_dummy in
  token_okb (gl_g gl) (gl_r gl) (gl_b gl) (gl_a gl) (gl_d gl) w total pos t.

Fixpoint tokens_okb_m (gls : list glens) (w total mb mw : Z) (meta : arr Z) (pos : Z) (toks : list token) : bool :=
  match toks with
  | [] => pos =? total
  | t :: tl => (pos <? total) && token_okb_m gls w total mb mw meta pos t &&
               tokens_okb_m gls w total mb mw meta (pos + token_len t) tl
  end.

Lemma tokens_okb_m_ok gls w total mb mw meta : forall toks pos,
  tokens_okb_m gls w total mb mw meta pos toks = true -> tokens_ok_m gls w total mb mw meta pos toks.
Proof.
  induction toks as [|t tl IH]; intros pos H; cbn [tokens_okb_m tokens_ok_m] in *; [lia|].
  split_andb. split; [lia|]. split; [|now apply IH].
  unfold token_okb_m in *. unfold token_ok_m. cbv zeta in *. split_andb.
  split; [lia|]. now apply token_okb_ok.
Qed.

Definition wf_planb (p : plan) : bool :=
  dims_okb p && wf_tplansb (p_w p) (p_h p) [] (p_transforms p) &&
  let cw := snd (sem_transforms (p_transforms p) (p_w p) (p_h p)) in
  let main := p_main p in
  let cb := ep_cache_bits main in
  match p_meta p with
  | None => wf_eimgb cw (p_h p) main
  | Some (mb, msub) =>
    let mw := subsample cw mb in
    let meta := map meta_index (sem_eimg mw msub) in
    (2 <=? mb) && (mb <=? 9) && wf_eimgb mw (subsample (p_h p) mb) msub && cache_okb cb &&
    forallb (wf_groupb cb) (ep_codes main) &&
    (Z.of_nat (length (ep_codes main)) =? fold_left Z.max meta 0 + 1) &&
    tokens_okb_m (map (lens_of cb) (ep_codes main)) cw (cw * p_h p) mb mw (arr_of_list meta) 0 (ep_tokens main)
  end.

Theorem wf_planb_ok p : wf_planb p = true -> wf_plan p.
Proof.
  unfold wf_planb, dims_okb. intros H. cbv zeta in H. split_andb.
  destruct (p_meta p) as [[mb msub]|] eqn:Em.
  - right. unfold wf_plan2. exists mb, msub. split_andb.
    split; [exact Em|]. split; [lia|]. split; [lia|]. split; [lia|]. split; [lia|].
    split; [now apply wf_tplansb_ok|]. split; [lia|]. cbv zeta.
    split; [now apply wf_eimgb_ok|]. split; [unfold cache_okb in *; lia|].
    split; [eapply forallb_Forall; [apply wf_groupb_ok|eassumption]|].
    split; [lia|]. now apply tokens_okb_m_ok.
  - left. unfold wf_plan1. split; [assumption|]. split; [lia|]. split; [lia|]. split; [lia|]. split; [lia|].
    split; [now apply wf_tplansb_ok|now apply wf_eimgb_ok].
Qed.

Corollary emit_decode_checked : forall p, wf_planb p = true -> decode (emit p) = Ok (sem p).
Proof. intros p H. apply emit_decode, wf_planb_ok, H. Qed.

(** [ex_plan] is well formed: the hypothesis of [emit_decode] is satisfiable by a plan
    that uses every feature. *)
Example ex_plan_wf : wf_planb ex_plan = true.
Proof. vm_compute. reflexivity. Qed.
