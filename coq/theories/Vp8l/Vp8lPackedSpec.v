(** The packed / sequential literal read of [Vp8lPacked] against the pixel read of the
    specification decoder: [spec_read_pixel] is the first step of an iteration of
    [Vp8lSpec.pixels_loop] ([pixels_loop_pixel_read]): [read_symbol] on the green code, then for
    a literal on the red, blue and alpha codes, the pixel assembled by [mkpx]. *)
From Coq Require Import List ZArith Lia Bool.
From Coq Require Import ZifyBool ZifyNat.
From Webp Require Import Base.Res Vp8l.Vp8lPow2 Vp8l.Vp8lPixel Vp8l.Vp8lArr Vp8l.Vp8lPrefix Vp8l.Vp8lTransforms Vp8l.Vp8lSpec Vp8l.Vp8lCanon Vp8l.Vp8lLut Vp8l.Vp8lSymRange Vp8l.Vp8lPacked.
Import ListNotations.
Open Scope Z_scope.

Lemma lor_add_disjoint x y n : 0 <= n -> 0 <= x < 2 ^ n -> 0 <= y -> Z.lor x (y * 2 ^ n) = x + y * 2 ^ n.
Proof.
  intros Hn Hx Hy.
  assert (Hl : Z.land x (y * 2 ^ n) = 0).
  { apply Z.bits_inj'. intros i Hi. rewrite Z.land_spec, Z.bits_0.
    destruct (Z_lt_le_dec i n) as [Hlt|Hge].
    - rewrite (Z.mul_pow2_bits_low y n i) by lia. apply andb_false_r.
    - rewrite <- (Z.mod_small x (2 ^ n)) by lia. rewrite Z.mod_pow2_bits_high by lia. reflexivity. }
  rewrite <- Z.lxor_lor by exact Hl. symmetry. apply Z.add_nocarry_lxor. exact Hl.
Qed.

(** a<<24 | r<<16 | g<<8 | b as accumulateHCode builds it = the specification's pixel word *)
Lemma argb_of_eq_px g r b a : chan_ok g -> chan_ok r -> chan_ok b -> chan_ok a ->
  argb_of g r b a = argb_of_px (mkpx a r g b).
Proof.
  unfold chan_ok, argb_of, argb_of_px. cbn [pa pr pg pb]. intros Hg Hr Hb Ha.
  rewrite !Z.shiftl_mul_pow2, Z.pow_0_r, Z.mul_1_r by lia.
  (* three disjoint ors: g<<8 | r<<16, then b below them, then a<<24 above *)
  rewrite (lor_add_disjoint (g * 2 ^ 8) r 16) by lia.
  rewrite (Z.lor_comm _ b). replace (g * 2 ^ 8 + r * 2 ^ 16) with ((g + r * 2 ^ 8) * 2 ^ 8) by lia.
  rewrite (lor_add_disjoint b _ 8), (lor_add_disjoint _ a 24) by lia. lia.
Qed.

(** the specification's read of one green symbol and, for a literal, of the other three channels *)
Definition spec_read_pixel (tg tr tb ta : tree) (s : bits) : Res (pread * bits) :=
  '(sym, s) <- read_symbol tg s ;;
  if sym <? 256 then
    '(r, s) <- read_symbol tr s ;;
    '(b, s) <- read_symbol tb s ;;
    '(a, s) <- read_symbol ta s ;;
    Ok (PLit (argb_of_px (mkpx a r sym b)), s)
  else Ok (PSym sym, s).

(** what one iteration of the specification's pixel loop does first *)
Lemma pixels_loop_pixel_read f c total pos x y cache acc s : (total <=? pos) = false ->
  let g := group_at c x y in
  match spec_read_pixel (g_green g) (g_red g) (g_blue g) (g_alpha g) s with
  | Ok (PLit argb, s') => exists p, argb = argb_of_px p /\
      pixels_loop (S f) c total pos x y cache acc s =
      let '(x', y') := next_xy (e_w c) x y in
      pixels_loop f c total (pos + 1) x' y' (cache_insert (e_cache_bits c) cache p) (p :: acc) s'
  | Ok (PSym sym, s') => read_symbol (g_green g) s = Ok (sym, s') /\ (sym <? 256) = false
  | Err e => pixels_loop (S f) c total pos x y cache acc s = Err e
  | Panic => pixels_loop (S f) c total pos x y cache acc s = Panic
  end.
Proof.
  intros Hpos g. cbn [pixels_loop]. rewrite Hpos. fold g. unfold spec_read_pixel.
  destruct (read_symbol (g_green g) s) as [[sym s1]|e|]; cbn [bind]; [|reflexivity ..].
  destruct (sym <? 256) eqn:E; [|split; [reflexivity|exact E]].
  destruct (read_symbol (g_red g) s1) as [[r s2]|e|]; cbn [bind]; [|reflexivity ..].
  destruct (read_symbol (g_blue g) s2) as [[b s3]|e|]; cbn [bind]; [|reflexivity ..].
  destruct (read_symbol (g_alpha g) s3) as [[a s4]|e|]; cbn [bind]; [|reflexivity ..].
  exists (mkpx a r sym b). split; reflexivity.
Qed.

Lemma sub_sub_nat k a b : 0 <= a -> 0 <= b -> (k - Z.to_nat a - Z.to_nat b = k - Z.to_nat (a + b))%nat.
Proof. intros. lia. Qed.

Theorem seq_read_spec_pixel : forall tg tr tb ta w res n k rest,
  seq_read tg tr tb ta w = Some (res, n) -> (Z.to_nat n <= k)%nat ->
  (forall v m x, walk tr x = Some (v, m) -> chan_ok v) ->
  (forall v m x, walk tb x = Some (v, m) -> chan_ok v) ->
  (forall v m x, walk ta x = Some (v, m) -> chan_ok v) ->
  (forall v m x, walk tg x = Some (v, m) -> 0 <= v) ->
  spec_read_pixel tg tr tb ta (put_bits k w ++ rest) = Ok (res, put_bits (k - Z.to_nat n) (w / 2 ^ n) ++ rest).
Proof.
  intros tg tr tb ta w res n k rest H Hk Cr Cb Ca Cg.
  unfold seq_read in H. unfold spec_read_pixel.
  destruct (walk tg w) as [[gv gn]|] eqn:Wg; [|discriminate].
  pose proof (walk_nonneg _ _ _ _ Wg) as Hgn.
  destruct (256 <=? gv) eqn:E256.
  - injection H as <- <-.
    rewrite (walk_read_symbol tg w gv gn k rest Wg Hk). cbn [bind].
    assert (E1 : gv <? 256 = false) by (clear - E256; lia). rewrite E1. reflexivity.
  - destruct (walk tr (w / 2 ^ gn)) as [[rv rn]|] eqn:Wr; [|discriminate].
    destruct (walk tb (w / 2 ^ (gn + rn))) as [[bv bn]|] eqn:Wb; [|discriminate].
    destruct (walk ta (w / 2 ^ (gn + rn + bn))) as [[av an]|] eqn:Wa; [|discriminate].
    injection H as <- <-.
    pose proof (walk_nonneg _ _ _ _ Wr) as Hrn. pose proof (walk_nonneg _ _ _ _ Wb) as Hbn.
    pose proof (walk_nonneg _ _ _ _ Wa) as Han.
    assert (K1 : (Z.to_nat gn <= k)%nat) by (clear - Hk Hgn Hrn Hbn Han; lia).
    assert (K2 : (Z.to_nat rn <= k - Z.to_nat gn)%nat) by (clear - Hk Hgn Hrn Hbn Han; lia).
    assert (K3 : (Z.to_nat bn <= k - Z.to_nat (gn + rn))%nat) by (clear - Hk Hgn Hrn Hbn Han; lia).
    assert (K4 : (Z.to_nat an <= k - Z.to_nat (gn + rn + bn))%nat) by (clear - Hk Hgn Hrn Hbn Han; lia).
    assert (E1 : gv <? 256 = true) by (clear - E256; lia).
    rewrite (walk_read_symbol tg w gv gn k rest Wg K1). cbn [bind]. rewrite E1.
    rewrite (walk_read_symbol tr _ rv rn (k - Z.to_nat gn) rest Wr K2). cbn [bind].
    rewrite (div_pow_pow w gn rn Hgn Hrn). rewrite (sub_sub_nat k gn rn Hgn Hrn).
    rewrite (walk_read_symbol tb _ bv bn (k - Z.to_nat (gn + rn)) rest Wb K3). cbn [bind].
    assert (Hgr : 0 <= gn + rn) by (clear - Hgn Hrn; lia).
    rewrite (div_pow_pow w (gn + rn) bn Hgr Hbn). rewrite (sub_sub_nat k (gn + rn) bn Hgr Hbn).
    rewrite (walk_read_symbol ta _ av an (k - Z.to_nat (gn + rn + bn)) rest Wa K4). cbn [bind].
    assert (Hgrb : 0 <= gn + rn + bn) by (clear - Hgn Hrn Hbn; lia).
    rewrite (div_pow_pow w (gn + rn + bn) an Hgrb Han). rewrite (sub_sub_nat k (gn + rn + bn) an Hgrb Han).
    rewrite argb_of_eq_px; [reflexivity| | | |].
    + pose proof (Cg _ _ _ Wg) as G0. unfold chan_ok. clear - G0 E256. lia.
    + eapply Cr; exact Wr.
    + eapply Cb; exact Wb.
    + eapply Ca; exact Wa.
Qed.

Lemma walk_in_alphabet lens t x v m : tree_of_lens lens = Ok t -> walk t x = Some (v, m) ->
  0 <= v < Z.of_nat (length lens).
Proof.
  intros Ht W. pose proof (walk_nonneg _ _ _ _ W) as Hm.
  eapply symbol_in_alphabet; [exact Ht|].
  apply (walk_read_symbol t x v m (Z.to_nat m) [] W). lia.
Qed.

(** The packed-table read of the implementation model IS the specification's pixel read: for every
    group the decoder sends down the packed path (red, blue and alpha alphabets of 256 symbols, as
    the format has them) and every window, on the bit list of the window. *)
Theorem packed_read_eq_spec_pixel :
  forall lg lr lb la mg mr mb ma tg tr tb ta g r b a w res n k rest,
  table_of lg mg tg g -> table_of lr mr tr r -> table_of lb mb tb b -> table_of la ma ta a ->
  length lr = 256%nat -> length lb = 256%nat -> length la = 256%nat ->
  mg + mr + mb + ma <= 6 -> 0 <= w ->
  packed_read (packed_build g r b a) w = (res, n) -> (Z.to_nat n <= k)%nat ->
  spec_read_pixel tg tr tb ta (put_bits k w ++ rest) = Ok (res, put_bits (k - Z.to_nat n) (w / 2 ^ n) ++ rest).
Proof.
  intros lg lr lb la mg mr mb ma tg tr tb ta g r b a w res n k rest Tg Tr Tb Ta Lr Lb La Hsum Hw Hp Hk.
  pose proof (packed_read_eq_sequential _ _ _ _ _ _ _ _ _ _ _ _ _ _ _ _ w Tg Tr Tb Ta Hsum Hw) as H1.
  rewrite Hp in H1.
  destruct Tg as (_ & _ & Tg & _). destruct Tr as (_ & _ & Tr & _).
  destruct Tb as (_ & _ & Tb & _). destruct Ta as (_ & _ & Ta & _).
  apply (seq_read_spec_pixel tg tr tb ta w res n k rest H1 Hk).
  - intros v m x W. pose proof (walk_in_alphabet lr tr x v m Tr W) as R. rewrite Lr in R. exact R.
  - intros v m x W. pose proof (walk_in_alphabet lb tb x v m Tb W) as R. rewrite Lb in R. exact R.
  - intros v m x W. pose proof (walk_in_alphabet la ta x v m Ta W) as R. rewrite La in R. exact R.
  - intros v m x W. pose proof (walk_in_alphabet lg tg x v m Tg W) as R. lia.
Qed.
