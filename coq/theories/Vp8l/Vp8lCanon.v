(** Canonical prefix codes: the code words of a length vector and the proof that
    the decoder's code tree ([tree_of_lens], built depth-first from the symbols
    sorted by (length, symbol)) decodes exactly them.

    Code word of the k-th used symbol in (length, symbol) order, length l_k:
      value_k = (sum over j < k of 2^(15 - l_j)) / 2^(15 - l_k),
    written most significant bit first with l_k bits.  This is the canonical
    (RFC 1951 §3.2.2 / VP8L) numbering: value_0 = 0 and
    value_(k+1) = (value_k + 1) * 2^(l_(k+1) - l_k)   ([codes_step]).  A code with a
    single used symbol has the empty code word. *)
From Coq Require Import List ZArith Lia Bool Sorting.Sorted.
From Coq Require Import ZifyBool ZifyNat.
From Webp Require Import Base.Res Vp8l.Vp8lPow2 Vp8l.Vp8lPrefix.
Import ListNotations.
Open Scope Z_scope.

Fixpoint codes_from (items : list (Z * Z)) (W : Z) : list (Z * bits) :=
  match items with
  | [] => []
  | (l, s) :: tl => (s, msb_bits (Z.to_nat l) (W / wt l)) :: codes_from tl (W + wt l)
  end.

Definition code_list (lens : list Z) : list (Z * bits) :=
  match lens_items lens with
  | [(_, s)] => [(s, [])]
  | items => codes_from items 0
  end.

Definition lookup_code (tab : list (Z * bits)) (s : Z) : bits :=
  match find (fun e => fst e =? s) tab with Some e => snd e | None => [] end.

Definition code_bits (lens : list Z) (s : Z) : bits := lookup_code (code_list lens) s.

Lemma wt_pos l : l <= 15 -> 0 < wt l.
Proof. intros H. unfold wt. p2. Qed.

Lemma sumw_app a b : sumw (a ++ b) = sumw a + sumw b.
Proof. induction a as [|x a IH]; cbn [app sumw]; [reflexivity|]. rewrite IH. lia. Qed.

Lemma sumw_nonneg items : 0 <= sumw items.
Proof.
  induction items as [|x tl IH]; cbn [sumw]; [lia|].
  assert (0 <= wt (fst x)) by (apply Z.pow_nonneg; lia). lia.
Qed.

Lemma sumw_pos x items : fst x <= 15 -> 0 < sumw (x :: items).
Proof. intros Hx. cbn [sumw]. pose proof (wt_pos _ Hx). pose proof (sumw_nonneg items). lia. Qed.

Lemma msb_bits_add n : forall k v, (n <= k)%nat -> 0 <= v ->
  msb_bits n (2 ^ Z.of_nat k + v) = msb_bits n v.
Proof.
  induction n as [|n IH]; intros k v Hk Hv; [reflexivity|].
  cbn [msb_bits]. rewrite IH by lia. f_equal.
  rewrite (pow2_split (Z.of_nat k) (Z.of_nat n)) by lia.
  rewrite Z.div_add_l by (apply Z.pow_nonzero; lia).
  rewrite Z.odd_add, Z.odd_pow by lia. change (Z.odd 2) with false. now destruct (Z.odd (v / 2 ^ Z.of_nat n)).
Qed.

Lemma msb_low n v : 0 <= v < 2 ^ Z.of_nat n -> msb_bits (S n) v = false :: msb_bits n v.
Proof. intros H. cbn [msb_bits]. now rewrite Z.div_small. Qed.

Lemma msb_high n v : 0 <= v < 2 ^ Z.of_nat n -> msb_bits (S n) (2 ^ Z.of_nat n + v) = true :: msb_bits n v.
Proof.
  intros H. cbn [msb_bits]. rewrite msb_bits_add by lia. f_equal.
  replace (2 ^ Z.of_nat n + v) with (1 * 2 ^ Z.of_nat n + v) by lia.
  rewrite Z.div_add_l by (apply Z.pow_nonzero; lia). now rewrite Z.div_small.
Qed.

(** where an element of [x ++ y] lies *)
Lemma app_eq_app_cons {A} (e : A) : forall x y a b, x ++ y = a ++ e :: b ->
  (exists b', x = a ++ e :: b' /\ b = b' ++ y) \/ (exists a', a = x ++ a' /\ y = a' ++ e :: b).
Proof.
  induction x as [|z x IH]; intros y a b H; [right; exists a; split; [reflexivity|exact H]|].
  destruct a as [|z' a]; cbn [app] in H; injection H as -> H; [left; exists x; split; [reflexivity|now symmetry]|].
  destruct (IH y a b H) as [(b' & -> & ->)|(a' & -> & ->)]; [left; exists b'|right; exists a']; split; reflexivity.
Qed.

Fixpoint leaves (d : Z) (t : tree) : list (Z * Z) :=
  match t with
  | Leaf v => [(d, v)]
  | Hole => []
  | Node l r => leaves (d + 1) l ++ leaves (d + 1) r
  end.

Fixpoint complete (t : tree) : Prop :=
  match t with Leaf _ => True | Hole => False | Node l r => complete l /\ complete r end.

Definition Rle (x y : Z * Z) : Prop := fst x <= fst y.

Lemma SS_suffix (a b : list (Z * Z)) : StronglySorted Rle (a ++ b) -> StronglySorted Rle b.
Proof.
  induction a as [|x a IH]; intros H; [exact H|]. apply IH. now inversion H.
Qed.

Lemma SS_app_le (a b : list (Z * Z)) : StronglySorted Rle (a ++ b) ->
  forall x y, In x a -> In y b -> fst x <= fst y.
Proof.
  induction a as [|z a IH]; intros Hs x y Hx Hy; [destruct Hx|].
  cbn [app] in Hs. inversion Hs as [|? ? Hs' Hall]; subst.
  destruct Hx as [->|Hx].
  - rewrite Forall_forall in Hall. apply (Hall y). apply in_or_app. now right.
  - eapply IH; eassumption.
Qed.

Lemma SS_head_min (x : Z * Z) l : StronglySorted Rle (x :: l) -> Forall (fun it => fst x <= fst it) (x :: l).
Proof. intros Hs. inversion Hs; subst. constructor; [lia|assumption]. Qed.

Lemma SS_prefix (a b : list (Z * Z)) : StronglySorted Rle (a ++ b) -> StronglySorted Rle a.
Proof.
  induction a as [|x a IH]; intros H; [constructor|]. cbn [app] in H. inversion H as [|? ? H' Hall]; subst.
  constructor; [apply IH; exact H'|]. apply Forall_app in Hall. apply Hall.
Qed.

(** [build] at depth [d] consumes a prefix of the sorted items, which become the leaves of the
    tree; the Kraft weight of the prefix does not exceed that of a node at depth [d], reaches it
    whenever items are left over, and a tree of that weight has no hole. *)
Lemma build_leaves : forall f d items,
  0 <= d <= 15 -> 15 - d < Z.of_nat f ->
  StronglySorted Rle items -> Forall (fun it => d <= fst it <= 15) items ->
  items = leaves d (fst (build f d items)) ++ snd (build f d items) /\
  sumw (leaves d (fst (build f d items))) <= 2 ^ (15 - d) /\
  (sumw (leaves d (fst (build f d items))) = 2 ^ (15 - d) -> complete (fst (build f d items))) /\
  (snd (build f d items) <> [] -> sumw (leaves d (fst (build f d items))) = 2 ^ (15 - d)).
Proof.
  induction f as [|f IH]; intros d items Hd Hf Hs Hb; [lia|].
  destruct items as [|[len sym] tl].
  - cbn [build fst snd leaves app sumw complete]. assert (0 < 2 ^ (15 - d)) by p2.
    repeat split; try lia. congruence.
  - cbn [build]. assert (Hlen : d <= len <= 15) by (inversion Hb; subst; assumption).
    destruct (len <=? d) eqn:E.
    + assert (len = d) by lia. subst len. cbn [fst snd leaves app sumw complete]. unfold wt.
      repeat split; lia.
    + assert (Hb1 : Forall (fun it => d + 1 <= fst it <= 15) ((len, sym) :: tl)).
      { inversion Hs as [|? ? Hs' Hall]; subst. constructor; [cbn [fst]; lia|].
        inversion Hb as [|? ? _ Hbt]; subst.
        rewrite Forall_forall in *. intros y Hy. specialize (Hall y Hy). specialize (Hbt y Hy).
        unfold Rle in Hall. cbn [fst] in Hall. lia. }
      destruct (IH (d + 1) ((len, sym) :: tl) ltac:(lia) ltac:(lia) Hs Hb1) as (Hi1 & Hle1 & Hc1 & Hfull1).
      destruct (build f (d + 1) ((len, sym) :: tl)) as [lt r1] eqn:E1. cbn [fst snd] in *.
      assert (Hs2 : StronglySorted Rle r1) by (rewrite Hi1 in Hs; eapply SS_suffix; exact Hs).
      assert (Hb2 : Forall (fun it => d + 1 <= fst it <= 15) r1).
      { rewrite Hi1 in Hb1. apply Forall_app in Hb1. apply Hb1. }
      destruct (IH (d + 1) r1 ltac:(lia) ltac:(lia) Hs2 Hb2) as (Hi2 & Hle2 & Hc2 & Hfull2).
      destruct (build f (d + 1) r1) as [rt r2] eqn:E2. cbn [fst snd leaves complete] in *.
      assert (Hp : 2 ^ (15 - d) = 2 * 2 ^ (15 - (d + 1))).
      { replace (15 - d) with (15 - (d + 1) + 1) by lia. apply pow2_double. lia. }
      rewrite sumw_app. split; [rewrite <- app_assoc, <- Hi2; exact Hi1|]. split; [lia|]. split.
      * intros Hsum. split; [apply Hc1|apply Hc2]; lia.
      * intros Hr2. assert (r1 <> []) by (rewrite Hi2; destruct (leaves (d + 1) rt); cbn; congruence).
        rewrite Hfull1, Hfull2 by assumption. lia.
Qed.

Lemma leaves_depth_ge t : forall d, Forall (fun it => d <= fst it) (leaves d t).
Proof.
  induction t as [v|l IHl r IHr|]; intros d; cbn [leaves]; [constructor; [cbn; lia|constructor]| |constructor].
  apply Forall_app. split; (eapply Forall_impl; [|apply IHl || apply IHr]); cbn; intros; lia.
Qed.

Lemma complete_depth_le m : forall t k, complete t -> Forall (fun it => fst it <= m) (leaves k t) -> k <= m.
Proof.
  induction t as [v|a IHa b IHb|]; intros k Hc H; cbn [complete leaves] in *;
    [inversion H; subst; cbn in *; lia| |contradiction].
  destruct Hc as [Ha _]. apply Forall_app in H. destruct H as [H _]. specialize (IHa _ Ha H). lia.
Qed.

(** a tree without holes has the full Kraft weight of its depth *)
Lemma sumw_complete t : forall d, complete t -> Forall (fun it => fst it <= 15) (leaves d t) ->
  sumw (leaves d t) = 2 ^ (15 - d).
Proof.
  induction t as [v|l IHl r IHr|]; intros d Hc Hle; cbn [complete leaves] in *; [| |contradiction].
  - cbn [sumw fst]. unfold wt. lia.
  - pose proof (complete_depth_le 15 _ _ (proj1 Hc) (proj1 (proj1 (Forall_app _ _ _) Hle))) as Hd.
    destruct Hc as [Hcl Hcr]. apply Forall_app in Hle. destruct Hle as [Hl Hr].
    rewrite sumw_app, IHl, IHr by assumption.
    replace (15 - d) with (15 - (d + 1) + 1) by lia. rewrite pow2_double by lia. lia.
Qed.

(** The leaf reached by the code word of cumulative weight: in a tree without holes, the item
    that follows the leaves [a] is decoded from the [l - d] bits of [sumw a / wt l] — the left
    sub-tree holds the weights below half, so the first bit chooses the side. *)
Lemma leaf_code t : forall d a l s b tail,
  complete t -> Forall (fun it => fst it <= 15) (leaves d t) ->
  leaves d t = a ++ (l, s) :: b ->
  read_symbol t (msb_bits (Z.to_nat (l - d)) (sumw a / wt l) ++ tail) = Ok (s, tail).
Proof.
  induction t as [v|tl IHl tr IHr|]; intros d a l s b tail Hc Hle E; cbn [complete leaves] in *; [| |contradiction].
  - destruct a as [|y a]; [|destruct a; discriminate]. injection E as <- <-. now rewrite Z.sub_diag.
  - destruct Hc as [Hcl Hcr]. pose proof Hle as Hle'. apply Forall_app in Hle'. destruct Hle' as [Hl Hr].
    assert (Hl15 : d + 1 <= l <= 15).
    { assert (Hge : Forall (fun it => d + 1 <= fst it) (leaves (d + 1) tl ++ leaves (d + 1) tr))
        by (apply Forall_app; split; apply leaves_depth_ge).
      rewrite E in Hge, Hle. apply Forall_app in Hge, Hle. destruct Hge as [_ Hge], Hle as [_ Hle].
      inversion Hge; inversion Hle; subst. cbn [fst] in *. lia. }
    set (k := Z.to_nat (l - (d + 1))).
    replace (Z.to_nat (l - d)) with (S k) by (unfold k; lia).
    assert (Hwl : 0 < wt l) by (apply wt_pos; lia).
    assert (Hcap : 2 ^ (15 - (d + 1)) = 2 ^ Z.of_nat k * wt l).
    { unfold wt, k. rewrite Z2Nat.id by lia. rewrite <- Z.pow_add_r by lia. f_equal. lia. }
    (* the code word of an item inside a complete sub-tree at depth d + 1 has k bits *)
    assert (Hin : forall sub a' b', complete sub -> Forall (fun it => fst it <= 15) (leaves (d + 1) sub) ->
              leaves (d + 1) sub = a' ++ (l, s) :: b' -> 0 <= sumw a' / wt l < 2 ^ Z.of_nat k).
    { intros sub a' b' Hcs Hls Es. pose proof (sumw_complete sub (d + 1) Hcs Hls) as K.
      rewrite Es, sumw_app in K. cbn [sumw fst] in K.
      pose proof (sumw_nonneg a'). pose proof (sumw_nonneg b').
      split; [apply Z.div_pos; lia|]. apply Z.div_lt_upper_bound; [lia|]. rewrite Z.mul_comm, <- Hcap. lia. }
    apply app_eq_app_cons in E. destruct E as [(b' & E & _)|(a' & -> & E)].
    + rewrite msb_low by exact (Hin tl a b' Hcl Hl E). cbn [app read_symbol]. exact (IHl _ a l s b' tail Hcl Hl E).
    + rewrite sumw_app, (sumw_complete tl (d + 1) Hcl Hl), Hcap.
      rewrite Z.div_add_l by lia.
      rewrite msb_high by exact (Hin tr a' b Hcr Hr E). cbn [app read_symbol]. exact (IHr _ a' l s b tail Hcr Hr E).
Qed.

Lemma indexed_from_In lens : forall i l s, In (l, s) (indexed_from i lens) <->
  i <= s < i + Z.of_nat (length lens) /\ nth (Z.to_nat (s - i)) lens 0 = l.
Proof.
  induction lens as [|x tl IH]; intros i l s; cbn [indexed_from In length].
  - split; [contradiction|lia].
  - rewrite IH. split.
    + intros [H|[H1 H2]]; [injection H as -> ->; rewrite Z.sub_diag; cbn; lia|].
      split; [lia|]. replace (Z.to_nat (s - i)) with (S (Z.to_nat (s - (i + 1)))) by lia. exact H2.
    + intros [H1 H2]. destruct (Z.eq_dec s i) as [->|Hne].
      * left. rewrite Z.sub_diag in H2. cbn in H2. congruence.
      * right. split; [lia|]. replace (Z.to_nat (s - i)) with (S (Z.to_nat (s - (i + 1)))) in H2 by lia. exact H2.
Qed.

Lemma lens_items_In lens l s : In (l, s) (lens_items lens) <->
  0 <= s < Z.of_nat (length lens) /\ nth (Z.to_nat s) lens 0 = l /\ 1 <= l <= 15.
Proof.
  unfold lens_items. rewrite in_flat_map. split.
  - intros (k & Hk & Hin). apply filter_In in Hin. destruct Hin as [Hin E].
    apply indexed_from_In in Hin. rewrite Z.sub_0_r in Hin. cbn [fst] in E. cbn in Hk. lia.
  - intros (Hs & Hn & Hl). exists l. split; [cbn; lia|].
    apply filter_In. split; [|cbn [fst]; lia]. apply indexed_from_In. rewrite Z.sub_0_r. lia.
Qed.

Lemma lens_items_range lens : Forall (fun it => 1 <= fst it <= 15) (lens_items lens).
Proof. apply Forall_forall. intros [l s] Hin. apply lens_items_In in Hin. cbn [fst]. lia. Qed.

Definition lens_block (ix : list (Z * Z)) (k : Z) : list (Z * Z) := filter (fun it => fst it =? k) ix.

Lemma lens_items_blk lens : lens_items lens =
  flat_map (lens_block (indexed_from 0 lens)) [1;2;3;4;5;6;7;8;9;10;11;12;13;14;15].
Proof. reflexivity. Qed.

Lemma SS_app (l1 l2 : list (Z * Z)) :
  StronglySorted Rle l1 -> StronglySorted Rle l2 ->
  (forall x y, In x l1 -> In y l2 -> Rle x y) -> StronglySorted Rle (l1 ++ l2).
Proof.
  induction l1 as [|x l1 IH]; intros H1 H2 Hc; [exact H2|].
  cbn [app]. inversion H1 as [|? ? H1' Hx]; subst. constructor.
  - apply IH; [assumption|assumption|]. intros; apply Hc; [now right|assumption].
  - apply Forall_app. split; [assumption|]. apply Forall_forall. intros y Hy. apply Hc; [now left|assumption].
Qed.

Lemma SS_const k (l : list (Z * Z)) : Forall (fun it => fst it = k) l -> StronglySorted Rle l.
Proof.
  induction 1 as [|x tl Hx Htl IH]; constructor; [assumption|].
  eapply Forall_impl; [|exact Htl]. unfold Rle. cbn. intros; lia.
Qed.

Lemma blocks_sorted ix : forall ks, StronglySorted Z.lt ks ->
  StronglySorted Rle (flat_map (lens_block ix) ks) /\
  (forall it, In it (flat_map (lens_block ix) ks) -> In (fst it) ks).
Proof.
  induction ks as [|k ks IH]; intros Hks; cbn [flat_map]; [split; [constructor|intros it []]|].
  inversion Hks as [|? ? Hks' Hk]; subst. destruct (IH Hks') as [IH1 IH2]. split.
  - apply SS_app; [|exact IH1|].
    + apply (SS_const k). apply Forall_forall. intros it Hit. apply filter_In in Hit. lia.
    + intros x y Hx Hy. apply filter_In in Hx. apply IH2 in Hy.
      rewrite Forall_forall in Hk. specialize (Hk _ Hy). unfold Rle. lia.
  - intros it Hit. apply in_app_or in Hit. destruct Hit as [Hit|Hit].
    + apply filter_In in Hit. left. lia.
    + right. now apply IH2.
Qed.

Lemma lens_items_sorted lens : StronglySorted Rle (lens_items lens).
Proof. rewrite lens_items_blk. apply blocks_sorted. repeat constructor. Qed.

(** What [tree_of_lens] accepts: one used symbol, or a code whose tree has no hole and whose
    leaves are the used symbols in (length, symbol) order. *)
Lemma tree_of_lens_inv lens t : tree_of_lens lens = Ok t ->
  (exists l s, lens_items lens = [(l, s)] /\ t = Leaf s) \/
  (complete t /\ leaves 0 t = lens_items lens /\ (2 <= length (lens_items lens))%nat).
Proof.
  unfold tree_of_lens, kraft_sum. intros Ht.
  destruct (lens_in_range lens); cbn [negb] in Ht; [|discriminate].
  pose proof (lens_items_sorted lens) as Hsorted. pose proof (lens_items_range lens) as Hrange.
  destruct (lens_items lens) as [|[l0 s0] [|it2 tl]]; [discriminate|left; injection Ht as <-; eauto|right].
  remember ((l0, s0) :: it2 :: tl) as items eqn:Ei.
  destruct (sumw items =? 32768) eqn:Ek; [|discriminate]. apply Z.eqb_eq in Ek.
  assert (Et : t = fst (build 16 0 items)) by congruence. clear Ht. subst t.
  assert (Hb : Forall (fun it => 0 <= fst it <= 15) items) by (eapply Forall_impl; [|exact Hrange]; cbn; lia).
  destruct (build_leaves 16 0 items ltac:(lia) ltac:(lia) Hsorted Hb) as (Hi & _ & Hc & Hfull).
  change (2 ^ (15 - 0)) with 32768 in Hc, Hfull.
  assert (Hrest : snd (build 16 0 items) = []).
  { destruct (snd (build 16 0 items)) as [|y r]; [reflexivity|]. exfalso.
    rewrite Hi in Ek, Hb. rewrite sumw_app, Hfull in Ek by discriminate.
    apply Forall_app in Hb. destruct Hb as [_ Hb]. inversion Hb; subst.
    pose proof (sumw_pos y r ltac:(lia)). lia. }
  rewrite Hrest, app_nil_r in Hi.
  split; [apply Hc; now rewrite <- Hi|]. split; [now symmetry|]. rewrite Ei. cbn [length]. lia.
Qed.

Lemma lens_in_range_nth lens k : lens_in_range lens = true -> 0 <= nth k lens 0 <= 15.
Proof.
  unfold lens_in_range. intros H. rewrite forallb_forall in H.
  destruct (Nat.lt_ge_cases k (length lens)) as [Hk|Hk].
  - specialize (H _ (nth_In lens 0 Hk)). lia.
  - rewrite nth_overflow by lia. lia.
Qed.

Lemma find_codes_from s l : forall items W, In (l, s) items ->
  exists a l' b, items = a ++ (l', s) :: b /\
    find (fun e => fst e =? s) (codes_from items W) = Some (s, msb_bits (Z.to_nat l') ((W + sumw a) / wt l')).
Proof.
  induction items as [|[l0 s0] tl IH]; intros W Hin; [destruct Hin|].
  cbn [codes_from find fst]. destruct (s0 =? s) eqn:E.
  - assert (s0 = s) by lia. subst s0. exists [], l0, tl. split; [reflexivity|]. cbn [sumw]. now rewrite Z.add_0_r.
  - destruct Hin as [Hin|Hin]; [injection Hin as -> ->; lia|].
    destruct (IH (W + wt l0) Hin) as (a & l' & b & Ei & Ef).
    exists ((l0, s0) :: a), l', b. split; [cbn [app]; now rewrite Ei|].
    rewrite Ef. cbn [sumw fst]. now rewrite Z.add_assoc.
Qed.

(** For every length vector the decoder accepts (exactly one used symbol, or a
    Kraft-complete code with lengths <= 15 — this includes both simple-code
    shapes) and every used symbol: decoding the symbol's canonical code word
    returns the symbol and consumes exactly the code word. *)
Theorem prefix_roundtrip : forall lens t s rest,
  tree_of_lens lens = Ok t ->
  0 <= s < Z.of_nat (length lens) -> nth (Z.to_nat s) lens 0 <> 0 ->
  read_symbol t (code_bits lens s ++ rest) = Ok (s, rest).
Proof.
  intros lens t s rest Ht Hs Hnz.
  assert (Hin : In (nth (Z.to_nat s) lens 0, s) (lens_items lens)).
  { apply lens_items_In. pose proof (lens_in_range_nth lens (Z.to_nat s)) as Hl.
    unfold tree_of_lens in Ht. destruct (lens_in_range lens); [|discriminate]. lia. }
  unfold code_bits.
  destruct (tree_of_lens_inv lens t Ht) as [(l0 & s0 & Ei & ->)|(Hc & El & Hlen)].
  - unfold code_list. rewrite Ei in Hin |- *. destruct Hin as [Hin|[]]. injection Hin as _ ->.
    unfold lookup_code. cbn [find fst snd]. now rewrite Z.eqb_refl.
  - destruct (find_codes_from s _ (lens_items lens) 0 Hin) as (a & l' & b & Ea & Ef).
    replace (code_list lens) with (codes_from (lens_items lens) 0)
      by (unfold code_list; destruct (lens_items lens) as [|[? ?] [|? ?]]; cbn in Hlen; (reflexivity || (exfalso; lia))).
    unfold lookup_code. rewrite Ef. cbn [snd]. rewrite Z.add_0_l.
    rewrite <- (leaf_code t 0 a l' s b rest Hc), Z.sub_0_r; [reflexivity| |now rewrite El].
    rewrite El. eapply Forall_impl; [|apply lens_items_range]. cbn. lia.
Qed.

Lemma tree_of_lens_complete lens :
  lens_in_range lens = true -> kraft_sum lens = 32768 -> exists t, tree_of_lens lens = Ok t.
Proof.
  intros Hr Hk. unfold tree_of_lens. rewrite Hr. cbn [negb].
  destruct (lens_items lens) as [|[l0 s0] [|it2 tl]] eqn:Ei.
  - unfold kraft_sum in Hk. rewrite Ei in Hk. discriminate.
  - eauto.
  - rewrite Hk. change (32768 =? 32768) with true. cbv iota. eauto.
Qed.

(** The textbook recurrence: consecutive code words differ by +1 followed by a
    left shift by the increase in length (for items sorted by length). *)
Lemma codes_step W l1 l2 : l1 <= l2 <= 15 -> (wt l1 | W) ->
  (W + wt l1) / wt l2 = (W / wt l1 + 1) * 2 ^ (l2 - l1).
Proof.
  intros Hl [q ->]. assert (H1 : 0 < wt l1) by (apply wt_pos; lia).
  assert (H2 : 0 < wt l2) by (apply wt_pos; lia).
  assert (E : wt l1 = 2 ^ (l2 - l1) * wt l2).
  { unfold wt. rewrite <- Z.pow_add_r by lia. f_equal. lia. }
  rewrite Z.div_mul by lia.
  replace (q * wt l1 + wt l1) with ((q + 1) * 2 ^ (l2 - l1) * wt l2) by (rewrite E; ring).
  now rewrite Z.div_mul by lia.
Qed.

(** Basis of the decoder's "trivial literal" shortcut (HTreeGroup.IsTrivialLiteral /
    LiteralARB): a code with exactly one used symbol — whatever its transmitted
    length — decodes to that symbol without consuming a bit, so when the red, blue
    and alpha codes of a group are such codes a literal costs only its green code
    word and its other three channels are constants of the group. *)
Lemma one_symbol_code lens t l0 s0 :
  tree_of_lens lens = Ok t -> lens_items lens = [(l0, s0)] -> forall s, read_symbol t s = Ok (s0, s).
Proof.
  intros Ht Hi s. destruct (tree_of_lens_inv lens t Ht) as [(l & s1 & Ei & ->)|(_ & _ & Hlen)].
  - rewrite Hi in Ei. now injection Ei as _ <-.
  - rewrite Hi in Hlen. cbn in Hlen. lia.
Qed.

Theorem trivial_literal_eq : forall lr lb la tr tb ta l1 r l2 b l3 a,
  tree_of_lens lr = Ok tr -> tree_of_lens lb = Ok tb -> tree_of_lens la = Ok ta ->
  lens_items lr = [(l1, r)] -> lens_items lb = [(l2, b)] -> lens_items la = [(l3, a)] ->
  forall s,
  ('(r', s1) <- read_symbol tr s ;; '(b', s2) <- read_symbol tb s1 ;; '(a', s3) <- read_symbol ta s2 ;;
   Ok (a', r', b', s3)) = Ok (a, r, b, s).
Proof.
  intros lr lb la tr tb ta l1 r l2 b l3 a Hr Hb Ha Ir Ib Ia s.
  rewrite (one_symbol_code lr tr l1 r Hr Ir). cbn [bind].
  rewrite (one_symbol_code lb tb l2 b Hb Ib). cbn [bind].
  rewrite (one_symbol_code la ta l3 a Ha Ia). reflexivity.
Qed.
