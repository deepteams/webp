(** Two decoder kernels of /repo's internal/lossless and their agreement with the
    specification:
    - [copy_block] = copyBlock32 (decode_image.go): one memmove when source and target do
      not overlap, a fill when the distance is 1, otherwise the first period and then
      doubling of the copied region; the format defines it pixel by pixel ([copy_fwd]).
    - [expand_color_map] = expandColorMap (decode_transform.go): the delta-coded palette
      summed per channel and zero-padded to 2^(8 >> bits) entries, so that every index a
      packed pixel can hold is in range (beyond the palette: transparent black). *)
From Coq Require Import List ZArith Lia Bool.
From Coq Require Import ZifyBool ZifyNat.
From Webp Require Import Base.Res Vp8l.Vp8lPixel Vp8l.Vp8lArr Vp8l.Vp8lPrefix Vp8l.Vp8lTransforms Vp8l.Vp8lSpec.
From Webp Require Import Base.ListFacts.
Import ListNotations.
Open Scope Z_scope.

Section Copy.
  Context {A : Type}.
  Variable d : A.

  (** Go [copy(data[to:to+n], data[from:from+n])] (memmove semantics). *)
  Definition blit (data : list A) (from to n : nat) : list A :=
    firstn to data ++ firstn n (skipn from data) ++ skipn (to + n) data.

  Definition fill (data : list A) (to n : nat) (v : A) : list A :=
    firstn to data ++ repeat v n ++ skipn (to + n) data.

  (** the doubling loop: [copied] elements are in place at [pos..pos+copied) *)
  Fixpoint double_loop (fuel : nat) (data : list A) (pos len copied : nat) : list A :=
    match fuel with
    | O => data
    | S f =>
      if (len <=? copied)%nat then data
      else let n := Nat.min copied (len - copied) in
           double_loop f (blit data pos (pos + copied) n) pos len (copied + n)
    end.

  Definition copy_block (data : list A) (pos dist len : nat) : list A :=
    let src := (pos - dist)%nat in
    if (len <=? dist)%nat then blit data src pos len
    else if (dist =? 1)%nat then fill data pos len (nth src data d)
    else double_loop len (blit data src pos dist) pos len dist.

  (** The format: for i = 0 .. len-1 in this order, data[pos+i] := data[pos+i-dist]. *)
  Fixpoint copy_fwd (n : nat) (data : list A) (pos dist : nat) : list A :=
    match n with
    | O => data
    | S n' => copy_fwd n' (set_nth pos (nth (pos - dist) data d) data) (S pos) dist
    end.
End Copy.

(** [copy_block] = [copy_fwd]: both are the unique solution of res[j] = res[j - dist]
    on [pos, pos+len), res[j] = data[j] elsewhere. *)

Section CopyProof.
  Context {A : Type}.
  Variable d : A.

  Lemma set_nth_length (l : list A) : forall i v, length (set_nth i v l) = length l.
  Proof.
    induction l as [|x l IH]; intros i v; [now destruct i|].
    destruct i; cbn [set_nth length]; [reflexivity|now rewrite IH].
  Qed.

  Lemma nth_set_nth_same (l : list A) : forall i v, (i < length l)%nat -> nth i (set_nth i v l) d = v.
  Proof.
    induction l as [|x l IH]; intros i v Hi; [cbn in Hi; lia|].
    destruct i; cbn [set_nth nth]; [reflexivity|]. apply IH. cbn in Hi. lia.
  Qed.

  Lemma nth_set_nth_other (l : list A) : forall i j v, i <> j -> nth j (set_nth i v l) d = nth j l d.
  Proof.
    induction l as [|x l IH]; intros i j v Hij; [now destruct i|].
    destruct i, j; cbn [set_nth nth]; try reflexivity; try lia. apply IH. lia.
  Qed.

  (** [mid] (length n) in place of l[to .. to+n): the shape of [blit] and [fill] *)
  Lemma nth_splice_out (l mid : list A) to n j :
    length mid = n -> (to + n <= length l)%nat -> (j < to \/ to + n <= j)%nat ->
    nth j (firstn to l ++ mid ++ skipn (to + n) l) d = nth j l d.
  Proof.
    intros Hm Hl [Hj|Hj].
    - rewrite app_nth1 by (rewrite firstn_length; lia). apply nth_firstn_lt, Hj.
    - rewrite 2 app_nth2, firstn_length, nth_skipn_add by (rewrite ?firstn_length; lia). f_equal. lia.
  Qed.

  Lemma nth_splice_in (l mid : list A) to n j :
    length mid = n -> (to + n <= length l)%nat -> (to <= j < to + n)%nat ->
    nth j (firstn to l ++ mid ++ skipn (to + n) l) d = nth (j - to) mid d.
  Proof.
    intros Hm Hl Hj. rewrite app_nth2, app_nth1, firstn_length by (rewrite ?firstn_length; lia). f_equal. lia.
  Qed.

  Lemma blit_length (data : list A) from to n :
    (from + n <= length data)%nat -> (to + n <= length data)%nat -> length (blit data from to n) = length data.
  Proof.
    intros H1 H2. unfold blit. rewrite !app_length, !firstn_length, !skipn_length. lia.
  Qed.

  Lemma nth_blit_out (data : list A) from to n j :
    (from + n <= length data)%nat -> (to + n <= length data)%nat -> (j < to \/ to + n <= j)%nat ->
    nth j (blit data from to n) d = nth j data d.
  Proof. intros H1 H2 Hj. apply nth_splice_out; [rewrite firstn_length, skipn_length|..]; lia. Qed.

  Lemma nth_blit_in (data : list A) from to n j :
    (from + n <= length data)%nat -> (to + n <= length data)%nat -> (to <= j < to + n)%nat ->
    nth j (blit data from to n) d = nth (from + (j - to)) data d.
  Proof.
    intros H1 H2 Hj. unfold blit.
    rewrite nth_splice_in, nth_firstn_lt, nth_skipn_add by (rewrite ?firstn_length, ?skipn_length; lia). reflexivity.
  Qed.

  Lemma nth_repeat_lt (v : A) : forall n i, (i < n)%nat -> nth i (repeat v n) d = v.
  Proof. induction n as [|n IH]; intros i Hi; [lia|]. destruct i; cbn [repeat nth]; [reflexivity|apply IH; lia]. Qed.

  Lemma fill_length (data : list A) to n v : (to + n <= length data)%nat -> length (fill data to n v) = length data.
  Proof. intros H. unfold fill. rewrite !app_length, firstn_length, repeat_length, skipn_length. lia. Qed.

  Definition rec_ok (data : list A) (pos dist len : nat) (res : list A) : Prop :=
    length res = length data /\
    (forall j, (j < pos \/ pos + len <= j)%nat -> nth j res d = nth j data d) /\
    (forall j, (pos <= j < pos + len)%nat -> nth j res d = nth (j - dist) res d).

  Lemma rec_unique data pos dist len r1 r2 : (1 <= dist <= pos)%nat ->
    rec_ok data pos dist len r1 -> rec_ok data pos dist len r2 -> r1 = r2.
  Proof.
    intros Hd (L1 & O1 & R1) (L2 & O2 & R2).
    apply (nth_ext _ _ d d); [lia|]. intros j _.
    induction j as [j IH] using lt_wf_ind.
    destruct (Nat.lt_ge_cases j pos) as [Hlt|Hge]; [rewrite O1, O2 by lia; reflexivity|].
    destruct (Nat.lt_ge_cases j (pos + len)) as [Hin|Hout]; [|rewrite O1, O2 by lia; reflexivity].
    rewrite R1, R2 by lia. apply IH. lia.
  Qed.

  Lemma copy_fwd_rec : forall n data pos dist,
    (1 <= dist <= pos)%nat -> (pos + n <= length data)%nat ->
    rec_ok data pos dist n (copy_fwd d n data pos dist).
  Proof.
    induction n as [|n IH]; intros data pos dist Hd Hl.
    - cbn [copy_fwd]. split; [reflexivity|]. split; [intros; reflexivity|intros; lia].
    - cbn [copy_fwd]. set (data' := set_nth pos (nth (pos - dist) data d) data).
      assert (Hl' : length data' = length data) by apply set_nth_length.
      destruct (IH data' (S pos) dist ltac:(lia) ltac:(lia)) as (L & O & R).
      split; [lia|]. split.
      + intros j Hj. rewrite O by lia. unfold data'. apply nth_set_nth_other. lia.
      + intros j Hj. destruct (Nat.eq_dec j pos) as [->|Hne].
        * rewrite O by lia. rewrite (O (pos - dist)%nat) by lia.
          unfold data'. rewrite nth_set_nth_same by lia. now rewrite nth_set_nth_other by lia.
        * apply R. lia.
  Qed.

  Lemma periodic (cur : list A) pos dist c :
    (forall j, (pos <= j < pos + c)%nat -> nth j cur d = nth (j - dist) cur d) ->
    forall m j, (pos + m * dist <= j < pos + c)%nat -> nth j cur d = nth (j - m * dist) cur d.
  Proof.
    intros R m. induction m as [|m IH]; intros j Hj; [f_equal; lia|].
    rewrite Nat.mul_succ_l in *. rewrite R by lia. rewrite IH by lia. f_equal. lia.
  Qed.

  Lemma blit_rec_ok (data : list A) pos dist n :
    (1 <= dist <= pos)%nat -> (n <= dist)%nat -> (pos + n <= length data)%nat ->
    rec_ok data pos dist n (blit data (pos - dist) pos n).
  Proof.
    intros Hd Hn Hl. split; [apply blit_length; lia|]. split; intros j Hj.
    - apply nth_blit_out; lia.
    - rewrite nth_blit_in, nth_blit_out by lia. f_equal. lia.
  Qed.

  (** [copied] is a whole number of periods (until the last, clipped step): a copy's
      source is some periods behind its target *)
  Lemma double_loop_rec (data : list A) pos dist len : (1 <= dist <= pos)%nat -> (pos + len <= length data)%nat ->
    forall fuel cur copied,
    rec_ok data pos dist copied cur -> (copied <= len)%nat -> (len - copied <= fuel)%nat ->
    ((exists k, copied = (dist + k * dist)%nat) \/ copied = len) ->
    rec_ok data pos dist len (double_loop fuel cur pos len copied).
  Proof.
    intros Hd Hl fuel. induction fuel as [|fuel IH]; intros cur copied Hrec Hc Hf Hk; cbn [double_loop].
    - replace len with copied by lia. exact Hrec.
    - destruct (Nat.leb_spec len copied) as [Hdone|Hmore]; [replace len with copied by lia; exact Hrec|].
      destruct Hk as [[k Hk]|Hk]; [|lia]. destruct Hrec as (L & O & R).
      set (n := Nat.min copied (len - copied)). remember (k * dist)%nat as p eqn:Hp.
      assert (Hn : (n = copied \/ copied + n = len)%nat /\ (1 <= n <= copied)%nat /\ (copied + n <= len)%nat) by lia.
      clearbody n. apply IH; [|lia|lia|].
      + split; [rewrite blit_length by lia; lia|]. split; intros j Hj.
        * rewrite nth_blit_out by lia. apply O. lia.
        * destruct (Nat.lt_ge_cases j (pos + copied)) as [Hold|Hnew].
          -- rewrite !nth_blit_out by lia. apply R. lia.
          -- rewrite nth_blit_in by lia.
             destruct (Nat.lt_ge_cases (j - dist) (pos + copied)) as [Hbehind|Hq].
             ++ rewrite nth_blit_out by lia.
                rewrite (periodic cur pos dist copied R k (j - dist)) by lia. f_equal. lia.
             ++ rewrite nth_blit_in, R by lia. f_equal. lia.
      + destruct Hn as [[->| ->] _]; [left; exists (S (k + k)); lia|now right].
  Qed.

  Theorem copy_block_eq : forall (data : list A) pos dist len,
    (1 <= dist <= pos)%nat -> (pos + len <= length data)%nat ->
    copy_block d data pos dist len = copy_fwd d len data pos dist.
  Proof.
    intros data pos dist len Hd Hl.
    apply (rec_unique data pos dist len); [lia| |apply copy_fwd_rec; assumption].
    unfold copy_block.
    destruct (Nat.leb_spec len dist) as [Hshort|Hlong]; [apply blit_rec_ok; lia|].
    destruct (Nat.eqb_spec dist 1) as [->|Hne].
    - split; [apply fill_length; lia|]. unfold fill. split; intros j Hj.
      + apply nth_splice_out; [apply repeat_length|lia..].
      + rewrite nth_splice_in, nth_repeat_lt by (rewrite ?repeat_length; lia).
        destruct (Nat.eq_dec j pos) as [->|Hjp].
        * now rewrite nth_splice_out by (rewrite ?repeat_length; lia).
        * now rewrite nth_splice_in, nth_repeat_lt by (rewrite ?repeat_length; lia).
    - apply double_loop_rec; [lia..|apply blit_rec_ok; lia|lia|lia|].
      left. exists 0%nat. lia.
  Qed.
End CopyProof.

(** [copy_fwd] is [Vp8lSpec.copy_step] in a buffer: [acc] most recent first, free slots
    [tail] behind *)
Lemma set_nth_app_length {A} (a : list A) v x t : set_nth (length a) v (a ++ x :: t) = a ++ v :: t.
Proof. induction a as [|y a IH]; cbn [length app set_nth]; [reflexivity|now rewrite IH]. Qed.

Lemma copy_fwd_copy_step : forall n acc dist tail,
  (1 <= dist <= length acc)%nat -> (n <= length tail)%nat ->
  copy_fwd px_zero n (rev acc ++ tail) (length acc) dist = rev (copy_step n dist acc) ++ skipn n tail.
Proof.
  induction n as [|n IH]; intros acc dist tail Hd Hn; [reflexivity|].
  destruct tail as [|x tl]; [cbn [length] in Hn; lia|]. cbn [copy_fwd copy_step skipn length] in *.
  rewrite app_nth1, rev_nth by (rewrite ?rev_length; lia).
  replace (length acc - S (length acc - dist))%nat with (dist - 1)%nat by lia.
  rewrite <- (rev_length acc) at 1. rewrite set_nth_app_length.
  rewrite <- (IH (nth (dist - 1) acc px_zero :: acc) dist tl) by (cbn [length]; lia).
  cbn [rev length]. now rewrite <- app_assoc.
Qed.

(** invariant: the last d pixels, oldest first, are the unread part [cur] of the period,
    then its read part [u] *)
Lemma copy_step_cycle d : (1 <= d)%nat -> forall n acc src u cur,
  src = u ++ cur -> rev (firstn d acc) = cur ++ u -> (d <= length acc)%nat ->
  copy_step n d acc = rev_append (cycle_take n cur src) acc.
Proof.
  intros Hd. induction n as [|n IH]; intros acc src u cur Hs Hf Hl; [reflexivity|].
  assert (Hlen : length (rev (firstn d acc)) = d) by (rewrite rev_length, firstn_length; lia).
  (* an exhausted [cur] starts the period again *)
  assert (H : exists x cur' u', src = u' ++ x :: cur' /\ rev (firstn d acc) = (x :: cur') ++ u' /\
                                cycle_take (S n) cur src = x :: cycle_take n cur' src).
  { destruct cur as [|x cur']; [|now exists x, cur', u].
    rewrite app_nil_r in Hs. cbn [app] in Hf. subst u. destruct src as [|x tl].
    - rewrite Hf in Hlen. cbn [length] in Hlen. lia.
    - exists x, tl, []. now rewrite app_nil_r. }
  destruct H as (x & cur' & u' & Hs' & Hf' & ->). cbn [copy_step rev_append].
  assert (E : firstn d acc = rev (cur' ++ u') ++ [x]).
  { rewrite <- (rev_involutive (firstn d acc)), Hf'. reflexivity. }
  assert (Hd' : d = S (length (cur' ++ u'))).
  { rewrite <- Hlen, Hf'. cbn [app length]. reflexivity. }
  replace (nth (d - 1) acc px_zero) with x.
  - apply (IH (x :: acc) src (u' ++ [x]) cur'); [now rewrite <- app_assoc| |cbn [length]; lia].
    rewrite Hd' at 1. cbn [firstn rev].
    replace (firstn (length (cur' ++ u')) acc) with (firstn (length (rev (cur' ++ u'))) (firstn d acc))
      by (rewrite firstn_firstn, rev_length; f_equal; lia).
    rewrite E, firstn_app, Nat.sub_diag, firstn_all. cbn [firstn].
    now rewrite app_nil_r, rev_involutive, <- app_assoc.
  - rewrite <- (nth_firstn_lt px_zero acc d (d - 1)), E by lia.
    rewrite app_nth2 by (rewrite rev_length; lia). rewrite rev_length.
    now replace (d - 1 - length (cur' ++ u'))%nat with 0%nat by lia.
Qed.

Lemma copy_step_copy_pixels n d acc : (1 <= d <= length acc)%nat ->
  copy_step n d acc = rev_append (copy_pixels n d acc) acc.
Proof.
  intros Hd. unfold copy_pixels. rewrite frev_rev.
  apply (copy_step_cycle d ltac:(lia) n acc _ []); [reflexivity|now rewrite app_nil_r|lia].
Qed.

Lemma copy_block_copy_pixels n acc dist tail :
  (1 <= dist <= length acc)%nat -> (n <= length tail)%nat ->
  copy_block px_zero (rev acc ++ tail) (length acc) dist n =
  rev (rev_append (copy_pixels n dist acc) acc) ++ skipn n tail.
Proof.
  intros Hd Hn. rewrite copy_block_eq by (rewrite ?app_length, ?rev_length; lia).
  now rewrite copy_fwd_copy_step, copy_step_copy_pixels.
Qed.

Definition expand_color_map (ncolors bits : Z) (pal : list px) : list px :=
  let n := Z.to_nat (Z.min ncolors (Z.of_nat (length pal))) in
  let m := Z.to_nat (2 ^ (8 / 2 ^ bits)) in
  let e := undelta px_zero (firstn n pal) in
  firstn m (e ++ repeat px_zero (m - length e)).

Lemma undelta_length prev l : length (undelta prev l) = length l.
Proof. revert prev; induction l as [|x tl IH]; intros prev; cbn [undelta length]; [reflexivity|now rewrite IH]. Qed.

(** Lookup in the expanded map = the specification's (palette entry, or transparent black
    beyond it), for every index a packed pixel can hold. *)
Theorem expand_color_map_eq : forall ncolors bits pal idx,
  0 <= bits <= 3 -> Z.of_nat (length pal) = ncolors -> ncolors <= 2 ^ (8 / 2 ^ bits) ->
  0 <= idx < 2 ^ (8 / 2 ^ bits) ->
  nth (Z.to_nat idx) (expand_color_map ncolors bits pal) px_zero =
  arr_get px_zero (arr_of_list (undelta px_zero pal)) idx.
Proof.
  intros ncolors bits pal idx Hb Hlen Hn Hidx.
  unfold expand_color_map. rewrite arr_of_list_get.
  rewrite Hlen, Z.min_id. rewrite <- Hlen, Nat2Z.id, firstn_all.
  set (e := undelta px_zero pal). set (m := Z.to_nat (2 ^ (8 / 2 ^ bits))).
  assert (He : length e = length pal) by apply undelta_length.
  assert (Hm : (length e <= m)%nat) by (unfold m; lia).
  rewrite firstn_all2 by (rewrite app_length, repeat_length; lia).
  destruct (idx <? Z.of_nat (length e)) eqn:E.
  - replace (0 <=? idx) with true by lia. cbn [andb].
    rewrite app_nth1 by lia. reflexivity.
  - replace ((0 <=? idx) && false)%bool with false by (destruct (0 <=? idx); reflexivity).
    rewrite app_nth2 by lia. apply nth_repeat.
Qed.
