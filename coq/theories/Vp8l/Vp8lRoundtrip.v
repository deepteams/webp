(** C01 at model level, as one theorem: for every source image, every option set
    and every set of encoder *choices* that is valid, decoding the stream the
    model encoder emits gives the expected pixels.

    The model encoder: clean-up of transparent pixels (unless Exact), the forward
    transform chain chosen by the heuristics (transform list with tile data /
    palette = choices), and the emission of the residual image with the chosen
    colour cache, prefix codes and tokens ([Vp8lEmit.emit]).  [valid] is the
    validity predicate on the choices. *)
From Coq Require Import List ZArith Lia Bool.
From Webp Require Import Base.Res Vp8l.Vp8lPixel Vp8l.Vp8lArr Vp8l.Vp8lPrefix Vp8l.Vp8lCanon Vp8l.Vp8lTransforms
  Vp8l.Vp8lSpec Vp8l.Vp8lEmit Vp8l.Vp8lEntropy Vp8l.Vp8lCodeLens Vp8l.Vp8lEmitDecode Vp8l.Vp8lWf Vp8l.Vp8lImport.
Import ListNotations.
Open Scope Z_scope.

(** source picture, already read as non-premultiplied 8-bit RGBA (see
    [Vp8lImport.rgba_unpremultiply_exact_fixed] for the *image.RGBA import) *)
Record src_image := mksrc { s_w : Z; s_h : Z; s_px : list px }.

Record ll_opts := mkopts { o_exact : bool }.   (* Quality / Method only steer the choices *)

Record choices := mkchoices {
  c_alpha : Z;                       (* alpha_is_used hint *)
  c_transforms : list transform;     (* the transforms chosen, in stream order, with their data *)
  c_tplans : list tplan;             (* how each transform and its data are written *)
  c_meta : option (Z * eplan);       (* meta prefix image: prefix bits and its coding, or none *)
  c_main : eplan }.                  (* colour cache, prefix codes and tokens of the residual image *)

Definition plan_of (img : src_image) (o : ll_opts) (c : choices) : plan :=
  mkplan (s_w img) (s_h img) (c_alpha c) (c_tplans c) (c_meta c) (c_main c).

Definition expected (img : src_image) (o : ll_opts) : image :=
  mkimage (s_w img) (s_h img) (map (cleanup (o_exact o)) (s_px img)).

Definition valid (img : src_image) (o : ll_opts) (c : choices) : Prop :=
  let cleaned := map (cleanup (o_exact o)) (s_px img) in
  (* the stream is well formed: sizes, transform types at most once, code plans, tokens *)
  wf_plan (plan_of img o c) /\
  (* the transforms written are the transforms applied *)
  fst (sem_transforms (c_tplans c) (s_w img) (s_h img)) = c_transforms c /\
  (* every forward step is applicable (bytes; palette covers the image; sizes) *)
  Vp8lImport.chain_ok (c_transforms c) cleaned /\
  (* the tokens denote exactly the residual image *)
  sem_eimg (snd (sem_transforms (c_tplans c) (s_w img) (s_h img))) (c_main c)
  = forward_chain (c_transforms c) cleaned.

Theorem lossless_roundtrip : forall img o c,
  valid img o c -> decode (emit (plan_of img o c)) = Ok (expected img o).
Proof.
  intros img o c (Hwf & Hts & Hchain & Htok).
  rewrite (emit_decode _ Hwf). f_equal.
  unfold sem, plan_of, expected. cbn [p_transforms p_w p_h p_main].
  destruct (sem_transforms (c_tplans c) (s_w img) (s_h img)) as [ts cw] eqn:E.
  cbn [fst snd] in *. subst ts. rewrite Htok. f_equal.
  apply inverse_chain, Hchain.
Qed.

(** The only permitted difference of a round trip: a pixel comes back unchanged
    unless it is fully transparent and Exact is off, in which case it comes back
    as transparent black. *)
Corollary lossless_roundtrip_pixels : forall img o c,
  valid img o c ->
  exists im, decode (emit (plan_of img o c)) = Ok im /\ i_w im = s_w img /\ i_h im = s_h img /\
    i_px im = map (fun p => if negb (o_exact o) && (pa p =? 0) then px_zero else p) (s_px img).
Proof.
  intros img o c Hv. exists (expected img o). split; [now apply lossless_roundtrip|].
  unfold expected; cbn [i_w i_h i_px]. repeat split.
  apply map_ext. intros p. unfold cleanup. destruct (o_exact o); reflexivity.
Qed.

(** The hypotheses are satisfiable: a 2x2 picture, subtract-green, two-symbol simple
    codes for green/red/blue, a one-symbol code for alpha.  The picture is [map sg_inv]
    of the two pixels the codes cover, so that these are the residuals to be coded. *)

Definition ex_r1 : px := mkpx 255 10 20 30.
Definition ex_r2 : px := mkpx 255 11 21 31.
Definition ex_src : src_image := mksrc 2 2 (map sg_inv [ex_r1; ex_r2; ex_r2; ex_r1]).
Definition ex_opts : ll_opts := mkopts true.
Definition ex_choices : choices :=
  mkchoices 0 [mktransform 2 0 2 2 []] [TPSubGreen] None
    (mkeplan 0 [[CSimple [20; 21]; CSimple [10; 11]; CSimple [30; 31]; CSimple [255]; CSimple [0]]]
             [TLit ex_r1; TLit ex_r2; TLit ex_r2; TLit ex_r1]).

Example ex_valid : valid ex_src ex_opts ex_choices.
Proof.
  unfold valid. split; [|split; [reflexivity|split]].
  - apply wf_planb_ok. vm_compute. reflexivity.
  - cbn [c_transforms ex_choices Vp8lImport.chain_ok]. split; [|exact I].
    split; [apply Forall_wf_reflect; vm_compute; reflexivity|]. right; right; left; reflexivity.
  - vm_compute. reflexivity.
Qed.

Example ex_roundtrip : decode (emit (plan_of ex_src ex_opts ex_choices)) = Ok (expected ex_src ex_opts).
Proof. exact (lossless_roundtrip _ _ _ ex_valid). Qed.
