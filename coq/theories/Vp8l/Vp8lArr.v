(** Read-mostly arrays for the executable VP8L models: a positive-keyed trie
    (Coq stdlib [PositiveMap]) indexed by [Z], with a default for absent slots.
    Used for lookup tables that the decoder indexes once per pixel (meta prefix
    image, tile data, palette, colour cache) so that extracted code does not pay a
    linear [nth] per access. *)
From Coq Require Import List ZArith Lia Bool FMapPositive.
From Coq Require Import ZifyBool.
Import ListNotations.
Open Scope Z_scope.

Definition arr (A : Type) : Type := PositiveMap.t A.

Definition arr_empty {A} : arr A := PositiveMap.empty A.

Definition arr_key (i : Z) : positive := Z.to_pos (i + 1).

Definition arr_get {A} (d : A) (a : arr A) (i : Z) : A :=
  if i <? 0 then d
  else match PositiveMap.find (arr_key i) a with Some x => x | None => d end.

Definition arr_set {A} (a : arr A) (i : Z) (v : A) : arr A :=
  if i <? 0 then a else PositiveMap.add (arr_key i) v a.

Fixpoint arr_of_list_from {A} (i : Z) (l : list A) (a : arr A) : arr A :=
  match l with
  | [] => a
  | x :: tl => arr_of_list_from (i + 1) tl (arr_set a i x)
  end.

Definition arr_of_list {A} (l : list A) : arr A := arr_of_list_from 0 l arr_empty.

Lemma arr_key_inj i j : 0 <= i -> 0 <= j -> arr_key i = arr_key j -> i = j.
Proof. unfold arr_key. lia. Qed.

Lemma arr_get_set_same {A} (d : A) a i v : 0 <= i -> arr_get d (arr_set a i v) i = v.
Proof.
  intros Hi. unfold arr_get, arr_set. destruct (i <? 0) eqn:E; [lia|].
  now rewrite PositiveMap.gss.
Qed.

Lemma arr_get_set_other {A} (d : A) a i j v : 0 <= i -> i <> j -> arr_get d (arr_set a i v) j = arr_get d a j.
Proof.
  intros Hi Hij. unfold arr_get, arr_set. destruct (i <? 0) eqn:E; [lia|].
  destruct (j <? 0) eqn:Ej; [reflexivity|].
  rewrite PositiveMap.gso; [reflexivity|]. intros Hk. apply arr_key_inj in Hk; lia.
Qed.

Lemma arr_get_empty {A} (d : A) i : arr_get d arr_empty i = d.
Proof. unfold arr_get, arr_empty. destruct (i <? 0); [reflexivity|]. now rewrite PositiveMap.gempty. Qed.

Lemma arr_of_list_from_get {A} (d : A) l : forall i a j, 0 <= i ->
  arr_get d (arr_of_list_from i l a) j =
  if (i <=? j) && (j <? i + Z.of_nat (length l)) then nth (Z.to_nat (j - i)) l d else arr_get d a j.
Proof.
  induction l as [|x tl IH]; intros i a j Hi; cbn [arr_of_list_from length].
  - now replace ((i <=? j) && (j <? i + Z.of_nat 0))%bool with false by lia.
  - rewrite IH by lia. destruct (Z.eq_dec i j) as [->|Hne].
    + rewrite arr_get_set_same by lia.
      replace ((j + 1 <=? j) && (j <? j + 1 + Z.of_nat (length tl)))%bool with false by lia.
      replace ((j <=? j) && (j <? j + Z.of_nat (S (length tl))))%bool with true by lia.
      now rewrite Z.sub_diag.
    + rewrite arr_get_set_other by lia.
      destruct ((i + 1 <=? j) && (j <? i + 1 + Z.of_nat (length tl)))%bool eqn:E.
      * replace ((i <=? j) && (j <? i + Z.of_nat (S (length tl))))%bool with true by lia.
        now replace (Z.to_nat (j - i)) with (S (Z.to_nat (j - (i + 1)))) by lia.
      * now replace ((i <=? j) && (j <? i + Z.of_nat (S (length tl))))%bool with false by lia.
Qed.

Lemma arr_of_list_get {A} (d : A) l j :
  arr_get d (arr_of_list l) j = if (0 <=? j) && (j <? Z.of_nat (length l)) then nth (Z.to_nat j) l d else d.
Proof.
  unfold arr_of_list. rewrite arr_of_list_from_get by lia. rewrite Z.sub_0_r, Z.add_0_l.
  destruct ((0 <=? j) && (j <? Z.of_nat (length l)))%bool; [reflexivity|apply arr_get_empty].
Qed.
