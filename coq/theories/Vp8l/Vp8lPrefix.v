(** Bit-level layer of the VP8L specification model (RFC 9649 §3.1, §6.2):
    LSB-first bit reader, canonical prefix codes built from code lengths, symbol
    decoding, the simple and the normal code-length encodings (code-length code,
    repeat tokens 16/17/18, max_symbol). *)
From Coq Require Import List ZArith Lia Bool.
From Coq Require Import ZifyBool ZifyNat.
From Webp Require Import Base.Res.
Import ListNotations.
Open Scope Z_scope.

(** Error codes of the specification decoder (only "is an error" is ever compared). *)
Definition E_TRUNC : nat := 1.      (* ran out of bits *)
Definition E_CODE : nat := 2.       (* code lengths do not form a valid prefix code *)
Definition E_SYNTAX : nat := 3.     (* a field has a value the format forbids *)
Definition E_FUEL : nat := 9.       (* out of fuel (excluded by the theorems) *)

Definition bits := list bool.

Fixpoint byte_bits (n : nat) (b : Z) : list bool :=
  match n with O => [] | S n' => Z.odd b :: byte_bits n' (b / 2) end.

Definition bits_of_bytes (l : list Z) : bits := flat_map (byte_bits 8) l.

(** ReadBits(n): the next n bits, first bit = least significant. *)
Fixpoint read_bits (n : nat) (s : bits) : Res (Z * bits) :=
  match n with
  | O => Ok (0, s)
  | S n' =>
    match s with
    | [] => Err E_TRUNC
    | b :: tl => '(v, s') <- read_bits n' tl ;; Ok ((if b then 1 else 0) + 2 * v, s')
    end
  end.

Definition read_bitsZ (n : Z) (s : bits) : Res (Z * bits) := read_bits (Z.to_nat n) s.

(** Writer side (used by the emitter): n bits of v, LSB first. *)
Fixpoint put_bits (n : nat) (v : Z) : bits :=
  match n with O => [] | S n' => Z.odd v :: put_bits n' (v / 2) end.

Lemma read_put_bits n : forall v rest, 0 <= v < 2 ^ Z.of_nat n ->
  read_bits n (put_bits n v ++ rest) = Ok (v, rest).
Proof.
  induction n as [|n IH]; intros v rest Hv.
  - cbn [put_bits read_bits app]. f_equal. f_equal. cbn in Hv. lia.
  - cbn [put_bits read_bits app].
    assert (Hp : 2 ^ Z.of_nat (S n) = 2 * 2 ^ Z.of_nat n).
    { rewrite Nat2Z.inj_succ, Z.pow_succ_r by lia. reflexivity. }
    rewrite IH by (Z.div_mod_to_equations; lia). cbn [bind]. f_equal. f_equal.
    rewrite (Zdiv2_odd_eqn v) at 3. rewrite Z.div2_div. destruct (Z.odd v); lia.
Qed.

Lemma put_bits_length n v : length (put_bits n v) = n.
Proof. revert v; induction n as [|n IH]; intros v; cbn [put_bits length]; [reflexivity|now rewrite IH]. Qed.

(** Bytes from bits (emitter): pad the last byte with zero bits. *)
Fixpoint bits_value (l : list bool) : Z :=
  match l with [] => 0 | b :: tl => (if b then 1 else 0) + 2 * bits_value tl end.

Lemma bits_value_nonneg l : 0 <= bits_value l.
Proof. induction l as [|b tl IH]; cbn [bits_value]; [lia|]. destruct b; lia. Qed.

Fixpoint bytes_of_bits_fuel (fuel : nat) (s : bits) : list Z :=
  match fuel with
  | O => []
  | S f => match s with
           | [] => []
           | _ => bits_value (firstn 8 s) :: bytes_of_bits_fuel f (skipn 8 s)
           end
  end.
Definition bytes_of_bits (s : bits) : list Z := bytes_of_bits_fuel (S (length s / 8)) s.

Inductive tree := Leaf (s : Z) | Node (l r : tree) | Hole.

Fixpoint indexed_from (i : Z) (l : list Z) : list (Z * Z) :=
  match l with [] => [] | x :: tl => (x, i) :: indexed_from (i + 1) tl end.

(** Symbols with non-zero length, ordered by (length, symbol): the order in which
    the canonical code hands out code words. *)
Definition lens_items (lens : list Z) : list (Z * Z) :=
  let ix := indexed_from 0 lens in
  flat_map (fun len => filter (fun it => fst it =? len) ix)
           [1;2;3;4;5;6;7;8;9;10;11;12;13;14;15].

(** Depth-first, left-first construction: the next code word of length len is
    the leftmost free node at depth len.  With items sorted by length this is
    exactly the canonical assignment (consecutive code values per length, shorter
    codes first, bits of a code word read most significant first). *)
Fixpoint build (fuel : nat) (d : Z) (items : list (Z * Z)) : tree * list (Z * Z) :=
  match fuel with
  | O => (Hole, items)
  | S f =>
    match items with
    | [] => (Hole, [])
    | (len, sym) :: tl =>
      if len <=? d then (Leaf sym, tl)
      else let '(l, r1) := build f (d + 1) items in
           let '(r, r2) := build f (d + 1) r1 in
           (Node l r, r2)
    end
  end.

(** Kraft sum scaled by 2^15: every used symbol of length l weighs 2^(15-l); a
    complete code weighs exactly 2^15. *)
Definition wt (l : Z) : Z := 2 ^ (15 - l).
Fixpoint sumw (items : list (Z * Z)) : Z :=
  match items with [] => 0 | it :: tl => wt (fst it) + sumw tl end.
Definition kraft_sum (lens : list Z) : Z := sumw (lens_items lens).

Definition lens_in_range (lens : list Z) : bool := forallb (fun l => (0 <=? l) && (l <=? 15)) lens.

(** A code-length vector denotes a code iff it has exactly one non-zero length
    (that symbol is then decoded without reading any bit) or is complete. *)
Definition tree_of_lens (lens : list Z) : Res tree :=
  if negb (lens_in_range lens) then Err E_CODE else
  match lens_items lens with
  | [] => Err E_CODE
  | [(_, sym)] => Ok (Leaf sym)
  | items => if kraft_sum lens =? 32768 then Ok (fst (build 16 0 items)) else Err E_CODE
  end.

Fixpoint read_symbol (t : tree) (s : bits) : Res (Z * bits) :=
  match t with
  | Leaf v => Ok (v, s)
  | Hole => Err E_CODE
  | Node l r =>
    match s with
    | [] => Err E_TRUNC
    | b :: tl => if b then read_symbol r tl else read_symbol l tl
    end
  end.

(** Encoder side: the path of a symbol in the tree (the code word, first bit
    first). *)
Fixpoint path_of (t : tree) (sym : Z) : option bits :=
  match t with
  | Leaf v => if v =? sym then Some [] else None
  | Hole => None
  | Node l r =>
    match path_of l sym with
    | Some p => Some (false :: p)
    | None => match path_of r sym with Some p => Some (true :: p) | None => None end
    end
  end.

Lemma read_symbol_path t : forall sym p rest,
  path_of t sym = Some p -> read_symbol t (p ++ rest) = Ok (sym, rest).
Proof.
  induction t as [v|l IHl r IHr|]; intros sym p rest H; cbn [path_of] in H.
  - destruct (v =? sym) eqn:E; [|discriminate]. injection H as <-. cbn. f_equal. f_equal. lia.
  - destruct (path_of l sym) as [pl|] eqn:El.
    + injection H as <-. cbn [app read_symbol]. now apply IHl.
    + destruct (path_of r sym) as [pr|] eqn:Er; [|discriminate].
      injection H as <-. cbn [app read_symbol]. now apply IHr.
  - discriminate.
Qed.

(** bits of a code word, most significant bit first *)
Fixpoint msb_bits (n : nat) (v : Z) : bits :=
  match n with O => [] | S n' => Z.odd (v / 2 ^ Z.of_nat n') :: msb_bits n' v end.

Definition code_length_order : list Z :=
  [17; 18; 0; 1; 2; 3; 4; 5; 16; 6; 7; 8; 9; 10; 11; 12; 13; 14; 15].

Fixpoint set_nth {A} (n : nat) (v : A) (l : list A) : list A :=
  match l, n with
  | [], _ => []
  | _ :: tl, O => v :: tl
  | x :: tl, S n' => x :: set_nth n' v tl
  end.

(** Simple code: 1 or 2 symbols given literally, each with length 1. *)
Definition read_simple_lens (alphabet : Z) (s : bits) : Res (list Z * bits) :=
  '(n2, s) <- read_bits 1 s ;;
  '(first8, s) <- read_bits 1 s ;;
  '(s0, s) <- read_bits (if (first8 =? 1)%Z then 8%nat else 1%nat) s ;;
  if alphabet <=? s0 then Err E_SYNTAX else
  let lens := set_nth (Z.to_nat s0) 1 (repeat 0 (Z.to_nat alphabet)) in
  if n2 =? 1 then
    '(s1, s) <- read_bits 8 s ;;
    if alphabet <=? s1 then Err E_SYNTAX else
    Ok (set_nth (Z.to_nat s1) 1 lens, s)
  else Ok (lens, s).

(** The 19 code-length-code lengths: [n] of them, 3 bits each, in the fixed order. *)
Fixpoint read_cl_lens (order : list Z) (n : nat) (acc : list Z) (s : bits) : Res (list Z * bits) :=
  match n, order with
  | O, _ => Ok (acc, s)
  | S n', o :: otl =>
    '(v, s) <- read_bits 3 s ;;
    read_cl_lens otl n' (set_nth (Z.to_nat o) v acc) s
  | S _, [] => Err E_SYNTAX
  end.

(** The code lengths proper.  [ntok] = remaining number of tokens that may be
    read (max_symbol), [nsym] = remaining symbols of the alphabet, [prev] = last
    non-zero length (initially 8), [acc] = lengths so far, reversed. *)
Fixpoint read_lens_loop (fuel : nat) (clt : tree) (ntok nsym prev : Z) (acc : list Z) (s : bits)
  : Res (list Z * bits) :=
  match fuel with
  | O => Err E_FUEL
  | S f =>
    if (nsym <=? 0) || (ntok <=? 0) then Ok (rev_append acc (repeat 0 (Z.to_nat nsym)), s)
    else
      '(c, s) <- read_symbol clt s ;;
      if c <? 16 then
        read_lens_loop f clt (ntok - 1) (nsym - 1) (if c =? 0 then prev else c) (c :: acc) s
      else
        let '(eb, off) := if c =? 16 then (2%nat, 3) else if c =? 17 then (3%nat, 3) else (7%nat, 11) in
        '(x, s) <- read_bits eb s ;;
        let rep := off + x in
        if nsym <? rep then Err E_SYNTAX else
        let v := if c =? 16 then prev else 0 in
        read_lens_loop f clt (ntok - 1) (nsym - rep) prev (repeat v (Z.to_nat rep) ++ acc) s
  end.

Definition read_normal_lens (alphabet : Z) (s : bits) : Res (list Z * bits) :=
  '(n, s) <- read_bits 4 s ;;
  '(cl, s) <- read_cl_lens code_length_order (Z.to_nat (4 + n)) (repeat 0 19) s ;;
  clt <- tree_of_lens cl ;;
  '(usemax, s) <- read_bits 1 s ;;
  '(ntok, s) <- (if usemax =? 1 then
                   '(k, s) <- read_bits 3 s ;;
                   '(m, s) <- read_bitsZ (2 + 2 * k) s ;;
                   if alphabet <? 2 + m then Err E_SYNTAX else Ok (2 + m, s)
                 else Ok (alphabet, s)) ;;
  read_lens_loop (S (Z.to_nat alphabet)) clt ntok alphabet 8 [] s.

(** One prefix code of the given alphabet size. *)
Definition read_code (alphabet : Z) (s : bits) : Res (tree * bits) :=
  '(simple, s) <- read_bits 1 s ;;
  '(lens, s) <- (if simple =? 1 then read_simple_lens alphabet s else read_normal_lens alphabet s) ;;
  t <- tree_of_lens lens ;;
  Ok (t, s).
