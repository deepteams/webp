(** Bit-exact VP8L emitter for an arbitrary plan and the pixels a plan denotes.

    A plan fixes everything an encoder may choose: dimensions, the transform
    list with the entropy-coded sub-images carrying their data, colour-cache
    bits, the meta prefix image, for every prefix code how its lengths are
    transmitted (simple code; or code-length-code lengths, max_symbol, and the
    16/17/18 run-length tokenisation), and the token list (literal / cache
    index / backward reference with its distance code).  [emit] writes the
    stream with the canonical code words of [Vp8lCanon] (RFC 1951 §3.2.2 numbering);
    [sem] replays the tokens and applies the inverse transforms, without any
    bit-level parsing.  The harness draws random well-formed plans so that the
    Go decoder is exercised on every feature of the format, not only on what
    /repo's encoder emits. *)
From Coq Require Import List ZArith Lia Bool.
From Coq Require Import ZifyBool ZifyNat.
From Webp Require Import Base.Res Vp8l.Vp8lPixel Vp8l.Vp8lArr Vp8l.Vp8lPrefix Vp8l.Vp8lCanon Vp8l.Vp8lTransforms Vp8l.Vp8lSpec.
Import ListNotations.
Open Scope Z_scope.

Inductive cltok :=
| CLlit (l : Z)            (* one code length 0..15 *)
| CLrep16 (n : Z)          (* repeat previous non-zero length n = 3..6 times *)
| CLrep17 (n : Z)          (* n = 3..10 zeros *)
| CLrep18 (n : Z).         (* n = 11..138 zeros *)

Inductive codeplan :=
| CSimple (syms : list Z)                                   (* one or two symbols *)
| CNormal (ncl : Z) (cl : list Z) (usemax : Z) (toks : list cltok).
  (* ncl = how many of the 19 code-length-code lengths are sent (4..19);
     cl = those lengths indexed by code-length symbol;
     usemax = -1: no max_symbol, otherwise k with length_nbits = 2 + 2k *)

Inductive token :=
| TLit (p : px)
| TCache (key : Z)
| TCopy (len dcode : Z).      (* length in pixels, distance *code* (1..120 = plane codes) *)

Record eplan := mkeplan {
  ep_cache_bits : Z;
  ep_codes : list (list codeplan);     (* per group: green, red, blue, alpha, distance *)
  ep_tokens : list token }.

Inductive tplan :=
| TPPred (bits : Z) (sub : eplan)
| TPCross (bits : Z) (sub : eplan)
| TPSubGreen
| TPIndex (ncolors : Z) (sub : eplan).

Record plan := mkplan {
  p_w : Z; p_h : Z; p_alpha : Z;
  p_transforms : list tplan;
  p_meta : option (Z * eplan);         (* prefix bits 2..9, the meta prefix image *)
  p_main : eplan }.

Fixpoint expand_toks (toks : list cltok) (prev : Z) : list Z :=
  match toks with
  | [] => []
  | CLlit l :: tl => l :: expand_toks tl (if l =? 0 then prev else l)
  | CLrep16 n :: tl => repeat prev (Z.to_nat n) ++ expand_toks tl prev
  | CLrep17 n :: tl => repeat 0 (Z.to_nat n) ++ expand_toks tl prev
  | CLrep18 n :: tl => repeat 0 (Z.to_nat n) ++ expand_toks tl prev
  end.

Definition pad_to (n : nat) (l : list Z) : list Z := l ++ repeat 0 (n - length l).

Definition code_lens (alphabet : Z) (cp : codeplan) : list Z :=
  match cp with
  | CSimple syms =>
    fold_left (fun l s => set_nth (Z.to_nat s) 1 l) syms (repeat 0 (Z.to_nat alphabet))
  | CNormal _ _ _ toks => pad_to (Z.to_nat alphabet) (expand_toks toks 8)
  end.

(** the canonical code words of [Vp8lCanon], under the emitter's names *)

Definition code_table (lens : list Z) : list (Z * bits) := code_list lens.
Definition code_word (tab : list (Z * bits)) (sym : Z) : bits := lookup_code tab sym.

Definition putZ (n v : Z) : bits := put_bits (Z.to_nat n) v.

Definition emit_cltok (cltab : list (Z * bits)) (t : cltok) : bits :=
  match t with
  | CLlit l => code_word cltab l
  | CLrep16 n => code_word cltab 16 ++ putZ 2 (n - 3)
  | CLrep17 n => code_word cltab 17 ++ putZ 3 (n - 3)
  | CLrep18 n => code_word cltab 18 ++ putZ 7 (n - 11)
  end.

Definition emit_code (cp : codeplan) : bits :=
  match cp with
  | CSimple [s0] =>
    [true; false] ++ (if s0 <? 2 then false :: putZ 1 s0 else true :: putZ 8 s0)
  | CSimple (s0 :: s1 :: _) =>
    [true; true] ++ (if s0 <? 2 then false :: putZ 1 s0 else true :: putZ 8 s0) ++ putZ 8 s1
  | CSimple [] => []      (* not well formed *)
  | CNormal ncl cl usemax toks =>
    let cltab := code_table cl in
    [false] ++ putZ 4 (ncl - 4)
    ++ flat_map (fun o => putZ 3 (nth (Z.to_nat o) cl 0)) (firstn (Z.to_nat ncl) code_length_order)
    ++ (if usemax <? 0 then [false]
        else [true] ++ putZ 3 usemax ++ putZ (2 + 2 * usemax) (Z.of_nat (length toks) - 2))
    ++ flat_map (emit_cltok cltab) toks
  end.

(** LZ77 prefix coding of a length / distance value >= 1 *)
Definition lz_prefix (v : Z) : Z * Z * Z :=      (* (symbol, extra bits, extra value) *)
  let d := v - 1 in
  if d <? 2 then (d, 0, 0)
  else
    let hb := Z.log2 d in
    let shb := Z.shiftr d (hb - 1) mod 2 in
    let eb := hb - 1 in
    (2 * hb + shb, eb, d mod 2 ^ eb).

(** Replaying tokens: the pixels an entropy-coded image denotes. *)
Fixpoint replay (cb w : Z) (toks : list token) (cache : arr px) (acc : list px) : list px :=
  match toks with
  | [] => acc
  | TLit p :: tl => replay cb w tl (cache_insert cb cache p) (p :: acc)
  | TCache k :: tl =>
    let p := arr_get px_zero cache k in
    replay cb w tl (cache_insert cb cache p) (p :: acc)
  | TCopy len dc :: tl =>
    let new := copy_pixels (Z.to_nat len) (Z.to_nat (plane_to_dist w dc)) acc in
    replay cb w tl (fold_left (cache_insert cb) new cache) (rev_append new acc)
  end.

Definition sem_eimg (w : Z) (ep : eplan) : list px :=
  frev (replay (ep_cache_bits ep) w (ep_tokens ep) arr_empty []).

Definition alphabets (cb : Z) : list Z := [280 + cache_size_of cb; 256; 256; 256; 40].

(** the five code tables of one group *)
Definition group_tables (cb : Z) (g : list codeplan) : list (list (Z * bits)) :=
  map (fun '(a, cp) => code_table (code_lens a cp)) (combine (alphabets cb) g).

Definition tab_k (g : list (list (Z * bits))) (k : nat) : list (Z * bits) := nth k g [].

Definition emit_token (g : list (list (Z * bits))) (t : token) : bits :=
  match t with
  | TLit p =>
    code_word (tab_k g 0) (pg p) ++ code_word (tab_k g 1) (pr p)
    ++ code_word (tab_k g 2) (pb p) ++ code_word (tab_k g 3) (pa p)
  | TCache k => code_word (tab_k g 0) (280 + k)
  | TCopy len dc =>
    let '(ls, lxb, lxv) := lz_prefix len in
    let '(ds, deb, dev) := lz_prefix dc in
    code_word (tab_k g 0) (256 + ls) ++ putZ lxb lxv
    ++ code_word (tab_k g 4) ds ++ putZ deb dev
  end.

Definition token_len (t : token) : Z := match t with TCopy len _ => len | _ => 1 end.

(** [gidx x y] = group of the token that starts at (x, y). *)
Fixpoint emit_tokens (w : Z) (gidx : Z -> Z -> Z) (tabs : arr (list (list (Z * bits))))
         (toks : list token) (pos : Z) : bits :=
  match toks with
  | [] => []
  | t :: tl =>
    emit_token (arr_get [] tabs (gidx (pos mod w) (pos / w))) t
    ++ emit_tokens w gidx tabs tl (pos + token_len t)
  end.

Definition emit_cache_bits (cb : Z) : bits := if cb =? 0 then [false] else true :: putZ 4 cb.

Definition emit_codes (ep : eplan) : bits := flat_map (flat_map emit_code) (ep_codes ep).

Definition all_tables (ep : eplan) : arr (list (list (Z * bits))) :=
  arr_of_list (map (group_tables (ep_cache_bits ep)) (ep_codes ep)).

(** a sub-image: colour cache info, one group, tokens *)
Definition emit_sub (w : Z) (ep : eplan) : bits :=
  emit_cache_bits (ep_cache_bits ep) ++ emit_codes ep
  ++ emit_tokens w (fun _ _ => 0) (all_tables ep) (ep_tokens ep) 0.

Definition tplan_type (t : tplan) : Z :=
  match t with TPPred _ _ => 0 | TPCross _ _ => 1 | TPSubGreen => 2 | TPIndex _ _ => 3 end.

(** transforms: bits, and the width the following items see *)
Fixpoint emit_transforms (ts : list tplan) (cw h : Z) : bits * Z :=
  match ts with
  | [] => ([], cw)
  | t :: tl =>
    let '(b, cw') :=
      match t with
      | TPPred bits sub => (putZ 3 (bits - 2) ++ emit_sub (subsample cw bits) sub, cw)
      | TPCross bits sub => (putZ 3 (bits - 2) ++ emit_sub (subsample cw bits) sub, cw)
      | TPSubGreen => ([], cw)
      | TPIndex n sub => (putZ 8 (n - 1) ++ emit_sub n sub, subsample cw (ci_bits n))
      end in
    let '(rest, cwf) := emit_transforms tl cw' h in
    (true :: putZ 2 (tplan_type t) ++ b ++ rest, cwf)
  end.

Definition emit_bits (p : plan) : bits :=
  let '(tb, cw) := emit_transforms (p_transforms p) (p_w p) (p_h p) in
  let main := p_main p in
  putZ 14 (p_w p - 1) ++ putZ 14 (p_h p - 1) ++ putZ 1 (p_alpha p) ++ putZ 3 0
  ++ tb ++ [false]
  ++ emit_cache_bits (ep_cache_bits main)
  ++ match p_meta p with
     | None =>
       [false] ++ emit_codes main
       ++ emit_tokens cw (fun _ _ => 0) (all_tables main) (ep_tokens main) 0
     | Some (mb, msub) =>
       let mw := subsample cw mb in
       let meta := arr_of_list (map meta_index (sem_eimg mw msub)) in
       [true] ++ putZ 3 (mb - 2) ++ emit_sub mw msub
       ++ emit_codes main
       ++ emit_tokens cw (fun x y => arr_get 0 meta (tile_index mw mb x y)) (all_tables main) (ep_tokens main) 0
     end.

Definition emit (p : plan) : list Z := 47 :: bytes_of_bits (emit_bits p).

(** The transforms a plan denotes, as the decoder would have stored them. *)
Fixpoint sem_transforms (ts : list tplan) (cw h : Z) : list transform * Z :=
  match ts with
  | [] => ([], cw)
  | t :: tl =>
    let '(tr, cw') :=
      match t with
      | TPPred bits sub => (mktransform 0 bits cw h (sem_eimg (subsample cw bits) sub), cw)
      | TPCross bits sub => (mktransform 1 bits cw h (sem_eimg (subsample cw bits) sub), cw)
      | TPSubGreen => (mktransform 2 0 cw h [], cw)
      | TPIndex n sub =>
        (mktransform 3 (ci_bits n) cw h (undelta px_zero (sem_eimg n sub)), subsample cw (ci_bits n))
      end in
    let '(rest, cwf) := sem_transforms tl cw' h in
    (tr :: rest, cwf)
  end.

(** The pixels a plan denotes. *)
Definition sem (p : plan) : image :=
  let '(ts, cw) := sem_transforms (p_transforms p) (p_w p) (p_h p) in
  mkimage (p_w p) (p_h p) (apply_inverse ts (sem_eimg cw (p_main p))).

(** Shape of the emitter/decoder theorem for a well-formedness predicate.
    [Vp8lEmitDecode.emit_decode] states the instance at [wf_plan] directly; the
    harness evaluates it on every generated plan (harness/c03). *)

Definition emit_decode_statement (wf_plan : plan -> Prop) : Prop :=
  forall p, wf_plan p -> decode (emit p) = Ok (sem p).

(** A generated plan with three transforms (predictor, colour indexing without
    packing, cross-colour), a meta prefix image with several groups, colour cache,
    cache and copy tokens, simple and normal codes with run-length tokens. *)
Definition ex_plan : plan :=
  mkplan 4 5 0
  [TPPred 8 (mkeplan 0
    [[CNormal 19 [5; 0; 0; 0; 6; 4; 6; 5; 2; 5; 4; 6; 3; 5; 6; 4; 0; 2; 0] (-1) [CLlit 0; CLlit 14; CLlit 14; CLlit 11; CLlit 10; CLlit 12; CLlit 0; CLlit 11; CLlit 10; CLlit 9; CLlit 10; CLlit 11; CLlit 10; CLlit 0; CLlit 13; CLlit 0; CLlit 12; CLrep17 4; CLlit 11; CLlit 0; CLlit 5; CLlit 0; CLlit 5; CLlit 10; CLlit 11; CLrep17 4; CLlit 8; CLrep17 3; CLlit 10; CLlit 13; CLlit 12; CLlit 10; CLlit 10; CLlit 0; CLlit 0; CLlit 5; CLlit 0; CLlit 11; CLlit 10; CLlit 11; CLrep17 3; CLlit 5; CLlit 13; CLlit 10; CLlit 10; CLlit 11; CLlit 9; CLlit 13; CLlit 0; CLlit 7; CLlit 6; CLlit 10; CLlit 7; CLlit 11; CLlit 10; CLlit 7; CLlit 8; CLlit 0; CLlit 10; CLlit 5; CLlit 11; CLlit 11; CLlit 9; CLlit 14; CLlit 0; CLlit 5; CLlit 11; CLlit 0; CLlit 11; CLlit 4; CLlit 8; CLlit 12; CLlit 11; CLrep17 3; CLlit 0; CLlit 9; CLlit 5; CLlit 8; CLlit 7; CLlit 0; CLlit 7; CLlit 0; CLlit 5; CLlit 8; CLlit 9; CLlit 0; CLlit 0; CLlit 11; CLlit 0; CLlit 0; CLlit 12; CLlit 8; CLlit 8; CLlit 14; CLlit 13; CLlit 12; CLlit 8; CLlit 12; CLlit 6; CLlit 0; CLlit 11; CLlit 8; CLlit 9; CLlit 7; CLlit 0; CLlit 0; CLlit 6; CLlit 6; CLlit 11; CLlit 10; CLlit 0; CLlit 7; CLlit 13; CLlit 12; CLlit 7; CLlit 0; CLlit 10; CLlit 14; CLrep17 3; CLlit 8; CLlit 13; CLlit 9; CLlit 0; CLlit 10; CLlit 12; CLlit 10; CLlit 0; CLlit 13; CLlit 12; CLrep17 3; CLlit 12; CLlit 7; CLlit 0; CLlit 0; CLlit 13; CLlit 11; CLlit 11; CLlit 11; CLlit 0; CLlit 6; CLlit 0; CLlit 8; CLlit 0; CLlit 8; CLlit 13; CLlit 0; CLlit 13; CLlit 14; CLlit 0; CLlit 0; CLlit 12; CLlit 9; CLlit 0; CLlit 14; CLlit 0; CLlit 11; CLlit 10; CLlit 0; CLlit 11; CLlit 7; CLlit 11; CLlit 9; CLlit 0; CLlit 14; CLlit 12; CLlit 0; CLlit 0; CLlit 7; CLlit 11; CLlit 11; CLlit 0; CLlit 0; CLlit 8; CLlit 5; CLlit 13; CLlit 10; CLlit 11; CLlit 11; CLlit 14; CLlit 8; CLlit 9; CLlit 5; CLlit 6; CLlit 11; CLlit 5; CLrep17 4; CLlit 12; CLlit 8; CLlit 12; CLlit 11; CLlit 9; CLlit 12; CLlit 10; CLlit 0; CLlit 0; CLlit 8; CLlit 15; CLlit 0; CLlit 4; CLlit 12; CLrep17 3; CLlit 8; CLlit 4; CLrep17 3; CLlit 8; CLlit 13; CLrep17 4; CLlit 11; CLlit 13; CLlit 0; CLlit 8; CLlit 0; CLlit 0; CLlit 12; CLlit 11; CLlit 11; CLlit 5; CLlit 0; CLlit 0; CLlit 12; CLlit 8; CLlit 5; CLlit 11; CLlit 7; CLlit 13; CLlit 0; CLlit 10; CLlit 13; CLlit 5; CLlit 10; CLlit 11; CLlit 10; CLlit 13; CLlit 12; CLrep17 3; CLlit 0; CLlit 12; CLlit 0; CLlit 0; CLlit 9; CLlit 10; CLlit 10; CLlit 0; CLlit 6; CLlit 0; CLlit 9; CLlit 15; CLlit 0; CLlit 9; CLlit 11; CLlit 11; CLlit 6];
      CSimple [184; 112];
      CSimple [200];
      CSimple [32];
      CSimple [21; 26]]]
    [TLit (mkpx 32 184 5 200)]);
   TPIndex 151 (mkeplan 0
    [[CNormal 19 [7; 0; 0; 7; 5; 7; 7; 3; 7; 7; 3; 7; 2; 6; 7; 3; 2; 7; 7] (3) [CLlit 14; CLlit 9; CLlit 0; CLlit 10; CLrep17 3; CLlit 0; CLlit 11; CLlit 12; CLlit 0; CLlit 8; CLlit 0; CLlit 11; CLlit 0; CLlit 0; CLlit 0; CLlit 9; CLlit 7; CLlit 0; CLlit 7; CLlit 0; CLlit 7; CLlit 0; CLlit 5; CLlit 13; CLlit 13; CLlit 5; CLlit 0; CLlit 13; CLlit 5; CLlit 0; CLlit 0; CLlit 9; CLlit 0; CLlit 12; CLlit 6; CLlit 0; CLlit 0; CLlit 6; CLlit 10; CLlit 0; CLlit 8; CLlit 6; CLrep17 4; CLlit 7; CLlit 0; CLlit 11; CLlit 0; CLlit 0; CLlit 9; CLlit 13; CLlit 0; CLlit 12; CLlit 0; CLlit 14; CLlit 0; CLlit 8; CLlit 0; CLlit 12; CLlit 9; CLlit 0; CLlit 0; CLlit 0; CLlit 12; CLlit 5; CLlit 0; CLlit 13; CLlit 8; CLlit 9; CLlit 0; CLlit 0; CLlit 6; CLlit 0; CLlit 11; CLlit 12; CLlit 11; CLlit 0; CLlit 12; CLlit 9; CLlit 0; CLlit 12; CLlit 0; CLlit 0; CLlit 13; CLrep17 3; CLlit 0; CLlit 13; CLlit 0; CLlit 0; CLlit 9; CLlit 11; CLlit 0; CLlit 0; CLlit 9; CLlit 9; CLlit 11; CLlit 0; CLlit 0; CLlit 9; CLlit 0; CLlit 7; CLlit 9; CLlit 13; CLlit 11; CLlit 14; CLlit 10; CLlit 0; CLrep17 5; CLlit 5; CLlit 0; CLlit 15; CLlit 3; CLlit 0; CLlit 0; CLlit 13; CLlit 0; CLlit 8; CLlit 0; CLlit 0; CLlit 7; CLlit 9; CLlit 5; CLrep17 5; CLlit 0; CLlit 0; CLlit 9; CLlit 6; CLlit 0; CLlit 0; CLlit 14; CLlit 0; CLlit 6; CLlit 10; CLrep17 3; CLlit 9; CLrep17 5; CLlit 7; CLlit 15; CLlit 11; CLlit 0; CLlit 13; CLlit 0; CLlit 0; CLlit 12; CLlit 0; CLlit 10; CLlit 0; CLlit 0; CLlit 5; CLlit 0; CLlit 13; CLlit 0; CLlit 0; CLrep17 7; CLlit 7; CLlit 0; CLlit 5; CLlit 0; CLlit 5; CLlit 0; CLlit 0; CLlit 5; CLlit 3; CLlit 12; CLlit 0; CLlit 0; CLlit 11; CLlit 11; CLlit 0; CLlit 13; CLlit 10; CLrep17 3; CLlit 8; CLlit 0; CLlit 0; CLlit 7; CLlit 0; CLlit 4; CLlit 0; CLlit 5; CLlit 7; CLlit 0; CLlit 9; CLrep17 5; CLlit 11; CLlit 0; CLlit 0; CLlit 6; CLlit 7; CLlit 11; CLlit 5; CLlit 8; CLrep17 3; CLlit 10; CLlit 8; CLlit 7; CLlit 9; CLlit 0; CLlit 10; CLlit 9; CLlit 0; CLrep17 3; CLlit 7; CLlit 0; CLlit 8; CLlit 14; CLlit 9; CLlit 13; CLlit 10; CLlit 0; CLlit 0; CLlit 8; CLlit 9; CLlit 8; CLrep18 11];
      CSimple [65; 101];
      CSimple [254];
      CSimple [68];
      CSimple [24; 13]]]
    [TLit (mkpx 68 65 84 254); TLit (mkpx 68 65 243 254); TLit (mkpx 68 65 210 254); TLit (mkpx 68 65 70 254); TLit (mkpx 68 65 62 254); TLit (mkpx 68 65 156 254); TLit (mkpx 68 65 205 254); TLit (mkpx 68 65 184 254); TLit (mkpx 68 65 50 254); TLit (mkpx 68 65 109 254); TLit (mkpx 68 65 30 254); TLit (mkpx 68 65 24 254); TLit (mkpx 68 65 27 254); TLit (mkpx 68 65 92 254); TLit (mkpx 68 65 249 254); TLit (mkpx 68 65 189 254); TLit (mkpx 68 65 111 254); TLit (mkpx 68 65 180 254); TLit (mkpx 68 65 8 254); TLit (mkpx 68 65 244 254); TLit (mkpx 68 65 160 254); TLit (mkpx 68 65 35 254); TLit (mkpx 68 65 78 254); TLit (mkpx 68 65 26 254); TLit (mkpx 68 65 50 254); TLit (mkpx 68 65 140 254); TLit (mkpx 68 65 40 254); TLit (mkpx 68 65 241 254); TLit (mkpx 68 65 96 254); TLit (mkpx 68 65 223 254); TLit (mkpx 68 65 126 254); TLit (mkpx 68 65 163 254); TLit (mkpx 68 65 25 254); TLit (mkpx 68 65 72 254); TLit (mkpx 68 65 227 254); TLit (mkpx 68 65 106 254); TLit (mkpx 68 65 238 254); TLit (mkpx 68 65 220 254); TLit (mkpx 68 65 1 254); TLit (mkpx 68 65 120 254); TLit (mkpx 68 65 0 254); TLit (mkpx 68 65 193 254); TLit (mkpx 68 65 216 254); TLit (mkpx 68 65 220 254); TLit (mkpx 68 65 11 254); TLit (mkpx 68 65 20 254); TLit (mkpx 68 65 200 254); TLit (mkpx 68 65 9 254); TLit (mkpx 68 65 11 254); TLit (mkpx 68 65 111 254); TLit (mkpx 68 65 180 254); TLit (mkpx 68 65 196 254); TLit (mkpx 68 65 230 254); TLit (mkpx 68 65 165 254); TLit (mkpx 68 65 36 254); TLit (mkpx 68 65 188 254); TLit (mkpx 68 65 29 254); TLit (mkpx 68 65 22 254); TLit (mkpx 68 65 71 254); TLit (mkpx 68 65 232 254); TLit (mkpx 68 65 189 254); TLit (mkpx 68 65 205 254); TLit (mkpx 68 65 240 254); TLit (mkpx 68 65 143 254); TLit (mkpx 68 65 158 254); TLit (mkpx 68 65 228 254); TLit (mkpx 68 65 139 254); TLit (mkpx 68 65 221 254); TLit (mkpx 68 65 68 254); TLit (mkpx 68 65 87 254); TLit (mkpx 68 65 60 254); TLit (mkpx 68 65 203 254); TLit (mkpx 68 65 42 254); TLit (mkpx 68 65 120 254); TLit (mkpx 68 65 72 254); TLit (mkpx 68 65 130 254); TLit (mkpx 68 65 229 254); TLit (mkpx 68 65 87 254); TLit (mkpx 68 65 146 254); TLit (mkpx 68 65 107 254); TLit (mkpx 68 65 146 254); TLit (mkpx 68 65 222 254); TLit (mkpx 68 65 33 254); TLit (mkpx 68 65 121 254); TLit (mkpx 68 65 101 254); TLit (mkpx 68 65 219 254); TLit (mkpx 68 65 53 254); TLit (mkpx 68 65 118 254); TLit (mkpx 68 65 208 254); TLit (mkpx 68 65 78 254); TLit (mkpx 68 65 79 254); TLit (mkpx 68 65 131 254); TLit (mkpx 68 65 95 254); TLit (mkpx 68 65 182 254); TLit (mkpx 68 65 129 254); TLit (mkpx 68 65 68 254); TLit (mkpx 68 65 248 254); TLit (mkpx 68 65 108 254); TLit (mkpx 68 65 17 254); TLit (mkpx 68 65 131 254); TLit (mkpx 68 65 207 254); TLit (mkpx 68 65 189 254); TLit (mkpx 68 65 77 254); TLit (mkpx 68 65 104 254); TLit (mkpx 68 65 126 254); TLit (mkpx 68 65 157 254); TLit (mkpx 68 65 131 254); TLit (mkpx 68 65 42 254); TLit (mkpx 68 65 168 254); TLit (mkpx 68 65 58 254); TLit (mkpx 68 65 82 254); TLit (mkpx 68 65 187 254); TLit (mkpx 68 65 124 254); TLit (mkpx 68 65 18 254); TLit (mkpx 68 65 100 254); TLit (mkpx 68 65 20 254); TLit (mkpx 68 65 216 254); TLit (mkpx 68 65 67 254); TLit (mkpx 68 65 48 254); TLit (mkpx 68 65 39 254); TLit (mkpx 68 65 56 254); TLit (mkpx 68 65 39 254); TLit (mkpx 68 65 242 254); TLit (mkpx 68 65 229 254); TLit (mkpx 68 65 43 254); TLit (mkpx 68 65 232 254); TLit (mkpx 68 65 195 254); TLit (mkpx 68 65 13 254); TLit (mkpx 68 65 3 254); TLit (mkpx 68 65 240 254); TLit (mkpx 68 65 99 254); TLit (mkpx 68 65 63 254); TLit (mkpx 68 65 170 254); TLit (mkpx 68 65 75 254); TLit (mkpx 68 65 184 254); TLit (mkpx 68 65 35 254); TLit (mkpx 68 65 150 254); TLit (mkpx 68 65 192 254); TLit (mkpx 68 65 233 254); TLit (mkpx 68 65 11 254); TLit (mkpx 68 65 81 254); TLit (mkpx 68 65 247 254); TLit (mkpx 68 65 39 254); TLit (mkpx 68 65 95 254); TLit (mkpx 68 65 168 254); TLit (mkpx 68 65 131 254); TLit (mkpx 68 65 243 254); TLit (mkpx 68 65 110 254); TLit (mkpx 68 65 145 254); TLit (mkpx 68 65 54 254); TLit (mkpx 68 65 99 254)]);
   TPCross 9 (mkeplan 11
    [[CSimple [16; 154];
      CSimple [170; 146];
      CSimple [125; 66];
      CNormal 14 [2; 2; 0; 0; 0; 0; 0; 0; 0; 0; 3; 0; 0; 0; 0; 0; 0; 2; 3] (-1) [CLrep18 17; CLrep18 88; CLrep18 41; CLrep17 3; CLrep18 17; CLrep17 5; CLlit 0; CLrep17 3; CLlit 0; CLlit 1; CLrep18 38; CLrep17 6; CLlit 0; CLlit 0; CLlit 1; CLrep18 29; CLrep17 3];
      CSimple [17]]]
    [TLit (mkpx 223 170 16 66)])]
  (Some (5, (mkeplan 0
    [[CSimple [1];
      CSimple [131; 0];
      CSimple [80; 31];
      CNormal 15 [2; 0; 5; 5; 3; 4; 6; 3; 7; 2; 6; 7; 0; 0; 0; 0; 7; 7; 4] (-1) [CLrep17 7; CLrep18 12; CLlit 8; CLlit 0; CLrep17 3; CLlit 4; CLrep17 4; CLrep17 4; CLlit 0; CLlit 0; CLlit 9; CLrep17 5; CLlit 5; CLlit 5; CLrep18 15; CLlit 7; CLlit 2; CLrep18 27; CLrep17 10; CLlit 7; CLrep17 7; CLlit 7; CLrep18 17; CLrep17 3; CLlit 0; CLlit 0; CLlit 7; CLlit 4; CLrep17 3; CLlit 0; CLlit 5; CLrep18 16; CLlit 0; CLlit 7; CLrep17 5; CLlit 9; CLrep18 13; CLlit 4; CLrep18 11; CLrep17 3; CLlit 5; CLrep17 8; CLlit 0; CLlit 0; CLlit 5; CLrep17 5; CLlit 0; CLlit 0; CLlit 6; CLrep17 3; CLrep17 6; CLlit 0; CLlit 4; CLrep17 6; CLrep17 3; CLlit 6; CLrep17 5; CLlit 7; CLrep18 11; CLlit 2; CLrep17 3; CLrep17 3; CLlit 7; CLrep17 3];
      CSimple [26; 19]]]
    [TLit (mkpx 105 0 1 31)])))
  (mkeplan 6
    [[CSimple [66; 221];
      CSimple [6];
      CSimple [202];
      CSimple [21];
      CSimple [2; 15]];
     [CNormal 19 [7; 0; 0; 3; 0; 3; 4; 6; 4; 7; 4; 3; 0; 0; 0; 5; 0; 3; 2] (6) [CLrep17 3; CLrep17 3; CLlit 3; CLlit 0; CLlit 6; CLrep17 4; CLrep17 3; CLlit 5; CLlit 0; CLlit 9; CLrep17 4; CLlit 3; CLlit 5; CLrep18 20; CLlit 0; CLlit 9; CLlit 0; CLlit 9; CLlit 0; CLlit 5; CLlit 0; CLlit 9; CLlit 0; CLlit 0; CLlit 5; CLrep18 11; CLrep17 6; CLlit 0; CLlit 7; CLrep17 3; CLlit 3; CLlit 0; CLlit 0; CLlit 9; CLrep17 3; CLlit 9; CLrep17 3; CLlit 5; CLlit 0; CLlit 8; CLrep17 5; CLlit 0; CLlit 0; CLlit 8; CLrep17 3; CLlit 6; CLlit 0; CLlit 10; CLrep17 3; CLrep17 4; CLlit 6; CLlit 0; CLlit 0; CLlit 9; CLlit 0; CLlit 0; CLlit 8; CLlit 0; CLlit 0; CLlit 0; CLlit 0; CLlit 8; CLlit 7; CLrep18 22; CLlit 0; CLlit 0; CLlit 6; CLlit 9; CLlit 0; CLlit 0; CLlit 7; CLrep18 13; CLrep17 6; CLlit 0; CLlit 0; CLlit 7; CLlit 0; CLlit 0; CLrep17 7; CLlit 5; CLrep17 5; CLrep17 4; CLlit 3; CLrep17 4; CLlit 7; CLrep17 4; CLlit 0; CLlit 9; CLrep17 8; CLrep17 6; CLlit 0; CLlit 11; CLrep17 3; CLlit 8; CLlit 0; CLlit 0; CLlit 11; CLrep17 7; CLrep17 5; CLlit 0; CLlit 7; CLrep18 11; CLlit 8; CLlit 6; CLlit 0; CLlit 0; CLlit 6; CLlit 0; CLlit 7; CLlit 0; CLrep17 6; CLlit 7; CLlit 0; CLlit 7; CLrep18 11; CLlit 7; CLlit 0; CLlit 0; CLlit 9; CLrep17 3; CLrep17 5; CLlit 0; CLlit 8; CLlit 9; CLlit 0; CLrep17 3; CLlit 0; CLlit 0; CLlit 6; CLlit 7; CLlit 0; CLlit 0; CLlit 5; CLrep17 3; CLlit 8; CLrep17 4; CLrep17 3; CLlit 8; CLrep17 3; CLlit 0; CLlit 9; CLrep17 3; CLlit 10; CLlit 7; CLrep17 3; CLlit 0; CLlit 6; CLrep17 3; CLlit 10];
      CSimple [150];
      CSimple [221; 215];
      CSimple [140];
      CSimple [13; 14]]]
    [TCache 7; TCopy 1 121; TCopy 2 122; TCopy 6 123; TCopy 9 126; TCopy 1 137]).

Example emit_decode_example : decode (emit ex_plan) = Ok (sem ex_plan).
Proof. vm_compute. reflexivity. Qed.
