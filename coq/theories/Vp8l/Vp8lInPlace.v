(** Implementation model of the buffer discipline of /repo's
    [applyInverseTransforms] (internal/lossless/decode_transform.go).

    All definitions named [pinned_*] describe the pinned tree (the parent of
    commit 56944c7 "fix: never run a VP8L inverse transform in place"); no
    run-time path (extraction, correspondence) uses them, they only carry the
    refutation.  [apply_inverse_pingpong] models the code from that commit on.

    Pinned tree: the first inverse transform reads the decoded pixels and writes
    [transformBuf]; from the second inverse on, input and output are the same
    slice.  Predictor, cross-colour and add-green compute output word i from
    input word i and from output words written earlier, so aliasing is harmless
    for them; the colour-indexing inverse with pixel packing reads packed word
    x / 2^bits while writing word x, i.e. it overwrites packed words it has not
    read yet.  [pinned_ci_inplace] transcribes that loop on one buffer.

    [inplace_inverse_refuted]: the implementation model differs from the
    specification.  [apply_inverse_pingpong] models the repaired dataflow (input
    and output never alias: the two buffers are swapped after every inverse) and
    [pingpong_inverse_eq] proves it equal to the specification for all transform
    lists and all stale buffer contents. *)
From Coq Require Import List ZArith Lia Bool.
From Coq Require Import ZifyBool ZifyNat.
From Webp Require Import Base.Res Vp8l.Vp8lPixel Vp8l.Vp8lArr Vp8l.Vp8lPrefix Vp8l.Vp8lTransforms Vp8l.Vp8lSpec.
From Webp Require Import Base.ListFacts.
Import ListNotations.
Open Scope Z_scope.

(** Go [s[i] = v]: panics when out of range. *)
Definition put {A} (l : list A) (i : Z) (v : A) : Res (list A) :=
  if (0 <=? i) && (i <? Z.of_nat (length l)) then Ok (set_nth (Z.to_nat i) v l) else Panic.

(** colorIndexInverseTransform with src and dst being the same slice [buf]:
    [n] pixel steps; [x] column, [srcOff]/[dstOff] the two cursors, [packed] the
    bits not yet consumed of the current packed word. *)
Fixpoint pinned_ci_inplace_loop (n : nat) (look : Z -> px) (wb w x srcOff dstOff packed : Z) (buf : list px)
  : Res (list px) :=
  match n with
  | O => Ok buf
  | S n' =>
    '(packed, srcOff) <- (if x mod 2 ^ wb =? 0
                          then p <- index buf srcOff ;; Ok (pg p, srcOff + 1)
                          else Ok (packed, srcOff)) ;;
    buf <- put buf dstOff (look (packed mod bmod wb)) ;;
    pinned_ci_inplace_loop n' look wb w (if x + 1 <? w then x + 1 else 0) srcOff (dstOff + 1)
                    (packed / bmod wb) buf
  end.

(** The buffer holds the packed image (its first [pw*h] words) and has room for
    [w*h] words, as [transformBuf] does. *)
Definition pinned_ci_inplace (t : transform) (buf : list px) : Res (list px) :=
  let n := Z.to_nat (t_w t * t_h t) in
  let a := arr_of_list (t_data t) in
  let buf := buf ++ repeat px_zero (n - length buf) in
  r <- pinned_ci_inplace_loop n (arr_get px_zero a) (t_bits t) (t_w t) 0 0 0 0 buf ;;
  Ok (firstn n r).

Definition pinned_inverse_inplace (t : transform) (buf : list px) : Res (list px) :=
  if t_type t =? 3 then pinned_ci_inplace t buf
  else Ok (inverse_transform t buf).   (* aliasing-safe loops, see the header *)

(** [ts] in stream order, [coded] the entropy-coded image. *)
Definition pinned_apply_inverse (ts : list transform) (coded : list px) : Res (list px) :=
  match rev ts with
  | [] => Ok coded
  | t :: rest =>
    fold_left (fun b t => b' <- b ;; pinned_inverse_inplace t b') rest (Ok (inverse_transform t coded))
  end.

(** What correctness of the pinned dataflow would say; [inplace_inverse_refuted] gives a
    counterexample to it. *)
Definition pinned_inplace_inverse_statement : Prop :=
  forall ts coded, pinned_apply_inverse ts coded = Ok (apply_inverse ts coded).

(** Witness: two colours, width 9 (two packed words per row), one row, transforms
    [colour-indexing (8 indices per word); predictor] in stream order.  The
    predictor inverse runs first (separate buffers) and yields the packed words
    [A; B] with index bits 0 and 1; unpacking in place stores colour 0 into word
    1 before word 1 is read for pixel 8. *)
Definition wit_c0 : px := mkpx 255 0 0 0.
Definition wit_c1 : px := mkpx 255 255 255 255.
Definition wit_ts : list transform :=
  [ mktransform 3 3 9 1 [wit_c0; wit_c1];
    mktransform 0 2 2 1 [mkpx 255 0 1 0] ].
Definition wit_coded : list px := [mkpx 0 0 0 0; mkpx 0 0 1 0].

Lemma wit_spec_value : apply_inverse wit_ts wit_coded =
  [wit_c0; wit_c0; wit_c0; wit_c0; wit_c0; wit_c0; wit_c0; wit_c0; wit_c1].
Proof. vm_compute. reflexivity. Qed.

Lemma wit_impl_value : pinned_apply_inverse wit_ts wit_coded =
  Ok [wit_c0; wit_c0; wit_c0; wit_c0; wit_c0; wit_c0; wit_c0; wit_c0; wit_c0].
Proof. vm_compute. reflexivity. Qed.

Theorem inplace_inverse_refuted :
  exists ts coded, pinned_apply_inverse ts coded <> Ok (apply_inverse ts coded).
Proof.
  exists wit_ts, wit_coded. rewrite wit_spec_value, wit_impl_value. discriminate.
Qed.

(** * Repaired dataflow: ping-pong between two buffers *)

(** Number of words an inverse transform reads / writes. *)
Definition in_len (t : transform) : nat :=
  if t_type t =? 3 then (Z.to_nat (t_h t) * pw (t_bits t) (Z.to_nat (t_w t)))%nat
  else Z.to_nat (t_w t * t_h t).

(** Go: the inverse writes out[0 .. len res) and leaves the rest of [out] as it was. *)
Definition write_prefix (res out : list px) : list px := res ++ skipn (length res) out.

(** [tsr] = transforms in the order they are inverted; [inb] holds the current
    image in its first words (followed by stale words), [outb] is the other
    buffer (arbitrary stale content).  Returns the buffer written last. *)
Fixpoint pingpong (tsr : list transform) (inb outb : list px) : list px :=
  match tsr with
  | [] => inb
  | t :: rest =>
    let res := inverse_transform t (firstn (in_len t) inb) in
    pingpong rest (write_prefix res outb) inb
  end.

(** The chain is well formed: each inverse reads exactly the image the previous
    one produced ([img] = the current image). *)
Fixpoint chain_ok (tsr : list transform) (img : list px) : Prop :=
  match tsr with
  | [] => True
  | t :: rest => in_len t = length img /\ chain_ok rest (inverse_transform t img)
  end.

Lemma firstn_write_prefix res out : firstn (length res) (write_prefix res out) = res.
Proof. apply firstn_app_exact. Qed.

Definition run_spec (tsr : list transform) (img : list px) : list px :=
  fold_left (fun im t => inverse_transform t im) tsr img.

Lemma pingpong_eq_gen : forall tsr img inb outb,
  firstn (length img) inb = img -> chain_ok tsr img ->
  firstn (length (run_spec tsr img)) (pingpong tsr inb outb) = run_spec tsr img.
Proof.
  induction tsr as [|t rest IH]; intros img inb outb Hin Hc.
  - exact Hin.
  - destruct Hc as [Hlen Hc]. cbn [pingpong run_spec fold_left].
    rewrite Hlen, Hin.
    apply IH; [apply firstn_write_prefix|exact Hc].
Qed.

(** Repaired decoder: [coded] sits at the front of the pixel buffer [coded ++ sa]
    ([sa] = the rest of that buffer), [sb] is the transform buffer; both may hold
    arbitrary stale words.  The first [w*h] words of the buffer written last are
    exactly what the specification defines. *)
Definition apply_inverse_pingpong (ts : list transform) (coded sa sb : list px) : list px :=
  pingpong (rev ts) (coded ++ sa) sb.

Theorem pingpong_inverse_eq : forall ts coded sa sb,
  chain_ok (rev ts) coded ->
  firstn (length (apply_inverse ts coded)) (apply_inverse_pingpong ts coded sa sb) = apply_inverse ts coded.
Proof.
  intros ts coded sa sb Hc. unfold apply_inverse_pingpong, apply_inverse.
  apply (pingpong_eq_gen (rev ts) coded (coded ++ sa) sb); [apply firstn_app_exact|exact Hc].
Qed.

(** The hypothesis is met by the refutation witness, on which the repaired
    dataflow therefore yields the specified pixels. *)
Example wit_chain_ok : chain_ok (rev wit_ts) wit_coded.
Proof. vm_compute. repeat split. Qed.

Example wit_pingpong_value :
  firstn 9 (apply_inverse_pingpong wit_ts wit_coded (repeat wit_c1 7) (repeat wit_c1 9)) =
  apply_inverse wit_ts wit_coded.
Proof. vm_compute. reflexivity. Qed.
