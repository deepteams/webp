(** Transmission of one prefix code: reading what [emit_code] writes gives the
    code tree of the length vector the code plan denotes ([code_roundtrip]) —
    simple codes (one or two symbols, 1-bit or 8-bit first symbol) and normal
    codes (code-length-code lengths in the fixed order, optional max_symbol, and
    the 16/17/18 run-length tokens, themselves prefix coded). *)
From Coq Require Import List ZArith Lia Bool.
From Coq Require Import ZifyBool ZifyNat.
From Webp Require Import Base.Res Vp8l.Vp8lPixel Vp8l.Vp8lArr Vp8l.Vp8lPrefix Vp8l.Vp8lCanon Vp8l.Vp8lTransforms
  Vp8l.Vp8lSpec Vp8l.Vp8lEmit Vp8l.Vp8lEntropy.
Import ListNotations.
Open Scope Z_scope.

Definition is_ok {A} (r : Res A) : bool := match r with Ok _ => true | _ => false end.

Definition cltok_span (t : cltok) : Z :=
  match t with CLlit _ => 1 | CLrep16 n => n | CLrep17 n => n | CLrep18 n => n end.

Definition toks_span (toks : list cltok) : Z := fold_right (fun t a => cltok_span t + a) 0 toks.

Definition cltok_ok (cl : list Z) (t : cltok) : Prop :=
  match t with
  | CLlit l => 0 <= l < 16 /\ used cl l
  | CLrep16 n => 3 <= n <= 6 /\ used cl 16
  | CLrep17 n => 3 <= n <= 10 /\ used cl 17
  | CLrep18 n => 11 <= n <= 138 /\ used cl 18
  end.

Lemma expand_toks_length : forall toks prev,
  Forall (fun t => 0 <= cltok_span t) toks -> Z.of_nat (length (expand_toks toks prev)) = toks_span toks.
Proof.
  induction toks as [|t tl IH]; intros prev H; [reflexivity|].
  inversion H as [|? ? Ht Htl]; subst.
  destruct t as [l|n|n|n]; cbn [expand_toks toks_span fold_right cltok_span length] in *;
    rewrite ?app_length, ?repeat_length; fold (toks_span tl).
  - rewrite <- (IH (if l =? 0 then prev else l) Htl). lia.
  - rewrite <- (IH prev Htl). lia.
  - rewrite <- (IH prev Htl). lia.
  - rewrite <- (IH prev Htl). lia.
Qed.

Lemma rev_repeat' {A} n (v : A) : rev (repeat v n) = repeat v n.
Proof.
  induction n as [|n IH]; [reflexivity|]. cbn [repeat rev]. rewrite IH.
  clear IH. induction n as [|n IH]; [reflexivity|]. cbn [repeat app]. now rewrite IH.
Qed.

Lemma cltok_ok_span cl t : cltok_ok cl t -> 1 <= cltok_span t.
Proof. destruct t; cbn; lia. Qed.

Lemma toks_length_le_span cl toks : Forall (cltok_ok cl) toks -> Z.of_nat (length toks) <= toks_span toks.
Proof.
  induction 1 as [|t tl Ht _ IH]; cbn [length toks_span fold_right]; [lia|].
  pose proof (cltok_ok_span _ _ Ht). fold (toks_span tl). lia.
Qed.

Section Loop.
  Variable cl : list Z.
  Variable clt : tree.
  Hypothesis Hclt : tree_of_lens cl = Ok clt.
  Let cltab := code_table cl.

  (** one iteration on a repeat token: symbol c (16, 17 or 18), then n - off in eb bits *)
  Lemma rep_step c eb off n f ntok nsym prev acc s :
    used cl c -> 16 <= c ->
    (if c =? 16 then (2%nat, 3) else if c =? 17 then (3%nat, 3) else (7%nat, 11)) = (eb, off) ->
    1 <= n -> off <= n < off + 2 ^ Z.of_nat eb -> n <= nsym -> 0 < ntok ->
    read_lens_loop (S f) clt ntok nsym prev acc (code_word cltab c ++ putZ (Z.of_nat eb) (n - off) ++ s) =
    read_lens_loop f clt (ntok - 1) (nsym - n) prev (repeat (if c =? 16 then prev else 0) (Z.to_nat n) ++ acc) s.
  Proof.
    intros Hu Hc Hp Hn Hfit Hs Ht. cbn [read_lens_loop].
    replace ((nsym <=? 0) || (ntok <=? 0))%bool with false by lia.
    unfold cltab, code_table. rewrite (sym_read cl clt c _ Hclt Hu). cbn [bind].
    replace (c <? 16) with false by lia. rewrite Hp, putZ_read_nat by lia. cbn [bind].
    replace (off + (n - off)) with n by lia. now replace (nsym <? n) with false by lia.
  Qed.

  (** the disjunction: which budget ends the loop, the token count or the alphabet *)
  Lemma read_lens_loop_spec : forall toks fuel ntok nsym prev acc rest,
    Forall (cltok_ok cl) toks ->
    Z.of_nat (length toks) <= ntok -> toks_span toks <= nsym ->
    (ntok = Z.of_nat (length toks) \/ toks_span toks = nsym) ->
    (length toks < fuel)%nat ->
    read_lens_loop fuel clt ntok nsym prev acc (flat_map (emit_cltok cltab) toks ++ rest)
    = Ok (rev_append acc (expand_toks toks prev ++ repeat 0 (Z.to_nat (nsym - toks_span toks))), rest).
  Proof.
    induction toks as [|t tl IH]; intros fuel ntok nsym prev acc rest Hok Hn Hs Hend Hf;
      (destruct fuel as [|f]; [cbn in Hf; lia|]); cbn [length toks_span fold_right] in *.
    - cbn [read_lens_loop flat_map app expand_toks].
      replace ((nsym <=? 0) || (ntok <=? 0))%bool with true by lia.
      now rewrite Z.sub_0_r.
    - inversion Hok as [|? ? Ht Htl]; subst. fold (toks_span tl) in *.
      pose proof (cltok_ok_span _ _ Ht) as Hsp. pose proof (toks_length_le_span _ _ Htl) as Hsptl.
      cbn [flat_map]. rewrite <- app_assoc.
      (* after a run of n copies of v, the remaining tokens by induction *)
      assert (Hrun : forall n v prev', cltok_span t = n ->
        read_lens_loop f clt (ntok - 1) (nsym - n) prev' (repeat v (Z.to_nat n) ++ acc)
          (flat_map (emit_cltok cltab) tl ++ rest)
        = Ok (rev_append acc ((repeat v (Z.to_nat n) ++ expand_toks tl prev') ++
                              repeat 0 (Z.to_nat (nsym - (n + toks_span tl)))), rest)).
      { intros n v prev' <-. rewrite IH; [|assumption|lia..].
        rewrite Z.sub_add_distr, !rev_append_rev, rev_app_distr, rev_repeat', <- !app_assoc. reflexivity. }
      destruct t as [l|n|n|n]; cbn [emit_cltok cltok_ok cltok_span expand_toks] in *; destruct Ht as [Hl Hu].
      + cbn [read_lens_loop]. replace ((nsym <=? 0) || (ntok <=? 0))%bool with false by lia.
        unfold cltab, code_table. rewrite (sym_read cl clt l _ Hclt Hu). cbn [bind].
        replace (l <? 16) with true by lia. apply (Hrun 1 l). reflexivity.
      + rewrite <- app_assoc, (rep_step 16 2 3) by first [assumption|reflexivity|cbn; lia]. now apply Hrun.
      + rewrite <- app_assoc, (rep_step 17 3 3) by first [assumption|reflexivity|cbn; lia]. now apply Hrun.
      + rewrite <- app_assoc, (rep_step 18 7 11) by first [assumption|reflexivity|cbn; lia]. now apply Hrun.
  Qed.
End Loop.

Lemma read_bit_true s : read_bits 1 (true :: s) = Ok (1, s).
Proof. reflexivity. Qed.
Lemma read_bit_false s : read_bits 1 (false :: s) = Ok (0, s).
Proof. reflexivity. Qed.

Definition cl_written (ncl : Z) (cl : list Z) : list Z :=
  fold_left (fun a o => set_nth (Z.to_nat o) (nth (Z.to_nat o) cl 0) a)
            (firstn (Z.to_nat ncl) code_length_order) (repeat 0 19).

(** [cl_written ncl cl = cl]: [cl] has 19 entries, zero where not sent.  Either no
    max_symbol and the tokens cover the alphabet, or the token count is sent (in
    2 + 2 * usemax bits) and the tokens may stop short, the rest being zero. *)
Definition wf_code (alphabet : Z) (cp : codeplan) : Prop :=
  match cp with
  | CSimple [s0] => 0 <= s0 < 256 /\ s0 < alphabet
  | CSimple [s0; s1] => 0 <= s0 < 256 /\ s0 < alphabet /\ 0 <= s1 < 256 /\ s1 < alphabet
  | CSimple _ => False
  | CNormal ncl cl usemax toks =>
    4 <= ncl <= 19 /\ Forall (fun c => 0 <= c < 8) cl /\ cl_written ncl cl = cl /\
    is_ok (tree_of_lens cl) = true /\ Forall (cltok_ok cl) toks /\ 0 < alphabet /\
    ((usemax = -1 /\ toks_span toks = alphabet) \/
     (0 <= usemax <= 7 /\ 2 <= Z.of_nat (length toks) <= alphabet /\
      Z.of_nat (length toks) - 2 < 2 ^ (2 + 2 * usemax) /\ toks_span toks <= alphabet))
  end.

Lemma read_cl_lens_spec cl : Forall (fun c => 0 <= c < 8) cl -> forall ord n acc rest, (n <= length ord)%nat ->
  read_cl_lens ord n acc (flat_map (fun o => putZ 3 (nth (Z.to_nat o) cl 0)) (firstn n ord) ++ rest)
  = Ok (fold_left (fun a o => set_nth (Z.to_nat o) (nth (Z.to_nat o) cl 0) a) (firstn n ord) acc, rest).
Proof.
  intros Hcl. induction ord as [|o ord IH]; intros n acc rest Hn.
  - destruct n; [reflexivity|cbn in Hn; lia].
  - destruct n as [|n]; [reflexivity|]. cbn [firstn flat_map read_cl_lens fold_left].
    rewrite <- app_assoc.
    assert (Hr : 0 <= nth (Z.to_nat o) cl 0 < 8).
    { destruct (Nat.lt_ge_cases (Z.to_nat o) (length cl)) as [Hlt|Hge].
      - rewrite Forall_forall in Hcl. apply Hcl, nth_In, Hlt.
      - rewrite nth_overflow by lia. lia. }
    rewrite (putZ_read_nat 3) by (cbn; lia). cbn [bind]. apply IH. cbn in Hn. lia.
Qed.

Lemma read_simple_lens_spec alphabet (two : bool) s0 tail : 0 <= s0 < 256 -> s0 < alphabet ->
  read_simple_lens alphabet (two :: (if s0 <? 2 then false :: putZ 1 s0 else true :: putZ 8 s0) ++ tail) =
  let lens := set_nth (Z.to_nat s0) 1 (repeat 0 (Z.to_nat alphabet)) in
  if two then
    '(s1, s) <- read_bits 8 tail ;;
    if alphabet <=? s1 then Err E_SYNTAX else Ok (set_nth (Z.to_nat s1) 1 lens, s)
  else Ok (lens, tail).
Proof.
  intros H0 Ha. unfold read_simple_lens.
  replace (read_bits 1 (two :: _)) with (Ok (if two then 1 else 0, (if s0 <? 2 then false :: putZ 1 s0 else true :: putZ 8 s0) ++ tail))
    by (now destruct two).
  cbn [bind].
  destruct (s0 <? 2) eqn:E; cbn [app].
  - rewrite read_bit_false. cbn [bind]. change (0 =? 1) with false. cbv iota.
    rewrite (putZ_read_nat 1) by (cbn; lia). cbn [bind].
    replace (alphabet <=? s0) with false by lia. now destruct two.
  - rewrite read_bit_true. cbn [bind]. change (1 =? 1) with true. cbv iota.
    rewrite (putZ_read_nat 8) by (cbn; lia). cbn [bind].
    replace (alphabet <=? s0) with false by lia. now destruct two.
Qed.

Theorem code_roundtrip : forall alphabet cp t rest,
  wf_code alphabet cp -> tree_of_lens (code_lens alphabet cp) = Ok t ->
  read_code alphabet (emit_code cp ++ rest) = Ok (t, rest).
Proof.
  intros alphabet cp t rest Hwf Ht. unfold read_code.
  destruct cp as [syms|ncl cl usemax toks].
  -     destruct syms as [|s0 [|s1 [|s2 tl]]]; cbn [wf_code] in Hwf; try contradiction;
      cbn [emit_code app code_lens fold_left] in *;
      rewrite read_bit_true; cbn [bind]; change (1 =? 1) with true; cbv iota.
    + destruct Hwf as (H0 & Ha). rewrite read_simple_lens_spec by assumption.
      cbv zeta. cbn [bind]. now rewrite Ht.
    + destruct Hwf as (H0 & Ha & H1 & Hb). rewrite <- app_assoc, read_simple_lens_spec by assumption.
      cbv zeta. rewrite (putZ_read_nat 8) by (cbn; lia). cbn [bind].
      replace (alphabet <=? s1) with false by lia. cbn [bind]. now rewrite Ht.
  -     cbn [wf_code] in Hwf. destruct Hwf as (Hncl & Hcl & Hwr & Hclok & Htoks & Ha & Hmode).
    destruct (tree_of_lens cl) as [clt| |] eqn:Eclt; try discriminate.
    cbn [emit_code app]. rewrite read_bit_false. cbn [bind]. change (0 =? 1) with false. cbv iota.
    unfold read_normal_lens.
    rewrite <- !app_assoc.
    rewrite (putZ_read_nat 4) by (cbn; lia). cbn [bind].
    replace (4 + (ncl - 4)) with ncl by lia.
    rewrite (read_cl_lens_spec cl Hcl) by (cbn; lia). cbn [bind].
    fold (cl_written ncl cl). rewrite Hwr, Eclt. cbn [bind].
    pose proof (toks_length_le_span cl toks Htoks) as Hlen.
    assert (Hexp : Forall (fun t => 0 <= cltok_span t) toks).
    { eapply Forall_impl; [|exact Htoks]. intros x Hx. pose proof (cltok_ok_span _ _ Hx). lia. }
    destruct Hmode as [(Hum & Hspan)|(Hum & Hnt & Hfit & Hspan)].
    + subst usemax. change (-1 <? 0) with true. cbv iota. cbn [app].
      rewrite read_bit_false. cbn [bind]. change (0 =? 1) with false. cbv iota. cbn [bind].
      rewrite (read_lens_loop_spec cl clt Eclt toks) by (try assumption; lia).
      cbn [bind rev_append]. rewrite Hspan, Z.sub_diag. cbn [Z.to_nat repeat]. rewrite app_nil_r.
      cbn [code_lens] in Ht. unfold pad_to in Ht.
      replace (Z.to_nat alphabet - length (expand_toks toks 8))%nat with 0%nat in Ht
        by (pose proof (expand_toks_length toks 8 Hexp); lia).
      cbn [repeat] in Ht. rewrite app_nil_r in Ht. rewrite Ht. reflexivity.
    + replace (usemax <? 0) with false by lia. cbn [app]. rewrite <- !app_assoc. cbn [app].
      rewrite read_bit_true. cbn [bind]. change (1 =? 1) with true. cbv iota.
      rewrite (putZ_read_nat 3) by (cbn; lia). cbn [bind].
      rewrite putZ_read by lia. cbn [bind].
      replace (alphabet <? 2 + (Z.of_nat (length toks) - 2)) with false by lia. cbn [bind].
      replace (2 + (Z.of_nat (length toks) - 2)) with (Z.of_nat (length toks)) by lia.
      rewrite (read_lens_loop_spec cl clt Eclt toks) by (try assumption; lia).
      cbn [bind rev_append].
      cbn [code_lens] in Ht. unfold pad_to in Ht.
      replace (Z.to_nat (alphabet - toks_span toks)) with (Z.to_nat alphabet - length (expand_toks toks 8))%nat
        by (pose proof (expand_toks_length toks 8 Hexp); lia).
      rewrite Ht. reflexivity.
Qed.
