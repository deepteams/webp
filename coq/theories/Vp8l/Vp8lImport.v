(** Encoder side of the lossless round trip (C01): pixel import, transparent-area
    clean-up, the forward transform chain and its inversion.  The encoder's heuristics
    are not modelled: the chain takes the transforms with their data as *choices*. *)
From Coq Require Import List ZArith Lia Bool.
From Coq Require Import ZifyBool ZifyNat.
From Webp Require Import Base.Res Vp8l.Vp8lPixel Vp8l.Vp8lArr Vp8l.Vp8lPrefix Vp8l.Vp8lTransforms Vp8l.Vp8lSpec.
Import ListNotations.
Open Scope Z_scope.

(** What "the source pixel read as non-premultiplied 8-bit RGBA" means in Go:
    color.NRGBAModel.Convert on the 16-bit values c*0x101, a*0x101. *)
Definition nrgba_model_chan (c a : Z) : Z :=
  if a =? 255 then c
  else if a =? 0 then 0
  else (((c * 257 * 65535) / (a * 257)) / 256) mod 256.

(** The fast paths of encode.go on the pinned tree: uint8(uint16(c) * 255 / uint16(a))
    for 0 < a < 255, the byte itself otherwise. *)
Definition pinned_fast_chan (c a : Z) : Z :=
  if (0 <? a) && (a <? 255) then ((c * 255) / a) mod 256 else c.

(** The repaired fast path (commit 83481fc of /repo):
    uint8((uint32(c) * 0x101 * 0xffff / (uint32(a) * 0x101)) >> 8) for 0 < a < 255. *)
Definition fixed_fast_chan (c a : Z) : Z :=
  if (0 <? a) && (a <? 255) then ((((c * 257 * 65535) mod 4294967296) / (a * 257)) / 256) mod 256 else c.

Definition byte_pairs : list (Z * Z) :=
  flat_map (fun a => map (fun c => (c, a)) (map Z.of_nat (seq 0 (S (Z.to_nat a))))) (map Z.of_nat (seq 0 256)).

Lemma In_byte_pairs c a : In (c, a) byte_pairs <-> 0 <= c <= a /\ a <= 255.
Proof.
  unfold byte_pairs. rewrite in_flat_map. split.
  - intros (a' & Ha & Hc). apply in_map_iff in Ha as (i & <- & Hi%in_seq).
    apply in_map_iff in Hc as (c' & [= <- <-] & Hc). apply in_map_iff in Hc as (j & <- & Hj%in_seq). lia.
  - intros [Hc Ha]. exists a. split.
    + apply in_map_iff. exists (Z.to_nat a). split; [lia|apply in_seq; lia].
    + apply (in_map (fun c => (c, a))), in_map_iff. exists (Z.to_nat c). split; [lia|apply in_seq; lia].
Qed.

Definition rgba_unpremultiply_exact_statement (fast : Z -> Z -> Z) : Prop :=
  forall c a, 0 <= c <= a -> a <= 255 -> fast c a = nrgba_model_chan c a.

Definition pinned_diff_count : Z :=
  Z.of_nat (length (filter (fun '(c, a) => negb (pinned_fast_chan c a =? nrgba_model_chan c a)) byte_pairs)).

(** With 255*c = q*a + r and 65535 = 257 * 255: the pinned formula is q, the colour
    model's q + (255*c + 256*r) / (256*a), i.e. q + 1 when r is large. *)
Lemma chans_by_remainder c a : 0 <= c <= a -> 0 < a < 255 ->
  pinned_fast_chan c a = 255 * c / a /\
  nrgba_model_chan c a = 255 * c / a + (if 256 * (a - (255 * c) mod a) <=? 255 * c then 1 else 0).
Proof.
  intros Hc Ha. set (n := 255 * c). assert (Hn : 0 <= n <= 255 * a) by lia.
  assert (Hq : 0 <= n / a <= 255) by (split; [apply Z.div_pos|apply Z.div_le_upper_bound]; lia).
  split.
  - unfold pinned_fast_chan. replace ((0 <? a) && (a <? 255)) with true by lia.
    replace (c * 255) with n by lia. apply Z.mod_small. lia.
  - unfold nrgba_model_chan. rewrite !(proj2 (Z.eqb_neq a _)) by lia.
    replace (c * 257 * 65535) with (257 * n * 257) by lia.
    rewrite Z.div_mul_cancel_r, Z.div_div by lia.
    rewrite Z.mod_small by (split; [apply Z.div_pos|apply Z.div_lt_upper_bound]; lia).
    pose proof (Z.div_mod n a ltac:(lia)) as E. pose proof (Z.mod_pos_bound n a ltac:(lia)) as Hr.
    set (q := n / a) in *. set (r := n mod a) in *.
    replace (257 * n) with (q * (a * 256) + (n + 256 * r)) by lia.
    rewrite Z.div_add_l by lia. f_equal.
    destruct (Z.leb_spec (256 * (a - r)) n).
    + symmetry. apply (Z.div_unique _ _ 1 (n + 256 * r - a * 256)); lia.
    + apply Z.div_small. lia.
Qed.

Definition differs (c a : Z) : bool :=
  (0 <? a) && (a <? 255) && (let n := 255 * c in 256 * (a - n mod a) <=? n).

Lemma differs_spec c a : 0 <= c <= a -> a <= 255 ->
  differs c a = negb (pinned_fast_chan c a =? nrgba_model_chan c a).
Proof.
  intros Hc Ha. unfold differs. cbv zeta.
  destruct (Z.eq_dec a 0) as [->|N0]; [|destruct (Z.eq_dec a 255) as [->|N255]].
  - replace c with 0 by lia. reflexivity.
  - unfold pinned_fast_chan, nrgba_model_chan. cbn. now rewrite Z.eqb_refl.
  - destruct (chans_by_remainder c a) as [-> ->]; [lia..|].
    replace ((0 <? a) && (a <? 255)) with true by lia.
    destruct (256 * (a - (255 * c) mod a) <=? 255 * c); cbn [andb]; lia.
Qed.

(** [pinned_diff_count] as written (32,896 pairs, three divisions each) takes minutes to
    check in the kernel.  Below, the same count over the same pairs: [differs] is the
    [filter]'s boolean on [byte_pairs] ([differs_spec]), [tri_count] visits a = 0 .. 255,
    c = 0 .. a in its order ([tri_count_spec]), [count_row] does a row with one division. *)
Fixpoint count_from (p : Z -> bool) (k : nat) (c acc : Z) : Z :=
  match k with
  | O => acc
  | S k' => count_from p k' (c + 1) (if p c then acc + 1 else acc)
  end.

Fixpoint tri_count (row : Z -> nat -> Z -> Z) (n m : nat) (a acc : Z) : Z :=
  match n with
  | O => acc
  | S n' => tri_count row n' (S m) (a + 1) (row a (S m) acc)
  end.

Lemma count_from_spec (p : Z -> Z -> bool) a k s acc :
  count_from (fun c => p c a) k (Z.of_nat s) acc =
  acc + Z.of_nat (length (filter (fun '(c, a) => p c a) (map (fun c => (c, a)) (map Z.of_nat (seq s k))))).
Proof.
  revert s acc. induction k as [|k IH]; intros s acc; cbn [count_from seq map filter].
  - cbn. lia.
  - replace (Z.of_nat s + 1) with (Z.of_nat (S s)) by lia. rewrite IH.
    destruct (p (Z.of_nat s) a); cbn [length]; lia.
Qed.

Lemma tri_count_spec (p : Z -> Z -> bool) n s acc :
  tri_count (fun a k => count_from (fun c => p c a) k 0) n s (Z.of_nat s) acc =
  acc + Z.of_nat (length (filter (fun '(c, a) => p c a)
    (flat_map (fun a => map (fun c => (c, a)) (map Z.of_nat (seq 0 (S (Z.to_nat a))))) (map Z.of_nat (seq s n))))).
Proof.
  revert s acc. induction n as [|n IH]; intros s acc.
  - cbn. lia.
  - rewrite <- cons_seq. cbn [tri_count map flat_map].
    replace (Z.of_nat s + 1) with (Z.of_nat (S s)) by lia.
    rewrite IH, (count_from_spec p _ _ 0), filter_app, app_length, Nat2Z.id. lia.
Qed.

Lemma tri_count_ext row row' : (forall a k acc, row a k acc = row' a k acc) ->
  forall n m a acc, tri_count row n m a acc = tri_count row' n m a acc.
Proof. intros E. induction n as [|n IH]; intros m a acc; cbn [tri_count]; [reflexivity|]. now rewrite E. Qed.

(** along c: n = 255*c grows by 255, r = n mod a by 255 mod a, less a on overflow *)
Fixpoint count_row (a d : Z) (k : nat) (n r acc : Z) : Z :=
  match k with
  | O => acc
  | S k' =>
    count_row a d k' (n + 255) (let r' := r + d in if r' <? a then r' else r' - a)
      (if 256 * (a - r) <=? n then acc + 1 else acc)
  end.

Definition diff_row (a : Z) (k : nat) (acc : Z) : Z :=
  if (0 <? a) && (a <? 255) then count_row a (255 mod a) k 0 0 acc else acc.

Lemma mod_step x d a : 0 < a ->
  (x + d) mod a = let r' := x mod a + d mod a in if r' <? a then r' else r' - a.
Proof.
  intros Ha. rewrite Z.add_mod by lia. cbv zeta.
  pose proof (Z.mod_pos_bound x a Ha). pose proof (Z.mod_pos_bound d a Ha).
  destruct (Z.ltb_spec (x mod a + d mod a) a); [apply Z.mod_small; lia|].
  rewrite <- (Z.mod_add _ (-1)) by lia. apply Z.mod_small. lia.
Qed.

Lemma count_row_spec a k c acc : 0 < a < 255 ->
  count_row a (255 mod a) k (255 * c) ((255 * c) mod a) acc = count_from (fun c => differs c a) k c acc.
Proof.
  intros Ha. revert c acc. induction k as [|k IH]; intros c acc; cbn [count_row count_from]; [reflexivity|].
  rewrite <- IH. replace (255 * (c + 1)) with (255 * c + 255) by lia. rewrite mod_step by lia.
  unfold differs. now replace ((0 <? a) && (a <? 255)) with true by lia.
Qed.

Lemma diff_row_spec a k acc : count_from (fun c => differs c a) k 0 acc = diff_row a k acc.
Proof.
  unfold diff_row. destruct ((0 <? a) && (a <? 255)) eqn:G.
  - symmetry. apply (count_row_spec a k 0). lia.
  - generalize 0. revert acc. induction k as [|k IH]; intros acc c; cbn [count_from]; [reflexivity|].
    unfold differs at 2. rewrite G. apply IH.
Qed.

Theorem rgba_unpremultiply_refuted :
  ~ rgba_unpremultiply_exact_statement pinned_fast_chan /\ pinned_diff_count = 15193.
Proof.
  split.
  - intros H. specialize (H 5 6 ltac:(lia) ltac:(lia)). vm_compute in H. discriminate.
  - unfold pinned_diff_count.
    (* the same pairs, and on each of them the same boolean *)
    rewrite (filter_ext_in _ (fun '(c, a) => differs c a)).
    + unfold byte_pairs. rewrite <- (Z.add_0_l (Z.of_nat _)), <- (tri_count_spec differs 256 0).
      rewrite (tri_count_ext _ _ diff_row_spec). vm_compute. reflexivity.
    + intros [c a] [Hc Ha]%In_byte_pairs. symmetry. now apply differs_spec.
Qed.

(** for c <= 255 the uint32 product does not wrap *)
Theorem rgba_unpremultiply_exact_fixed : rgba_unpremultiply_exact_statement fixed_fast_chan.
Proof.
  intros c a Hc Ha. unfold fixed_fast_chan, nrgba_model_chan.
  rewrite (Z.mod_small (c * 257 * 65535)) by lia.
  destruct (Z.eqb_spec a 255) as [->|N255]; [reflexivity|].
  destruct (Z.eqb_spec a 0) as [->|N0]; [cbn; lia|].
  now replace ((0 <? a) && (a <? 255)) with true by lia.
Qed.

(** * cleanupTransparentAreaLossless *)

Definition cleanup (exact : bool) (p : px) : px :=
  if exact then p else if pa p =? 0 then px_zero else p.

Definition expected_px (exact : bool) (p : px) : px := cleanup exact p.

Lemma cleanup_exact p : cleanup true p = p.
Proof. reflexivity. Qed.

Lemma cleanup_visible exact p : pa p <> 0 -> cleanup exact p = p.
Proof. intros H. unfold cleanup. destruct exact; [reflexivity|]. destruct (pa p =? 0) eqn:E; [lia|reflexivity]. Qed.

Lemma cleanup_transparent p : pa p = 0 -> cleanup false p = px_zero.
Proof. intros H. unfold cleanup. rewrite H. reflexivity. Qed.

Lemma cleanup_idem exact p : cleanup exact (cleanup exact p) = cleanup exact p.
Proof.
  unfold cleanup. destruct exact; [reflexivity|].
  destruct (pa p =? 0) eqn:E; [reflexivity|]. now rewrite E.
Qed.

Lemma cleanup_wf exact p : wf_px p -> wf_px (cleanup exact p).
Proof.
  intros H. unfold cleanup. destruct exact; [exact H|]. destruct (pa p =? 0); [|exact H].
  unfold wf_px, chan_ok, px_zero; cbn [pa pr pg pb]. lia.
Qed.

Definition forward_transform (t : transform) (img : list px) : list px :=
  match t_type t with
  | 0 =>
    let a := arr_of_list (t_data t) in
    let tw := subsample (t_w t) (t_bits t) in
    predictor_fwd (fun x y => pg (arr_get px_zero a (tile_index tw (t_bits t) x y))) (t_w t) (Z.to_nat (t_w t)) img
  | 1 =>
    let a := arr_of_list (t_data t) in
    let tw := subsample (t_w t) (t_bits t) in
    cross_color_fwd (fun x y => arr_get px_zero a (tile_index tw (t_bits t) x y)) (t_w t) img
  | 2 => subtract_green_fwd img
  | _ =>
    color_index_fwd (fun p => index_of p (t_data t)) (t_bits t) (Z.to_nat (t_w t)) (Z.to_nat (t_h t)) img
  end.

(** The encoder applies the transforms in stream order. *)
Definition forward_chain (ts : list transform) (img : list px) : list px :=
  fold_left (fun im t => forward_transform t im) ts img.

(** The encoder's validity predicate for one step: bytes; for colour indexing, pixels
    in the palette, palette fits the packing, sizes right. *)
Definition step_ok (t : transform) (img : list px) : Prop :=
  Forall wf_px img /\
  (t_type t = 0 \/ t_type t = 1 \/ t_type t = 2 \/
   (t_type t = 3 /\ 0 <= t_bits t <= 3 /\ 0 < t_w t /\ 0 <= t_h t /\
    length img = (Z.to_nat (t_h t) * Z.to_nat (t_w t))%nat /\
    Z.of_nat (length (t_data t)) <= bmod (t_bits t) /\
    Forall (fun p => In p (t_data t)) img)).

Fixpoint chain_ok (ts : list transform) (img : list px) : Prop :=
  match ts with
  | [] => True
  | t :: rest => step_ok t img /\ chain_ok rest (forward_transform t img)
  end.

Lemma inverse_forward_step t img : step_ok t img -> inverse_transform t (forward_transform t img) = img.
Proof.
  intros [Hwf Hty]. unfold inverse_transform, forward_transform.
  destruct Hty as [E|[E|[E|(E & Hb & Hw & Hh & Hlen & Hpal & Hin)]]]; rewrite E.
  - apply inv_predictor_fwd_gen, Hwf.
  - apply inv_cross_color_fwd_gen, Hwf.
  - apply inv_subtract_green_fwd, Hwf.
  - apply inv_color_index_fwd_gen; [exact Hb|lia|exact Hlen|].
    rewrite Forall_forall in Hin |- *. intros p Hp. specialize (Hin p Hp).
    destruct (index_of_spec p (t_data t) Hin) as [Hr Hl]. split; [lia|].
    rewrite arr_of_list_get.
    replace ((0 <=? index_of p (t_data t)) && (index_of p (t_data t) <? Z.of_nat (length (t_data t))))%bool
      with true by lia.
    exact Hl.
Qed.

(** The decoder's inverse transforms, in reverse order, undo the encoder's chain. *)
Theorem inverse_chain : forall ts img,
  chain_ok ts img -> apply_inverse ts (forward_chain ts img) = img.
Proof.
  induction ts as [|t rest IH]; intros img Hc; [reflexivity|].
  destruct Hc as [Hs Hc]. unfold apply_inverse, forward_chain in *. cbn [rev fold_left].
  rewrite fold_left_app. cbn [fold_left].
  rewrite (IH _ Hc). apply inverse_forward_step, Hs.
Qed.

(** Satisfiable; [map sg_inv] of palette entries so that subtract-green leaves palette
    entries. *)
Definition ex_pal : list px := [mkpx 255 10 20 30; mkpx 255 200 100 50; mkpx 0 0 0 0].
Definition ex_ts : list transform :=
  [ mktransform 2 0 5 2 [];
    mktransform 3 2 5 2 ex_pal ].
Definition ex_img : list px :=
  map sg_inv [mkpx 255 10 20 30; mkpx 255 200 100 50; mkpx 0 0 0 0; mkpx 255 10 20 30; mkpx 255 10 20 30;
   mkpx 0 0 0 0; mkpx 255 200 100 50; mkpx 255 200 100 50; mkpx 255 10 20 30; mkpx 0 0 0 0].

Example ex_chain_roundtrip : apply_inverse ex_ts (forward_chain ex_ts ex_img) = ex_img.
Proof. vm_compute. reflexivity. Qed.

Lemma Forall_wf_reflect l : forallb wf_pxb l = true -> Forall wf_px l.
Proof.
  intros H. rewrite forallb_forall in H. apply Forall_forall. intros p Hp.
  apply wf_pxb_spec, H, Hp.
Qed.

Lemma Forall_In_reflect pal l : forallb (fun p => existsb (px_eqb p) pal) l = true -> Forall (fun p => In p pal) l.
Proof.
  intros H. rewrite forallb_forall in H. apply Forall_forall. intros p Hp.
  specialize (H p Hp). apply existsb_exists in H. destruct H as (q & Hq & E).
  apply px_eqb_eq in E. now subst q.
Qed.

Example ex_chain_ok : chain_ok ex_ts ex_img.
Proof.
  unfold ex_ts. cbn [chain_ok]. split; [|split; [|exact I]].
  - split; [apply Forall_wf_reflect; vm_compute; reflexivity|].
    right; right; left; reflexivity.
  - split; [apply Forall_wf_reflect; vm_compute; reflexivity|].
    right; right; right. cbn [t_type t_bits t_w t_h t_data].
    split; [reflexivity|]. split; [lia|]. split; [lia|]. split; [lia|].
    split; [vm_compute; reflexivity|]. split; [vm_compute; discriminate|].
    apply Forall_In_reflect. vm_compute. reflexivity.
Qed.
