(** Implementation model of the deferred colour-cache insertion of /repo's
    decodeImageData (internal/lossless/decode_image.go): decoded pixels are not
    inserted into the colour cache one by one; a cursor [lastCached] trails the
    write position and the pending pixels are inserted in order (a "flush") at
    the end of a row, after a backward reference, and before every cache lookup.

    The model is more liberal than the code: *where* flushes happen is an
    arbitrary schedule (one boolean per token: flush after this token or not);
    the only thing fixed is that a cache lookup flushes first.  The theorem says
    that every such schedule yields the pixels of the specification's replay
    ([Vp8lEmit.replay]: every pixel inserted immediately). *)
From Coq Require Import List ZArith Lia Bool.
From Webp Require Import Base.Res Vp8l.Vp8lPixel Vp8l.Vp8lArr Vp8l.Vp8lPrefix Vp8l.Vp8lTransforms Vp8l.Vp8lSpec Vp8l.Vp8lEmit.
Import ListNotations.
Open Scope Z_scope.

(** insert the pending pixels (most recent first) oldest first *)
Definition flush (cb : Z) (cache : arr px) (pending : list px) : arr px :=
  fold_left (cache_insert cb) (rev pending) cache.

Fixpoint replay_deferred (cb w : Z) (toks : list (token * bool)) (cache : arr px) (pending acc : list px)
  : list px :=
  match toks with
  | [] => acc
  | (t, fl) :: tl =>
    let '(cache1, pending1, acc1) :=
      match t with
      | TLit p => (cache, p :: pending, p :: acc)
      | TCache k =>
        let cache' := flush cb cache pending in          (* flush before the lookup *)
        let p := arr_get px_zero cache' k in
        (cache', [p], p :: acc)
      | TCopy len dc =>
        let new := copy_pixels (Z.to_nat len) (Z.to_nat (plane_to_dist w dc)) acc in
        (cache, rev_append new pending, rev_append new acc)
      end in
    if fl then replay_deferred cb w tl (flush cb cache1 pending1) [] acc1
    else replay_deferred cb w tl cache1 pending1 acc1
  end.

Lemma flush_nil cb cache : flush cb cache [] = cache.
Proof. reflexivity. Qed.

Lemma flush_cons cb cache p pending :
  flush cb cache (p :: pending) = cache_insert cb (flush cb cache pending) p.
Proof. unfold flush. cbn [rev]. now rewrite fold_left_app. Qed.

Lemma flush_rev_append cb cache new pending :
  flush cb cache (rev_append new pending) = fold_left (cache_insert cb) new (flush cb cache pending).
Proof.
  unfold flush. rewrite rev_append_rev, rev_app_distr, rev_involutive. now rewrite fold_left_app.
Qed.

Lemma replay_deferred_eq cb w : forall toks cache_i pending acc cache_s,
  cache_s = flush cb cache_i pending ->
  replay_deferred cb w toks cache_i pending acc = replay cb w (map fst toks) cache_s acc.
Proof.
  induction toks as [|[t fl] tl IH]; intros cache_i pending acc cache_s Hinv; [reflexivity|].
  cbn [replay_deferred map fst].
  destruct t as [p|k|len dc]; cbn [replay].
  - destruct fl; apply IH; subst cache_s; rewrite ?flush_nil; now rewrite flush_cons.
  - subst cache_s. destruct fl; apply IH; rewrite ?flush_nil; rewrite flush_cons; reflexivity.
  - subst cache_s. destruct fl; apply IH; rewrite ?flush_nil; now rewrite flush_rev_append.
Qed.

(** Deferred insertion under any flush schedule = immediate insertion. *)
Theorem cache_deferred_eq_immediate : forall cb w (toks : list (token * bool)),
  replay_deferred cb w toks arr_empty [] [] = replay cb w (map fst toks) arr_empty [].
Proof. intros cb w toks. apply replay_deferred_eq. reflexivity. Qed.

(** One schedule, flushing after every copy, on the generated example plan of
    [Vp8lEmit]: *)
Example deferred_example :
  let toks := map (fun t => (t, match t with TCopy _ _ => true | _ => false end)) (ep_tokens (p_main ex_plan)) in
  replay_deferred (ep_cache_bits (p_main ex_plan)) 4 toks arr_empty [] [] =
  replay (ep_cache_bits (p_main ex_plan)) 4 (ep_tokens (p_main ex_plan)) arr_empty [].
Proof. vm_compute. reflexivity. Qed.
