(** [emit_decode]: the specification decoder applied to the bytes the emitter
    writes for a well-formed plan returns the pixels the plan denotes.  It rests on
    [code_roundtrip], [entropy_roundtrip], [entropy_roundtrip_m] and the bit/byte
    layer lemmas below. *)
From Coq Require Import List ZArith Lia Bool.
From Coq Require Import ZifyBool ZifyNat.
From Webp Require Import Base.Res Vp8l.Vp8lPixel Vp8l.Vp8lArr Vp8l.Vp8lPrefix Vp8l.Vp8lCanon Vp8l.Vp8lTransforms
  Vp8l.Vp8lSpec Vp8l.Vp8lEmit Vp8l.Vp8lEntropy Vp8l.Vp8lCodeLens.
Import ListNotations.
Open Scope Z_scope.

Lemma byte_bits_zero n : byte_bits n 0 = repeat false n.
Proof. induction n as [|n IH]; [reflexivity|]. cbn [byte_bits repeat]. now rewrite Z.div_0_l, IH by lia. Qed.

Lemma byte_bits_value : forall n l, (length l <= n)%nat ->
  byte_bits n (bits_value l) = l ++ repeat false (n - length l).
Proof.
  induction n as [|n IH]; intros l Hl.
  - destruct l; [reflexivity|cbn in Hl; lia].
  - destruct l as [|b tl].
    + cbn [bits_value length app]. rewrite Nat.sub_0_r. apply byte_bits_zero.
    + cbn [bits_value byte_bits length app]. cbn [length] in Hl.
      pose proof (bits_value_nonneg tl).
      replace (Z.odd ((if b then 1 else 0) + 2 * bits_value tl)) with b
        by (rewrite Z.odd_add, Z.odd_mul; destruct b; reflexivity).
      replace (((if b then 1 else 0) + 2 * bits_value tl) / 2) with (bits_value tl) by (destruct b; lia).
      rewrite IH by lia. reflexivity.
Qed.

Lemma bits_bytes_fuel : forall fuel s, (length s < 8 * fuel)%nat ->
  exists k, bits_of_bytes (bytes_of_bits_fuel fuel s) = s ++ repeat false k.
Proof.
  induction fuel as [|fuel IH]; intros s Hs; [lia|].
  destruct s as [|b tl]; [exists 0%nat; reflexivity|].
  cbn [bytes_of_bits_fuel]. set (s := b :: tl) in *.
  unfold bits_of_bytes. cbn [flat_map]. fold (bits_of_bytes (bytes_of_bits_fuel fuel (skipn 8 s))).
  rewrite byte_bits_value by (rewrite firstn_length; lia).
  destruct (Nat.le_gt_cases 8 (length s)) as [Hge|Hlt].
  - destruct (IH (skipn 8 s)) as [k Hk]; [rewrite skipn_length; lia|].
    exists k. rewrite Hk, firstn_length. replace (8 - Nat.min 8 (length s))%nat with 0%nat by lia.
    cbn [repeat]. rewrite app_nil_r, app_assoc, firstn_skipn. reflexivity.
  - rewrite skipn_all2 by lia. rewrite firstn_all2 by lia.
    exists (8 - length s)%nat.
    destruct fuel; cbn [bytes_of_bits_fuel bits_of_bytes flat_map]; now rewrite app_nil_r.
Qed.

Lemma bits_bytes_roundtrip s : exists k, bits_of_bytes (bytes_of_bits s) = s ++ repeat false k.
Proof.
  unfold bytes_of_bits. apply bits_bytes_fuel.
  pose proof (Nat.div_mod (length s) 8 ltac:(lia)). pose proof (Nat.mod_upper_bound (length s) 8 ltac:(lia)). lia.
Qed.

Definition wf_eimg (w h : Z) (ep : eplan) : Prop :=
  (ep_cache_bits ep = 0 \/ 1 <= ep_cache_bits ep <= 11) /\
  exists cg cr cbl ca cd,
    ep_codes ep = [[cg; cr; cbl; ca; cd]] /\
    let a0 := 280 + cache_size_of (ep_cache_bits ep) in
    wf_code a0 cg /\ wf_code 256 cr /\ wf_code 256 cbl /\ wf_code 256 ca /\ wf_code 40 cd /\
    is_ok (tree_of_lens (code_lens a0 cg)) = true /\ is_ok (tree_of_lens (code_lens 256 cr)) = true /\
    is_ok (tree_of_lens (code_lens 256 cbl)) = true /\ is_ok (tree_of_lens (code_lens 256 ca)) = true /\
    is_ok (tree_of_lens (code_lens 40 cd)) = true /\
    tokens_ok (code_lens a0 cg) (code_lens 256 cr) (code_lens 256 cbl) (code_lens 256 ca) (code_lens 40 cd)
              w (w * h) 0 (ep_tokens ep).

Lemma is_ok_inv {A} (r : Res A) : is_ok r = true -> exists a, r = Ok a.
Proof. destruct r; cbn; intros H; try discriminate; eauto. Qed.

Lemma read_cache_bits_emit cb rest : (cb = 0 \/ 1 <= cb <= 11) ->
  read_cache_bits (emit_cache_bits cb ++ rest) = Ok (cb, rest).
Proof.
  intros H. unfold read_cache_bits, emit_cache_bits. destruct (cb =? 0) eqn:E.
  - assert (cb = 0) by lia. subst cb. cbn [app]. rewrite read_bit_false. reflexivity.
  - cbn [app]. rewrite read_bit_true. cbn [bind]. change (1 =? 1) with true. cbv iota.
    rewrite (putZ_read_nat 4) by (cbn; lia). cbn [bind].
    replace ((cb <? 1) || (11 <? cb))%bool with false by lia. reflexivity.
Qed.

Definition lens_of (cb : Z) (g : list codeplan) : glens :=
  match g with
  | [cg; cr; cbl; ca; cd] =>
    mkglens (code_lens (280 + cache_size_of cb) cg) (code_lens 256 cr) (code_lens 256 cbl)
            (code_lens 256 ca) (code_lens 40 cd)
  | _ => glens_dummy
  end.

Definition wf_group (cb : Z) (g : list codeplan) : Prop :=
  exists cg cr cbl ca cd, g = [cg; cr; cbl; ca; cd] /\
    let a0 := 280 + cache_size_of cb in
    wf_code a0 cg /\ wf_code 256 cr /\ wf_code 256 cbl /\ wf_code 256 ca /\ wf_code 40 cd /\
    is_ok (tree_of_lens (code_lens a0 cg)) = true /\ is_ok (tree_of_lens (code_lens 256 cr)) = true /\
    is_ok (tree_of_lens (code_lens 256 cbl)) = true /\ is_ok (tree_of_lens (code_lens 256 ca)) = true /\
    is_ok (tree_of_lens (code_lens 40 cd)) = true.

Lemma group_tables_lens cb g : wf_group cb g -> group_tables cb g = gtabs_of (lens_of cb g).
Proof. intros (cg & cr & cbl & ca & cd & -> & _). reflexivity. Qed.

Lemma read_group_roundtrip cb g rest : wf_group cb g ->
  exists gr, grp_ok (lens_of cb g) gr /\
    read_group (cache_size_of cb) (flat_map emit_code g ++ rest) = Ok (gr, rest).
Proof.
  intros (cg & cr & cbl & ca & cd & -> & Hwg & Hwr & Hwb & Hwa & Hwd & Hog & Hor & Hob & Hoa & Hod).
  apply is_ok_inv in Hog, Hor, Hob, Hoa, Hod.
  destruct Hog as [tg Htg]. destruct Hor as [tr Htr]. destruct Hob as [tb Htb].
  destruct Hoa as [ta Hta]. destruct Hod as [td Htd].
  exists (mkgroup tg tr tb ta td). split; [repeat split; assumption|].
  unfold read_group. cbn [flat_map]. rewrite <- !app_assoc. cbn [app].
  rewrite (code_roundtrip _ cg tg) by assumption. cbn [bind].
  rewrite (code_roundtrip 256 cr tr) by assumption. cbn [bind].
  rewrite (code_roundtrip 256 cbl tb) by assumption. cbn [bind].
  rewrite (code_roundtrip 256 ca ta) by assumption. cbn [bind].
  rewrite (code_roundtrip 40 cd td) by assumption. reflexivity.
Qed.

Lemma read_groups_roundtrip cb : forall codes acc rest, Forall (wf_group cb) codes ->
  exists gs, Forall2 grp_ok (map (lens_of cb) codes) gs /\
    read_groups (length codes) (cache_size_of cb) acc (flat_map (flat_map emit_code) codes ++ rest)
    = Ok (rev acc ++ gs, rest).
Proof.
  induction codes as [|g tl IH]; intros acc rest Hwf.
  - exists []. split; [constructor|]. cbn [length read_groups flat_map app]. now rewrite frev_rev, app_nil_r.
  - inversion Hwf as [|? ? Hg Htl]; subst.
    destruct (read_group_roundtrip cb g (flat_map (flat_map emit_code) tl ++ rest) Hg) as (gr & Hgr & Hrd).
    destruct (IH (gr :: acc) rest Htl) as (gs & Hgs & Hread).
    exists (gr :: gs). split; [now constructor|].
    cbn [length read_groups flat_map map]. rewrite <- app_assoc, Hrd. cbn [bind].
    rewrite Hread. cbn [rev]. now rewrite <- app_assoc.
Qed.

(** one group followed by the pixels: the common tail of sub-images and of the
    main image without meta prefix image *)
Lemma group_pixels_roundtrip w h ep rest : 1 <= w -> 1 <= h -> wf_eimg w h ep ->
  exists gs s,
    read_groups 1 (cache_size_of (ep_cache_bits ep)) []
      (emit_codes ep ++ emit_tokens w (fun _ _ => 0) (all_tables ep) (ep_tokens ep) 0 ++ rest) = Ok (gs, s) /\
    decode_pixels (mkectx w (ep_cache_bits ep) 0 0 arr_empty (arr_of_list gs)) w h s = Ok (sem_eimg w ep, rest).
Proof.
  destruct ep as [cb codes toks]. unfold wf_eimg, emit_codes, all_tables, sem_eimg.
  cbn [ep_cache_bits ep_codes ep_tokens].
  intros Hw Hh (Hcb & cg & cr & cbl & ca & cd & -> & Hwg & Hwr & Hwb & Hwa & Hwd & Hog & Hor & Hob & Hoa & Hod & Htok).
  assert (Hg : wf_group cb [cg; cr; cbl; ca; cd]) by (exists cg, cr, cbl, ca, cd; now repeat split).
  cbn [read_groups].
  change (flat_map (flat_map emit_code) [[cg; cr; cbl; ca; cd]]) with (flat_map emit_code [cg; cr; cbl; ca; cd] ++ []).
  rewrite app_nil_r.
  destruct (read_group_roundtrip cb _ (emit_tokens w (fun _ _ => 0)
              (arr_of_list (map (group_tables cb) [[cg; cr; cbl; ca; cd]])) toks 0 ++ rest) Hg)
    as ([tg tr tb ta td] & (Htg & Htr & Htb & Hta & Htd) & ->).
  cbn [bind]. eexists _, _. split; [reflexivity|].
  pose proof (tokens_ok_length _ _ _ _ _ _ _ _ _ Htok ltac:(lia)) as Hlen.
  apply (entropy_roundtrip _ _ _ _ _ tg tr tb ta td Htg Htr Htb Hta Htd cb w (w * h) toks h rest
           eq_refl ltac:(nia) Htok ltac:(lia)).
Qed.

Lemma sub_image_roundtrip w h ep rest : 1 <= w -> 1 <= h -> wf_eimg w h ep ->
  decode_sub_image w h (emit_sub w ep ++ rest) = Ok (sem_eimg w ep, rest).
Proof.
  intros Hw Hh Hwf. unfold decode_sub_image, emit_sub. rewrite <- !app_assoc.
  rewrite read_cache_bits_emit by apply Hwf. cbn [bind].
  destruct (group_pixels_roundtrip w h ep rest Hw Hh Hwf) as (gs & s & -> & Hpx). exact Hpx.
Qed.

Definition wf_tplan (cw h : Z) (t : tplan) : Prop :=
  match t with
  | TPPred bits sub =>
    2 <= bits <= 9 /\ wf_eimg (subsample cw bits) (subsample h bits) sub /\
    forallb (fun p => pg p <? 14) (sem_eimg (subsample cw bits) sub) = true
  | TPCross bits sub => 2 <= bits <= 9 /\ wf_eimg (subsample cw bits) (subsample h bits) sub
  | TPSubGreen => True
  | TPIndex n sub => 1 <= n <= 256 /\ wf_eimg n 1 sub
  end.

Definition next_width (cw : Z) (t : tplan) : Z :=
  match t with TPIndex n _ => subsample cw (ci_bits n) | _ => cw end.

Fixpoint wf_tplans (cw h : Z) (seen : list Z) (ts : list tplan) : Prop :=
  match ts with
  | [] => True
  | t :: tl => wf_tplan cw h t /\ existsb (Z.eqb (tplan_type t)) seen = false /\
               wf_tplans (next_width cw t) h (tplan_type t :: seen) tl
  end.

Lemma subsample_pos x b : 1 <= x -> 0 <= b -> 1 <= subsample x b.
Proof.
  intros Hx Hb. unfold subsample. assert (0 < 2 ^ b) by (apply Z.pow_pos_nonneg; lia).
  apply Z.div_le_lower_bound; lia.
Qed.

Lemma ci_bits_range n : 0 <= ci_bits n <= 3.
Proof. unfold ci_bits. destruct (n <=? 2), (n <=? 4), (n <=? 16); lia. Qed.

Lemma fst_let_pair {A B C} (p : A * B) (f : A -> C) : fst (let '(a, b) := p in (f a, b)) = f (fst p).
Proof. now destruct p. Qed.

Lemma snd_let_pair {A B C} (p : A * B) (f : A -> C) : snd (let '(a, b) := p in (f a, b)) = snd p.
Proof. now destruct p. Qed.

Lemma emit_transforms_width h : forall ts cw, snd (emit_transforms ts cw h) = snd (sem_transforms ts cw h).
Proof.
  induction ts as [|t tl IH]; intros cw; [reflexivity|].
  destruct t; cbn [emit_transforms sem_transforms]; rewrite !snd_let_pair; apply IH.
Qed.

Lemma sem_transforms_width_pos h : forall ts cw, 1 <= cw -> 1 <= snd (sem_transforms ts cw h).
Proof.
  induction ts as [|t tl IH]; intros cw Hcw; [exact Hcw|].
  destruct t; cbn [sem_transforms]; rewrite snd_let_pair; apply IH; try assumption.
  apply subsample_pos; [lia|apply ci_bits_range].
Qed.

Lemma transforms_roundtrip h : 1 <= h -> forall ts fuel seen acc cw rest,
  1 <= cw -> wf_tplans cw h seen ts -> (length ts < fuel)%nat ->
  read_transforms fuel seen acc cw h (fst (emit_transforms ts cw h) ++ false :: rest)
  = Ok (rev acc ++ fst (sem_transforms ts cw h), snd (sem_transforms ts cw h), rest).
Proof.
  intros Hh. induction ts as [|t tl IH]; intros fuel seen acc cw rest Hcw Hwf Hf;
    (destruct fuel as [|f]; [cbn in Hf; lia|]); cbn [length] in Hf.
  - cbn [emit_transforms sem_transforms fst snd app read_transforms].
    rewrite read_bit_false. cbn [bind]. change (0 =? 0) with true. cbv iota. now rewrite app_nil_r.
  - destruct Hwf as (Ht & Hseen & Htl).
    assert (Hnw : 1 <= next_width cw t).
    { destruct t; cbn [next_width]; try lia. apply subsample_pos; [lia|apply ci_bits_range]. }
    (* common to the four types: presence bit, 2-bit type, check against [seen] *)
    destruct t as [bits sub|bits sub| |n sub]; cbn [wf_tplan next_width tplan_type emit_transforms sem_transforms] in *;
      rewrite !fst_let_pair, !snd_let_pair; cbn [read_transforms app];
      rewrite read_bit_true; cbn [bind]; change (1 =? 0) with false; cbv iota; unfold read_transform;
      rewrite <- ?app_assoc, (putZ_read_nat 2) by (cbn; lia); cbn [bind]; rewrite Hseen.
    + destruct Ht as (Hb & Hsub & Hmodes).
      change (0 =? 2) with false. change (0 =? 3) with false. cbv iota.
      rewrite (putZ_read_nat 3) by (cbn; lia). cbn [bind]. replace (bits - 2 + 2) with bits by lia.
      rewrite sub_image_roundtrip by (try apply subsample_pos; try assumption; lia). cbn [bind].
      change (0 =? 0) with true. rewrite Hmodes. cbn [andb negb]. cbv iota. cbn [bind t_type].
      rewrite IH by (assumption || lia). cbn [rev]. now rewrite <- app_assoc.
    + destruct Ht as (Hb & Hsub).
      change (1 =? 2) with false. change (1 =? 3) with false. cbv iota.
      rewrite (putZ_read_nat 3) by (cbn; lia). cbn [bind]. replace (bits - 2 + 2) with bits by lia.
      rewrite sub_image_roundtrip by (try apply subsample_pos; try assumption; lia). cbn [bind].
      change (1 =? 0) with false. cbn [andb]. cbv iota. cbn [bind t_type].
      rewrite IH by (assumption || lia). cbn [rev]. now rewrite <- app_assoc.
    + change (2 =? 2) with true. cbv iota. cbn [bind t_type].
      rewrite IH by (assumption || lia). cbn [rev]. now rewrite <- app_assoc.
    + destruct Ht as (Hn & Hsub).
      change (3 =? 2) with false. change (3 =? 3) with true. cbv iota.
      rewrite (putZ_read_nat 8) by (cbn; lia). cbn [bind]. replace (n - 1 + 1) with n by lia.
      rewrite sub_image_roundtrip by (try assumption; lia). cbn [bind t_type].
      rewrite IH by (assumption || lia). cbn [rev]. now rewrite <- app_assoc.
Qed.

Lemma emit_tokens_ext w f g tabs : (forall x y, f x y = g x y) ->
  forall toks pos, emit_tokens w f tabs toks pos = emit_tokens w g tabs toks pos.
Proof.
  intros E. induction toks as [|t tl IH]; intros pos; [reflexivity|].
  cbn [emit_tokens]. now rewrite E, IH.
Qed.

(** No meta prefix image: one group.  The bound 4 also follows from [wf_tplans] (four
    types, none twice); it is what the fuel 5 of [read_transforms] needs. *)
Definition wf_plan1 (p : plan) : Prop :=
  p_meta p = None /\
  1 <= p_w p <= 16384 /\ 1 <= p_h p <= 16384 /\ 0 <= p_alpha p <= 1 /\
  (length (p_transforms p) <= 4)%nat /\
  wf_tplans (p_w p) (p_h p) [] (p_transforms p) /\
  wf_eimg (snd (sem_transforms (p_transforms p) (p_w p) (p_h p))) (p_h p) (p_main p).

(** With a meta prefix image: as many groups as its largest index requires. *)
Definition wf_plan2 (p : plan) : Prop :=
  exists mb msub, p_meta p = Some (mb, msub) /\
  1 <= p_w p <= 16384 /\ 1 <= p_h p <= 16384 /\ 0 <= p_alpha p <= 1 /\
  (length (p_transforms p) <= 4)%nat /\
  wf_tplans (p_w p) (p_h p) [] (p_transforms p) /\
  2 <= mb <= 9 /\
  let cw := snd (sem_transforms (p_transforms p) (p_w p) (p_h p)) in
  let mw := subsample cw mb in
  let main := p_main p in
  let cb := ep_cache_bits main in
  wf_eimg mw (subsample (p_h p) mb) msub /\
  (cb = 0 \/ 1 <= cb <= 11) /\
  Forall (wf_group cb) (ep_codes main) /\
  let meta := map meta_index (sem_eimg mw msub) in
  Z.of_nat (length (ep_codes main)) = fold_left Z.max meta 0 + 1 /\
  tokens_ok_m (map (lens_of cb) (ep_codes main)) cw (cw * p_h p) mb mw (arr_of_list meta) 0 (ep_tokens main).

Definition wf_plan (p : plan) : Prop := wf_plan1 p \/ wf_plan2 p.

Lemma wf_plan_common p : wf_plan p ->
  1 <= p_w p <= 16384 /\ 1 <= p_h p <= 16384 /\ 0 <= p_alpha p <= 1 /\
  (length (p_transforms p) <= 4)%nat /\ wf_tplans (p_w p) (p_h p) [] (p_transforms p) /\
  (ep_cache_bits (p_main p) = 0 \/ 1 <= ep_cache_bits (p_main p) <= 11).
Proof.
  intros [(_ & Hw & Hh & Ha & Hn & Hts & Hcb & _)|(mb & msub & _ & Hw & Hh & Ha & Hn & Hts & _ & _ & Hcb & _)];
    exact (conj Hw (conj Hh (conj Ha (conj Hn (conj Hts Hcb))))).
Qed.

Theorem emit_decode : forall p, wf_plan p -> decode (emit p) = Ok (sem p).
Proof.
  intros p Hwf. destruct (wf_plan_common p Hwf) as (Hw & Hh & Ha & Hnt & Hts & Hcb).
  destruct p as [w h alpha ts meta main]. unfold wf_plan, wf_plan1, wf_plan2 in Hwf.
  cbn [p_transforms p_meta p_w p_h p_alpha p_main] in *.
  unfold decode, decode_full, emit.
  destruct (bits_bytes_roundtrip (emit_bits (mkplan w h alpha ts meta main))) as [k ->].
  unfold emit_bits, sem. cbn [p_transforms p_meta p_w p_h p_alpha p_main].
  pose proof (fun rest => transforms_roundtrip h ltac:(lia) ts 5 [] [] w rest ltac:(lia) Hts ltac:(lia)) as Htr.
  pose proof (emit_transforms_width h ts w) as Ecw. pose proof (sem_transforms_width_pos h ts w ltac:(lia)) as Hcw1.
  destruct (emit_transforms ts w h) as [tb cwe]. destruct (sem_transforms ts w h) as [tsem cw].
  cbn [fst snd] in *. subst cwe.
  rewrite <- !app_assoc. cbn [app].
  rewrite (putZ_read_nat 14) by (cbn; lia). cbn [bind].
  rewrite (putZ_read_nat 14) by (cbn; lia). cbn [bind].
  rewrite (putZ_read_nat 1) by (cbn; lia). cbn [bind].
  rewrite (putZ_read_nat 3) by (cbn; lia). cbn [bind].
  change (negb (0 =? 0)) with false. cbv iota.
  replace (w - 1 + 1) with w by lia. replace (h - 1 + 1) with h by lia.
  rewrite Htr. cbn [bind rev app].
  rewrite read_cache_bits_emit by assumption. cbn [bind].
  destruct Hwf as [(-> & _ & _ & _ & _ & _ & Hmain)|(mb & msub & -> & _ & _ & _ & _ & _ & Hmb & Hrest)];
    cbn [p_transforms p_meta p_w p_h p_alpha p_main snd] in *.
  - cbn [app]. rewrite <- !app_assoc.
    rewrite read_bit_false. cbn [bind]. change (0 =? 1) with false. cbv iota. cbn [bind fold_left].
    change (Z.to_nat (0 + 1)) with 1%nat. change (arr_of_list (@nil Z)) with (@arr_empty Z).
    destruct (group_pixels_roundtrip cw h main (repeat false k) Hcw1 ltac:(lia) Hmain) as (gs & s & -> & Hpx).
    cbn [bind]. rewrite Hpx. reflexivity.
  - destruct Hrest as (Hmsub & _ & Hgroups & Hng & Htok).
    set (mw := subsample cw mb) in *. set (metal := map meta_index (sem_eimg mw msub)) in *.
    cbn [app]. rewrite <- !app_assoc.
    rewrite read_bit_true. cbn [bind]. change (1 =? 1) with true. cbv iota.
    rewrite (putZ_read_nat 3) by (cbn; lia). cbn [bind]. replace (mb - 2 + 2) with mb by lia.
    fold mw.
    rewrite sub_image_roundtrip by (try assumption; unfold mw; apply subsample_pos; lia). cbn [bind].
    fold metal. rewrite <- Hng, Nat2Z.id.
    unfold emit_codes.
    destruct (read_groups_roundtrip (ep_cache_bits main) (ep_codes main) []
                (emit_tokens cw (fun x y => arr_get 0 (arr_of_list metal) (tile_index mw mb x y)) (all_tables main) (ep_tokens main) 0
                 ++ repeat false k) Hgroups) as (gs & Hgs & Hrg).
    rewrite Hrg. cbn [bind rev app].
    pose proof (entropy_roundtrip_m (map (lens_of (ep_cache_bits main)) (ep_codes main)) gs Hgs
                  (ep_cache_bits main) cw (cw * h) mb mw (arr_of_list metal) Hcw1 (ep_tokens main) h (repeat false k)
                  eq_refl ltac:(nia) Htok) as Hent.
    unfold ctxm, tabsm in Hent.
    assert (Etabs : all_tables main = arr_of_list (map gtabs_of (map (lens_of (ep_cache_bits main)) (ep_codes main)))).
    { unfold all_tables. f_equal. rewrite map_map. apply map_ext_in. intros g Hg.
      rewrite Forall_forall in Hgroups. apply group_tables_lens, Hgroups, Hg. }
    rewrite Etabs, (emit_tokens_ext cw _ (gidx mb mw (arr_of_list metal))).
    + now rewrite Hent.
    + intros x y. unfold gidx. now replace (mb =? 0) with false by lia.
Qed.
