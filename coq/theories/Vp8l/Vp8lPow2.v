(** Powers of two, and the bits of an integer seen through a window X mod 2^m. *)
From Coq Require Import ZArith Lia.
Open Scope Z_scope.

Lemma pow2_pos k : 0 <= k -> 0 < 2 ^ k.
Proof. intros. apply Z.pow_pos_nonneg; lia. Qed.

Lemma pow2_nz k : 0 <= k -> 2 ^ k <> 0.
Proof. intros H. pose proof (pow2_pos k H). lia. Qed.

Ltac p2 := first [apply pow2_pos; lia | apply pow2_nz; lia | lia].

Lemma pow2_add a b : 0 <= a -> 0 <= b -> 2 ^ a * 2 ^ b = 2 ^ (a + b).
Proof. intros. now rewrite Z.pow_add_r. Qed.

Lemma pow2_split a b : 0 <= b <= a -> 2 ^ a = 2 ^ (a - b) * 2 ^ b.
Proof. intros H. rewrite <- Z.pow_add_r by lia. f_equal. lia. Qed.

Lemma pow2_double a : 0 <= a -> 2 ^ (a + 1) = 2 * 2 ^ a.
Proof. intros H. rewrite Z.pow_add_r by lia. lia. Qed.

Lemma div_pow_pow V a b : 0 <= a -> 0 <= b -> V / 2 ^ a / 2 ^ b = V / 2 ^ (a + b).
Proof. intros Ha Hb. rewrite Z.div_div by p2. now rewrite pow2_add. Qed.

Lemma mod_pow_div X a b : 0 <= b <= a -> (X mod 2 ^ a) / 2 ^ b = (X / 2 ^ b) mod 2 ^ (a - b).
Proof.
  intros H. replace a with (b + (a - b)) at 1 by lia. rewrite <- pow2_add by lia.
  rewrite Z.rem_mul_r by p2.
  rewrite Z.mul_comm, Z.div_add by p2.
  rewrite Z.div_small by (apply Z.mod_pos_bound, pow2_pos; lia). reflexivity.
Qed.

Lemma mod_mod_pow X a b : 0 <= b <= a -> (X mod 2 ^ a) mod 2 ^ b = X mod 2 ^ b.
Proof.
  intros H. replace a with (b + (a - b)) at 1 by lia. rewrite <- pow2_add by lia.
  rewrite Z.rem_mul_r by p2.
  rewrite Z.mul_comm, Z.mod_add by p2.
  apply Z.mod_mod. p2.
Qed.

Lemma window_field X m s n : 0 <= s -> 0 <= n -> s + n <= m ->
  ((X mod 2 ^ m) / 2 ^ s) mod 2 ^ n = (X / 2 ^ s) mod 2 ^ n.
Proof. intros. rewrite mod_pow_div by lia. apply mod_mod_pow. lia. Qed.

(** shift by [s]: the next [s] bits of X enter at the top *)
Lemma window_shift X m s : 0 <= s <= m ->
  (X mod 2 ^ m) / 2 ^ s + ((X / 2 ^ m) mod 2 ^ s) * 2 ^ (m - s) = (X / 2 ^ s) mod 2 ^ m.
Proof.
  intros H. rewrite mod_pow_div by lia.
  replace (X / 2 ^ m) with (X / 2 ^ s / 2 ^ (m - s)) by (rewrite div_pow_pow by lia; do 2 f_equal; lia).
  replace (2 ^ m) with (2 ^ (m - s) * 2 ^ s) by (rewrite pow2_add by lia; f_equal; lia).
  rewrite (Z.rem_mul_r (X / 2 ^ s)) by p2. ring.
Qed.

