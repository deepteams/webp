(** Implementation model of the packed-table fast path of /repo's VP8L decoder
    (internal/lossless/decode_image.go: buildPackedTable, accumulateHCode,
    readPackedSymbols) and the proof that it decodes exactly what the sequential
    path (ReadSymbol on the green, red, blue and alpha tables one after the
    other) decodes, whenever the decoder selects it (the four maximal code
    lengths sum to less than HuffmanPackedBits = 6; the theorem
    holds up to a sum of 6, the capacity of the 64-entry table).

    [packed_build] transcribes buildPackedTable: for each of the 64 six-bit
    windows the green root-table entry is looked up DIRECTLY (no second-level
    indirection: `HTrees[green][bits & HuffmanTableMask]`); a non-literal green
    symbol is stored with the marker 0x100 added to its length, a literal has
    the red, blue and alpha entries accumulated (lengths added, values or-ed in
    at shifts 8/16/0/24) from the successively shifted window.
    [packed_read] transcribes readPackedSymbols; [seq_read] is the sequential path on the four
    canonical code trees. *)
From Coq Require Import List ZArith Lia Bool.
From Coq Require Import ZifyBool ZifyNat.
From Webp Require Import Base.Res Vp8l.Vp8lPow2 Vp8l.Vp8lArr Vp8l.Vp8lPrefix Vp8l.Vp8lCanon Vp8l.Vp8lLut Vp8l.Vp8lLut2.
Import ListNotations.
Open Scope Z_scope.

(** HTrees[k][bits & HuffmanTableMask] *)
Definition tget (tab : arr entry) (w : Z) : entry := arr_get entry0 tab (w mod 256).

(** one slot of buildPackedTable: (Bits, Value) of PackedTable[code] *)
Definition packed_slot (g r b a : arr entry) (code : Z) : Z * Z :=
  let '(gb, gv) := tget g code in
  if 256 <=? gv then (gb + 256, gv)
  else
    let bits1 := Z.shiftr code gb in
    let '(rb, rv) := tget r bits1 in
    let bits2 := Z.shiftr bits1 rb in
    let '(bb, bv) := tget b bits2 in
    let bits3 := Z.shiftr bits2 bb in
    let '(ab, av) := tget a bits3 in
    (gb + rb + bb + ab,
     Z.lor (Z.lor (Z.lor (Z.shiftl gv 8) (Z.shiftl rv 16)) (Z.shiftl bv 0)) (Z.shiftl av 24)).

Fixpoint packed_fill (n : nat) (g r b a : arr entry) (tab : arr (Z * Z)) : arr (Z * Z) :=
  match n with
  | O => tab
  | S k => packed_fill k g r b a (arr_set tab (Z.of_nat k) (packed_slot g r b a (Z.of_nat k)))
  end.

Definition packed_build (g r b a : arr entry) : arr (Z * Z) := packed_fill 64 g r b a arr_empty.

(** result of one packed / sequential read: a whole literal pixel or a non-literal green symbol *)
Inductive pread := PLit (argb : Z) | PSym (green : Z).

(** readPackedSymbols: (result, bits consumed) from the prefetched window w *)
Definition packed_read (ptab : arr (Z * Z)) (w : Z) : pread * Z :=
  let '(pb, pv) := arr_get (0, 0) ptab (w mod 64) in
  if pb <? 256 then (PLit pv, pb) else (PSym pv, pb - 256).

(** a<<24 | r<<16 | g<<8 | b, as accumulateHCode assembles it (alphabets of red, blue and
    alpha have 256 symbols and a literal green symbol is < 256, so nothing is truncated in uint32) *)
Definition argb_of (gv rv bv av : Z) : Z :=
  Z.lor (Z.lor (Z.lor (Z.shiftl gv 8) (Z.shiftl rv 16)) (Z.shiftl bv 0)) (Z.shiftl av 24).

(** the sequential path on code trees: green, then (for a literal) red, blue, alpha *)
Definition seq_read (tg tr tb ta : tree) (w : Z) : option (pread * Z) :=
  match walk tg w with
  | None => None
  | Some (gv, gn) =>
    if 256 <=? gv then Some (PSym gv, gn)
    else
      match walk tr (w / 2 ^ gn) with
      | None => None
      | Some (rv, rn) =>
        match walk tb (w / 2 ^ (gn + rn)) with
        | None => None
        | Some (bv, bn) =>
          match walk ta (w / 2 ^ (gn + rn + bn)) with
          | None => None
          | Some (av, an) => Some (PLit (argb_of gv rv bv av), gn + rn + bn + an)
          end
        end
      end
  end.

Lemma packed_fill_get g r b a : forall n tab j, 0 <= j ->
  arr_get (0, 0) (packed_fill n g r b a tab) j =
  if j <? Z.of_nat n then packed_slot g r b a j else arr_get (0, 0) tab j.
Proof.
  induction n as [|k IH]; intros tab j Hj; cbn [packed_fill].
  - replace (j <? Z.of_nat 0) with false by lia. reflexivity.
  - rewrite IH by lia. destruct (Z.eq_dec j (Z.of_nat k)) as [->|Hne].
    + replace (Z.of_nat k <? Z.of_nat k) with false by lia.
      replace (Z.of_nat k <? Z.of_nat (S k)) with true by lia.
      apply arr_get_set_same. lia.
    + rewrite arr_get_set_other by lia.
      destruct (j <? Z.of_nat k) eqn:E1.
      * replace (j <? Z.of_nat (S k)) with true by lia. reflexivity.
      * replace (j <? Z.of_nat (S k)) with false by lia. reflexivity.
Qed.

Lemma packed_build_get g r b a w : 0 <= w ->
  arr_get (0, 0) (packed_build g r b a) (w mod 64) = packed_slot g r b a (w mod 64).
Proof.
  intros Hw. unfold packed_build. pose proof (Z.mod_pos_bound w 64 ltac:(lia)) as B.
  rewrite packed_fill_get by lia. replace (w mod 64 <? Z.of_nat 64) with true by lia. reflexivity.
Qed.

Lemma walk_prefix t : forall w w' v n, walk t w = Some (v, n) ->
  w mod 2 ^ n = w' mod 2 ^ n -> walk t w' = Some (v, n).
Proof. exact (walk_agree t). Qed.

Lemma lut_root_entry : forall root m lens t tab w,
  0 <= m <= root -> Forall (fun l => l <= m) lens ->
  tree_of_lens lens = Ok t -> lut_build root lens = Ok tab -> 0 <= w ->
  exists v n, walk t w = Some (v, n) /\ arr_get entry0 tab (w mod 2 ^ root) = (n, v) /\ 0 <= n <= m.
Proof. exact root_entry. Qed.

(** One table of the group: its code has lengths <= m and [tab] is its root-size-8 lookup table. *)
Definition table_of (lens : list Z) (m : Z) (t : tree) (tab : arr entry) : Prop :=
  0 <= m <= 8 /\ Forall (fun l => l <= m) lens /\ tree_of_lens lens = Ok t /\ lut_build 8 lens = Ok tab.

(** One step of buildPackedTable against one step of the sequential path: with [s] bits of the
    window consumed, the entry found for c = (w mod 64) >> s is the symbol [walk] finds in w >> s,
    and c shifted by its length is again of that form. *)
Lemma slot_step lens m t tab w s : table_of lens m t tab -> 0 <= w -> 0 <= s -> s + m <= 6 ->
  exists v n, walk t (w / 2 ^ s) = Some (v, n) /\ tget tab ((w mod 64) / 2 ^ s) = (n, v) /\ 0 <= n <= m /\
    Z.shiftr ((w mod 64) / 2 ^ s) n = (w mod 64) / 2 ^ (s + n).
Proof.
  intros (Hm & Hl & Ht & Hb) Hw Hs Hsm.
  assert (Hc : 0 <= (w mod 64) / 2 ^ s).
  { apply Z.div_pos; [apply Z.mod_pos_bound; lia|p2]. }
  destruct (lut_root_entry 8 m lens t tab _ Hm Hl Ht Hb Hc) as (v & n & Ew & Ee & Hn).
  exists v, n. split; [|split; [exact Ee|split; [exact Hn|]]].
  - eapply walk_prefix; [exact Ew|]. apply (window_field w 6); lia.
  - rewrite Z.shiftr_div_pow2 by lia. apply div_pow_pow; lia.
Qed.

Theorem packed_read_eq_sequential :
  forall lg lr lb la mg mr mb ma tg tr tb ta g r b a w,
  table_of lg mg tg g -> table_of lr mr tr r -> table_of lb mb tb b -> table_of la ma ta a ->
  mg + mr + mb + ma <= 6 -> 0 <= w ->
  seq_read tg tr tb ta w = Some (packed_read (packed_build g r b a) w).
Proof.
  intros lg lr lb la mg mr mb ma tg tr tb ta g r b a w Tg Tr Tb Ta Hsum Hw.
  pose proof Tg as (Hmg & _). pose proof Tr as (Hmr & _). pose proof Tb as (Hmb & _). pose proof Ta as (Hma & _).
  unfold packed_read. rewrite packed_build_get by exact Hw. unfold packed_slot, seq_read.
  destruct (slot_step _ _ _ _ w 0 Tg Hw (Z.le_refl 0) ltac:(clear - Hsum Hmr Hmb Hma; lia))
    as (gv & gn & Wg & Eg & Hgn & Sg).
  rewrite Z.pow_0_r, Z.div_1_r in Wg, Eg, Sg. rewrite Z.add_0_l in Sg. rewrite Wg, Eg.
  destruct (256 <=? gv) eqn:Elit.
  - replace (gn + 256 <? 256) with false by (clear - Hgn; lia).
    now replace (gn + 256 - 256) with gn by (clear; lia).
  - rewrite Sg.
    destruct (slot_step _ _ _ _ w gn Tr Hw (proj1 Hgn) ltac:(clear - Hgn Hsum Hmb Hma; lia))
      as (rv & rn & Wr & Er & Hrn & Sr).
    rewrite Wr, Er, Sr.
    destruct (slot_step _ _ _ _ w (gn + rn) Tb Hw ltac:(clear - Hgn Hrn; lia) ltac:(clear - Hgn Hrn Hsum Hma; lia))
      as (bv & bn & Wb & Eb & Hbn & Sb).
    rewrite Wb, Eb, Sb.
    destruct (slot_step _ _ _ _ w (gn + rn + bn) Ta Hw ltac:(clear - Hgn Hrn Hbn; lia) ltac:(clear - Hgn Hrn Hbn Hsum; lia))
      as (av & an & Wa & Ea & Han & _).
    rewrite Wa, Ea.
    now replace (gn + rn + bn + an <? 256) with true by (clear - Hgn Hrn Hbn Han Hsum Hmg Hmr Hmb Hma; lia).
Qed.

(** The branch of decodeImageData that does not use the packed table:
    ReadSymbol on the green table, then (for a literal) on the red, blue and alpha tables, each on
    the window shifted by the bits consumed so far (SetBitPos(BitPos + bits) then PrefetchBits). *)
Definition seq_read_lut (g r b a : arr entry) (w : Z) : pread * Z :=
  let '(gv, gn) := lut_read 8 g w in
  if 256 <=? gv then (PSym gv, gn)
  else
    let '(rv, rn) := lut_read 8 r (w / 2 ^ gn) in
    let '(bv, bn) := lut_read 8 b (w / 2 ^ (gn + rn)) in
    let '(av, an) := lut_read 8 a (w / 2 ^ (gn + rn + bn)) in
    (PLit (argb_of gv rv bv av), gn + rn + bn + an).

(** for ANY four accepted length vectors (lengths up to 15, second-level tables included) the
    table reads are the tree walks *)
Theorem seq_read_lut_eq_trees : forall lg lr lb la tg tr tb ta g r b a w,
  tree_of_lens lg = Ok tg -> lut_build 8 lg = Ok g ->
  tree_of_lens lr = Ok tr -> lut_build 8 lr = Ok r ->
  tree_of_lens lb = Ok tb -> lut_build 8 lb = Ok b ->
  tree_of_lens la = Ok ta -> lut_build 8 la = Ok a -> 0 <= w ->
  seq_read tg tr tb ta w = Some (seq_read_lut g r b a w).
Proof.
  intros lg lr lb la tg tr tb ta g r b a w Tg Bg Tr Br Tb Bb Ta Ba Hw.
  assert (P : forall n x, 0 <= x -> 0 <= n -> 0 <= x / 2 ^ n).
  { intros n x Hx Hn. apply Z.div_pos; [exact Hx|p2]. }
  unfold seq_read, seq_read_lut.
  destruct (lut_decode_eq_canonical 8 lg tg g w ltac:(lia) Tg Bg Hw) as (gv & gn & Wg & Lg).
  rewrite Wg, Lg. pose proof (walk_nonneg _ _ _ _ Wg) as Hgn.
  destruct (256 <=? gv); [reflexivity|].
  destruct (lut_decode_eq_canonical 8 lr tr r _ ltac:(lia) Tr Br (P gn w Hw Hgn)) as (rv & rn & Wr & Lr).
  rewrite Wr, Lr. pose proof (walk_nonneg _ _ _ _ Wr) as Hrn.
  destruct (lut_decode_eq_canonical 8 lb tb b _ ltac:(lia) Tb Bb (P (gn + rn) w Hw ltac:(lia))) as (bv & bn & Wb & Lb).
  rewrite Wb, Lb. pose proof (walk_nonneg _ _ _ _ Wb) as Hbn.
  destruct (lut_decode_eq_canonical 8 la ta a _ ltac:(lia) Ta Ba (P (gn + rn + bn) w Hw ltac:(lia))) as (av & an & Wa & La).
  rewrite Wa, La. reflexivity.
Qed.

(** Both branches of the decoder's pixel loop read the same thing: on every group that
    readHuffmanCodes marks UsePackedTable, the packed read = the four ReadSymbol calls. *)
Corollary packed_read_eq_lut_reads :
  forall lg lr lb la mg mr mb ma tg tr tb ta g r b a w,
  table_of lg mg tg g -> table_of lr mr tr r -> table_of lb mb tb b -> table_of la ma ta a ->
  mg + mr + mb + ma <= 6 -> 0 <= w ->
  packed_read (packed_build g r b a) w = seq_read_lut g r b a w.
Proof.
  intros lg lr lb la mg mr mb ma tg tr tb ta g r b a w Tg Tr Tb Ta Hsum Hw.
  pose proof (packed_read_eq_sequential _ _ _ _ _ _ _ _ _ _ _ _ _ _ _ _ w Tg Tr Tb Ta Hsum Hw) as H1.
  destruct Tg as (_ & _ & Tg & Bg). destruct Tr as (_ & _ & Tr & Br).
  destruct Tb as (_ & _ & Tb & Bb). destruct Ta as (_ & _ & Ta & Ba).
  pose proof (seq_read_lut_eq_trees _ _ _ _ _ _ _ _ _ _ _ _ w Tg Bg Tr Br Tb Bb Ta Ba Hw) as H2.
  rewrite H1 in H2. now injection H2.
Qed.

(** Non-vacuity: a group with a 2-symbol green code, one-symbol red and alpha, 4-symbol blue. *)
Example packed_example :
  let lg := [1; 1] in let lr := [0; 0; 1] in let lb := [2; 2; 2; 2] in let la := [1] in
  match lut_build 8 lg, lut_build 8 lr, lut_build 8 lb, lut_build 8 la with
  | Ok g, Ok r, Ok b, Ok a =>
      map (fun w => packed_read (packed_build g r b a) w) [0; 1; 5; 7] =
      [(PLit 131072, 3); (PLit 131328, 3); (PLit 131329, 3); (PLit 131331, 3)]
  | _, _, _, _ => False
  end.
Proof. vm_compute. reflexivity. Qed.
