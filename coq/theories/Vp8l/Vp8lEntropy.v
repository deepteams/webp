(** Token level of the emitter/decoder pair: decoding the bits the emitter writes
    for a token list gives back exactly the pixels the token list denotes
    ([entropy_roundtrip]): literals (four prefix-coded channels), colour-cache
    references, backward references (length and distance prefix symbols with
    extra bits, plane codes), with or without colour cache, for one prefix-code
    group and for several selected by a meta prefix image ([entropy_roundtrip_m]). *)
From Coq Require Import List ZArith Lia Bool.
From Coq Require Import ZifyBool ZifyNat.
From Webp Require Import Base.Res Vp8l.Vp8lPixel Vp8l.Vp8lArr Vp8l.Vp8lPrefix Vp8l.Vp8lCanon Vp8l.Vp8lTransforms
  Vp8l.Vp8lSpec Vp8l.Vp8lEmit.
From Webp Require Import Base.ListFacts.
Import ListNotations.
Open Scope Z_scope.

Lemma putZ_read_nat (n : nat) v rest : 0 <= v < 2 ^ Z.of_nat n -> read_bits n (putZ (Z.of_nat n) v ++ rest) = Ok (v, rest).
Proof. intros H. unfold putZ. rewrite Nat2Z.id. now apply read_put_bits. Qed.

Lemma putZ_read n v rest : 0 <= n -> 0 <= v < 2 ^ n -> read_bitsZ n (putZ n v ++ rest) = Ok (v, rest).
Proof. intros Hn Hv. unfold read_bitsZ. rewrite <- (Z2Nat.id n Hn) at 2. apply putZ_read_nat. now rewrite Z2Nat.id. Qed.

Lemma lz_roundtrip v rest : 1 <= v ->
  let '(sym, eb, ev) := lz_prefix v in
  lz_value sym (putZ eb ev ++ rest) = Ok (v, rest).
Proof.
  intros Hv. unfold lz_prefix. set (d := v - 1).
  destruct (d <? 2) eqn:E2.
  - unfold lz_value. replace (d <? 4) with true by lia. cbn [putZ]. unfold putZ. cbn [Z.to_nat put_bits app].
    f_equal. f_equal. unfold d. lia.
  - set (hb := Z.log2 d). destruct (Z.log2_spec d ltac:(lia)) as [Hlo Hhi]. fold hb in Hlo, Hhi.
    assert (Hhb : 1 <= hb) by (apply Z.log2_le_pow2; lia).
    rewrite Z.shiftr_div_pow2 by lia. set (P := 2 ^ (hb - 1)).
    assert (HP : 0 < P) by (apply Z.pow_pos_nonneg; lia).
    assert (E1 : 2 ^ hb = 2 * P) by (unfold P; rewrite <- Z.pow_succ_r by lia; f_equal; lia).
    rewrite Z.pow_succ_r, E1 in Hhi by lia. rewrite E1 in Hlo.
    (* d = q * P + r with q = 2 or 3: the symbol is 2 * hb + (q - 2), the extra value r *)
    pose proof (Z.div_mod d P ltac:(lia)) as Hq. pose proof (Z.mod_pos_bound d P HP) as Hr.
    set (q := d / P) in *. set (r := d mod P) in *.
    assert (Hq23 : 2 <= q <= 3) by nia.
    replace (q mod 2) with (q - 2) by lia. unfold lz_value.
    destruct (2 * hb + (q - 2) <? 4) eqn:E4.
    + (* hb = 1: no extra bits *)
      assert (Hhb1 : hb = 1) by lia. unfold P in *. rewrite Hhb1 in *. change (2 ^ (1 - 1)) with 1 in *.
      replace r with 0 by lia. change (putZ (1 - 1) 0 ++ rest) with rest. f_equal. f_equal. unfold d in *. lia.
    + replace ((2 * hb + (q - 2) - 2) / 2) with (hb - 1) by lia. fold P.
      rewrite putZ_read by lia. cbn [bind]. f_equal. f_equal.
      replace ((2 * hb + (q - 2)) mod 2) with (q - 2) by lia. unfold d in *. lia.
Qed.

Lemma cycle_take_length src : src <> [] -> forall n cur, length (cycle_take n cur src) = n.
Proof.
  intros Hs. induction n as [|n IH]; intros cur; [reflexivity|].
  cbn [cycle_take]. destruct cur as [|x tl]; [destruct src as [|y tl]; [congruence|]|]; cbn [length]; now rewrite IH.
Qed.

Lemma copy_pixels_length n dist (acc : list px) : (1 <= dist)%nat -> acc <> [] -> length (copy_pixels n dist acc) = n.
Proof.
  intros Hd Ha. unfold copy_pixels. apply cycle_take_length.
  rewrite frev_rev. destruct acc as [|x tl]; [congruence|]. destruct dist; [lia|]. cbn [firstn rev].
  intros H. apply app_eq_nil in H. destruct H; discriminate.
Qed.

Lemma rev_append_copy_pixels_length (acc : list px) len dist pos :
  1 <= dist <= pos -> pos = Z.of_nat (length acc) -> 1 <= len ->
  pos + len = Z.of_nat (length (rev_append (copy_pixels (Z.to_nat len) (Z.to_nat dist) acc) acc)).
Proof.
  intros Hd Hpos Hlen. rewrite rev_append_rev, app_length, rev_length, copy_pixels_length; [lia|lia|].
  intros ->. cbn [length] in Hpos. lia.
Qed.

Definition used (lens : list Z) (s : Z) : Prop :=
  0 <= s < Z.of_nat (length lens) /\ nth (Z.to_nat s) lens 0 <> 0.

Lemma sym_read lens t s rest : tree_of_lens lens = Ok t -> used lens s ->
  read_symbol t (code_word (code_list lens) s ++ rest) = Ok (s, rest).
Proof. intros Ht [Hs Hn]. apply prefix_roundtrip; assumption. Qed.

Lemma next_xy_pos w pos : 1 <= w -> 0 <= pos ->
  next_xy w (pos mod w) (pos / w) = ((pos + 1) mod w, (pos + 1) / w).
Proof.
  intros Hw Hp. unfold next_xy.
  pose proof (Z.div_mod pos w ltac:(lia)) as E. pose proof (Z.mod_pos_bound pos w ltac:(lia)) as B.
  destruct (pos mod w + 1 <? w) eqn:El.
  - assert (Hq : (pos + 1) / w = pos / w).
    { symmetry. apply (Z.div_unique (pos + 1) w (pos / w) (pos mod w + 1)); lia. }
    assert (Hr : (pos + 1) mod w = pos mod w + 1).
    { symmetry. apply (Z.mod_unique (pos + 1) w (pos / w) (pos mod w + 1)); lia. }
    now rewrite Hq, Hr.
  - assert (Hq : (pos + 1) / w = pos / w + 1).
    { symmetry. apply (Z.div_unique (pos + 1) w (pos / w + 1) 0); lia. }
    assert (Hr : (pos + 1) mod w = 0).
    { symmetry. apply (Z.mod_unique (pos + 1) w (pos / w + 1) 0); lia. }
    now rewrite Hq, Hr.
Qed.

Section OneGroup.
  Variables lg lr lb la ld : list Z.              (* the five length vectors *)
  Variables tg tr tb ta td : tree.
  Hypothesis Htg : tree_of_lens lg = Ok tg.
  Hypothesis Htr : tree_of_lens lr = Ok tr.
  Hypothesis Htb : tree_of_lens lb = Ok tb.
  Hypothesis Hta : tree_of_lens la = Ok ta.
  Hypothesis Htd : tree_of_lens ld = Ok td.
  Variables cb w total : Z.

  Definition grp : group := mkgroup tg tr tb ta td.
  Definition gtabs : list (list (Z * bits)) := [code_list lg; code_list lr; code_list lb; code_list la; code_list ld].
  Definition ctx1 : ectx := mkectx w cb 0 0 arr_empty (arr_of_list [grp]).

  Definition token_ok (pos : Z) (t : token) : Prop :=
    match t with
    | TLit p => wf_px p /\ used lg (pg p) /\ used lr (pr p) /\ used lb (pb p) /\ used la (pa p)
    | TCache k => 0 <= k /\ used lg (280 + k)
    | TCopy len dc =>
      1 <= len /\ 1 <= dc /\ 1 <= plane_to_dist w dc <= pos /\ len <= total - pos /\
      0 <= fst (fst (lz_prefix len)) < 24 /\
      used lg (256 + fst (fst (lz_prefix len))) /\ used ld (fst (fst (lz_prefix dc)))
    end.

  Fixpoint tokens_ok (pos : Z) (toks : list token) : Prop :=
    match toks with
    | [] => pos = total
    | t :: tl => pos < total /\ token_ok pos t /\ tokens_ok (pos + token_len t) tl
    end.

  (** One iteration of [pixels_loop] on the bits of one token, in any context whose
      group at (x, y) is [grp]: the token's [replay] step, then the continuation; if
      (x, y) are the coordinates of [pos], it continues at those of the new position. *)
  Lemma token_step c f pos x y cache acc rest out t tl :
    group_at c x y = grp -> e_w c = w -> e_cache_bits c = cb ->
    pos < total -> token_ok pos t -> pos = Z.of_nat (length acc) ->
    (forall x' y' cache' acc', pos + token_len t = Z.of_nat (length acc') ->
       (1 <= w -> x = pos mod w -> y = pos / w ->
        x' = (pos + token_len t) mod w /\ y' = (pos + token_len t) / w) ->
       pixels_loop f c total (pos + token_len t) x' y' cache' acc' rest = Ok (replay cb w tl cache' acc', out)) ->
    pixels_loop (S f) c total pos x y cache acc (emit_token gtabs t ++ rest) = Ok (replay cb w (t :: tl) cache acc, out).
  Proof.
    intros Hg Hw Hcb Hlt Htok Hpos K.
    assert (Hxy : forall x' y', next_xy w x y = (x', y') -> 1 <= w -> x = pos mod w -> y = pos / w ->
              x' = (pos + 1) mod w /\ y' = (pos + 1) / w).
    { intros x' y' E Hw1 -> ->. rewrite next_xy_pos in E by lia. now injection E as <- <-. }
    cbn [pixels_loop]. replace (total <=? pos) with false by lia. rewrite Hg, Hw, Hcb.
    cbn [grp g_green g_red g_blue g_alpha g_dist]. unfold tab_k, gtabs.
    destruct t as [p|k|len dc]; cbn [emit_token token_len replay token_ok nth] in *.
    - destruct Htok as ((Hwa & Hwr & Hwg & Hwb) & Hg' & Hr & Hb & Ha). unfold chan_ok in *.
      rewrite <- !app_assoc.
      rewrite (sym_read lg tg _ _ Htg Hg'). cbn [bind]. replace (pg p <? 256) with true by lia.
      rewrite (sym_read lr tr _ _ Htr Hr). cbn [bind].
      rewrite (sym_read lb tb _ _ Htb Hb). cbn [bind].
      rewrite (sym_read la ta _ _ Hta Ha). cbn [bind].
      destruct (next_xy w x y) as [x' y'] eqn:En.
      replace (mkpx (pa p) (pr p) (pg p) (pb p)) with p by (destruct p; reflexivity).
      apply K; [cbn [length]; lia|now apply Hxy].
    - destruct Htok as (Hk & Hg').
      rewrite (sym_read lg tg _ _ Htg Hg'). cbn [bind].
      replace (280 + k <? 256) with false by (clear - Hk; lia). replace (280 + k <? 280) with false by (clear - Hk; lia).
      rewrite Z.add_simpl_l.
      destruct (next_xy w x y) as [x' y'] eqn:En.
      apply K; [cbn [length]; lia|now apply Hxy].
    - destruct Htok as (Hlen & Hdc & Hdist & Hfit & H24 & Hg' & Hd).
      assert (Hfits : (pos <? plane_to_dist w dc) || (total - pos <? len) = false) by lia.
      pose proof (rev_append_copy_pixels_length acc len (plane_to_dist w dc) pos Hdist Hpos Hlen) as Hl.
      pose proof (lz_roundtrip len) as Hlz1. pose proof (lz_roundtrip dc) as Hlz2.
      destruct (lz_prefix len) as [[ls lxb] lxv]. destruct (lz_prefix dc) as [[ds deb] dev].
      cbn [fst] in *. rewrite <- !app_assoc.
      rewrite (sym_read lg tg _ _ Htg Hg'). cbn [bind].
      replace (256 + ls <? 256) with false by (clear - H24; lia).
      replace (256 + ls <? 280) with true by (clear - H24; lia).
      rewrite Z.add_simpl_l.
      rewrite (Hlz1 _ Hlen). cbn [bind].
      rewrite (sym_read ld td _ _ Htd Hd). cbn [bind].
      rewrite (Hlz2 _ Hdc). cbn [bind]. rewrite Hfits.
      apply K; [exact Hl|now split].
  Qed.

  Theorem tokens_roundtrip : forall toks fuel pos x y cache acc rest,
    tokens_ok pos toks -> pos = Z.of_nat (length acc) -> (length toks < fuel)%nat ->
    pixels_loop fuel ctx1 total pos x y cache acc
                (emit_tokens w (fun _ _ => 0) (arr_of_list [gtabs]) toks pos ++ rest)
    = Ok (replay cb w toks cache acc, rest).
  Proof.
    induction toks as [|t tl IH]; intros fuel pos x y cache acc rest Hok Hpos Hfuel;
      (destruct fuel as [|f]; [cbn in Hfuel; lia|]); cbn [tokens_ok length] in *.
    - cbn [pixels_loop emit_tokens app replay]. replace (total <=? pos) with true by lia. reflexivity.
    - destruct Hok as (Hlt & Htok & Hrest). cbn [emit_tokens]. rewrite <- app_assoc.
      apply token_step; try assumption; try reflexivity.
      intros x' y' cache' acc' Hl _. apply IH; [exact Hrest|exact Hl|lia].
  Qed.

  Corollary entropy_roundtrip : forall toks h rest,
    total = w * h -> 0 <= total -> tokens_ok 0 toks -> (Z.of_nat (length toks) <= total) ->
    decode_pixels ctx1 w h (emit_tokens w (fun _ _ => 0) (arr_of_list [gtabs]) toks 0 ++ rest)
    = Ok (frev (replay cb w toks arr_empty []), rest).
  Proof.
    intros toks h rest Htot H0 Hok Hn. unfold decode_pixels. rewrite <- Htot.
    rewrite (tokens_roundtrip toks _ 0 0 0 arr_empty [] rest Hok eq_refl) by lia.
    reflexivity.
  Qed.
End OneGroup.

(** every token yields at least one pixel, so a valid token list is never longer
    than the image *)
Lemma token_len_pos lg lr lb la ld w total pos t : token_ok lg lr lb la ld w total pos t -> 1 <= token_len t.
Proof. destruct t; cbn [token_len token_ok]; lia. Qed.

Lemma tokens_ok_length lg lr lb la ld w total : forall toks pos,
  tokens_ok lg lr lb la ld w total pos toks -> 0 <= pos -> Z.of_nat (length toks) <= total - pos.
Proof.
  induction toks as [|t tl IH]; intros pos Hok Hp; cbn [tokens_ok length] in *; [lia|].
  destruct Hok as (Hlt & Htok%token_len_pos & Hrest). specialize (IH _ Hrest ltac:(lia)). lia.
Qed.

Record glens := mkglens { gl_g : list Z; gl_r : list Z; gl_b : list Z; gl_a : list Z; gl_d : list Z }.

Definition gtabs_of (gl : glens) : list (list (Z * bits)) :=
  [code_list (gl_g gl); code_list (gl_r gl); code_list (gl_b gl); code_list (gl_a gl); code_list (gl_d gl)].

Definition grp_ok (gl : glens) (g : group) : Prop :=
  tree_of_lens (gl_g gl) = Ok (g_green g) /\ tree_of_lens (gl_r gl) = Ok (g_red g) /\
  tree_of_lens (gl_b gl) = Ok (g_blue g) /\ tree_of_lens (gl_a gl) = Ok (g_alpha g) /\
  tree_of_lens (gl_d gl) = Ok (g_dist g).

Definition glens_dummy : glens := mkglens [] [] [] [] [].

Section ManyGroups.
  Variable gls : list glens.
  Variable gs : list group.
  Hypothesis Hgs : Forall2 grp_ok gls gs.
  Variables cb w total mb mw : Z.
  Variable meta : arr Z.
  Hypothesis Hw : 1 <= w.

  Definition gidx (x y : Z) : Z := if mb =? 0 then 0 else arr_get 0 meta (tile_index mw mb x y).
  Definition ctxm : ectx := mkectx w cb mb mw meta (arr_of_list gs).
  Definition tabsm : arr (list (list (Z * bits))) := arr_of_list (map gtabs_of gls).

  Definition token_ok_m (pos : Z) (t : token) : Prop :=
    let i := gidx (pos mod w) (pos / w) in
    0 <= i < Z.of_nat (length gls) /\
    let gl := nth (Z.to_nat i) gls glens_dummy in
    token_ok (gl_g gl) (gl_r gl) (gl_b gl) (gl_a gl) (gl_d gl) w total pos t.

  Fixpoint tokens_ok_m (pos : Z) (toks : list token) : Prop :=
    match toks with
    | [] => pos = total
    | t :: tl => pos < total /\ token_ok_m pos t /\ tokens_ok_m (pos + token_len t) tl
    end.

  Lemma group_at_ctxm x y : group_at ctxm x y = arr_get group_dummy (arr_of_list gs) (gidx x y).
  Proof. unfold group_at, ctxm, gidx. cbn [e_meta_bits e_groups e_meta e_meta_w]. now destruct (mb =? 0). Qed.

  Theorem tokens_roundtrip_m : forall toks fuel pos cache acc rest,
    tokens_ok_m pos toks -> pos = Z.of_nat (length acc) -> (length toks < fuel)%nat ->
    pixels_loop fuel ctxm total pos (pos mod w) (pos / w) cache acc
                (emit_tokens w gidx tabsm toks pos ++ rest)
    = Ok (replay cb w toks cache acc, rest).
  Proof.
    induction toks as [|t tl IH]; intros fuel pos cache acc rest Hok Hpos Hfuel;
      (destruct fuel as [|f]; [cbn in Hfuel; lia|]); cbn [tokens_ok_m length] in *.
    - cbn [pixels_loop emit_tokens app replay]. replace (total <=? pos) with true by lia. reflexivity.
    - destruct Hok as (Hlt & (Hi & Htok) & Hrest). cbn [emit_tokens]. rewrite <- app_assoc.
      set (i := gidx (pos mod w) (pos / w)) in *.
      assert (Hlen : length gs = length gls) by (symmetry; eapply Forall2_length; exact Hgs).
      unfold tabsm. rewrite arr_of_list_get, map_length.
      replace ((0 <=? i) && (i <? Z.of_nat (length gls)))%bool with true by lia.
      rewrite (nth_indep _ [] (gtabs_of glens_dummy)) by (rewrite map_length; lia).
      rewrite map_nth.
      pose proof (Forall2_nth grp_ok gls gs glens_dummy group_dummy Hgs (Z.to_nat i) ltac:(lia)) as Hg.
      set (gl := nth (Z.to_nat i) gls glens_dummy) in *.
      destruct Hg as (Htg & Htr & Htb & Hta & Htd).
      apply (token_step _ _ _ _ _ _ _ _ _ _ Htg Htr Htb Hta Htd); try assumption; try reflexivity.
      + rewrite group_at_ctxm, arr_of_list_get. fold i.
        replace ((0 <=? i) && (i <? Z.of_nat (length gs)))%bool with true by lia.
        now destruct (nth (Z.to_nat i) gs group_dummy).
      + intros x' y' cache' acc' Hl Hxy. destruct (Hxy Hw eq_refl eq_refl) as [-> ->].
        apply IH; [exact Hrest|exact Hl|lia].
  Qed.

  Lemma tokens_ok_m_length : forall toks pos, tokens_ok_m pos toks -> 0 <= pos -> Z.of_nat (length toks) <= total - pos.
  Proof.
    induction toks as [|t tl IH]; intros pos Hok Hp; cbn [tokens_ok_m length] in *; [lia|].
    destruct Hok as (Hlt & (_ & Htok%token_len_pos) & Hrest). specialize (IH _ Hrest ltac:(lia)). lia.
  Qed.

  Corollary entropy_roundtrip_m : forall toks h rest,
    total = w * h -> 0 <= total -> tokens_ok_m 0 toks ->
    decode_pixels ctxm w h (emit_tokens w gidx tabsm toks 0 ++ rest)
    = Ok (frev (replay cb w toks arr_empty []), rest).
  Proof.
    intros toks h rest Htot H0 Hok. unfold decode_pixels. rewrite <- Htot.
    pose proof (tokens_ok_m_length toks 0 Hok ltac:(lia)) as Hn.
    pose proof (tokens_roundtrip_m toks (S (Z.to_nat total)) 0 arr_empty [] rest Hok eq_refl ltac:(lia)) as H.
    rewrite Z.mod_0_l, Z.div_0_l in H by lia. rewrite H. reflexivity.
  Qed.
End ManyGroups.
