(** C12 / C10 — proofs about the fork–join sites (models in ConcPartition.v):
    every site's ranges are an exact partition for ALL worker counts and ALL sizes,
    and a fork–join over an exact partition computes the serial result under every
    interleaving. *)
From Coq Require Import List ZArith Lia Bool Permutation.
From Coq Require Import ZifyBool ZifyNat ZifyN.
(* ZifyBool's post-hook [elim_bool_cstr] is slow on ConcPartExpr.v's contexts; unused *)
Ltac Zify.zify_post_hook ::= idtac.
From Webp Require Import Conc.ConcPartition.
From Webp Require Import Base.ListFacts.
From Webp Require Conc.ConcRowSync Conc.ConcShared.
Import ListNotations.
Open Scope Z_scope.

(** [rs] is pairwise disjoint, within [lo,hi), and covers [lo,hi). *)
Definition exact_partition (rs : list range) (lo hi : Z) : Prop :=
  (forall r i, In r rs -> in_range r i -> lo <= i < hi) /\
  (forall i, lo <= i < hi -> exists r, In r rs /\ in_range r i) /\
  (forall j k i, (j < length rs)%nat -> (k < length rs)%nat ->
     in_range (nth j rs (0, 0)) i -> in_range (nth k rs (0, 0)) i -> j = k).

Lemma zrange_length m : length (zrange m) = Z.to_nat m.
Proof. unfold zrange. now rewrite map_length, seq_length. Qed.

Lemma zrange_In m k : In k (zrange m) <-> 0 <= k < m.
Proof.
  unfold zrange. rewrite in_map_iff. split.
  - intros (j & Hj & Hin). apply in_seq in Hin. lia.
  - intros Hk. exists (Z.to_nat k). split; [lia|]. apply in_seq. lia.
Qed.

Lemma zrange_nth m j d : (j < Z.to_nat m)%nat -> nth j (zrange m) d = Z.of_nat j.
Proof.
  intros Hj. unfold zrange.
  rewrite nth_indep with (d' := Z.of_nat 0) by (rewrite map_length, seq_length; lia).
  rewrite map_nth. rewrite seq_nth by lia. reflexivity.
Qed.

Lemma nth_map_zrange {B} (F : Z -> B) m j d :
  (j < Z.to_nat m)%nat -> nth j (map F (zrange m)) d = F (Z.of_nat j).
Proof.
  intros Hj. rewrite nth_indep with (d' := F 0) by (rewrite map_length, zrange_length; lia).
  rewrite (map_nth F). rewrite zrange_nth by lia. reflexivity.
Qed.

Lemma zrange_map_ext {B} (f g : Z -> B) m : (forall k, 0 <= k < m -> f k = g k) -> map f (zrange m) = map g (zrange m).
Proof. intros H. apply map_ext_in. intros k Hk. apply zrange_In in Hk. auto. Qed.

Lemma zrange_NoDup m : NoDup (zrange m).
Proof.
  unfold zrange. apply FinFun.Injective_map_NoDup; [|apply seq_NoDup].
  intros a b Hab. lia.
Qed.

Lemma perm_zrange_In l m : Permutation l (zrange m) -> forall i, In i l <-> 0 <= i < m.
Proof.
  intros P i. rewrite <- zrange_In. split; apply Permutation_in; [exact P|apply Permutation_sym, P].
Qed.

Lemma indices_In r i : In i (indices r) <-> in_range r i.
Proof.
  unfold indices, in_range. rewrite in_map_iff. split.
  - intros (k & Hk & Hin). apply in_seq in Hin. lia.
  - intros Hi. exists (Z.to_nat (i - fst r)). split; [lia|]. apply in_seq. lia.
Qed.

Lemma indices_NoDup r : NoDup (indices r).
Proof.
  unfold indices. apply FinFun.Injective_map_NoDup; [|apply seq_NoDup].
  intros a b Hab. lia.
Qed.

Lemma zmin_spec a b : zmin a b = Z.min a b.
Proof. unfold zmin. destruct (a >? b) eqn:E; lia. Qed.

Lemma clamp_lo1_spec a : clamp_lo1 a = Z.max 1 a.
Proof. unfold clamp_lo1. destruct (a <? 1) eqn:E; lia. Qed.

(** range k holds the indices of [b k, b (k+1)) whatever its own bounds (s k, e k): this is
    what lets clipped, inverted and remainder-taking ranges through *)
Section Bounds.
  Variable b : Z -> Z.

  Lemma bounds_mono (m : nat) :
    (forall k, 0 <= k < Z.of_nat m -> b k <= b (k + 1)) ->
    forall j k, 0 <= j <= k -> k <= Z.of_nat m -> b j <= b k.
  Proof.
    intros Hm j k Hjk Hk.
    assert (G : forall d : nat, j + Z.of_nat d <= Z.of_nat m -> b j <= b (j + Z.of_nat d)).
    { induction d as [|d IH]; intros Hd.
      - replace (j + Z.of_nat 0) with j by lia. lia.
      - specialize (IH ltac:(lia)). specialize (Hm (j + Z.of_nat d) ltac:(lia)).
        replace (j + Z.of_nat (S d)) with (j + Z.of_nat d + 1) by lia. lia. }
    replace k with (j + Z.of_nat (Z.to_nat (k - j))) by lia. apply G. lia.
  Qed.

  Lemma bounds_cover (m : nat) :
    forall i, b 0 <= i < b (Z.of_nat m) ->
    exists k, 0 <= k < Z.of_nat m /\ b k <= i < b (k + 1).
  Proof.
    induction m as [|m IH]; intros i Hi.
    - cbn in Hi. lia.
    - destruct (Z_lt_le_dec i (b (Z.of_nat m))) as [Hlt|Hge].
      + destruct (IH i ltac:(lia)) as (k & Hk & Hki). exists k. split; [lia|exact Hki].
      + exists (Z.of_nat m). split; [lia|].
        replace (Z.of_nat m + 1) with (Z.of_nat (S m)) by lia. lia.
  Qed.
End Bounds.

Lemma partition_of_bounds (s e b : Z -> Z) (m : Z) :
  0 <= m ->
  (forall k, 0 <= k < m -> b k <= b (k + 1)) ->
  (forall k i, 0 <= k < m -> (s k <= i < e k <-> b k <= i < b (k + 1))) ->
  exact_partition (map (fun k => (s k, e k)) (zrange m)) (b 0) (b m).
Proof.
  intros Hm Hmono Hse.
  assert (Hmono' : forall k, 0 <= k < Z.of_nat (Z.to_nat m) -> b k <= b (k + 1))
    by (intros; apply Hmono; lia).
  pose proof (bounds_mono b (Z.to_nat m) Hmono') as Hle.
  split; [|split].
  - intros r i Hin Hr. apply in_map_iff in Hin. destruct Hin as (k & <- & Hk).
    apply zrange_In in Hk. unfold in_range in Hr; cbn [fst snd] in Hr.
    apply (proj1 (Hse k i Hk)) in Hr.
    pose proof (Hle 0 k ltac:(lia) ltac:(lia)).
    pose proof (Hle (k + 1) m ltac:(lia) ltac:(lia)). lia.
  - intros i Hi.
    destruct (bounds_cover b (Z.to_nat m) i) as (k & Hk & Hki).
    { replace (Z.of_nat (Z.to_nat m)) with m by lia. exact Hi. }
    exists (s k, e k). split.
    + apply in_map_iff. exists k. split; [reflexivity|]. apply zrange_In. lia.
    + unfold in_range; cbn [fst snd]. apply Hse; [lia|exact Hki].
  - intros j k i Hj Hk Hrj Hrk.
    rewrite map_length, zrange_length in Hj, Hk.
    rewrite nth_indep with (d' := (s 0, e 0)) in Hrj, Hrk
      by (rewrite map_length, zrange_length; lia).
    rewrite (map_nth (fun k => (s k, e k))) in Hrj, Hrk.
    rewrite zrange_nth in Hrj, Hrk by lia.
    unfold in_range in Hrj, Hrk; cbn [fst snd] in Hrj, Hrk.
    apply (proj1 (Hse (Z.of_nat j) i ltac:(lia))) in Hrj. apply (proj1 (Hse (Z.of_nat k) i ltac:(lia))) in Hrk.
    destruct (Nat.lt_trichotomy j k) as [Hlt|[Heq|Hgt]]; [|exact Heq|].
    + pose proof (Hle (Z.of_nat j + 1) (Z.of_nat k) ltac:(lia) ltac:(lia)). lia.
    + pose proof (Hle (Z.of_nat k + 1) (Z.of_nat j) ltac:(lia) ltac:(lia)). lia.
Qed.

Lemma ceil_mul_ge n t : 1 <= n -> 0 <= t -> t <= n * ((t + n - 1) / n).
Proof. intros Hn Ht. pose proof (Z.div_mod (t + n - 1) n ltac:(lia)).
  pose proof (Z.mod_pos_bound (t + n - 1) n ltac:(lia)). lia. Qed.

Lemma ceil_nonneg n t : 1 <= n -> 0 <= t -> 0 <= (t + n - 1) / n.
Proof. intros Hn Ht. apply Z.div_pos; lia. Qed.

Lemma floor_mul_le n t : 1 <= n -> 0 <= t -> n * (t / n) <= t /\ 0 <= t / n.
Proof. intros Hn Ht. split; [apply Z.mul_div_le; lia|apply Z.div_pos; lia]. Qed.

Lemma exact_partition_nil lo : exact_partition [] lo lo.
Proof. split; [intros r i []|split; [intros i Hi; lia|cbn [length]; intros; lia]]. Qed.

Lemma exact_partition_single lo hi : exact_partition [(lo, hi)] lo hi.
Proof.
  split; [|split].
  - intros r i [<-|[]] Hr. exact Hr.
  - intros i Hi. exists (lo, hi). split; [now left|exact Hi].
  - cbn [length]. intros; lia.
Qed.

Lemma partition_prop_bounds n' total : 1 <= n' -> 0 <= total ->
  exact_partition (map (fun k => (k * total / n', (k + 1) * total / n')) (zrange n')) 0 total.
Proof.
  intros Hn Ht.
  pose proof (partition_of_bounds (fun k => k * total / n') (fun k => (k + 1) * total / n')
                (fun k => k * total / n') n' ltac:(lia)) as P.
  cbn beta in P.
  replace (0 * total / n') with 0 in P by (rewrite Z.mul_0_l; symmetry; apply Z.div_0_l; lia).
  replace (n' * total / n') with total in P by (rewrite Z.mul_comm; symmetry; apply Z.div_mul; lia).
  apply P.
  - intros k Hk. apply Z.div_le_mono; [lia|]. apply Z.mul_le_mono_nonneg_r; lia.
  - intros k i Hk. reflexivity.
Qed.

(** (C) clipped chunks: start = off + k*c, end = min (start+c) hi, for k < m,
    covering [off, hi) when off + m*c >= hi, c >= 0, off <= hi. *)
Lemma partition_chunks off hi c m :
  0 <= m -> 0 <= c -> off <= hi -> hi <= off + m * c ->
  exact_partition (map (fun k => (off + k * c, zmin (off + k * c + c) hi)) (zrange m)) off hi.
Proof.
  intros Hm Hc Hoh Hcov.
  pose proof (partition_of_bounds (fun k => off + k * c) (fun k => zmin (off + k * c + c) hi)
                (fun k => Z.min (off + k * c) hi) m Hm) as P.
  cbn beta in P.
  replace (Z.min (off + 0 * c) hi) with off in P by lia.
  replace (Z.min (off + m * c) hi) with hi in P by lia.
  apply P.
  - intros k Hk. replace ((k + 1) * c) with (k * c + c) by ring. lia.
  - intros k i Hk. rewrite zmin_spec. replace ((k + 1) * c) with (k * c + c) by ring. lia.
Qed.

Lemma partition_floor_last n' lo hi : 1 <= n' -> lo <= hi ->
  exact_partition (ranges_floor_last n' lo hi) lo hi.
Proof.
  intros Hn Hlh. unfold ranges_floor_last. set (q := (hi - lo) / n').
  destruct (floor_mul_le n' (hi - lo) Hn ltac:(lia)) as [Hq1 Hq0]. fold q in Hq1, Hq0.
  pose proof (partition_of_bounds (fun k => lo + k * q)
                (fun k => if k =? n' - 1 then hi else lo + k * q + q)
                (fun k => if k =? n' then hi else lo + k * q) n' ltac:(lia)) as P.
  cbn beta in P.
  replace (if 0 =? n' then hi else lo + 0 * q) with lo in P
    by (destruct (0 =? n') eqn:E; lia).
  rewrite Z.eqb_refl in P.
  apply P.
  - intros k Hk. destruct (k =? n') eqn:E1; [lia|].
    destruct (k + 1 =? n') eqn:E2.
    + assert (k * q <= (n' - 1) * q) by (apply Z.mul_le_mono_nonneg_r; lia).
      replace ((n' - 1) * q) with (n' * q - q) in H by ring. lia.
    + replace ((k + 1) * q) with (k * q + q) by ring. lia.
  - intros k i Hk. destruct (k =? n') eqn:E1; [lia|].
    destruct (k =? n' - 1) eqn:E2; destruct (k + 1 =? n') eqn:E3; lia.
Qed.

(** [break] at the first empty range: when emptiness is upward closed the kept
    prefix is still an exact partition. *)
Definition empty_range (r : range) : Prop := snd r <= fst r.

Lemma take_nonempty_split l :
  (forall i j, (i < j < length l)%nat -> empty_range (nth i l (0, 0)) -> empty_range (nth j l (0, 0))) ->
  exists rest, l = take_nonempty l ++ rest /\ Forall empty_range rest.
Proof.
  induction l as [|r tl IH]; intros Hup.
  - exists []. split; [reflexivity|constructor].
  - cbn [take_nonempty]. destruct (fst r >=? snd r) eqn:E.
    + exists (r :: tl). split; [reflexivity|].
      assert (Hr : empty_range r) by (unfold empty_range; lia).
      constructor; [exact Hr|]. apply Forall_forall. intros x Hx.
      destruct (In_nth _ _ (0, 0) Hx) as (j & Hj & <-).
      apply (Hup O (S j)); [cbn [length]; lia|exact Hr].
    + destruct IH as (rest & Heq & Hall).
      { intros i j Hij. apply (Hup (S i) (S j)). cbn [length]; lia. }
      exists rest. split; [cbn [app]; f_equal; exact Heq|exact Hall].
Qed.

Lemma exact_partition_prefix p rest lo hi :
  Forall empty_range rest -> exact_partition (p ++ rest) lo hi -> exact_partition p lo hi.
Proof.
  intros Hrest (Hin & Hcov & Hdis). split; [|split].
  - intros r i Hr. apply Hin. apply in_or_app. now left.
  - intros i Hi. destruct (Hcov i Hi) as (r & Hr & Hri). exists r. split; [|exact Hri].
    apply in_app_or in Hr. destruct Hr as [Hr|Hr]; [exact Hr|].
    rewrite Forall_forall in Hrest. specialize (Hrest r Hr).
    unfold empty_range in Hrest. unfold in_range in Hri. lia.
  - intros j k i Hj Hk Hrj Hrk.
    apply (Hdis j k i); try (rewrite app_length; lia); rewrite app_nth1 by lia; assumption.
Qed.

Lemma partition_chunks_break off hi c m :
  0 <= m -> 0 <= c -> off <= hi -> hi <= off + m * c ->
  exact_partition (take_nonempty (map (fun k => (off + k * c, zmin (off + k * c + c) hi)) (zrange m))) off hi.
Proof.
  intros Hm Hc Hoh Hcov.
  pose proof (partition_chunks off hi c m Hm Hc Hoh Hcov) as P.
  set (l := map (fun k => (off + k * c, zmin (off + k * c + c) hi)) (zrange m)) in *.
  destruct (take_nonempty_split l) as (rest & Heq & Hall).
  { intros i j Hij. unfold l in *. rewrite map_length, zrange_length in Hij.
    rewrite (nth_map_zrange _ m i) by lia. rewrite (nth_map_zrange _ m j) by lia.
    unfold empty_range; cbn [fst snd]. rewrite !zmin_spec. intros Hi.
    assert (Z.of_nat i * c <= Z.of_nat j * c) by (apply Z.mul_le_mono_nonneg_r; lia). lia. }
  rewrite Heq in P. exact (exact_partition_prefix _ _ _ _ Hall P).
Qed.

(** lossy importImage, Y rows (total = padH) and UV row pairs (total = padH/2). *)
Theorem partition_exact_prop : forall n total, 1 <= n -> 0 <= total ->
  exact_partition (ranges_prop n total) 0 total.
Proof.
  intros n total Hn Ht. unfold ranges_prop. rewrite zmin_spec.
  destruct (Z.eq_dec total 0) as [->|Hnz].
  - replace (Z.min n 0) with 0 by lia. apply exact_partition_nil.
  - apply partition_prop_bounds; lia.
Qed.

(** lossless ResidualImage, ColorSpaceTransform (total = tile rows >= 1),
    histogramRemap (total >= 64), parallelComputeHistogramCost (total >= 256). *)
Theorem partition_exact_ceil : forall n total, 1 <= n -> 1 <= total ->
  exact_partition (ranges_ceil n total) 0 total.
Proof.
  intros n total Hn Ht. unfold ranges_ceil. rewrite zmin_spec.
  set (n' := Z.min n total). assert (Hn' : 1 <= n') by lia.
  pose proof (ceil_mul_ge n' total Hn' ltac:(lia)).
  pose proof (ceil_nonneg n' total Hn' ltac:(lia)).
  apply (partition_chunks 0 total); lia.
Qed.

(** lossless colorSpaceInverseTransformParallel (rows yend-ystart >= 1). *)
Theorem partition_exact_inv_cross_color : forall n ystart yend, 1 <= n -> ystart < yend ->
  exact_partition (ranges_inv_cross_color n ystart yend) ystart yend.
Proof.
  intros n ys ye Hn Hy. unfold ranges_inv_cross_color. rewrite zmin_spec.
  apply partition_floor_last; lia.
Qed.

(** lossless argbToNRGBA (n is not clipped to the height: with n > height every
    worker but the last gets an empty range and the last takes all rows). *)
Theorem partition_exact_argb_to_nrgba : forall n height, 1 <= n -> 0 <= height ->
  exact_partition (ranges_argb_to_nrgba n height) 0 height.
Proof. intros n h Hn Hh. apply partition_floor_last; lia. Qed.

(** lossless hashchain.fillParallel: positions [1, size-1). *)
Theorem partition_exact_hashchain : forall n size, 1 <= n -> 2 <= size ->
  exact_partition (ranges_hashchain n size) 1 (size - 1).
Proof.
  intros n size Hn Hs. unfold ranges_hashchain. rewrite clamp_lo1_spec, zmin_spec.
  set (n' := Z.max 1 (Z.min n (size / 1000))). assert (Hn' : 1 <= n') by lia.
  pose proof (ceil_mul_ge n' (size - 2) Hn' ltac:(lia)).
  pose proof (ceil_nonneg n' (size - 2) Hn' ltac:(lia)).
  apply partition_chunks; lia.
Qed.

(** lossy computeAlphas (rows of macroblocks). *)
Theorem partition_exact_compute_alphas : forall n mbW mbH, 1 <= n -> 1 <= mbW -> 1 <= mbH ->
  exact_partition (ranges_compute_alphas n mbW mbH) 0 mbH.
Proof.
  intros n mbW mbH Hn Hw Hh. unfold ranges_compute_alphas.
  rewrite clamp_lo1_spec, zmin_spec. set (n' := Z.max 1 (Z.min n (mbH * mbW))).
  assert (Hn' : 1 <= n') by lia.
  destruct (n' =? 1); [apply exact_partition_single|].
  pose proof (ceil_mul_ge n' mbH Hn' ltac:(lia)).
  pose proof (ceil_nonneg n' mbH Hn' ltac:(lia)).
  apply (partition_chunks_break 0 mbH); lia.
Qed.

(** Worker counts of the dynamic (work-queue) sites. *)
Theorem workers_encode_parallel_bounds : forall n mbH, 1 <= mbH ->
  1 <= workers_encode_parallel n mbH <= 6 /\ workers_encode_parallel n mbH <= mbH.
Proof. intros n mbH Hh. unfold workers_encode_parallel. rewrite clamp_lo1_spec, !zmin_spec. lia. Qed.

Theorem workers_decode_frames_bounds : forall n items, 1 <= n -> 3 <= items ->
  1 <= workers_decode_frames n items <= items.
Proof. intros n items Hn Hi. unfold workers_decode_frames. rewrite zmin_spec. lia. Qed.

(** [upd] is ConcRowSync's [set_nth] *)
Lemma upd_set_nth {A} : @upd A = @ConcRowSync.set_nth A.
Proof. reflexivity. Qed.

Lemma upd_length {A} (l : list A) i v : length (upd l i v) = length l.
Proof. rewrite upd_set_nth. apply ConcShared.set_nth_length. Qed.

Lemma upd_nth_eq {A} (l : list A) i v d : (i < length l)%nat -> nth i (upd l i v) d = v.
Proof. intros Hi. apply nth_error_nth. rewrite upd_set_nth. apply ConcShared.set_nth_eq, Hi. Qed.

Lemma upd_nth_neq {A} (l : list A) i j v d : i <> j -> nth j (upd l i v) d = nth j l d.
Proof.
  intros Hij. rewrite <- !nth_default_eq. unfold nth_default.
  rewrite upd_set_nth, ConcShared.set_nth_neq by exact Hij. reflexivity.
Qed.

Lemma upd_nth_same {A} (l : list A) i d : upd l i (nth i l d) = l.
Proof. revert i; induction l as [|h tl IH]; intros [|i]; cbn; f_equal; auto. Qed.

Lemma Shuffle_Permutation {A} (ls : list (list A)) ops :
  Shuffle ls ops -> Permutation ops (concat ls).
Proof.
  induction 1 as [ls Hall|pre x l post ops HS IH].
  - induction Hall as [|l ls Hl _ IHl]; cbn; [constructor|]. subst l. exact IHl.
  - rewrite concat_app in *. cbn [concat] in *. cbn [app].
    apply Permutation_cons_app. exact IH.
Qed.

Lemma Shuffle_map {A B} (g : A -> B) ls ops : Shuffle ls ops -> Shuffle (map (map g) ls) (map g ops).
Proof.
  induction 1 as [ls Hall|pre x l post ops HS IH].
  - constructor. apply Forall_forall. intros l Hl. apply in_map_iff in Hl. destruct Hl as (l0 & <- & Hl0).
    rewrite Forall_forall in Hall. rewrite (Hall l0 Hl0). reflexivity.
  - rewrite map_app in *. cbn [map] in *. apply Shuffle_pick. exact IH.
Qed.

Lemma concat_indices_NoDup rs :
  (forall j k i, (j < length rs)%nat -> (k < length rs)%nat ->
     in_range (nth j rs (0, 0)) i -> in_range (nth k rs (0, 0)) i -> j = k) ->
  NoDup (concat (map indices rs)).
Proof.
  induction rs as [|r rs IH]; intros Hdis; cbn [map concat]; [constructor|].
  apply NoDup_app_iff. split; [|split].
  - apply indices_NoDup.
  - apply IH. intros j k i Hj Hk Hrj Hrk.
    specialize (Hdis (S j) (S k) i). cbn [length nth] in Hdis.
    specialize (Hdis ltac:(lia) ltac:(lia) Hrj Hrk). lia.
  - intros x Hx Hin. apply in_concat in Hin. destruct Hin as (l & Hl & Hxl).
    apply in_map_iff in Hl. destruct Hl as (r' & <- & Hr').
    destruct (In_nth _ _ (0, 0) Hr') as (k & Hk & Hnth).
    apply indices_In in Hx. apply indices_In in Hxl.
    specialize (Hdis O (S k) x). cbn [length nth] in Hdis. rewrite Hnth in Hdis.
    specialize (Hdis ltac:(lia) ltac:(lia) Hx Hxl). lia.
Qed.

Lemma partition_perm rs total :
  exact_partition rs 0 total -> Permutation (concat (map indices rs)) (zrange total).
Proof.
  intros (Hin & Hcov & Hdis). apply NoDup_Permutation.
  - apply concat_indices_NoDup, Hdis.
  - apply zrange_NoDup.
  - intros i. rewrite zrange_In, in_concat. split.
    + intros (l & Hl & Hi). apply in_map_iff in Hl. destruct Hl as (r & <- & Hr).
      apply indices_In in Hi. exact (Hin r i Hr Hi).
    + intros Hi. destruct (Hcov i Hi) as (r & Hr & Hri). exists (indices r).
      split; [apply in_map; exact Hr|apply indices_In; exact Hri].
Qed.

Lemma shuffle_partition_perm rs total ops :
  exact_partition rs 0 total -> Shuffle (map indices rs) ops -> Permutation ops (zrange total).
Proof.
  intros HP HS. exact (Permutation_trans (Shuffle_Permutation _ _ HS) (partition_perm _ _ HP)).
Qed.

Section Inplace.
  Context {A : Type} (g : Z -> A -> A) (d : A).

  Lemma run_inplace_length ops : forall st, length (run_inplace g d ops st) = length st.
  Proof.
    unfold run_inplace. induction ops as [|i ops IH]; intros st; cbn; [reflexivity|].
    rewrite IH. apply upd_length.
  Qed.

  Lemma run_inplace_other ops j : (forall i, In i ops -> 0 <= i) -> ~ In (Z.of_nat j) ops ->
    forall st, nth j (run_inplace g d ops st) d = nth j st d.
  Proof.
    unfold run_inplace. induction ops as [|i ops IH]; intros Hpos Hj st; cbn [fold_left]; [reflexivity|].
    rewrite IH; [|intros k Hk; apply Hpos; now right|intros H; apply Hj; now right].
    apply upd_nth_neq. intros E. apply Hj. left. specialize (Hpos i (or_introl eq_refl)). lia.
  Qed.

  Lemma run_inplace_at ops j : NoDup ops -> (forall i, In i ops -> 0 <= i) -> In (Z.of_nat j) ops ->
    forall st, (j < length st)%nat -> nth j (run_inplace g d ops st) d = g (Z.of_nat j) (nth j st d).
  Proof.
    induction ops as [|i ops IH]; intros Hnd Hpos Hj st Hlen; [destruct Hj|].
    inversion Hnd as [|? ? Hi Hnd']; subst.
    assert (Hpos' : forall k, In k ops -> 0 <= k) by (intros k Hk; apply Hpos; now right).
    change (run_inplace g d (i :: ops) st)
      with (run_inplace g d ops (upd st (Z.to_nat i) (g i (nth (Z.to_nat i) st d)))).
    destruct Hj as [->|Hj].
    - rewrite run_inplace_other, !Nat2Z.id by assumption. apply upd_nth_eq. exact Hlen.
    - rewrite IH by (try assumption; rewrite upd_length; exact Hlen).
      rewrite upd_nth_neq; [reflexivity|]. intros E. apply Hi.
      replace i with (Z.of_nat j); [exact Hj|]. specialize (Hpos i (or_introl eq_refl)). lia.
  Qed.

  Theorem run_inplace_perm total ops st :
    Permutation ops (zrange total) -> length st = Z.to_nat total ->
    run_inplace g d ops st = map (fun i => g i (nth (Z.to_nat i) st d)) (zrange total).
  Proof.
    intros Hperm Hlen. pose proof (perm_zrange_In _ _ Hperm) as Hops.
    apply nth_ext with (d := d) (d' := d).
    - rewrite run_inplace_length, map_length, zrange_length. exact Hlen.
    - intros j Hj. rewrite run_inplace_length in Hj.
      rewrite nth_map_zrange, Nat2Z.id by lia. apply run_inplace_at.
      + exact (Permutation_NoDup (Permutation_sym Hperm) (zrange_NoDup total)).
      + intros i Hi. apply Hops in Hi. lia.
      + apply Hops. lia.
      + exact Hj.
  Qed.
End Inplace.

(** Sites whose items transform their own cell in place (forward cross-colour per
    tile): disjointness is what makes each cell transformed exactly once. *)
Theorem inplace_site_independent : forall (A : Type) (g : Z -> A -> A) (d : A) rs total st ops,
  exact_partition rs 0 total -> length st = Z.to_nat total ->
  Shuffle (map indices rs) ops ->
  run_inplace g d ops st = map (fun i => g i (nth (Z.to_nat i) st d)) (zrange total).
Proof.
  intros A g d rs total st ops HP Hlen HS.
  exact (run_inplace_perm g d total ops st (shuffle_partition_perm rs total ops HP HS) Hlen).
Qed.

(** Work-queue sites (animation.DecodeFramesParallel: a channel of frame indices
    drained by min n items workers; each item is taken by exactly one worker, in any
    order, and its result stored in its own slot): any order of the items gives the
    serial result. *)
Theorem queue_site_independent : forall (A : Type) (f : Z -> A) total (init : list A) ops,
  Permutation ops (zrange total) -> length init = Z.to_nat total ->
  run_writes f ops init = map f (zrange total).
Proof.
  intros A f total init ops Hperm Hlen. destruct init as [|d0 init'].
  - unfold zrange in *. rewrite <- Hlen in *. cbn [length seq map] in *.
    apply Permutation_sym, Permutation_nil in Hperm. subst ops. reflexivity.
  - exact (run_inplace_perm (fun i _ => f i) d0 total ops (d0 :: init') Hperm Hlen).
Qed.

(** Sites whose per-item function reads only data no worker writes. *)
Theorem map_site_independent : forall (A : Type) (f : Z -> A) rs total (init : list A) ops,
  exact_partition rs 0 total -> length init = Z.to_nat total ->
  Shuffle (map indices rs) ops ->
  run_writes f ops init = map f (zrange total).
Proof.
  intros A f rs total init ops HP Hlen HS.
  exact (queue_site_independent A f total init ops (shuffle_partition_perm rs total ops HP HS) Hlen).
Qed.

(** Integer accumulation (computeAlphas: each worker adds its local sum atomically,
    in completion order = any permutation of the workers). *)
Lemma sum_list_acc l a : fold_left Z.add l a = a + sum_list l.
Proof.
  unfold sum_list. revert a. induction l as [|x l IH]; intros a; cbn [fold_left]; [lia|].
  rewrite (IH (a + x)). rewrite (IH (0 + x)). lia.
Qed.

Lemma sum_list_cons x l : sum_list (x :: l) = x + sum_list l.
Proof. unfold sum_list at 1. cbn. rewrite sum_list_acc. lia. Qed.

Lemma sum_list_app l1 l2 : sum_list (l1 ++ l2) = sum_list l1 + sum_list l2.
Proof. induction l1 as [|x l1 IH]; cbn [app]; [unfold sum_list at 2; cbn; lia|].
  rewrite !sum_list_cons, IH. lia. Qed.

Lemma sum_list_perm l1 l2 : Permutation l1 l2 -> sum_list l1 = sum_list l2.
Proof. induction 1; rewrite ?sum_list_cons; lia. Qed.

Lemma sum_list_concat_map (h : Z -> Z) (ls : list (list Z)) :
  sum_list (map (fun l => sum_list (map h l)) ls) = sum_list (map h (concat ls)).
Proof.
  induction ls as [|l ls IH]; cbn [map concat]; [reflexivity|].
  rewrite sum_list_cons, map_app, sum_list_app, IH. reflexivity.
Qed.

Theorem sum_site_independent : forall (h : Z -> Z) rs total order,
  exact_partition rs 0 total -> Permutation order rs ->
  sum_list (map (fun r => sum_list (map h (indices r))) order) = sum_list (map h (zrange total)).
Proof.
  intros h rs total order HP Hperm.
  rewrite (sum_list_perm _ _ (Permutation_map _ Hperm)).
  rewrite <- (map_map indices (fun l => sum_list (map h l))), sum_list_concat_map.
  apply sum_list_perm, Permutation_map, partition_perm, HP.
Qed.

(** C10: a fork–join section whose goroutines write
    disjoint cells and are joined before the result is read is deterministic — its
    result does not depend on the interleaving, the number of workers or the
    partition. *)
Theorem forkjoin_deterministic : forall (A : Type) (f : Z -> A) total (init : list A) rs1 rs2 ops1 ops2,
  exact_partition rs1 0 total -> exact_partition rs2 0 total -> length init = Z.to_nat total ->
  Shuffle (map indices rs1) ops1 -> Shuffle (map indices rs2) ops2 ->
  run_writes f ops1 init = run_writes f ops2 init.
Proof.
  intros A f total init rs1 rs2 ops1 ops2 H1 H2 Hl S1 S2.
  rewrite (map_site_independent A f rs1 total init ops1 H1 Hl S1).
  rewrite (map_site_independent A f rs2 total init ops2 H2 Hl S2). reflexivity.
Qed.

Lemma exact_partition_cons_empty r rs lo hi :
  empty_range r -> exact_partition rs lo hi -> exact_partition (r :: rs) lo hi.
Proof.
  unfold empty_range. intros He (A & B & C). split; [|split].
  - intros r0 i [<-|Hin] Hr; [unfold in_range in Hr; lia|exact (A r0 i Hin Hr)].
  - intros i Hi. destruct (B i Hi) as (r0 & Hin & Hr). exists r0. split; [now right|exact Hr].
  - intros [|j] [|k] i Hj Hk Hrj Hrk; cbn [nth length] in *; try reflexivity;
      try (unfold in_range in *; lia). f_equal. apply (C j k i); try lia; assumption.
Qed.

Lemma exact_partition_cons r rs hi :
  fst r < snd r -> snd r <= hi -> exact_partition rs (snd r) hi -> exact_partition (r :: rs) (fst r) hi.
Proof.
  intros Hne Hhi (A & B & C).
  assert (Hlater : forall k i, (k < length rs)%nat -> in_range (nth k rs (0, 0)) i -> ~ in_range r i).
  { intros k i Hk Hrk Hr. pose proof (A _ i (nth_In rs (0, 0) Hk) Hrk). unfold in_range in Hr. lia. }
  split; [|split].
  - intros r0 i [<-|Hin] Hr; [unfold in_range in Hr; lia|pose proof (A r0 i Hin Hr); lia].
  - intros i Hi. destruct (Z_lt_le_dec i (snd r)) as [Hlt|Hge].
    + exists r. split; [now left|unfold in_range; lia].
    + destruct (B i ltac:(lia)) as (r0 & Hin & Hr). exists r0. split; [now right|exact Hr].
  - intros [|j] [|k] i Hj Hk Hrj Hrk; cbn [nth length] in *; try reflexivity.
    + destruct (Hlater k i ltac:(lia) Hrk Hrj).
    + destruct (Hlater j i ltac:(lia) Hrj Hrk).
    + f_equal. apply (C j k i); try lia; assumption.
Qed.

Lemma tiles_from_spec rs : forall cur hi, cur <= hi -> tiles_from rs cur hi = true ->
  exact_partition rs cur hi.
Proof.
  induction rs as [|r tl IH]; intros cur hi Hle H; cbn [tiles_from] in H.
  - apply Z.eqb_eq in H. subst. apply exact_partition_nil.
  - destruct (snd r <=? fst r) eqn:Eemp.
    + apply exact_partition_cons_empty; [unfold empty_range; lia|exact (IH cur hi Hle H)].
    + apply andb_true_iff in H. destruct H as [H H3]. apply andb_true_iff in H. destruct H as [H1 H2].
      apply Z.eqb_eq in H1. subst cur. apply exact_partition_cons; [lia|lia|apply IH; [lia|exact H3]].
Qed.

Theorem is_tiling_sound : forall rs lo hi, is_tiling rs lo hi = true -> exact_partition rs lo hi.
Proof.
  intros rs lo hi H. unfold is_tiling in H. apply andb_true_iff in H. destruct H as [H1 H2]. apply Z.leb_le in H1.
  exact (tiles_from_spec rs lo hi H1 H2).
Qed.

(** and the modelled formulas pass it (so the check is not stricter than the models) *)
Example tiling_examples :
  is_tiling (ranges_ceil 7 10) 0 10 = true /\ is_tiling (ranges_prop 5 176) 0 176 = true /\
  is_tiling (ranges_argb_to_nrgba 5 3) 0 3 = true /\ is_tiling (ranges_hashchain 4 160000) 1 159999 = true /\
  is_tiling (ranges_compute_alphas 7 4 10) 0 10 = true /\ is_tiling [(0, 3); (4, 10)] 0 10 = false.
Proof. vm_compute. repeat split. Qed.

(** clipped, empty and inverted ranges; all rows to the last worker; the break *)
Example ranges_ceil_5_13 : ranges_ceil 5 13 = [(0, 3); (3, 6); (6, 9); (9, 12); (12, 13)].
Proof. reflexivity. Qed.
Example ranges_ceil_7_10 :
  ranges_ceil 7 10 = [(0, 2); (2, 4); (4, 6); (6, 8); (8, 10); (10, 10); (12, 10)].
Proof. reflexivity. Qed.
Example ranges_argb_5_3 : ranges_argb_to_nrgba 5 3 = [(0, 0); (0, 0); (0, 0); (0, 0); (0, 3)].
Proof. reflexivity. Qed.
Example ranges_alphas_break : ranges_compute_alphas 7 4 10 = [(0, 2); (2, 4); (4, 6); (6, 8); (8, 10)].
Proof. reflexivity. Qed.
Example shuffle_example : Shuffle (map indices [(0, 2); (2, 3)]) [2; 0; 1].
Proof.
  cbn. apply (Shuffle_pick [[0; 1]] 2 [] []). apply (Shuffle_pick [] 0 [1] [[]]).
  apply (Shuffle_pick [] 1 [] [[]]). constructor. repeat constructor.
Qed.

Definition algorithm_choice_independent : Prop :=
  forall n1 n2, 1 <= n1 -> 1 <= n2 ->
    (forall size lowEffort, hashchain_uses_parallel n1 size lowEffort = hashchain_uses_parallel n2 size lowEffort) /\
    (forall mbH method doSearch, encodeframe_uses_parallel n1 mbH method doSearch = encodeframe_uses_parallel n2 mbH method doSearch).

Theorem algorithm_choice_independent_holds : algorithm_choice_independent.
Proof. intros n1 n2 _ _. split; intros; reflexivity. Qed.

Theorem algorithm_choice_is_by_size_and_method : forall n,
  (forall size lowEffort, hashchain_uses_parallel n size lowEffort = hashchain_uses_parallel_fixed size lowEffort) /\
  (forall mbH method doSearch, encodeframe_uses_parallel n mbH method doSearch = encodeframe_uses_parallel_fixed mbH method doSearch).
Proof. intros n. split; intros; reflexivity. Qed.
