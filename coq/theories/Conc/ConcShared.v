(** Shared by the L1, L2 and detailed row-synchronisation proofs: list update, sums,
    unique keys, runs of a partial step function, the waitFor automaton. *)
From Coq Require Import List Arith Lia Bool.
From Webp Require Import Conc.ConcRowSync Conc.ConcDetailed.
From Webp Require Conc.ConcWaitSignal.
From Webp Require Import Base.ListFacts.
Import ListNotations.

Lemma set_nth_length {A} (l : list A) i v : length (set_nth l i v) = length l.
Proof. revert i; induction l as [|h tl IH]; intros [|i]; cbn; auto. Qed.

Lemma set_nth_eq {A} (l : list A) i v : i < length l -> nth_error (set_nth l i v) i = Some v.
Proof. revert i; induction l as [|h tl IH]; intros [|i] Hi; cbn in *; try lia; auto. apply IH; lia. Qed.

Lemma set_nth_neq {A} (l : list A) i j v : i <> j -> nth_error (set_nth l i v) j = nth_error l j.
Proof. revert i j; induction l as [|h tl IH]; intros [|i] [|j] Hij; cbn; auto; try lia. Qed.

Lemma set_nth_inv {A} (l : list A) i v j a :
  nth_error (set_nth l i v) j = Some a -> (j = i /\ a = v) \/ (j <> i /\ nth_error l j = Some a).
Proof.
  intros H. destruct (Nat.eq_dec i j) as [<-|Hne].
  - left. pose proof (nth_error_lt _ _ _ H) as Hi. rewrite set_nth_length in Hi.
    rewrite set_nth_eq in H by exact Hi. split; congruence.
  - right. rewrite set_nth_neq in H by exact Hne. split; [congruence|exact H].
Qed.

Lemma map_set_nth {A B} (g : A -> B) (l : list A) i v : map g (set_nth l i v) = set_nth (map g l) i (g v).
Proof. revert i; induction l as [|h tl IH]; intros [|i]; cbn; auto. now rewrite IH. Qed.

Lemma set_nth_same {A} (l : list A) i a : nth_error l i = Some a -> set_nth l i a = l.
Proof.
  revert i; induction l as [|h tl IH]; intros [|i] H; cbn in *; try discriminate.
  - inversion H; reflexivity.
  - now rewrite IH.
Qed.

Lemma map_set_nth_same {A B} (g : A -> B) (l : list A) i a a' :
  nth_error l i = Some a -> g a' = g a -> map g (set_nth l i a') = map g l.
Proof.
  intros H E. rewrite map_set_nth, E. apply set_nth_same. rewrite nth_error_map, H. reflexivity.
Qed.

Lemma nth_all_or {A} (l : list A) (Q : Prop) (P : A -> Prop) :
  (forall i a, nth_error l i = Some a -> Q \/ P a) -> Q \/ (forall i a, nth_error l i = Some a -> P a).
Proof.
  induction l as [|h tl IH]; intros H; [right; intros [|i] a Hi; discriminate|].
  destruct (H 0 h eq_refl) as [q|p]; [now left|].
  destruct IH as [q|Hall]; [intros i a Hi; exact (H (S i) a Hi)|now left|right].
  intros [|i] a Hi; [inversion Hi; subst; exact p|exact (Hall i a Hi)].
Qed.

(** the two model copies of [set_nth] are the same term *)
Lemma set_nth_W {A} : @ConcWaitSignal.set_nth A = @set_nth A.
Proof. reflexivity. Qed.

Lemma upd1_eq {A} (g : nat -> A) k v : upd1 g k v k = v.
Proof. unfold upd1. now rewrite Nat.eqb_refl. Qed.

Lemma upd1_neq {A} (g : nat -> A) k v i : i <> k -> upd1 g k v i = g i.
Proof. unfold upd1. intros H. apply Nat.eqb_neq in H. now rewrite H. Qed.

Definition sumg {A} (g : A -> nat) (l : list A) : nat := list_sum (map g l).

Lemma sumg_cons {A} (g : A -> nat) a l : sumg g (a :: l) = g a + sumg g l.
Proof. reflexivity. Qed.

Lemma sumg_set_nth {A} (g : A -> nat) l i w w' : nth_error l i = Some w ->
  sumg g (set_nth l i w') + g w = sumg g l + g w'.
Proof.
  revert i; induction l as [|h tl IH]; intros [|i] H; cbn [set_nth nth_error] in *; try discriminate;
    rewrite !sumg_cons.
  - inversion H; subst. lia.
  - specialize (IH i H). lia.
Qed.

Lemma sumg_ge {A} (g : A -> nat) l i w : nth_error l i = Some w -> g w <= sumg g l.
Proof.
  revert i; induction l as [|h tl IH]; intros [|i] H; cbn [nth_error] in *; try discriminate; rewrite sumg_cons.
  - inversion H; subst. lia.
  - specialize (IH i H). lia.
Qed.

Lemma sumg_map {A B} (g : B -> nat) (h : A -> B) l : sumg g (map h l) = sumg (fun a => g (h a)) l.
Proof. unfold sumg. now rewrite map_map. Qed.

Lemma sumg_ext {A} (g g' : A -> nat) l : (forall a, g a = g' a) -> sumg g l = sumg g' l.
Proof. intros H. unfold sumg. f_equal. apply map_ext. exact H. Qed.

Lemma sumg_le {A} (g g' : A -> nat) c l : (forall a, g a <= g' a + c) -> sumg g l <= sumg g' l + c * length l.
Proof.
  intros H. induction l as [|a l IH]; [cbn; lia|]. rewrite !sumg_cons. cbn [length]. specialize (H a). lia.
Qed.

Lemma sumg_bound {A} (g : A -> nat) c l : (forall a, g a <= c) -> sumg g l <= c * length l.
Proof.
  intros H. induction l as [|a l IH]; [cbn; lia|]. rewrite sumg_cons. cbn [length]. specialize (H a). lia.
Qed.

Lemma sumg_repeat {A} (g : A -> nat) a n : sumg g (repeat a n) = n * g a.
Proof. induction n as [|n IH]; [reflexivity|]. cbn [repeat]. rewrite sumg_cons, IH. lia. Qed.

Fixpoint sumf (g : nat -> nat) (k : nat) : nat :=
  match k with 0 => 0 | S k' => sumf g k' + g k' end.

Lemma sumf_upd_other g y v k : k <= y -> sumf (upd1 g y v) k = sumf g k.
Proof.
  induction k as [|k IH]; intros Hk; cbn [sumf]; [reflexivity|].
  rewrite IH, upd1_neq by lia. reflexivity.
Qed.

Lemma sumf_upd1_lt g y v k : y < k -> sumf (upd1 g y v) k + g y = sumf g k + v.
Proof.
  induction k as [|k IH]; intros Hy; [lia|]. cbn [sumf].
  destruct (Nat.eq_dec y k) as [->|Hne].
  - rewrite upd1_eq, sumf_upd_other by lia. lia.
  - rewrite (upd1_neq g y v k) by lia. specialize (IH ltac:(lia)). lia.
Qed.

Lemma sumf_le g k b : (forall y, g y <= b) -> sumf g k <= k * b.
Proof. intros H. induction k as [|k IH]; cbn [sumf]; [lia|]. specialize (H k). lia. Qed.

Definition uniq {A K} (key : A -> option K) (l : list A) : Prop :=
  forall i j a b k, nth_error l i = Some a -> nth_error l j = Some b ->
    key a = Some k -> key b = Some k -> i = j.

Lemma uniq_set_nth {A K} (key : A -> option K) l i w w' :
  uniq key l -> nth_error l i = Some w ->
  (forall k, key w' = Some k ->
     key w = Some k \/ forall j b, nth_error l j = Some b -> key b <> Some k) ->
  uniq key (set_nth l i w').
Proof.
  intros Hu Hw Hk.
  assert (Hget : forall m wm k, nth_error (set_nth l i w') m = Some wm -> key wm = Some k ->
             (exists wm0, nth_error l m = Some wm0 /\ key wm0 = Some k) \/
             (m = i /\ forall j b, nth_error l j = Some b -> key b <> Some k)).
  { intros m wm k Hm Hkm. destruct (set_nth_inv _ _ _ _ _ Hm) as [[-> ->]|[_ Hm0]].
    - destruct (Hk k Hkm) as [Hold|Hfresh]; [left; exists w; auto|right; auto].
    - left. exists wm. auto. }
  intros j1 j2 a b k H1 H2 K1 K2.
  destruct (Hget j1 a k H1 K1) as [(a0 & A0 & KA)|[-> Hfresh]];
    destruct (Hget j2 b k H2 K2) as [(b0 & B0 & KB)|[-> Hfresh']]; try reflexivity.
  - exact (Hu j1 j2 a0 b0 k A0 B0 KA KB).
  - exfalso. exact (Hfresh' j1 a0 A0 KA).
  - exfalso. exact (Hfresh j2 b0 B0 KB).
Qed.

Lemma uniq_map {A K} (key : A -> option K) (h : A -> A) l :
  (forall a, key (h a) = key a) -> uniq key l -> uniq key (map h l).
Proof.
  intros Hh Hu i j a b k Hi Hj Ka Kb.
  destruct (nth_error_map_inv _ _ _ _ Hi) as (a0 & Hi0 & ->).
  destruct (nth_error_map_inv _ _ _ _ Hj) as (b0 & Hj0 & ->).
  rewrite Hh in Ka, Kb. exact (Hu i j a0 b0 k Hi0 Hj0 Ka Kb).
Qed.

(** the [run] functions of the three layers are convertible with this fold *)
Section ORun.
  Variables (S L : Type) (step : S -> L -> option S).

  Fixpoint orun (s : S) (sched : list L) : option S :=
    match sched with
    | [] => Some s
    | l :: rest => match step s l with Some s' => orun s' rest | None => None end
    end.

  Lemma orun_invariant (I : S -> Prop) :
    (forall s l s', I s -> step s l = Some s' -> I s') ->
    forall sched s s', I s -> orun s sched = Some s' -> I s'.
  Proof.
    intros Hstep. induction sched as [|l rest IH]; intros s s' H0 Hr; cbn [orun] in Hr.
    - inversion Hr; subst; exact H0.
    - destruct (step s l) as [s1|] eqn:Hs; [|discriminate]. exact (IH s1 s' (Hstep s l s1 H0 Hs) Hr).
  Qed.

  Lemma orun_app s l1 l2 s1 : orun s l1 = Some s1 -> orun s (l1 ++ l2) = orun s1 l2.
  Proof.
    revert s. induction l1 as [|l l1 IH]; intros s H; cbn [orun app] in *.
    - inversion H; reflexivity.
    - destruct (step s l) as [s2|]; [|discriminate]. exact (IH s2 H).
  Qed.

  Lemma orun_snoc s sched l s' s'' : orun s sched = Some s' -> step s' l = Some s'' ->
    orun s (sched ++ [l]) = Some s''.
  Proof. intros H Hs. rewrite (orun_app _ _ _ _ H). cbn [orun]. now rewrite Hs. Qed.

  Lemma orun_potential (I : S -> Prop) (f g : S -> nat) :
    (forall s l s', I s -> step s l = Some s' -> I s' /\ g s' + 1 + f s <= f s' + g s) ->
    forall sched s s', I s -> orun s sched = Some s' ->
    I s' /\ length sched + g s' + f s <= f s' + g s.
  Proof.
    intros Hstep. induction sched as [|l rest IH]; intros s s' H0 Hr; cbn [orun] in Hr.
    - inversion Hr; subst. split; [exact H0|cbn; lia].
    - destruct (step s l) as [s1|] eqn:Hs; [|discriminate].
      destruct (Hstep s l s1 H0 Hs) as [H1 Hle1]. destruct (IH s1 s' H1 Hr) as [H' Hle].
      split; [exact H'|]. cbn [length]. lia.
  Qed.
End ORun.

(** [wait_step] and the waiter part of [step_w], for any mutex-owner type; returns the
    next phase ([None]: the call returns), the counter and the mutex *)
Definition counted (ph : wph) : bool := match ph with PFast | PInc => false | _ => true end.
Definition holding (ph : wph) : bool := match ph with PCheck | PWaitCall | PUnlock => true | _ => false end.
Definition asleepish (ph : wph) : bool := match ph with PWaitCall | PSleep => true | _ => false end.
Definition passed (ph : wph) : bool := match ph with PUnlock | PDec => true | _ => false end.

(** lowered by every step; a Broadcast lifts a sleeper from 4 to 7 *)
Definition wrank (ph : wph) : nat :=
  match ph with
  | PFast => 10 | PInc => 9 | PLock => 8 | PWoken => 7 | PCheck => 6
  | PWaitCall => 5 | PSleep => 4 | PUnlock => 3 | PDec => 2
  end.

Definition cnt (o : option wph) : nat := match o with Some ph => if counted ph then 1 else 0 | None => 0 end.
Definition hld (o : option wph) : bool := match o with Some ph => holding ph | None => false end.

Definition wstep {O} (d nw : nat) (m : option O) (me : O) (nd : nat) (ph : wph)
  : option (option wph * nat * option O) :=
  match ph with
  | PFast => Some (if nd <=? d then None else Some PInc, nw, m)
  | PInc => Some (Some PLock, S nw, m)
  | PLock | PWoken => match m with None => Some (Some PCheck, nw, Some me) | Some _ => None end
  | PCheck => Some (Some (if d <? nd then PWaitCall else PUnlock), nw, m)
  | PWaitCall => Some (Some PSleep, nw, None)
  | PSleep => None
  | PUnlock => Some (Some PDec, nw, None)
  | PDec => Some (None, nw - 1, m)
  end.

Lemma wait_step_wstep d nw m me nd ph :
  wait_step d nw m me nd ph =
  match wstep d nw m me nd ph with
  | Some (Some ph', nw', m') => Some (WCont ph' nw' m')
  | Some (None, nw', m') => Some (WRet nw' m')
  | None => None
  end.
Proof.
  destruct ph; cbn [wait_step wstep]; try reflexivity.
  - destruct (nd <=? d); reflexivity.
  - destruct m; reflexivity.
  - destruct m; reflexivity.
Qed.

Definition mu_mode {O} (m m' : option O) (me : O) (H H' : Prop) : Prop :=
  (m' = m /\ (H' <-> H)) \/ (m = None /\ m' = Some me /\ ~ H /\ H') \/ (H /\ m' = None /\ ~ H').

Lemma mu_mode_same {O} (m : option O) me (H H' : Prop) : (H' <-> H) -> mu_mode m m me H H'.
Proof. left. auto. Qed.

Lemma mu_mode_iff {O} (m m' : option O) me (H1 H1' H2 H2' : Prop) :
  (H2 <-> H1) -> (H2' <-> H1') -> mu_mode m m' me H1 H1' -> mu_mode m m' me H2 H2'.
Proof. unfold mu_mode. tauto. Qed.

Section WStep.
  Context {O : Type} (d nw : nat) (m : option O) (me : O) (nd : nat) (ph : wph).
  Context (o' : option wph) (nw' : nat) (m' : option O).
  Hypothesis Hstep : wstep d nw m me nd ph = Some (o', nw', m').

  Ltac wstep_cases :=
    destruct ph; cbn [wstep] in Hstep;
    match type of Hstep with
    | context [nd <=? d] => destruct (nd <=? d) eqn:E
    | context [d <? nd] => destruct (d <? nd) eqn:E
    | context [match m with _ => _ end] => destruct m
    | _ => idtac
    end; inversion Hstep; subst.

  Lemma wstep_count : (ph = PDec -> 1 <= nw) -> nw' + cnt (Some ph) = nw + cnt o'.
  Proof. intros Hdec. wstep_cases; cbn; try lia. specialize (Hdec eq_refl). lia. Qed.

  Lemma wstep_mutex : mu_mode m m' me (holding ph = true) (hld o' = true).
  Proof. unfold mu_mode. wstep_cases; cbn; intuition congruence. Qed.

  Lemma wstep_passed : (passed ph = true -> nd <= d) ->
    match o' with Some ph' => passed ph' = true -> nd <= d | None => nd <= d end.
  Proof.
    intros Hp. wstep_cases; cbn; try discriminate; try (intros _); try (apply Hp; reflexivity).
    - apply Nat.leb_le. exact E.
    - apply Nat.ltb_ge. exact E.
  Qed.

  Lemma wstep_asleep :
    match o' with
    | Some ph' => asleepish ph' = true -> (ph' = PWaitCall /\ d < nd) \/ (ph' = PSleep /\ ph = PWaitCall)
    | None => True
    end.
  Proof.
    wstep_cases; cbn; try discriminate; auto.
    intros _. left. split; [reflexivity|apply Nat.ltb_lt; exact E].
  Qed.

  Lemma wstep_rank : match o' with Some ph' => wrank ph' + 1 <= wrank ph | None => 2 <= wrank ph end.
  Proof. wstep_cases; cbn; lia. Qed.
End WStep.

Lemma wstep_enabled {O} d nw (m : option O) me nd ph :
  ph <> PSleep -> (ph = PLock \/ ph = PWoken -> m = None) -> wstep d nw m me nd ph <> None.
Proof.
  intros Hs Hm. destruct ph; cbn [wstep]; try discriminate; try congruence;
    rewrite Hm by auto; discriminate.
Qed.

Lemma mutex_mode {O} (m m' : option O) (me : O) (H H' : Prop) :
  (H <-> m = Some me) -> mu_mode m m' me H H' ->
  (H' <-> m' = Some me) /\ (forall o, o <> me -> (m' = Some o <-> m = Some o)).
Proof.
  intros Hh [[-> HH]|[(-> & -> & Hn & Hy)|(Hy & -> & Hn)]].
  - split; [tauto|tauto].
  - split; [tauto|]. intros o Ho. split; intros E; [inversion E; congruence|discriminate].
  - apply Hh in Hy. subst m. split; [split; [tauto|discriminate]|].
    intros o Ho. split; intros E; [discriminate|inversion E; congruence].
Qed.
