(** C10 / C12 — animation.DecodeFramesParallel: a work queue of frame indices drained by
    [min n items] workers (n = GOMAXPROCS), results collected from a channel in ARRIVAL
    order (any permutation of the items: it depends on the number of workers and on the
    schedule).  Per item the decoder returns an image or an error.  Modelled exactly:
    what the collecting loop does with each result, in its two versions.

    [collect] is the loop of the current code (fix 8f1f7ab): an image is stored in its own
    slot, and of the errors the one of the LOWEST frame index is kept.  Proved: the decoded
    frames and the returned error do not depend on the arrival order, hence not on the
    worker count or the schedule; the error is that of the lowest failing frame.
    [pinned_collect] is the loop of the pinned tree (first error to ARRIVE): its frames are
    order-independent too, its error is nil iff no frame fails and order-independent when
    all failing frames report the same error, but REFUTED in general
    ([pinned_queue_first_error_order_independent_refuted]: two frames, different errors). *)
From Coq Require Import List ZArith Lia Bool Permutation.
From Webp Require Import Conc.ConcPartition Conc.ConcPartitionProofs.
Import ListNotations.
Open Scope Z_scope.

Section Queue.
  Variables A E : Type.
  Variable dec : Z -> A + E.                 (* FrameDecoderFunc on frame i *)

  Definition store (frames : list (option A)) (i : Z) : list (option A) :=
    match dec i with inl v => upd frames (Z.to_nat i) (Some v) | inr _ => frames end.

  (** the collecting loop of the pinned code: [firstErr] = first error to ARRIVE *)
  Definition pinned_collect (arrival : list Z) (frames0 : list (option A)) : list (option A) * option E :=
    fold_left (fun st i =>
                 match dec i with
                 | inl v => (upd (fst st) (Z.to_nat i) (Some v), snd st)
                 | inr e => (fst st, match snd st with None => Some e | Some e0 => Some e0 end)
                 end) arrival (frames0, None).

  (** the repaired loop: keep the error of the lowest frame index *)
  Definition collect (arrival : list Z) (frames0 : list (option A)) : list (option A) * option (Z * E) :=
    fold_left (fun st i =>
                 match dec i with
                 | inl v => (upd (fst st) (Z.to_nat i) (Some v), snd st)
                 | inr e => (fst st, match snd st with
                                     | None => Some (i, e)
                                     | Some (j, e0) => if i <? j then Some (i, e) else Some (j, e0)
                                     end)
                 end) arrival (frames0, None).

  Definition slot (i : Z) : option A := match dec i with inl v => Some v | inr _ => None end.
  Definition fails (i : Z) : Prop := exists e, dec i = inr e.

  (** whatever the loop does with the errors, its frames are the stores of the good items *)
  Lemma collect_frames {X} (h : X -> Z -> E -> X) arrival : forall frames0 (err0 : X),
    fst (fold_left (fun st i =>
                 match dec i with
                 | inl v => (upd (fst st) (Z.to_nat i) (Some v), snd st)
                 | inr e => (fst st, h (snd st) i e)
                 end) arrival (frames0, err0)) = fold_left store arrival frames0.
  Proof.
    induction arrival as [|i l IH]; intros fr er; cbn [fold_left]; [reflexivity|].
    unfold store at 2. destruct (dec i) as [v|e]; cbn [fst snd]; apply IH.
  Qed.

  (** a store is an in-place step: a decoded frame replaces the slot, an error leaves it *)
  Lemma store_inplace arrival : forall fr,
    fold_left store arrival fr =
    run_inplace (fun i old => match slot i with Some v => Some v | None => old end) None arrival fr.
  Proof.
    unfold run_inplace. induction arrival as [|i l IH]; intros fr; cbn [fold_left]; [reflexivity|].
    rewrite <- IH. f_equal. unfold store, slot.
    destruct (dec i); [reflexivity|symmetry; apply upd_nth_same].
  Qed.

  Lemma store_frames total arrival : Permutation arrival (zrange total) ->
    fold_left store arrival (repeat None (Z.to_nat total)) = map slot (zrange total).
  Proof.
    intros Hperm. rewrite store_inplace.
    rewrite (run_inplace_perm _ _ total) by (assumption || apply repeat_length).
    apply map_ext. intros i. rewrite nth_repeat. destruct (slot i); reflexivity.
  Qed.

  (** the decoded frames do not depend on the arrival order, the worker count or the schedule *)
  Theorem pinned_queue_frames_independent : forall total arrival,
    Permutation arrival (zrange total) ->
    fst (pinned_collect arrival (repeat None (Z.to_nat total))) = map slot (zrange total).
  Proof.
    intros total arrival Hperm. rewrite <- (store_frames total arrival Hperm).
    exact (collect_frames (fun acc _ e => match acc with None => Some e | Some e0 => Some e0 end) _ _ _).
  Qed.

  (** the returned error of the pinned loop: that of some failing frame, if any *)
  Lemma pinned_err_spec l fr :
    match snd (pinned_collect l fr) with
    | None => forall i, In i l -> ~ fails i
    | Some e => exists i, In i l /\ dec i = inr e
    end.
  Proof.
    unfold pinned_collect. induction l as [|i l IH] using rev_ind; [intros i []|].
    rewrite fold_left_app. cbn [fold_left].
    destruct (fold_left _ l (fr, None)) as [f acc]. cbn [fst snd] in *.
    destruct (dec i) as [v|e] eqn:Ed; cbn [snd]; destruct acc as [e0|].
    - destruct IH as (k & Hk & Hd). exists k. split; [apply in_or_app; now left|exact Hd].
    - intros k Hk. apply in_app_or in Hk. destruct Hk as [Hk|[<-|[]]]; [exact (IH k Hk)|].
      intros (e & He). congruence.
    - destruct IH as (k & Hk & Hd). exists k. split; [apply in_or_app; now left|exact Hd].
    - exists i. split; [apply in_or_app; right; now left|exact Ed].
  Qed.

  (** nil iff no frame fails; otherwise the error of some failing frame *)
  Theorem pinned_queue_error_nil_iff : forall total arrival fr, Permutation arrival (zrange total) ->
    (snd (pinned_collect arrival fr) = None <-> forall i, 0 <= i < total -> ~ fails i).
  Proof.
    intros total arrival fr Hperm. pose proof (perm_zrange_In _ _ Hperm) as Hin.
    pose proof (pinned_err_spec arrival fr) as H. destruct (snd (pinned_collect arrival fr)) as [e|].
    - destruct H as (k & Hk & Hd). split; [discriminate|]. intros H. exfalso.
      apply (H k); [apply Hin; exact Hk|exists e; exact Hd].
    - split; [intros _ i Hi; apply H, Hin; exact Hi|reflexivity].
  Qed.

  (** order-independent when every failing frame reports the same error (e.g. one corrupt frame) *)
  Theorem pinned_queue_error_independent_if_unique : forall total arr1 arr2 fr1 fr2 e0,
    Permutation arr1 (zrange total) -> Permutation arr2 (zrange total) ->
    (forall i e, 0 <= i < total -> dec i = inr e -> e = e0) ->
    snd (pinned_collect arr1 fr1) = snd (pinned_collect arr2 fr2).
  Proof.
    intros total arr1 arr2 fr1 fr2 e0 P1 P2 Huniq.
    (* an error returned is e0 and witnesses a failing frame; nil says there is none *)
    assert (S : forall arr fr e, Permutation arr (zrange total) -> snd (pinned_collect arr fr) = Some e ->
              e = e0 /\ exists i, 0 <= i < total /\ fails i).
    { intros arr fr e P H. pose proof (pinned_err_spec arr fr) as Sp. rewrite H in Sp.
      destruct Sp as (i & Hi & Hd).
      apply (perm_zrange_In _ _ P) in Hi. split; [exact (Huniq i e Hi Hd)|exists i; split; [exact Hi|exists e; exact Hd]]. }
    assert (N : forall arr fr, Permutation arr (zrange total) -> snd (pinned_collect arr fr) = None ->
              forall i, 0 <= i < total -> ~ fails i)
      by (intros arr fr P; apply pinned_queue_error_nil_iff; exact P).
    destruct (snd (pinned_collect arr1 fr1)) as [e1|] eqn:E1;
      destruct (snd (pinned_collect arr2 fr2)) as [e2|] eqn:E2; [| | |reflexivity].
    - destruct (S _ _ _ P1 E1) as [-> _]. destruct (S _ _ _ P2 E2) as [-> _]. reflexivity.
    - destruct (S _ _ _ P1 E1) as (_ & i & Hi & Hf). destruct (N _ _ P2 E2 i Hi Hf).
    - destruct (S _ _ _ P2 E2) as (_ & i & Hi & Hf). destruct (N _ _ P1 E1 i Hi Hf).
  Qed.

  (** the repaired rule: the error of the lowest failing index, whatever the arrival order *)
  Definition is_min_fail (total i : Z) (e : E) : Prop :=
    0 <= i < total /\ dec i = inr e /\ forall j, 0 <= j < i -> ~ fails j.

  (** the loop keeps the failing item of least index among those seen *)
  Lemma collect_min l fr :
    match snd (collect l fr) with
    | None => Forall (fun i => ~ fails i) l
    | Some (j, e) => In j l /\ dec j = inr e /\ Forall (fun i => fails i -> j <= i) l
    end.
  Proof.
    unfold collect. induction l as [|i l IH] using rev_ind; [constructor|].
    rewrite fold_left_app. cbn [fold_left].
    destruct (fold_left _ l (fr, None)) as [f acc]. cbn [fst snd] in *.
    destruct (dec i) as [v|e] eqn:Ed; cbn [snd].
    - assert (Hi : ~ fails i) by (intros (e & He); congruence).
      destruct acc as [[j e]|].
      + destruct IH as (H1 & H2 & H3). split; [apply in_or_app; now left|]. split; [exact H2|].
        apply Forall_app. split; [exact H3|]. repeat constructor. intros Hf. destruct (Hi Hf).
      + apply Forall_app. split; [exact IH|]. repeat constructor. exact Hi.
    - destruct acc as [[j e0]|].
      + destruct IH as (H1 & H2 & H3). destruct (i <? j) eqn:El.
        * split; [apply in_or_app; right; now left|]. split; [exact Ed|].
          apply Forall_app. split; [|repeat constructor; lia].
          apply (Forall_impl _ (P := fun k => fails k -> j <= k)); [intros k Hk Hf; specialize (Hk Hf); lia|exact H3].
        * split; [apply in_or_app; now left|]. split; [exact H2|].
          apply Forall_app. split; [exact H3|repeat constructor; lia].
      + split; [apply in_or_app; right; now left|]. split; [exact Ed|].
        apply Forall_app. split; [|repeat constructor; lia].
        apply (Forall_impl _ (P := fun k => ~ fails k)); [intros k Hk Hf; destruct (Hk Hf)|exact IH].
  Qed.

  Theorem queue_min_index_error_independent : forall total arrival fr,
    Permutation arrival (zrange total) ->
    match snd (collect arrival fr) with
    | None => forall i, 0 <= i < total -> ~ fails i
    | Some (j, e) => is_min_fail total j e
    end.
  Proof.
    intros total arrival fr Hperm. pose proof (perm_zrange_In _ _ Hperm) as Hin.
    pose proof (collect_min arrival fr) as H. destruct (snd (collect arrival fr)) as [[j e]|].
    - destruct H as (H1 & H2 & H3). rewrite Forall_forall in H3. apply Hin in H1.
      split; [exact H1|]. split; [exact H2|]. intros k Hk Hf.
      specialize (H3 k (proj2 (Hin k) ltac:(lia)) Hf). lia.
    - rewrite Forall_forall in H. intros i Hi. apply H, Hin. exact Hi.
  Qed.

  Theorem queue_frames_independent : forall total arrival,
    Permutation arrival (zrange total) ->
    fst (collect arrival (repeat None (Z.to_nat total))) = map slot (zrange total).
  Proof.
    intros total arrival Hperm. rewrite <- (store_frames total arrival Hperm).
    exact (collect_frames (fun acc i e => match acc with
                                          | None => Some (i, e)
                                          | Some (j, e0) => if i <? j then Some (i, e) else Some (j, e0)
                                          end) _ _ _).
  Qed.

  Lemma is_min_fail_unique total j1 e1 j2 e2 :
    is_min_fail total j1 e1 -> is_min_fail total j2 e2 -> (j1, e1) = (j2, e2).
  Proof.
    intros (B1 & D1 & M1) (B2 & D2 & M2).
    assert (j1 = j2).
    { destruct (Z.lt_trichotomy j1 j2) as [H|[H|H]]; [|exact H|].
      - destruct (M2 j1 ltac:(lia)). exists e1. exact D1.
      - destruct (M1 j2 ltac:(lia)). exists e2. exact D2. }
    subst j2. rewrite D1 in D2. inversion D2. reflexivity.
  Qed.

  (** frames AND error are the same for any two arrival orders *)
  Theorem queue_result_order_independent : forall total arr1 arr2,
    Permutation arr1 (zrange total) -> Permutation arr2 (zrange total) ->
    collect arr1 (repeat None (Z.to_nat total)) = collect arr2 (repeat None (Z.to_nat total)).
  Proof.
    intros total arr1 arr2 P1 P2.
    pose proof (queue_frames_independent total arr1 P1) as F1.
    pose proof (queue_frames_independent total arr2 P2) as F2.
    pose proof (queue_min_index_error_independent total arr1 (repeat None (Z.to_nat total)) P1) as E1.
    pose proof (queue_min_index_error_independent total arr2 (repeat None (Z.to_nat total)) P2) as E2.
    destruct (collect arr1 _) as [f1 e1]. destruct (collect arr2 _) as [f2 e2]. cbn [fst snd] in *.
    f_equal; [congruence|].
    destruct e1 as [[j1 x1]|]; destruct e2 as [[j2 x2]|]; try reflexivity.
    - f_equal. exact (is_min_fail_unique total j1 x1 j2 x2 E1 E2).
    - destruct E1 as (B1 & D1 & _). destruct (E2 j1 B1). exists x1. exact D1.
    - destruct E2 as (B2 & D2 & _). destruct (E1 j2 B2). exists x2. exact D2.
  Qed.

End Queue.

(** Full statement for the pinned rule: the returned error does not depend on the arrival
    order.  It is FALSE as soon as two frames fail with different errors. *)
Definition pinned_queue_first_error_order_independent : Prop :=
  forall (A E : Type) (dec : Z -> A + E) total arr1 arr2 fr,
    Permutation arr1 (zrange total) -> Permutation arr2 (zrange total) ->
    snd (pinned_collect A E dec arr1 fr) = snd (pinned_collect A E dec arr2 fr).

Theorem pinned_queue_first_error_order_independent_refuted : ~ pinned_queue_first_error_order_independent.
Proof.
  intros H.
  specialize (H unit bool (fun i => if i =? 1 then inr true else if i =? 3 then inr false else inl tt)
                4 [0; 1; 2; 3] [3; 2; 1; 0] []).
  assert (P1 : Permutation [0; 1; 2; 3] (zrange 4)) by (vm_compute; apply Permutation_refl).
  assert (P2 : Permutation [3; 2; 1; 0] (zrange 4)).
  { vm_compute. apply Permutation_sym. change [3; 2; 1; 0] with (rev [0; 1; 2; 3]). apply Permutation_rev. }
  specialize (H P1 P2). vm_compute in H. discriminate.
Qed.

(** not vacuous: 4 frames, frame 2 corrupt, results arriving in the order 3,0,2,1 *)
Example queue_example :
  pinned_collect unit bool (fun i => if i =? 2 then inr true else inl tt) [3; 0; 2; 1] (repeat None 4)
  = ([Some tt; Some tt; None; Some tt], Some true).
Proof. reflexivity. Qed.
