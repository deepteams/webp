(** C10 — sync.Pool shared by concurrent public-API calls, composed with C11's pool model
    (PoolModel.v: field classes, reset completeness, frame condition).

    Any number of goroutines; each call is  Get (the runtime may first drop any pooled
    objects, then hands out any pooled object or none) -> acquire path (gate, reuse or
    fresh) -> body -> release -> Put (the runtime may keep the object or not).  Events of
    different goroutines interleave arbitrarily; between its Get and its Put a goroutine
    holds its object, which is in neither the pool nor another goroutine's hands (objects
    carry identities so that this is a theorem).  Because of that the body of a call acts
    on its own object only, and is modelled as one step at Put time.

    Under the hypotheses of C11's [history_independent] (reset completeness — a regenerated,
    machine-checked fact per pooled type —, the frame condition, the dimension gate
    condition and the two ConstZero conditions) every call made in any such interleaving
    returns what it returns on a fresh object in a fresh process. *)
From Coq Require Import String List Bool Arith Lia.
From Webp Require Import Conc.PoolModel.
From Webp Require Import Base.ListFacts.
Import ListNotations.
Open Scope list_scope.

Section Share.
  Variables (Args Out Val : Type).
  Variable Shape : Type.
  Variable shape : Args -> Val -> Shape.
  Variable fields : list string.
  Variable cls : list (string * fclass).
  Variable assigned released : list string.
  Variable init : Args -> string -> Val.
  Variable nilv zerov : Val.
  Variable gate : Args -> obj Val -> bool.
  Variable run : Args -> obj Val -> Out * obj Val.

  Hypothesis Hcomplete : reset_complete_b fields cls assigned released = true.
  Hypothesis Hframe : frame_condition Args Out Val Shape shape fields cls run.
  Hypothesis Hdim : dimension_gate_condition Args Val Shape shape fields cls assigned init gate.
  Hypothesis Hcz_init : forall a, czero_inv Val fields cls zerov (fresh Args Val init a).
  Hypothesis Hcz_run : forall a o, czero_inv Val fields cls zerov o -> czero_inv Val fields cls zerov (snd (run a o)).

  Notation obj := (obj Val).
  Notation czero := (czero_inv Val fields cls zerov).
  Notation fresh := (fresh Args Val init).
  Notation acquire := (acquire Args Val assigned init gate).
  Notation release := (release Val released nilv).

  Definition ident := nat.

  Record holding := mkHold { h_g : nat; h_args : Args; h_id : ident; h_obj : obj }.

  Record pstate := mkP {
    pool : list (ident * obj);
    held : list holding;
    nextid : ident;
    outs : list (nat * Args * Out) }.      (* goroutine, its arguments, what the call returned *)

  Definition pinit : pstate := mkP [] [] 0 [].

  Inductive event :=
  | EGet (g : nat) (a : Args) (drops : list nat) (pick : option nat)
  | EPut (g : nat) (keep : bool).

  Definition drop_all (ds : list nat) (p : list (ident * obj)) : list (ident * obj) :=
    fold_left (fun q d => remove_nth d q) ds p.

  Definition holds (st : pstate) (g : nat) : option holding :=
    find (fun h => Nat.eqb (h_g h) g) (held st).

  (** only a fresh object takes [nextid st] and advances it; a reused one keeps its identity *)
  Definition pstep (st : pstate) (e : event) : option pstate :=
    match e with
    | EGet g a ds pk =>
        match holds st g with
        | Some _ => None                                   (* one call at a time per goroutine *)
        | None =>
            let p1 := drop_all ds (pool st) in
            let got := match pk with Some i => nth_error p1 i | None => None end in
            let p2 := match pk, got with Some i, Some _ => remove_nth i p1 | _, _ => p1 end in
            let o := acquire a (option_map snd got) in
            (* the identity survives only if the pooled object passes the gate and is reused *)
            let reused := match got with Some (_, po) => gate a po | None => false end in
            let id := match got with Some (pid, _) => if reused then pid else nextid st | None => nextid st end in
            Some (mkP p2 (mkHold g a id o :: held st) (if reused then nextid st else S (nextid st)) (outs st))
        end
    | EPut g keep =>
        match holds st g with
        | None => None
        | Some h =>
            let '(out, o') := run (h_args h) (h_obj h) in
            let rest := filter (fun h' => negb (Nat.eqb (h_g h') g)) (held st) in
            Some (mkP (if keep then (h_id h, release o') :: pool st else pool st) rest (nextid st)
                      (outs st ++ [(g, h_args h, out)]))
        end
    end.

  Fixpoint prun (st : pstate) (es : list event) : option pstate :=
    match es with
    | [] => Some st
    | e :: rest => match pstep st e with Some st' => prun st' rest | None => None end
    end.

  Definition all_ids (st : pstate) : list ident := map fst (pool st) ++ map h_id (held st).

  Record PInv (st : pstate) : Prop := {
    v_pool : Forall (fun io => czero (snd io)) (pool st);
    v_held : Forall (fun h => czero (h_obj h) /\
                              fst (run (h_args h) (h_obj h)) = fst (run (h_args h) (fresh (h_args h)))) (held st);
    v_ids : NoDup (all_ids st);
    v_lt : Forall (fun i => i < nextid st) (all_ids st);
    v_g : NoDup (map h_g (held st));
    v_outs : Forall (fun gao => snd gao = fst (run (snd (fst gao)) (fresh (snd (fst gao))))) (outs st) }.

  Lemma remove_nth_NoDup {A B} (k : A -> B) n (l : list A) : NoDup (map k l) -> NoDup (map k (remove_nth n l)).
  Proof.
    revert n; induction l as [|h tl IH]; intros [|n] H; cbn in *; auto.
    - now inversion H.
    - inversion H as [|? ? Hn Hd]; subst. constructor; [|exact (IH n Hd)].
      intros Hin. exact (Hn (incl_map k (remove_nth_incl n tl) _ Hin)).
  Qed.

  Lemma drop_all_NoDup ds : forall p, NoDup (map fst p) -> NoDup (map fst (drop_all ds p)).
  Proof.
    unfold drop_all. induction ds as [|d r IH]; intros p H; cbn [fold_left]; [exact H|].
    apply IH. apply remove_nth_NoDup. exact H.
  Qed.

  Lemma remove_nth_split {A} n (l : list A) x : nth_error l n = Some x ->
    forall y, In y l -> y = x \/ In y (remove_nth n l).
  Proof.
    revert n; induction l as [|h tl IH]; intros [|n] H y Hy; cbn in *; try discriminate.
    - inversion H; subst. destruct Hy; auto.
    - destruct Hy as [<-|Hy]; [right; now left|]. destruct (IH n H y Hy); auto.
  Qed.

  Lemma remove_nth_fresh {A B} (k : A -> B) n (l : list A) x : NoDup (map k l) -> nth_error l n = Some x ->
    ~ In (k x) (map k (remove_nth n l)).
  Proof.
    revert n; induction l as [|h tl IH]; intros [|n] Hnd H; cbn in *; try discriminate.
    - inversion H; subst. now inversion Hnd.
    - inversion Hnd as [|? ? Hn Hd]; subst. intros [Heq|Hin].
      + apply Hn. rewrite Heq. apply in_map. eapply nth_error_In; eauto.
      + exact (IH n Hd H Hin).
  Qed.

  Lemma holds_In st g h : holds st g = Some h -> In h (held st) /\ h_g h = g.
  Proof.
    unfold holds. intros H. apply find_some in H. destruct H as [H1 H2]. apply Nat.eqb_eq in H2. auto.
  Qed.

  Lemma holds_None st g : holds st g = None -> ~ In g (map h_g (held st)).
  Proof.
    unfold holds. intros H Hin. apply in_map_iff in Hin. destruct Hin as (h & Hg & Hh).
    pose proof (find_none _ _ H h Hh) as Hf. cbn in Hf. rewrite Hg, Nat.eqb_refl in Hf. discriminate.
  Qed.

  Lemma filter_map_NoDup {A B} (k : A -> B) (p : A -> bool) (l : list A) :
    NoDup (map k l) -> NoDup (map k (filter p l)).
  Proof.
    induction l as [|h tl IH]; cbn; intros H; [exact H|]. inversion H as [|? ? Hn Hd]; subst.
    destruct (p h); cbn; [constructor; [|exact (IH Hd)]|exact (IH Hd)].
    intros Hin. exact (Hn (incl_map k (incl_filter p tl) _ Hin)).
  Qed.

  Lemma NoDup_map_In_inj {A B} (k : A -> B) (l : list A) x y :
    NoDup (map k l) -> In x l -> In y l -> k x = k y -> x = y.
  Proof.
    induction l as [|h tl IH]; cbn; intros Hnd Hx Hy E; [destruct Hx|].
    inversion Hnd as [|? ? Hn Hd]; subst.
    destruct Hx as [->|Hx]; destruct Hy as [->|Hy]; auto.
    - exfalso. apply Hn. rewrite E. exact (in_map k tl y Hy).
    - exfalso. apply Hn. rewrite <- E. exact (in_map k tl x Hx).
  Qed.

  Lemma pinit_inv : PInv pinit.
  Proof. constructor; cbn; constructor. Qed.

  Lemma PInv_ids st : PInv st ->
    NoDup (map fst (pool st)) /\ NoDup (map h_id (held st)) /\
    (forall x, In x (map fst (pool st)) -> ~ In x (map h_id (held st))) /\
    Forall (fun i => i < nextid st) (map fst (pool st)) /\ Forall (fun i => i < nextid st) (map h_id (held st)).
  Proof.
    intros HI. pose proof (v_ids st HI) as Hnd. pose proof (v_lt st HI) as Hlt. unfold all_ids in Hnd, Hlt.
    apply NoDup_app_iff in Hnd. apply Forall_app in Hlt. tauto.
  Qed.

  Lemma pget_inv st g a id o pool' next' :
    PInv st -> holds st g = None ->
    incl pool' (pool st) -> NoDup (map fst pool') ->
    ~ In id (map fst pool') -> ~ In id (map h_id (held st)) ->
    id < next' -> nextid st <= next' ->
    czero o -> fst (run a o) = fst (run a (fresh a)) ->
    PInv (mkP pool' (mkHold g a id o :: held st) next' (outs st)).
  Proof.
    intros HI Hh Hsub Hnd' Hid_pool Hid_held Hid_lt Hnext Hcz Hout.
    destruct (PInv_ids st HI) as (_ & HndH & Hdisj & HltP & HltH).
    pose proof (incl_map fst Hsub) as Hsubid.
    assert (Hmono : forall i, i < nextid st -> i < next') by (intros i Hi; lia).
    constructor; unfold all_ids; cbn [pool held nextid outs map h_id h_g].
    - exact (incl_Forall Hsub (v_pool st HI)).
    - constructor; [split; [exact Hcz|exact Hout]|exact (v_held st HI)].
    - apply NoDup_app_iff. split; [exact Hnd'|]. split; [constructor; [exact Hid_held|exact HndH]|].
      intros x Hx [<-|Hin]; [exact (Hid_pool Hx)|exact (Hdisj x (Hsubid x Hx) Hin)].
    - apply Forall_app. split; [|constructor; [exact Hid_lt|]].
      + exact (Forall_impl _ Hmono (incl_Forall Hsubid HltP)).
      + exact (Forall_impl _ Hmono HltH).
    - constructor; [exact (holds_None st g Hh)|exact (v_g st HI)].
    - exact (v_outs st HI).
  Qed.

  Lemma pget_fresh_inv st g a o pool' :
    PInv st -> holds st g = None -> incl pool' (pool st) -> NoDup (map fst pool') ->
    czero o -> fst (run a o) = fst (run a (fresh a)) ->
    PInv (mkP pool' (mkHold g a (nextid st) o :: held st) (S (nextid st)) (outs st)).
  Proof.
    intros HI Hh Hsub Hnd' Hcz Hout.
    destruct (PInv_ids st HI) as (_ & _ & _ & HltP & HltH). rewrite Forall_forall in HltP, HltH.
    apply pget_inv; try assumption; try lia.
    - intros Hin. exact (Nat.lt_irrefl _ (HltP _ (incl_map fst Hsub _ Hin))).
    - intros Hin. exact (Nat.lt_irrefl _ (HltH _ Hin)).
  Qed.

  Lemma pstep_inv st e st' : PInv st -> pstep st e = Some st' -> PInv st'.
  Proof.
    intros HI Hs. destruct (PInv_ids st HI) as (HndP & HndH & Hdisj & HltP & HltH).
    destruct e as [g a ds pk|g keep]; cbn [pstep] in Hs.
    - (* Get *)
      destruct (holds st g) eqn:Hh; [discriminate|]. inversion Hs; subst st'; clear Hs.
      set (p1 := drop_all ds (pool st)).
      pose proof (remove_all_incl ds (pool st) : incl p1 (pool st)) as Hsub1.
      pose proof (drop_all_NoDup ds _ HndP : NoDup (map fst p1)) as Hnd1.
      set (got := match pk with Some i => nth_error p1 i | None => None end).
      assert (Hgot : forall o, option_map snd got = Some o -> czero o).
      { destruct got as [[pid po]|] eqn:Egot; [|discriminate]. intros o [= <-].
        destruct pk as [i|]; [|discriminate]. pose proof (v_pool st HI) as Hp. rewrite Forall_forall in Hp.
        exact (Hp _ (Hsub1 _ (nth_error_In _ _ Egot))). }
      pose proof (acquire_inv Args Val fields cls assigned released init zerov gate Hcomplete Hcz_init
                    a _ Hgot) as Hcz.
      pose proof (acquire_out_independent Args Out Val Shape shape fields cls assigned released init zerov gate run
                    Hcomplete Hframe Hdim Hcz_init a _ Hgot) as Hout.
      set (o := acquire a (option_map snd got)) in *. clearbody o.
      destruct got as [[pid po]|] eqn:Egot.
      + destruct pk as [i|]; [|discriminate]. destruct (gate a po).
        * pose proof (in_map fst _ _ (Hsub1 _ (nth_error_In _ _ Egot))) as Hpid. rewrite Forall_forall in HltP.
          apply pget_inv; try assumption.
          -- exact (incl_tran (remove_nth_incl i p1) Hsub1).
          -- exact (remove_nth_NoDup fst i p1 Hnd1).
          -- exact (remove_nth_fresh fst i p1 (pid, po) Hnd1 Egot).
          -- exact (Hdisj pid Hpid).
          -- exact (HltP pid Hpid).
          -- apply Nat.le_refl.
        * apply pget_fresh_inv; try assumption.
          -- exact (incl_tran (remove_nth_incl i p1) Hsub1).
          -- exact (remove_nth_NoDup fst i p1 Hnd1).
      + destruct pk as [i|]; apply pget_fresh_inv; assumption.
    - (* Put *)
      destruct (holds st g) as [h|] eqn:Hh; [|discriminate]. destruct (holds_In st g h Hh) as [Hhin Hhg].
      destruct (run (h_args h) (h_obj h)) as [out o'] eqn:Erun. inversion Hs; subst st'; clear Hs.
      pose proof (v_held st HI) as Hheld. rewrite Forall_forall in Hheld. destruct (Hheld h Hhin) as [Hcz Hout].
      set (rest := filter (fun h' => negb (Nat.eqb (h_g h') g)) (held st)).
      pose proof (incl_filter _ _ : incl rest (held st)) as Hrest.
      pose proof (incl_map h_id Hrest) as Hrestid.
      assert (Hh_notin : ~ In (h_id h) (map h_id rest)).
      { intros Hin. apply in_map_iff in Hin. destruct Hin as (h2 & Hid & Hh2). apply filter_In in Hh2. destruct Hh2 as [Hh2 Hg2].
        apply negb_true_iff, Nat.eqb_neq in Hg2.
        rewrite (NoDup_map_In_inj h_id (held st) h2 h HndH Hh2 Hhin Hid) in Hg2. exact (Hg2 Hhg). }
      assert (Hcz' : czero (release o')).
      { apply (release_inv Val fields cls assigned released nilv zerov Hcomplete).
        pose proof (Hcz_run (h_args h) (h_obj h) Hcz) as H. rewrite Erun in H. exact H. }
      (* kept or not, the pool gains at most the identity just given up *)
      set (p' := if keep then (h_id h, release o') :: pool st else pool st).
      assert (Hp' : Forall (fun io => czero (snd io)) p' /\ NoDup (map fst p') /\
                    incl (map fst p') (h_id h :: map fst (pool st))).
      { subst p'. destruct keep; cbn [map fst].
        - split; [constructor; [exact Hcz'|exact (v_pool st HI)]|]. split; [|apply incl_refl].
          constructor; [|exact HndP]. intros Hin. exact (Hdisj _ Hin (in_map h_id _ _ Hhin)).
        - split; [exact (v_pool st HI)|]. split; [exact HndP|apply incl_tl, incl_refl]. }
      destruct Hp' as (Hp'cz & Hp'nd & Hp'ids). rewrite Forall_forall in HltP, HltH.
      constructor; unfold all_ids; cbn [pool held nextid outs]; fold rest.
      + exact Hp'cz.
      + apply Forall_forall. intros x Hx. exact (Hheld x (Hrest x Hx)).
      + apply NoDup_app_iff. split; [exact Hp'nd|]. split; [exact (filter_map_NoDup h_id _ _ HndH)|].
        intros x Hx Hin. destruct (Hp'ids x Hx) as [<-|Hxp]; [exact (Hh_notin Hin)|exact (Hdisj x Hxp (Hrestid x Hin))].
      + apply Forall_forall. intros x Hx. apply in_app_or in Hx. destruct Hx as [Hx|Hx]; [|exact (HltH x (Hrestid x Hx))].
        destruct (Hp'ids x Hx) as [<-|Hxp]; [exact (HltH _ (in_map h_id _ _ Hhin))|exact (HltP x Hxp)].
      + exact (filter_map_NoDup h_g _ _ (v_g st HI)).
      + apply Forall_app. split; [exact (v_outs st HI)|]. constructor; [|constructor]. cbn [fst snd].
        rewrite <- Hout, Erun. reflexivity.
  Qed.

  Theorem pool_share_inv : forall es st, prun pinit es = Some st -> PInv st.
  Proof.
    intros es. assert (G : forall s0, PInv s0 -> forall s1, prun s0 es = Some s1 -> PInv s1).
    { induction es as [|e rest IH]; intros s0 H0 s1 Hr; cbn [prun] in Hr.
      - inversion Hr; subst; exact H0.
      - destruct (pstep s0 e) as [s2|] eqn:Hs; [|discriminate]. exact (IH s2 (pstep_inv s0 e s2 H0 Hs) s1 Hr). }
    intros st Hr. exact (G pinit pinit_inv st Hr).
  Qed.

  (** Every call made in any interleaving of any number of goroutines, under any pool
      behaviour, returns what the same call returns on a fresh object. *)
  Theorem pool_share_outputs_fresh : forall es st g a out,
    prun pinit es = Some st -> In (g, a, out) (outs st) -> out = fst (run a (fresh a)).
  Proof.
    intros es st g a out Hr Hin. pose proof (v_outs st (pool_share_inv es st Hr)) as H.
    rewrite Forall_forall in H. exact (H _ Hin).
  Qed.

  (** Exclusive ownership: at every moment the objects in the pool and the objects held by
      goroutines have pairwise different identities, and a goroutine holds at most one. *)
  Theorem pool_share_exclusive : forall es st,
    prun pinit es = Some st ->
    NoDup (map fst (pool st) ++ map h_id (held st)) /\ NoDup (map h_g (held st)).
  Proof.
    intros es st Hr. pose proof (pool_share_inv es st Hr) as HI. split; [exact (v_ids st HI)|exact (v_g st HI)].
  Qed.

End Share.

(** Not vacuous: three goroutines; goroutine 2 gets, while goroutine 1 still holds its own
    object, the object goroutine 0 has just put back (identity 0 is reused). *)
Example pool_share_example :
  let run := fun (a : nat) (o : obj nat) => (a, o) in
  let gate := fun (_ : nat) (_ : obj nat) => true in
  match prun nat nat nat [] [] (fun _ _ => 0) 0 gate run (pinit nat nat nat)
          [EGet nat 0 5 [] None; EGet nat 1 7 [] None; EPut nat 0 true; EGet nat 2 9 [] (Some 0);
           EPut nat 1 true; EPut nat 2 false] with
  | Some st => map fst (outs nat nat nat st) = [(0, 5); (1, 7); (2, 9)] /\ map fst (pool nat nat nat st) = [1]
  | None => False
  end.
Proof. lazy. split; reflexivity. Qed.
