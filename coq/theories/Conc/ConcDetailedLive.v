(** C10 — the detailed system (ConcDetailed.v) never deadlocks and never loses a
    wake-up: an invariant relating, per row, the waiters counter, the mutex owner, the
    sleepers and the phase of the row's signaller (the L2 invariant, per row), hence every
    reachable non-final state has an enabled transition; with the refinement theorem,
    every maximal run ends in the serial result. *)
From Coq Require Import List Arith Lia Bool.
From Webp Require Import Conc.ConcRowSync Conc.ConcShared Conc.ConcRowSyncProofs Conc.ConcDetailed Conc.ConcDetailedProofs.
From Webp Require Import Base.ListFacts.
Import ListNotations.

Lemma sn_len {A} (l : list A) i v : length (set_nth l i v) = length l.
Proof. exact (ConcShared.set_nth_length l i v). Qed.

Section Live.
  Variable V : Type.
  Variable v0 : V.
  Variable f : nat -> nat -> V -> V -> V -> V -> V.
  Variables mbW mbH : nat.
  Hypothesis HmbW : 1 <= mbW.

  Notation dstate := (dstate V).
  Notation dstep := (dstep V v0 f mbW mbH).
  Notation dstep_worker := (dstep_worker V v0 f mbW mbH).
  Notation dstep_rec := (dstep_rec V v0 mbW mbH).
  Notation drun := (drun V v0 f mbW mbH).
  Notation dinit := (dinit V v0).
  Notation DInv := (DInv V v0 f mbW mbH).
  Notation needed := (needed mbW).
  Notation abs := (abs V mbW).

  Definition okphase (ph : wph) (sp : sph) : bool :=
    match ph, sp with
    | PWaitCall, (QLoad | QLock) => true
    | PSleep, (QLoad | QLock | QUnlock | QBcast) => true
    | _, _ => false
    end.

  Definition cnt_on (r : nat) (w : dw V) : nat :=
    match w with DWait y _ _ _ ph => if (y =? S r) && counted ph then 1 else 0 | _ => 0 end.
  Definition crec_of (rc : dr) (recRow r : nat) : nat :=
    match rc with RWait ph => if (recRow =? r) && counted ph then 1 else 0 | RReady => 0 end.

  Definition hold_w (w : dw V) : option nat :=
    match w with
    | DWait y _ _ _ ph => if holding ph then Some (y - 1) else None
    | DSig y _ _ _ QUnlock => Some y
    | _ => None
    end.
  Definition hold_of (rc : dr) (recRow : nat) : option nat :=
    match rc with RWait ph => if holding ph then Some recRow else None | RReady => None end.

  (** a signaller of row [r] whose phase guarantees the wake-up of a waiter in phase [ph] *)
  Definition sigw (ws : list (dw V)) (r : nat) (ph : wph) : Prop :=
    exists j x tl l sp, nth_error ws j = Some (DSig r x tl l sp) /\ okphase ph sp = true.

  (** Per row: the counter counts the processes between increment and decrement; the mutex
      owner is the one in a holding phase; a process asleep (or committed to cond.Wait) on a
      ready row has its signaller before the Broadcast.  [q_done]: [done] equals the ghost
      [adone], which the L1 abstraction reads, except while the signaller is at its Store. *)
  Record Live (s : dstate) : Prop := {
    q_cnt : forall r, d_nwait V s r = sumg (cnt_on r) (d_workers V s) + crec_of (d_rec V s) (d_recRow V s) r;
    q_mu_w : forall r i w, nth_error (d_workers V s) i = Some w ->
               (hold_w w = Some r <-> d_mu V s r = Some (OWk i));
    q_mu_dom : forall r i, d_mu V s r = Some (OWk i) -> i < length (d_workers V s);
    q_mu_r : forall r, hold_of (d_rec V s) (d_recRow V s) = Some r <-> d_mu V s r = Some ORec;
    q_wake_w : forall i y x tl l ph, nth_error (d_workers V s) i = Some (DWait y x tl l ph) ->
               needed x <= d_done V s (y - 1) -> asleepish ph = true -> sigw (d_workers V s) (y - 1) ph;
    q_wake_r : forall ph, d_rec V s = RWait ph -> mbW <= d_done V s (d_recRow V s) -> asleepish ph = true ->
               sigw (d_workers V s) (d_recRow V s) ph;
    q_done : forall y, d_done V s y = d_adone V s y \/
                    exists i x tl l, nth_error (d_workers V s) i = Some (DSig y x tl l QStore);
    q_rec_end : mbH <= d_recRow V s -> d_rec V s = RWait PFast }.

  Lemma okphase_sleep sp : okphase PWaitCall sp = true -> okphase PSleep sp = true.
  Proof. destruct sp; try discriminate; reflexivity. Qed.

  Lemma sigw_keep ws i w' r ph : i < length ws ->
    (forall j x tl l sp, j <> i -> nth_error ws j = Some (DSig r x tl l sp) -> True) ->
    (exists j x tl l sp, j <> i /\ nth_error ws j = Some (DSig r x tl l sp) /\ okphase ph sp = true) ->
    sigw (set_nth ws i w') r ph.
  Proof.
    intros Hi _ (j & x & tl & l & sp & Hne & Hj & Hok). exists j, x, tl, l, sp.
    rewrite set_nth_neq by congruence. auto.
  Qed.

  Lemma mu_holder s r i : Live s -> d_mu V s r = Some (OWk i) ->
    exists w, nth_error (d_workers V s) i = Some w /\ hold_w w = Some r.
  Proof.
    intros HL Hm. pose proof (q_mu_dom s HL r i Hm) as Hi.
    destruct (nth_error (d_workers V s) i) as [w|] eqn:Hw; [|apply nth_error_None in Hw; lia].
    exists w. split; [reflexivity|]. apply (q_mu_w s HL r i w Hw). exact Hm.
  Qed.

  Definition no_ready_waiter (s : dstate) (r : nat) (ph : wph) : Prop :=
    (forall j yj xj tlj lj, nth_error (d_workers V s) j = Some (DWait yj xj tlj lj ph) -> yj - 1 = r ->
        needed xj <= d_done V s r -> False) /\
    (d_rec V s = RWait ph -> d_recRow V s = r -> mbW <= d_done V s r -> False).

  (** [done] may move on a row only to [adone], with the worker then that row's signaller
      just after its Store.  [Fwit]: a signaller keeps covering whoever relied on it. *)
  Lemma live_frame s i w w' nx' dn' nw' mu' top' out' tok' :
    Live s -> nth_error (d_workers V s) i = Some w ->
    (forall r, nw' r + cnt_on r w = d_nwait V s r + cnt_on r w') ->
    (forall r, mu_mode (d_mu V s r) (mu' r) (OWk i) (hold_w w = Some r) (hold_w w' = Some r)) ->
    (forall r, dn' r = d_done V s r \/
               (dn' r = d_adone V s r /\ exists x tl l, w' = DSig r x tl l QLoad)) ->
    (forall y x tl l ph, w' = DWait y x tl l ph -> needed x <= d_done V s (y - 1) -> asleepish ph = true ->
       exists j x' tl' l' sp, j <> i /\ nth_error (d_workers V s) j = Some (DSig (y - 1) x' tl' l' sp) /\ okphase ph sp = true) ->
    (forall r x tl l sp, w = DSig r x tl l sp ->
       (sp = QStore -> w' = DSig r x tl l QStore \/ dn' r = d_adone V s r) /\
       (forall ph, okphase ph sp = true ->
          (exists sp', w' = DSig r x tl l sp' /\ okphase ph sp' = true)
          \/ no_ready_waiter s r ph)) ->
    Live (mkD V nx' (setw V s i w') (d_rec V s) (d_recRow V s) dn' (d_adone V s) nw' mu' top' out' tok').
  Proof.
    intros HL Hw Fcnt Fmode Fdn Fab Fwit.
    pose proof (nth_error_lt _ _ _ Hw) as Hil.
    assert (Hmu : forall r, (hold_w w' = Some r <-> mu' r = Some (OWk i)) /\
                            (forall o, o <> OWk i -> (mu' r = Some o <-> d_mu V s r = Some o)))
      by (intros r; exact (mutex_mode _ _ _ _ _ (q_mu_w s HL r i w Hw) (Fmode r))).
    (* on a row whose [done] moved, the stepping worker itself is the witness *)
    assert (Hmoved : forall r ph, asleepish ph = true -> dn' r <> d_done V s r -> sigw (setw V s i w') r ph).
    { intros r ph Ha Hne. destruct (Fdn r) as [E|(_ & x & tl & l & ->)]; [contradiction|].
      exists i, x, tl, l, QLoad. unfold setw. rewrite set_nth_eq by exact Hil.
      split; [reflexivity|]. destruct ph; try discriminate Ha; reflexivity. }
    (* a witness of the old state survives, or the waiter that needs it does not exist *)
    assert (Hsig : forall r ph,
              sigw (d_workers V s) r ph ->
              (no_ready_waiter s r ph -> False) ->
              sigw (setw V s i w') r ph).
    { intros r ph (j & x & tl & l & sp & Hj & Hok) Hneeded. unfold setw.
      destruct (Nat.eq_dec j i) as [->|Hne].
      - rewrite Hw in Hj. inversion Hj; subst w.
        destruct (Fwit r x tl l sp eq_refl) as [_ Hph].
        destruct (Hph ph Hok) as [(sp' & -> & Hok')|Hnone].
        + exists i, x, tl, l, sp'. rewrite set_nth_eq by exact Hil. auto.
        + exfalso. apply Hneeded. exact Hnone.
      - exists j, x, tl, l, sp. rewrite set_nth_neq by congruence. auto. }
    constructor; cbn [d_next d_workers d_rec d_recRow d_done d_adone d_nwait d_mu]; unfold setw.
    - intros r. pose proof (sumg_set_nth (cnt_on r) (d_workers V s) i w w' Hw) as Hn.
      pose proof (q_cnt s HL r). specialize (Fcnt r). lia.
    - intros r k wk Hk. destruct (set_nth_inv _ _ _ _ _ Hk) as [[-> ->]|[Hne Hk0]]; [apply Hmu|].
      rewrite (q_mu_w s HL r k wk Hk0). symmetry. apply Hmu. congruence.
    - intros r k Hm. rewrite set_nth_length. destruct (Nat.eq_dec k i) as [->|Hne]; [exact Hil|].
      apply (q_mu_dom s HL r). apply Hmu; [congruence|exact Hm].
    - intros r. rewrite (q_mu_r s HL r). symmetry. apply Hmu. discriminate.
    - intros k y x tl l ph Hk Hnd Has.
      destruct (Nat.eq_dec (dn' (y - 1)) (d_done V s (y - 1))) as [E|E]; [rewrite E in Hnd|exact (Hmoved _ ph Has E)].
      destruct (set_nth_inv _ _ _ _ _ Hk) as [[-> Heq]|[Hne Hk0]].
      + destruct (Fab y x tl l ph (eq_sym Heq) Hnd Has) as (j & x' & tl' & l' & sp & Hji & Hj & Hok).
        exists j, x', tl', l', sp. rewrite set_nth_neq by congruence. auto.
      + apply Hsig; [exact (q_wake_w s HL k y x tl l ph Hk0 Hnd Has)|].
        intros [Hn1 _]. exact (Hn1 k y x tl l Hk0 eq_refl Hnd).
    - intros ph Hr Hnd Has.
      destruct (Nat.eq_dec (dn' (d_recRow V s)) (d_done V s (d_recRow V s))) as [E|E];
        [rewrite E in Hnd|exact (Hmoved _ ph Has E)].
      apply Hsig; [exact (q_wake_r s HL ph Hr Hnd Has)|].
      intros [_ Hn2]. exact (Hn2 Hr eq_refl Hnd).
    - intros y. destruct (Fdn y) as [E|[E _]]; [rewrite E|now left].
      destruct (q_done s HL y) as [He|(j & x & tl & l & Hj)]; [now left|].
      destruct (Nat.eq_dec j i) as [->|Hne].
      + rewrite Hw in Hj. inversion Hj; subst w.
        destruct (Fwit y x tl l QStore eq_refl) as [Hst _]. destruct (Hst eq_refl) as [-> |E']; [right|left; congruence].
        exists i, x, tl, l. now rewrite set_nth_eq by exact Hil.
      + right. exists j, x, tl, l. now rewrite set_nth_neq by congruence.
    - apply (q_rec_end s HL).
  Qed.

  (** for a worker and for the recorder: [c], [h] are its weight and hold, by its phase *)
  Lemma wait_row_frame (nw : nat -> nat) (mu : nat -> option owner) d row me nd ph o nw' m'
        (c c' : nat -> nat) (h h' : nat -> Prop) :
    wstep d (nw row) (mu row) me nd ph = Some (o, nw', m') ->
    (forall r, c r = if r =? row then cnt (Some ph) else 0) ->
    (forall r, c' r = if r =? row then cnt o else 0) ->
    (forall r, h r <-> r = row /\ holding ph = true) ->
    (forall r, h' r <-> r = row /\ hld o = true) ->
    (ph = PDec -> 1 <= nw row) ->
    (forall r, upd1 nw row nw' r + c r = nw r + c' r) /\
    (forall r, mu_mode (mu r) (upd1 mu row m' r) me (h r) (h' r)).
  Proof.
    intros Hws Hc Hc' Hh Hh' Hdec. split; intros r.
    - rewrite Hc, Hc'. destruct (Nat.eqb_spec r row) as [->|Hne]; [rewrite upd1_eq|rewrite upd1_neq by exact Hne; lia].
      exact (wstep_count _ _ _ _ _ _ _ _ _ Hws Hdec).
    - destruct (Nat.eq_dec r row) as [->|Hne].
      + rewrite upd1_eq. apply (mu_mode_iff _ _ _ (holding ph = true) (hld o = true));
          [rewrite Hh; tauto|rewrite Hh'; tauto|exact (wstep_mutex _ _ _ _ _ _ _ _ _ Hws)].
      + rewrite upd1_neq by exact Hne. apply mu_mode_same. rewrite Hh, Hh'. tauto.
  Qed.

  Definition after_wait (y x : nat) (tl l : V) (o : option wph) : dw V :=
    match o with Some ph => DWait y x tl l ph | None => DCompute y x tl l end.

  Lemma cnt_after_wait r y x tl l o : 0 < y ->
    cnt_on r (after_wait y x tl l o) = if r =? y - 1 then cnt o else 0.
  Proof.
    intros Hy. destruct o as [ph|]; cbn [after_wait cnt_on cnt]; [|now destruct (r =? y - 1)].
    destruct (Nat.eqb_spec r (y - 1)) as [->|Hne].
    - replace (y =? S (y - 1)) with true by (symmetry; apply Nat.eqb_eq; lia). reflexivity.
    - replace (y =? S r) with false by (symmetry; apply Nat.eqb_neq; lia). reflexivity.
  Qed.

  Lemma hold_after_wait r y x tl l o : hold_w (after_wait y x tl l o) = Some r <-> r = y - 1 /\ hld o = true.
  Proof.
    destruct o as [ph|]; cbn [after_wait hold_w hld]; [|split; [discriminate|intros [_ H]; discriminate H]].
    destruct (holding ph); split; intros H; try (destruct H; discriminate); try discriminate.
    - inversion H. auto.
    - destruct H as [-> _]. reflexivity.
  Qed.

  Lemma dwait_live n s i y x tl l ph s' :
    DInv n s -> Live s -> nth_error (d_workers V s) i = Some (DWait y x tl l ph) ->
    dstep_worker s i = Some s' -> Live s'.
  Proof.
    intros HD HL Hw Hs. unfold ConcDetailed.dstep_worker in Hs. rewrite Hw, wait_step_wstep in Hs.
    destruct (p_ok V v0 f mbW mbH n s HD i _ Hw) as [Hy _].
    destruct (wstep (d_done V s (y - 1)) (d_nwait V s (y - 1)) (d_mu V s (y - 1)) (OWk i) (needed x) ph)
      as [[[o nw'] m']|] eqn:Hws; [|discriminate].
    assert (Hs' : s' = mkD V (d_next V s) (setw V s i (after_wait y x tl l o)) (d_rec V s) (d_recRow V s)
                        (d_done V s) (d_adone V s) (upd1 (d_nwait V s) (y - 1) nw') (upd1 (d_mu V s) (y - 1) m')
                        (d_top V s) (d_out V s) (d_tokens V s))
      by (destruct o; inversion Hs; reflexivity).
    subst s'. clear Hs.
    destruct (wait_row_frame (d_nwait V s) (d_mu V s) _ _ _ _ _ _ _ _
                (fun r => cnt_on r (after_wait y x tl l (Some ph))) (fun r => cnt_on r (after_wait y x tl l o))
                (fun r => hold_w (after_wait y x tl l (Some ph)) = Some r) (fun r => hold_w (after_wait y x tl l o) = Some r)
                Hws) as [Fcnt Fmode];
      [intros r; apply cnt_after_wait; exact Hy|intros r; apply cnt_after_wait; exact Hy
      |intros r; apply hold_after_wait|intros r; apply hold_after_wait| |].
    { intros ->. pose proof (sumg_ge (cnt_on (y - 1)) _ _ _ Hw) as Hge.
      rewrite (cnt_after_wait _ y x tl l (Some PDec)), Nat.eqb_refl in Hge by exact Hy.
      rewrite (q_cnt s HL (y - 1)). cbn in Hge. lia. }
    apply (live_frame s i (after_wait y x tl l (Some ph))); auto.
    - intros y1 x1 tl1 l1 ph1 Heq Hnd Has. pose proof (wstep_asleep _ _ _ _ _ _ _ _ _ Hws) as Ha.
      destruct o as [ph'|]; [|discriminate Heq]. inversion Heq; subst y1 x1 tl1 l1 ph1.
      destruct (Ha Has) as [[_ Hlt]|[-> ->]]; [lia|].
      destruct (q_wake_w s HL i y x tl l PWaitCall Hw Hnd eq_refl) as (j & x' & tl' & l' & sp & Hj & Hok).
      exists j, x', tl', l', sp. split; [intros ->; rewrite Hw in Hj; discriminate|]. split; [exact Hj|exact (okphase_sleep sp Hok)].
    - discriminate.
  Qed.

  Lemma cnt_start_mb r y x tl l : cnt_on r (start_mb V y x tl l) = 0.
  Proof. destruct (start_mb_spec V y x tl l) as [[_ ->]|[_ ->]]; cbn; [reflexivity|now rewrite andb_false_r]. Qed.
  Lemma hold_start_mb y x tl l : hold_w (start_mb V y x tl l) = None.
  Proof. destruct (start_mb_spec V y x tl l) as [[_ ->]|[_ ->]]; reflexivity. Qed.
  Lemma cnt_sig_exit r y x tl l : cnt_on r (sig_exit V mbW y x tl l) = 0.
  Proof. destruct (sig_exit_spec V mbW y x tl l) as [-> | ->]; [reflexivity|apply cnt_start_mb]. Qed.
  Lemma hold_sig_exit y x tl l : hold_w (sig_exit V mbW y x tl l) = None.
  Proof. destruct (sig_exit_spec V mbW y x tl l) as [-> | ->]; [reflexivity|apply hold_start_mb]. Qed.
  Lemma start_mb_not_asleep y x tl l y1 x1 tl1 l1 ph1 :
    start_mb V y x tl l = DWait y1 x1 tl1 l1 ph1 -> asleepish ph1 = false.
  Proof. destruct (start_mb_spec V y x tl l) as [[_ ->]|[_ ->]]; intros H; inversion H; reflexivity. Qed.
  Lemma sig_exit_not_asleep y x tl l y1 x1 tl1 l1 ph1 :
    sig_exit V mbW y x tl l = DWait y1 x1 tl1 l1 ph1 -> asleepish ph1 = false.
  Proof. destruct (sig_exit_spec V mbW y x tl l) as [-> | ->]; [discriminate|apply start_mb_not_asleep]. Qed.
  Lemma sig_exit_not_sig y x tl l r x1 tl1 l1 sp : sig_exit V mbW y x tl l <> DSig r x1 tl1 l1 sp.
  Proof. unfold sig_exit, start_mb. destruct (S x <? mbW); [destruct (y =? 0)|]; discriminate. Qed.

  Lemma quiet_live s i w w' nx' top' out' tok' :
    Live s -> nth_error (d_workers V s) i = Some w ->
    (forall r, cnt_on r w = 0) -> (forall r, cnt_on r w' = 0) -> hold_w w = None -> hold_w w' = None ->
    (forall y1 x1 tl1 l1 ph1, w' = DWait y1 x1 tl1 l1 ph1 -> asleepish ph1 = false) ->
    (forall r x tl l sp, w <> DSig r x tl l sp) ->
    Live (mkD V nx' (setw V s i w') (d_rec V s) (d_recRow V s) (d_done V s) (d_adone V s)
              (d_nwait V s) (d_mu V s) top' out' tok').
  Proof.
    intros HL Hw Hc Hc' Hh Hh' Has Hns.
    apply (live_frame s i w w'); auto.
    - intros r. rewrite Hc, Hc'. lia.
    - intros r. apply mu_mode_same. rewrite Hh, Hh'. tauto.
    - intros y x tl l ph Heq _ Hs. rewrite (Has y x tl l ph Heq) in Hs. discriminate.
    - intros r x tl l sp Heq. exfalso. exact (Hns r x tl l sp Heq).
  Qed.

  Lemma live_set_adone s y v :
    Live s -> (exists i x tl l, nth_error (d_workers V s) i = Some (DSig y x tl l QStore)) ->
    Live (mkD V (d_next V s) (d_workers V s) (d_rec V s) (d_recRow V s) (d_done V s) (upd1 (d_adone V s) y v)
              (d_nwait V s) (d_mu V s) (d_top V s) (d_out V s) (d_tokens V s)).
  Proof.
    intros HL Hwit. constructor; cbn; try apply HL.
    intros y0. destruct (Nat.eq_dec y0 y) as [->|Hne]; [right; exact Hwit|].
    rewrite upd1_neq by exact Hne. apply (q_done s HL).
  Qed.

  Lemma wake_dsig row w r x tl l sp : wake_w V row w = DSig r x tl l sp <-> w = DSig r x tl l sp.
  Proof.
    destruct (wake_w_spec V row w) as [-> |(x0 & tl0 & l0 & -> & ->)]; [tauto|split; discriminate].
  Qed.

  Lemma wake_all_live s y : Live s ->
    Live (mkD V (d_next V s) (map (wake_w V y) (d_workers V s)) (wake_r y (d_recRow V s) (d_rec V s))
              (d_recRow V s) (d_done V s) (d_adone V s) (d_nwait V s) (d_mu V s) (d_top V s) (d_out V s) (d_tokens V s)).
  Proof.
    intros HL.
    assert (Hcw : forall r w, cnt_on r (wake_w V y w) = cnt_on r w)
      by (intros r w; destruct (wake_w_spec V y w) as [-> |(x & tl & l & -> & ->)]; reflexivity).
    assert (Hhw : forall w, hold_w (wake_w V y w) = hold_w w)
      by (intros w; destruct (wake_w_spec V y w) as [-> |(x & tl & l & -> & ->)]; reflexivity).
    assert (Hrec : wake_r y (d_recRow V s) (d_rec V s) = d_rec V s \/
                   (d_rec V s = RWait PSleep /\ wake_r y (d_recRow V s) (d_rec V s) = RWait PWoken)).
    { destruct (d_rec V s) as [[]|]; cbn; auto. destruct (d_recRow V s =? y); auto. }
    assert (Hsig : forall r ph, sigw (d_workers V s) r ph -> sigw (map (wake_w V y) (d_workers V s)) r ph).
    { intros r ph (j & x & tl & l & sp & Hj & Hok). exists j, x, tl, l, sp.
      rewrite nth_error_map, Hj. cbn. auto. }
    constructor; cbn [d_next d_workers d_rec d_recRow d_done d_adone d_nwait d_mu].
    - intros r. rewrite sumg_map, (sumg_ext _ (cnt_on r)) by (intros w; apply Hcw). rewrite (q_cnt s HL r).
      destruct Hrec as [-> |[E ->]]; [reflexivity|now rewrite E].
    - intros r k wk Hk. destruct (nth_error_map_inv _ _ _ _ Hk) as (w0 & Hk0 & ->). rewrite Hhw. exact (q_mu_w s HL r k w0 Hk0).
    - intros r k Hm. rewrite map_length. exact (q_mu_dom s HL r k Hm).
    - intros r. rewrite <- (q_mu_r s HL r). destruct Hrec as [-> |[E ->]]; [reflexivity|now rewrite E].
    - intros k yk xk tlk lk ph Hk Hnd Has. apply Hsig.
      destruct (nth_error_map_inv _ _ _ _ Hk) as (w0 & Hk0 & Heq).
      destruct (wake_w_spec V y w0) as [E|(x0 & tl0 & l0 & -> & E)]; rewrite E in Heq.
      + subst w0. exact (q_wake_w s HL k yk xk tlk lk ph Hk0 Hnd Has).
      + inversion Heq; subst. discriminate Has.
    - intros ph Hr Hnd Has. apply Hsig. destruct Hrec as [E|[_ E]]; rewrite E in Hr.
      + exact (q_wake_r s HL ph Hr Hnd Has).
      + inversion Hr; subst. discriminate Has.
    - intros y0. destruct (q_done s HL y0) as [He|(j & x' & tl' & l' & Hj)]; [now left|right].
      exists j, x', tl', l'. rewrite nth_error_map, Hj. reflexivity.
    - intros Hge. rewrite (q_rec_end s HL Hge). reflexivity.
  Qed.

  Lemma other_worker_live n s i w s' :
    DInv n s -> Live s -> nth_error (d_workers V s) i = Some w ->
    (forall y x tl l ph, w <> DWait y x tl l ph) ->
    dstep_worker s i = Some s' -> Live s'.
  Proof.
    intros HD HL Hw Hnw Hs. pose proof (nth_error_lt _ _ _ Hw) as Hil.
    unfold ConcDetailed.dstep_worker in Hs. rewrite Hw in Hs.
    destruct w as [| |y x tl l ph|y x tl l|y x tl l t0 tr0|y x tl l sp]; try discriminate.
    - destruct (d_next V s <? mbH); inversion Hs; subst s'; clear Hs.
      + apply (quiet_live s i DIdle); auto; try (intros; reflexivity); try discriminate.
        * intros r. apply cnt_start_mb.
        * apply hold_start_mb.
        * apply start_mb_not_asleep.
      + apply (quiet_live s i DIdle); auto; try (intros; reflexivity); try discriminate.
    - exfalso. exact (Hnw y x tl l ph eq_refl).
    - inversion Hs; subst s'; clear Hs.
      apply (quiet_live s i (DCompute y x tl l)); auto; try (intros; reflexivity); try discriminate.
    -
      inversion Hs; subst s'; clear Hs.
      set (w' := DSig y x t0 (f y x tl t0 tr0 l) QStore).
      pose proof (quiet_live s i (DHold y x tl l t0 tr0) w' (d_next V s)
                    (upd1 (d_top V s) x (Some y, f y x tl t0 tr0 l))
                    (upd2 (d_out V s) y x (Some (f y x tl t0 tr0 l)))
                    (d_tokens V s) HL Hw) as HQ.
      specialize (HQ ltac:(intros; reflexivity) ltac:(intros; reflexivity) eq_refl eq_refl
                     ltac:(intros; discriminate) ltac:(intros; discriminate)).
      apply (live_set_adone _ y (S x)) in HQ.
      + exact HQ.
      + exists i, x, t0, (f y x tl t0 tr0 l).
        cbn. unfold setw. rewrite set_nth_eq by exact Hil. reflexivity.
    - pose proof (p_ok V v0 f mbW mbH n s HD i _ Hw) as Hadone. cbn in Hadone.
      assert (Hnohold : forall sp', sp' <> QUnlock -> forall r, hold_w (DSig y x tl l sp') = Some r <-> False)
        by (intros sp' Hsp r; destruct sp'; try congruence; (split; [discriminate|contradiction])).
      destruct sp.
      + (* QStore: done[y] := adone[y]; this signaller covers the row from here on *)
        inversion Hs; subst s'; clear Hs.
        apply (live_frame s i (DSig y x tl l QStore) (DSig y x tl l QLoad)); auto.
        * intros r. apply mu_mode_same. rewrite !Hnohold by discriminate. tauto.
        * intros r. unfold upd1. destruct (Nat.eqb_spec r y) as [->|]; [right|now left].
          split; [symmetry; exact Hadone|eauto].
        * intros; discriminate.
        * intros r x0 tl0 l0 sp Heq. inversion Heq; subst. split; [intros _; right; rewrite upd1_eq; auto|].
          intros ph Hok. destruct ph; discriminate Hok.
      + inversion Hs; subst s'; clear Hs.
        destruct (0 <? d_nwait V s y) eqn:Enw.
        * apply (live_frame s i (DSig y x tl l QLoad) (DSig y x tl l QLock)); auto.
          -- intros r. apply mu_mode_same. rewrite !Hnohold by discriminate. tauto.
          -- intros; discriminate.
          -- intros r x0 tl0 l0 sp Heq. inversion Heq; subst. split; [discriminate|].
             intros ph Hok. left. exists QLock. split; [reflexivity|]. destruct ph; cbn in *; congruence.
        * (* no waiter is counted on this row: nobody relies on the signaller *)
          apply Nat.ltb_ge in Enw. pose proof (q_cnt s HL y) as Hq.
          apply (live_frame s i (DSig y x tl l QLoad) (sig_exit V mbW y x tl l)); auto.
          -- intros r. rewrite cnt_sig_exit. cbn. lia.
          -- intros r. apply mu_mode_same. rewrite hold_sig_exit, Hnohold by discriminate. split; [discriminate|contradiction].
          -- intros y1 x1 tl1 l1 ph1 Heq _ Has. rewrite (sig_exit_not_asleep _ _ _ _ _ _ _ _ _ Heq) in Has. discriminate.
          -- intros r x0 tl0 l0 sp Heq. inversion Heq; subst. split; [discriminate|].
             intros ph Hok. right. split.
             ++ intros j yj xj tlj lj Hj Hr _. pose proof (sumg_ge (cnt_on r) (d_workers V s) j _ Hj) as Hge.
                destruct (p_ok V v0 f mbW mbH n s HD j _ Hj) as [Hyj _].
                change (DWait yj xj tlj lj ph) with (after_wait yj xj tlj lj (Some ph)) in Hge. rewrite cnt_after_wait in Hge by exact Hyj.
                replace (r =? yj - 1) with true in Hge by (symmetry; apply Nat.eqb_eq; lia).
                destruct ph; cbn in *; try discriminate; lia.
             ++ intros Hr Hrr _. unfold crec_of in Hq. rewrite Hr, Hrr, Nat.eqb_refl in Hq.
                destruct ph; cbn [okphase counted andb] in *; try discriminate; lia.
      + destruct (d_mu V s y) eqn:Emu; [discriminate|]. inversion Hs; subst s'; clear Hs.
        apply (live_frame s i (DSig y x tl l QLock) (DSig y x tl l QUnlock)); auto.
        * intros r. unfold mu_mode. rewrite (Hnohold QLock) by discriminate. cbn [hold_w]. destruct (Nat.eq_dec r y) as [->|Hne].
          -- rewrite upd1_eq. right. left. tauto.
          -- rewrite upd1_neq by exact Hne. left. split; [reflexivity|]. split; [intros H; inversion H; congruence|contradiction].
        * intros; discriminate.
        * intros r x0 tl0 l0 sp Heq. inversion Heq; subst. split; [discriminate|].
          intros ph Hok. destruct ph; cbn in Hok; try discriminate.
          -- (* a waiter committed to cond.Wait holds the mutex, but the mutex was free *)
             right. split.
             ++ intros j yj xj tlj lj Hj Hr _. pose proof (proj1 (q_mu_w s HL r j _ Hj)) as Hm. cbn in Hm.
                rewrite Hr in Hm. specialize (Hm eq_refl). congruence.
             ++ intros Hr Hrr _. pose proof (proj1 (q_mu_r s HL r)) as Hm. unfold hold_of in Hm. rewrite Hr, Hrr in Hm.
                specialize (Hm eq_refl). congruence.
          -- left. exists QUnlock. auto.
      + inversion Hs; subst s'; clear Hs.
        apply (live_frame s i (DSig y x tl l QUnlock) (DSig y x tl l QBcast)); auto.
        * intros r. unfold mu_mode. rewrite (Hnohold QBcast) by discriminate. cbn [hold_w]. destruct (Nat.eq_dec r y) as [->|Hne].
          -- rewrite upd1_eq. right. right. tauto.
          -- rewrite upd1_neq by exact Hne. left. split; [reflexivity|]. split; [contradiction|intros H; inversion H; congruence].
        * intros; discriminate.
        * intros r x0 tl0 l0 sp Heq. inversion Heq; subst. split; [discriminate|].
          intros ph Hok. destruct ph; cbn in Hok; try discriminate. left. exists QBcast. auto.
      + (* QBcast: nobody on the row sleeps any more *)
        inversion Hs; subst s'; clear Hs.
        pose proof (wake_all_inv V v0 f mbW mbH n s y HD) as HD1. pose proof (wake_all_live s y HL) as HL1.
        set (s1 := mkD V (d_next V s) (map (wake_w V y) (d_workers V s)) (wake_r y (d_recRow V s) (d_rec V s))
                     (d_recRow V s) (d_done V s) (d_adone V s) (d_nwait V s) (d_mu V s) (d_top V s) (d_out V s) (d_tokens V s)) in *.
        assert (Hw1 : nth_error (d_workers V s1) i = Some (DSig y x tl l QBcast)) by (cbn; rewrite nth_error_map, Hw; reflexivity).
        apply (live_frame s1 i (DSig y x tl l QBcast) (sig_exit V mbW y x tl l) _ _ _ _ _ _ _ HL1 Hw1); auto.
        * intros r. rewrite cnt_sig_exit. cbn. lia.
        * intros r. apply mu_mode_same. rewrite hold_sig_exit, Hnohold by discriminate. split; [discriminate|contradiction].
        * intros y1 x1 tl1 l1 ph1 Heq _ Has. rewrite (sig_exit_not_asleep _ _ _ _ _ _ _ _ _ Heq) in Has. discriminate.
        * intros r x0 tl0 l0 sp Heq. inversion Heq; subst. split; [discriminate|].
          intros ph Hok. destruct ph; cbn in Hok; try discriminate. right. split.
          -- intros j yj xj tlj lj Hj Hr _. cbn in Hj. destruct (nth_error_map_inv _ _ _ _ Hj) as (w0 & Hj0 & Heq0).
             destruct (p_ok V v0 f mbW mbH n s1 HD1 j _ Hj) as [Hyj _].
             destruct (wake_w_spec V r w0) as [E|(x1 & tl1 & l1 & -> & E)]; rewrite E in Heq0; [|discriminate].
             subst w0. revert E. cbn. replace (yj =? S r) with true by (symmetry; apply Nat.eqb_eq; lia). discriminate.
          -- cbn. intros Hr Hrr _. destruct (d_rec V s) as [[]|]; cbn in Hr; try discriminate.
             rewrite Hrr, Nat.eqb_refl in Hr. discriminate.
  Qed.

  Lemma rec_live_frame s rc' nw' mu' :
    Live s ->
    (forall r, nw' r + crec_of (d_rec V s) (d_recRow V s) r = d_nwait V s r + crec_of rc' (d_recRow V s) r) ->
    (forall r, mu_mode (d_mu V s r) (mu' r) ORec (hold_of (d_rec V s) (d_recRow V s) = Some r)
                       (hold_of rc' (d_recRow V s) = Some r)) ->
    (forall ph, rc' = RWait ph -> mbW <= d_done V s (d_recRow V s) -> asleepish ph = true ->
       sigw (d_workers V s) (d_recRow V s) ph) ->
    (mbH <= d_recRow V s -> rc' = RWait PFast) ->
    Live (mkD V (d_next V s) (d_workers V s) rc' (d_recRow V s) (d_done V s) (d_adone V s) nw' mu'
              (d_top V s) (d_out V s) (d_tokens V s)).
  Proof.
    intros HL Rcnt Rmode Rab Rph.
    assert (Hmu : forall r, (hold_of rc' (d_recRow V s) = Some r <-> mu' r = Some ORec) /\
                            (forall o, o <> ORec -> (mu' r = Some o <-> d_mu V s r = Some o)))
      by (intros r; exact (mutex_mode _ _ _ _ _ (q_mu_r s HL r) (Rmode r))).
    constructor; cbn [d_next d_workers d_rec d_recRow d_done d_adone d_nwait d_mu].
    - intros r. pose proof (q_cnt s HL r). specialize (Rcnt r). lia.
    - intros r k w Hk. rewrite (q_mu_w s HL r k w Hk). symmetry. apply Hmu. discriminate.
    - intros r k Hm. apply (q_mu_dom s HL r). apply Hmu; [discriminate|exact Hm].
    - intros r. apply Hmu.
    - exact (q_wake_w s HL).
    - exact Rab.
    - exact (q_done s HL).
    - exact Rph.
  Qed.

  Definition rec_after (o : option wph) : dr := match o with Some ph => RWait ph | None => RReady end.

  Lemma crec_after row r o : crec_of (rec_after o) row r = if r =? row then cnt o else 0.
  Proof. rewrite (Nat.eqb_sym r row). destruct o as [ph|]; cbn; destruct (row =? r); reflexivity. Qed.

  Lemma hold_rec_after row r o : hold_of (rec_after o) row = Some r <-> r = row /\ hld o = true.
  Proof.
    destruct o as [ph|]; cbn; [|split; [discriminate|intros [_ H]; discriminate H]].
    destruct (holding ph); split; intros H; try (destruct H; discriminate); try discriminate.
    - inversion H. auto.
    - destruct H as [-> _]. reflexivity.
  Qed.

  Lemma dstep_rec_live n s s' : DInv n s -> Live s -> dstep_rec s = Some s' -> Live s'.
  Proof.
    intros HD HL Hs. unfold ConcDetailed.dstep_rec in Hs.
    destruct (d_recRow V s <? mbH) eqn:Elt; [|discriminate]. apply Nat.ltb_lt in Elt.
    destruct (d_rec V s) as [ph|] eqn:Er.
    -
      rewrite wait_step_wstep in Hs. set (row := d_recRow V s) in *.
      destruct (wstep (d_done V s row) (d_nwait V s row) (d_mu V s row) ORec mbW ph) as [[[o nw'] m']|] eqn:Hws; [|discriminate].
      assert (Hs' : s' = mkD V (d_next V s) (d_workers V s) (rec_after o) row (d_done V s) (d_adone V s)
                          (upd1 (d_nwait V s) row nw') (upd1 (d_mu V s) row m') (d_top V s) (d_out V s) (d_tokens V s))
        by (destruct o; inversion Hs; reflexivity).
      subst s'. clear Hs.
      destruct (wait_row_frame (d_nwait V s) (d_mu V s) _ _ _ _ _ _ _ _
                  (crec_of (rec_after (Some ph)) row) (crec_of (rec_after o) row)
                  (fun r => hold_of (rec_after (Some ph)) row = Some r) (fun r => hold_of (rec_after o) row = Some r)
                  Hws) as [Fcnt Fmode];
        [intros r; apply crec_after|intros r; apply crec_after
        |intros r; apply hold_rec_after|intros r; apply hold_rec_after| |].
      { intros ->. pose proof (q_cnt s HL row) as Hq. rewrite Er in Hq. fold row in Hq.
        change (RWait PDec) with (rec_after (Some PDec)) in Hq. rewrite crec_after, Nat.eqb_refl in Hq. cbn in Hq. lia. }
      apply rec_live_frame; rewrite ?Er; fold row; [exact HL|exact Fcnt|exact Fmode| |].
      + intros ph1 Heq Hnd Has. pose proof (wstep_asleep _ _ _ _ _ _ _ _ _ Hws) as Ha.
        destruct o as [ph'|]; [|discriminate Heq]. inversion Heq; subst ph1.
        destruct (Ha Has) as [[_ Hlt]|[-> ->]]; [lia|].
        destruct (q_wake_r s HL PWaitCall Er Hnd eq_refl) as (j & x' & tl' & l' & sp & Hj & Hok).
        exists j, x', tl', l', sp. split; [exact Hj|exact (okphase_sleep sp Hok)].
      + intros Hge. unfold row in Hge. lia.
    - inversion Hs; subst s'; clear Hs.
      constructor; cbn [d_next d_workers d_rec d_recRow d_done d_adone d_nwait d_mu]; try solve [apply HL].
      + intros r. pose proof (q_cnt s HL r) as Hq. rewrite Er in Hq. cbn in *. now rewrite andb_false_r.
      + intros r. rewrite <- (q_mu_r s HL r), Er. reflexivity.
      + intros ph Heq _ Has. inversion Heq; subst. discriminate.
      + reflexivity.
  Qed.

  Lemma dinit_live n : Live (dinit n).
  Proof.
    assert (Hrep : forall i w, nth_error (repeat (@DIdle V) n) i = Some w -> w = DIdle)
      by (intros i w H; exact (nth_error_repeat_inv _ _ _ _ H)).
    unfold ConcDetailed.dinit. constructor; cbn [d_next d_workers d_rec d_recRow d_done d_adone d_nwait d_mu].
    - intros r. rewrite sumg_repeat. cbn. rewrite andb_false_r. lia.
    - intros r i w H. rewrite (Hrep i w H). split; discriminate.
    - intros; discriminate.
    - intros r. split; discriminate.
    - intros i y x tl l ph H. pose proof (Hrep i _ H). discriminate.
    - intros ph H _ Has. inversion H; subst. discriminate.
    - intros y. now left.
    - reflexivity.
  Qed.

  Lemma dstep_live n s l s' : DInv n s -> Live s -> dstep s l = Some s' -> Live s'.
  Proof.
    intros HD HL Hs. destruct l as [i|]; cbn [ConcDetailed.dstep] in Hs; [|exact (dstep_rec_live n s s' HD HL Hs)].
    destruct (nth_error (d_workers V s) i) as [w|] eqn:Hw.
    - destruct w as [| |y x tl l ph|y x tl l|y x tl l t0 tr0|y x tl l sp] eqn:Ew.
      3: exact (dwait_live n s i y x tl l ph s' HD HL Hw Hs).
      all: apply (other_worker_live n s i _ s' HD HL Hw); [intros; discriminate|exact Hs].
    - unfold ConcDetailed.dstep_worker in Hs. rewrite Hw in Hs. discriminate.
  Qed.

  Theorem detailed_live : forall n sched s, drun (dinit n) sched = Some s -> DInv n s /\ Live s.
  Proof.
    intros n sched s Hr.
    apply (orun_invariant _ _ dstep (fun s => DInv n s /\ Live s)) with (sched := sched) (s := dinit n); [|split|exact Hr].
    - intros s0 l s1 [H0 H0'] Hs. split; [exact (dstep_inv V v0 f mbW mbH HmbW n s0 l s1 H0 Hs)|exact (dstep_live n s0 l s1 H0 H0' Hs)].
    - apply dinit_inv; exact HmbW.
    - apply dinit_live.
  Qed.

  Definition blocked_w (w : dw V) : Prop :=
    w = DExited \/ exists y x tl l, w = DWait y x tl l PSleep.

  Lemma worker_enabled s i w : nth_error (d_workers V s) i = Some w ->
    match w with
    | DExited => False
    | DWait y _ _ _ ph => ph <> PSleep /\ (ph = PLock \/ ph = PWoken -> d_mu V s (y - 1) = None)
    | DSig y _ _ _ QLock => d_mu V s y = None
    | _ => True
    end -> dstep s (LW i) <> None.
  Proof.
    intros Hw Hc. cbn [ConcDetailed.dstep]. unfold ConcDetailed.dstep_worker. rewrite Hw.
    destruct w as [| |y x tl l ph|y x tl l|y x tl l t0 tr0|y x tl l sp]; try contradiction; try discriminate.
    - destruct (d_next V s <? mbH); discriminate.
    - destruct Hc as [H1 H2]. rewrite wait_step_wstep.
      pose proof (wstep_enabled (d_done V s (y - 1)) (d_nwait V s (y - 1)) (d_mu V s (y - 1)) (OWk i) (needed x) ph H1 H2) as H.
      destruct (wstep (d_done V s (y - 1)) (d_nwait V s (y - 1)) (d_mu V s (y - 1)) (OWk i) (needed x) ph)
        as [[[[ph'|] nw'] m']|]; [discriminate|discriminate|exfalso; exact (H eq_refl)].
    - destruct sp; try discriminate. rewrite Hc. discriminate.
  Qed.

  Lemma rec_enabled s : d_recRow V s < mbH ->
    match d_rec V s with
    | RReady => True
    | RWait ph => ph <> PSleep /\ (ph = PLock \/ ph = PWoken -> d_mu V s (d_recRow V s) = None)
    end -> dstep s LRec <> None.
  Proof.
    intros Hlt Hc. cbn [ConcDetailed.dstep]. unfold ConcDetailed.dstep_rec.
    apply Nat.ltb_lt in Hlt. rewrite Hlt. destruct (d_rec V s) as [ph|]; [|discriminate].
    destruct Hc as [H1 H2]. rewrite wait_step_wstep.
    pose proof (wstep_enabled (d_done V s (d_recRow V s)) (d_nwait V s (d_recRow V s)) (d_mu V s (d_recRow V s)) ORec mbW ph H1 H2) as H.
    destruct (wstep (d_done V s (d_recRow V s)) (d_nwait V s (d_recRow V s)) (d_mu V s (d_recRow V s)) ORec mbW ph)
      as [[[[ph'|] nw'] m']|]; [discriminate|discriminate|exfalso; exact (H eq_refl)].
  Qed.

  Lemma holding_runs ph : holding ph = true -> ph <> PSleep /\ (ph = PLock \/ ph = PWoken -> False).
  Proof. destruct ph; try discriminate; intros _; (split; [discriminate|intros [E|E]; discriminate E]). Qed.

  Lemma holder_enabled s r o : Live s -> d_mu V s r = Some o -> exists l, dstep s l <> None.
  Proof.
    intros HL Hm. destruct o as [k|].
    - destruct (mu_holder s r k HL Hm) as (w & Hk & Hh). exists (LW k). apply (worker_enabled s k w Hk).
      destruct w as [| |y x tl l ph|y x tl l|y x tl l t0 tr0|y x tl l sp]; cbn in Hh; try discriminate.
      + destruct (holding ph) eqn:E; [|discriminate]. destruct (holding_runs ph E) as [H1 H2].
        split; [exact H1|intros H'; destruct (H2 H')].
      + destruct sp; try discriminate; exact I.
    - apply (q_mu_r s HL r) in Hm. exists LRec. apply rec_enabled.
      + destruct (Nat.lt_ge_cases (d_recRow V s) mbH) as [H|H]; [exact H|].
        rewrite (q_rec_end s HL H) in Hm. discriminate.
      + destruct (d_rec V s) as [ph|]; [|discriminate]. cbn in Hm.
        destruct (holding ph) eqn:E; [|discriminate]. destruct (holding_runs ph E) as [H1 H2].
        split; [exact H1|intros H'; destruct (H2 H')].
  Qed.

  Lemma worker_enabled_or_blocked s i w : Live s -> nth_error (d_workers V s) i = Some w ->
    (exists l, dstep s l <> None) \/ blocked_w w.
  Proof.
    intros HL Hw.
    assert (Hgo : forall r, (exists l, dstep s l <> None) \/ d_mu V s r = None).
    { intros r. destruct (d_mu V s r) as [o|] eqn:Emu; [left; exact (holder_enabled s r o HL Emu)|now right]. }
    destruct w as [| |y x tl l ph|y x tl l|y x tl l t0 tr0|y x tl l sp];
      try (left; exists (LW i); exact (worker_enabled s i _ Hw I)).
    - right. now left.
    - destruct (Hgo (y - 1)) as [He|Emu]; [now left|].
      destruct ph; try (left; exists (LW i); apply (worker_enabled s i _ Hw); split; [discriminate|intros _; exact Emu]).
      right. right. exists y, x, tl, l. reflexivity.
    - destruct (Hgo y) as [He|Emu]; [now left|]. left. exists (LW i). apply (worker_enabled s i _ Hw).
      destruct sp; try exact I. exact Emu.
  Qed.

  Lemma all_workers_blocked_or_enabled s : Live s ->
    (exists l, dstep s l <> None) \/ (forall i w, nth_error (d_workers V s) i = Some w -> blocked_w w).
  Proof. intros HL. apply nth_all_or. intros i w. exact (worker_enabled_or_blocked s i w HL). Qed.

  Lemma rec_enabled_or_blocked s : Live s ->
    (exists l, dstep s l <> None) \/ mbH <= d_recRow V s \/ (d_recRow V s < mbH /\ d_rec V s = RWait PSleep).
  Proof.
    intros HL. destruct (Nat.lt_ge_cases (d_recRow V s) mbH) as [Hlt|Hge]; [|right; now left].
    destruct (d_mu V s (d_recRow V s)) as [o|] eqn:Emu; [left; exact (holder_enabled s _ o HL Emu)|].
    destruct (d_rec V s) as [ph|] eqn:Er.
    - destruct ph; try (left; exists LRec; apply rec_enabled; [exact Hlt|rewrite Er; split; [discriminate|intros _; exact Emu]]).
      right. right. auto.
    - left. exists LRec. apply rec_enabled; [exact Hlt|]. rewrite Er. exact I.
  Qed.

  Theorem detailed_deadlock_free : forall n sched s, 1 <= n ->
    drun (dinit n) sched = Some s -> dfinal V mbH s = false -> exists l, dstep s l <> None.
  Proof.
    intros n sched s Hn Hr Hnf. destruct (detailed_live n sched s Hr) as [HD HL].
    pose proof (abs_inv V v0 f mbW mbH HmbW n s HD) as HL1.
    destruct (all_workers_blocked_or_enabled s HL) as [He|Hblocked]; [exact He|].
    destruct (rec_enabled_or_blocked s HL) as [He|Hrec]; [exact He|]. exfalso.
    (* nobody is a signaller, so [done] has caught up with [adone] everywhere *)
    assert (Hnosig : forall j y x tl l sp, nth_error (d_workers V s) j = Some (DSig y x tl l sp) -> False).
    { intros j y x tl l sp Hj. destruct (Hblocked j _ Hj) as [H|(y' & x' & tl' & l' & H)]; discriminate. }
    assert (Hdone : forall y, d_done V s y = d_adone V s y).
    { intros y. destruct (q_done s HL y) as [H|(j & x & tl & l & Hj)]; [exact H|]. exfalso. exact (Hnosig _ _ _ _ _ _ Hj). }
    (* no worker sleeps: the row above it is complete (a Broadcast would be pending) or
       its worker sleeps too — induction on the row *)
    assert (Hnosleep : forall y i x tl l, nth_error (d_workers V s) i = Some (DWait y x tl l PSleep) -> False).
    { induction y as [y IH] using lt_wf_ind. intros i x tl l Hi.
      destruct (p_ok V v0 f mbW mbH n s HD i _ Hi) as [Hy _].
      pose proof (p_rows_lt V v0 f mbW mbH n s HD i _ y Hi eq_refl) as Hlt.
      destruct (i_owner V v0 f mbW mbH n (abs s) HL1 (y - 1)) as [Hfull|(k & tl' & l' & Hk)].
      - cbn [nextRow ConcDetailed.abs]. lia.
      - cbn [done ConcDetailed.abs] in Hfull.
        assert (Hnd : needed x <= d_done V s (y - 1)) by (rewrite Hdone, Hfull; unfold ConcRowSync.needed; lia).
        destruct (q_wake_w s HL i y x tl l PSleep Hi Hnd eq_refl) as (j & x' & tl'' & l'' & sp & Hj & _).
        exact (Hnosig _ _ _ _ _ _ Hj).
      - cbn [workers ConcDetailed.abs] in Hk. destruct (nth_error_map_inv _ _ _ _ Hk) as (wk & Ek & Hk').
        destruct (Hblocked k wk Ek) as [->|(y' & x' & tl'' & l'' & ->)]; [discriminate|].
        cbn in Hk'. inversion Hk'; subst y'. exact (IH (y - 1) ltac:(lia) k x' tl'' l'' Ek). }
    (* hence every worker has exited, and L1 says the recorder's row is complete *)
    assert (Hall : forall i w, nth_error (workers V (abs s)) i = Some w -> w = Exited).
    { intros i w Hi. cbn in Hi. destruct (nth_error_map_inv _ _ _ _ Hi) as (w0 & Hi0 & ->).
      destruct (Hblocked i w0 Hi0) as [->|(y & x & tl & l & ->)]; [reflexivity|]. exfalso. exact (Hnosleep _ _ _ _ _ Hi0). }
    rewrite <- (final_abs V mbW mbH s) in Hnf.
    destruct (all_exited_rec_ready V v0 f mbW mbH HmbW n (abs s) HL1 Hn Hall Hnf) as [Hlt Hfull].
    cbn [recRow done ConcDetailed.abs] in Hlt, Hfull.
    destruct Hrec as [Hge|[_ Hsleep]]; [lia|].
    (* the recorder sleeps on a complete row: a broadcast would have to be pending *)
    assert (Hnd : mbW <= d_done V s (d_recRow V s)) by (rewrite Hdone, Hfull; lia).
    destruct (q_wake_r s HL PSleep Hsleep Hnd eq_refl) as (j & x' & tl'' & l'' & sp & Hj & _).
    exact (Hnosig _ _ _ _ _ _ Hj).
  Qed.

  (** Every maximal run of the detailed system ends in the serial result. *)
  Theorem detailed_system_deterministic : forall n sched s, 1 <= n ->
    drun (dinit n) sched = Some s -> (forall l, dstep s l = None) ->
    (forall y x, y < mbH -> x < mbW -> d_out V s y x = Some (serial_out V v0 f mbW y x)) /\
    d_tokens V s = serial_tokens V v0 f mbW mbH.
  Proof.
    intros n sched s Hn Hr Hstuck. destruct (dfinal V mbH s) eqn:Hf.
    - exact (detailed_deterministic V v0 f mbW mbH HmbW n sched s Hr Hf).
    - destruct (detailed_deadlock_free n sched s Hn Hr Hf) as (l & Hl). exfalso. exact (Hl (Hstuck l)).
  Qed.

  (** no lost wake-up on the detailed system: a worker asleep in cond.Wait, or committed to
      it, whose row has the progress it needs has that row's signaller between its waiters
      load and its Broadcast *)
  Theorem detailed_no_lost_wakeup : forall n sched s i y x tl l ph,
    drun (dinit n) sched = Some s ->
    nth_error (d_workers V s) i = Some (DWait y x tl l ph) ->
    needed x <= d_done V s (y - 1) -> ph = PWaitCall \/ ph = PSleep ->
    exists j x' tl' l' sp, nth_error (d_workers V s) j = Some (DSig (y - 1) x' tl' l' sp) /\ okphase ph sp = true.
  Proof.
    intros n sched s i y x tl l ph Hr Hi Hnd Hph. destruct (detailed_live n sched s Hr) as [_ HL].
    apply (q_wake_w s HL i y x tl l ph Hi Hnd). destruct Hph as [-> | ->]; reflexivity.
  Qed.

End Live.

(** Not vacuous: a scheduler rotating its preference among the two workers and the recorder
    drives the system (3 x 3 macroblocks) through the slow paths — recorder and row-1 worker
    asleep in cond.Wait, woken by Broadcasts — to a final state with the serial tokens;
    and a state with a sleeping waiter is reachable. *)
Definition ex_g (y x tl t tr l : nat) : nat := (1 + y + 2 * x + tl + 2 * t + 3 * tr + l) mod 5.

Fixpoint first_enabled (s : dstate nat) (ls : list label) : option (label * dstate nat) :=
  match ls with
  | [] => None
  | l :: rest => match dstep nat 0 ex_g 3 3 s l with Some s' => Some (l, s') | None => first_enabled s rest end
  end.

Fixpoint greedy (fuel : nat) (s : dstate nat) : list label * dstate nat :=
  match fuel with
  | 0 => ([], s)
  | S k => match first_enabled s (match k mod 4 with
                                  | 0 => [LW 0; LW 1; LRec]
                                  | 1 | 2 => [LW 1; LRec; LW 0]
                                  | _ => [LRec; LW 1; LW 0]
                                  end) with
           | Some (l, s') => let (ls, sf) := greedy k s' in (l :: ls, sf)
           | None => ([], s)
           end
  end.

Definition sleeping (w : dw nat) : bool := match w with DWait _ _ _ _ PSleep => true | _ => false end.

Example detailed_run_example :
  let ls := fst (greedy 600 (dinit nat 0 2)) in
  option_map (dfinal nat 3) (drun nat 0 ex_g 3 3 (dinit nat 0 2) ls) = Some true /\
  option_map (d_tokens nat) (drun nat 0 ex_g 3 3 (dinit nat 0 2) ls) = Some (serial_tokens nat 0 ex_g 3 3).
Proof. split; vm_compute; reflexivity. Qed.

Example detailed_sleep_reachable :
  existsb (fun k => existsb sleeping (d_workers nat (snd (greedy k (dinit nat 0 2))))) (seq 0 200) = true /\
  existsb (fun k => match d_rec nat (snd (greedy k (dinit nat 0 2))) with RWait PSleep => true | _ => false end) (seq 0 200) = true.
Proof. split; vm_compute; reflexivity. Qed.
