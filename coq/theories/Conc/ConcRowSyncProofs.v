(** C10 — the L1 row pipeline (ConcRowSync.v): an inductive invariant, and from it:
    every read of the shared top context returns the serial value, every maximal run ends
    in the serial result, no reachable non-final state is stuck — for all sizes, worker
    counts and schedules. *)
From Coq Require Import List Arith Lia Bool.
From Webp Require Import Conc.ConcRowSync Conc.ConcShared.
From Webp Require Import Base.ListFacts.
Import ListNotations.

Section Proofs.
  Variable V : Type.
  Variable v0 : V.
  Variable f : nat -> nat -> V -> V -> V -> V -> V.
  Variables mbW mbH : nat.
  Hypothesis HmbW : 1 <= mbW.   (* a claim puts a worker at x = 0, and [i_worker] wants x < mbW *)

  Notation state := (state V).
  Notation P := (P V v0 f mbW).
  Notation step := (step V v0 f mbW mbH).
  Notation step_worker := (step_worker V v0 f mbW mbH).
  Notation step_rec := (step_rec V v0 mbW mbH).
  Notation run := (run V v0 f mbW mbH).
  Notation init := (init V v0).
  Notation guard := (guard V mbW).
  Notation needed := (needed mbW).
  Notation final := (final V mbH).

  Definition spec_tokens (k : nat) : list V :=
    flat_map (fun y => map (P (S y)) (seq 0 mbW)) (seq 0 k).

  (** the idea: [i_chain] (row y+1 stays behind row y until y is complete) and [i_top] (cell
      x holds the value of the lowest row that passed x); [i_owner] is for deadlock freedom *)
  Record Inv (n : nat) (s : state) : Prop := {
    i_len : length (workers V s) = n;
    i_next : nextRow V s <= mbH;
    i_done_le : forall y, done V s y <= mbW;
    i_done_unstarted : forall y, nextRow V s <= y -> done V s y = 0;
    i_out : forall y x, x < done V s y -> out V s y x = Some (P (S y) x);
    i_chain : forall y, done V s (S y) = 0 \/ done V s (S y) < done V s y \/ done V s y = mbW;
    i_top0 : forall x, done V s 0 <= x -> top V s x = (None, v0);
    i_top : forall y x, x < done V s y -> done V s (S y) <= x -> top V s x = (Some y, P (S y) x);
    i_worker : forall i y x tl l, nth_error (workers V s) i = Some (AtMB y x tl l) ->
        y < nextRow V s /\ x < mbW /\ done V s y = x /\
        tl = (if x =? 0 then v0 else P y (x - 1)) /\
        l = (if x =? 0 then v0 else P (S y) (x - 1));
    i_owner : forall y, y < nextRow V s ->
        done V s y = mbW \/ exists i tl l, nth_error (workers V s) i = Some (AtMB y (done V s y) tl l);
    i_unique : forall i j y x x' tl tl' l l',
        nth_error (workers V s) i = Some (AtMB y x tl l) ->
        nth_error (workers V s) j = Some (AtMB y x' tl' l') -> i = j;
    i_exited : forall i, nth_error (workers V s) i = Some Exited -> nextRow V s = mbH;
    i_rec_le : recRow V s <= mbH;
    i_rec_done : forall y, y < recRow V s -> done V s y = mbW;
    i_tokens : tokens V s = spec_tokens (recRow V s) }.

  Lemma done_mono n s : Inv n s -> forall y1 y2, y1 <= y2 -> done V s y2 <= done V s y1.
  Proof.
    intros HI y1 y2 Hle. induction y2 as [|y2 IH].
    - replace y1 with 0 by lia. lia.
    - destruct (Nat.eq_dec y1 (S y2)) as [->|Hne]; [lia|].
      specialize (IH ltac:(lia)).
      pose proof (i_chain n s HI y2) as Hc. pose proof (i_done_le n s HI (S y2)) as Hd.
      pose proof (i_done_le n s HI y2). lia.
  Qed.

  Lemma needed_gt x : x < mbW -> x < needed x.
  Proof. unfold ConcRowSync.needed. lia. Qed.

  Lemma needed_le x : needed x <= mbW.
  Proof. unfold ConcRowSync.needed. lia. Qed.

  Lemma init_inv n : Inv n (init n).
  Proof.
    unfold ConcRowSync.init.
    constructor; cbn [nextRow workers done top out recRow tokens]; intros;
      try (match goal with
           | H : nth_error (repeat _ _) _ = Some _ |- _ => apply nth_error_repeat_inv in H; discriminate
           end);
      try lia; try reflexivity.
    apply repeat_length.
  Qed.

  Lemma guard_spec s y x : guard s y x = true <-> y = 0 \/ needed x <= done V s (y - 1).
  Proof. unfold ConcRowSync.guard. rewrite orb_true_iff, Nat.eqb_eq, Nat.leb_le. reflexivity. Qed.

  Lemma reads_serial n s i y x tl l :
    Inv n s -> nth_error (workers V s) i = Some (AtMB y x tl l) -> guard s y x = true ->
    top V s x = ((if y =? 0 then None else Some (y - 1)), P y x) /\
    (S x < mbW -> top V s (S x) = ((if y =? 0 then None else Some (y - 1)), P y (S x))).
  Proof.
    intros HI Hw Hg. destruct (i_worker n s HI i y x tl l Hw) as (Hy & Hx & Hd & _ & _).
    apply guard_spec in Hg. destruct y as [|y']; cbn [Nat.eqb].
    - split; [|intros _]; cbn [ConcRowSync.P]; apply (i_top0 n s HI); lia.
    - destruct Hg as [Hg|Hg]; [discriminate|]. replace (S y' - 1) with y' in * by lia.
      unfold ConcRowSync.needed in Hg.
      split; [|intros Hsx]; apply (i_top n s HI y'); lia.
  Qed.

  Lemma step_value n s i y x tl l :
    Inv n s -> nth_error (workers V s) i = Some (AtMB y x tl l) -> guard s y x = true ->
    f y x tl (snd (top V s x)) (if S x <? mbW then snd (top V s (S x)) else v0) l = P (S y) x.
  Proof.
    intros HI Hw Hg. destruct (reads_serial n s i y x tl l HI Hw Hg) as [Ht Htr].
    destruct (i_worker n s HI i y x tl l Hw) as (Hy & Hx & Hd & Htl & Hl).
    rewrite Ht. cbn [snd]. cbn [ConcRowSync.P].
    destruct x as [|x'].
    - cbn [Nat.eqb] in Htl, Hl. subst tl l. cbn [srow].
      destruct (1 <? mbW) eqn:E; [|reflexivity].
      apply Nat.ltb_lt in E. rewrite (Htr E). reflexivity.
    - cbn [Nat.eqb] in Htl, Hl. replace (S x' - 1) with x' in * by lia. subst tl l.
      cbn [srow]. destruct (S (S x') <? mbW) eqn:E; [|reflexivity].
      apply Nat.ltb_lt in E. rewrite (Htr E). reflexivity.
  Qed.

  Definition row_at (w : wstate V) : option nat :=
    match w with AtMB y _ _ _ => Some y | _ => None end.

  Lemma inv_uniq n s : Inv n s -> uniq row_at (workers V s).
  Proof.
    intros HI i j [|y x tl l|] [|y' x' tl' l'|] k Hi Hj Ka Kb; try discriminate.
    inversion Ka; inversion Kb; subst. exact (i_unique n s HI i j k x x' tl tl' l l' Hi Hj).
  Qed.

  Lemma uniq_rows ws : uniq row_at ws -> forall i j y x x' tl tl' l l',
    nth_error ws i = Some (AtMB y x tl l) -> nth_error ws j = Some (AtMB y x' tl' l') -> i = j.
  Proof. intros Hu i j y x x' tl tl' l l' Hi Hj. exact (Hu i j _ _ y Hi Hj eq_refl eq_refl). Qed.

  (** after [try solve [apply HI]] the bullets are the touched fields, in record order *)
  Lemma step_claim_inv n s i :
    Inv n s -> nth_error (workers V s) i = Some Idle -> nextRow V s < mbH ->
    Inv n (mkState V (S (nextRow V s)) (set_nth (workers V s) i (AtMB (nextRow V s) 0 v0 v0))
                   (done V s) (top V s) (out V s) (recRow V s) (tokens V s)).
  Proof.
    intros HI Hw Hlt. pose proof (nth_error_lt _ _ _ Hw) as Hil.
    pose proof (i_done_unstarted n s HI (nextRow V s) (le_n _)) as Hd0.
    constructor; cbn [nextRow workers done top out recRow tokens]; try solve [apply HI].
    - rewrite set_nth_length. apply (i_len n s HI).
    - lia.
    - intros y Hy. apply (i_done_unstarted n s HI). lia.
    - intros j y x tl l Hj. destruct (set_nth_inv _ _ _ _ _ Hj) as [[-> E]|[Hne Hj0]].
      + inversion E; subst. cbn. repeat split; try lia; auto.
      + destruct (i_worker n s HI j y x tl l Hj0) as (H1 & H2). split; [lia|exact H2].
    - intros y Hy. destruct (Nat.eq_dec y (nextRow V s)) as [->|Hne].
      + right. exists i, v0, v0. rewrite set_nth_eq by exact Hil. rewrite Hd0. reflexivity.
      + destruct (i_owner n s HI y ltac:(lia)) as [Hd|(j & tl & l & Hj)]; [now left|].
        right. exists j, tl, l. rewrite set_nth_neq; [exact Hj|]. intros ->. congruence.
    - (* the claimed row is fresh: every row in flight is below [nextRow] *)
      apply uniq_rows, (uniq_set_nth row_at _ i Idle); [exact (inv_uniq n s HI)|exact Hw|].
      intros k Hk. right. intros j [|y x tl l|] Hj Hkj; try discriminate.
      destruct (i_worker n s HI j y x tl l Hj) as (H1 & _). cbn in Hk, Hkj. inversion Hk; inversion Hkj; lia.
    - intros j Hj. destruct (set_nth_inv _ _ _ _ _ Hj) as [[-> E]|[Hne Hj0]]; [discriminate|].
      pose proof (i_exited n s HI j Hj0). lia.
  Qed.

  Lemma step_exit_inv n s i :
    Inv n s -> nth_error (workers V s) i = Some Idle -> ~ nextRow V s < mbH ->
    Inv n (mkState V (nextRow V s) (set_nth (workers V s) i Exited)
                   (done V s) (top V s) (out V s) (recRow V s) (tokens V s)).
  Proof.
    intros HI Hw Hge. pose proof (i_next n s HI) as Hnx.
    constructor; cbn [nextRow workers done top out recRow tokens]; try solve [apply HI].
    - rewrite set_nth_length. apply (i_len n s HI).
    - intros j y x tl l Hj. destruct (set_nth_inv _ _ _ _ _ Hj) as [[-> E]|[Hne Hj0]]; [discriminate|].
      exact (i_worker n s HI j y x tl l Hj0).
    - intros y Hy. destruct (i_owner n s HI y Hy) as [Hd|(j & tl & l & Hj)]; [now left|].
      right. exists j, tl, l. rewrite set_nth_neq; [exact Hj|]. intros ->. congruence.
    - apply uniq_rows, (uniq_set_nth row_at _ i Idle); [exact (inv_uniq n s HI)|exact Hw|discriminate].
    - intros j Hj. destruct (set_nth_inv _ _ _ _ _ Hj) as [[-> E]|[Hne Hj0]]; [lia|].
      exact (i_exited n s HI j Hj0).
  Qed.

  Lemma step_mb_inv n s i y x tl l :
    Inv n s -> nth_error (workers V s) i = Some (AtMB y x tl l) -> guard s y x = true ->
    let t := snd (top V s x) in
    let tr := if S x <? mbW then snd (top V s (S x)) else v0 in
    let r := f y x tl t tr l in
    Inv n (mkState V (nextRow V s)
             (set_nth (workers V s) i (if S x <? mbW then AtMB y (S x) t r else Idle))
             (upd1 (done V s) y (S x)) (upd1 (top V s) x (Some y, r))
             (upd2 (out V s) y x (Some r)) (recRow V s) (tokens V s)).
  Proof.
    intros HI Hw Hg t tr r.
    pose proof (nth_error_lt _ _ _ Hw) as Hil.
    assert (Hr : r = P (S y) x) by (apply (step_value n s i y x tl l HI Hw Hg)).
    destruct (reads_serial n s i y x tl l HI Hw Hg) as [Ht _].
    assert (Htv : t = P y x) by (unfold t; rewrite Ht; reflexivity).
    destruct (i_worker n s HI i y x tl l Hw) as (Hy & Hx & Hd & Htl & Hl).
    pose proof (done_mono n s HI) as Hmono.
    apply guard_spec in Hg.
    (* the guard: every row above is two cells ahead or complete; no row below is ahead *)
    assert (Habove : forall y0, y0 < y -> x + 2 <= done V s y0 \/ done V s y0 = mbW).
    { intros y0 Hy0. destruct Hg as [->|Hg]; [lia|]. pose proof (Hmono y0 (y - 1) ltac:(lia)).
      pose proof (i_done_le n s HI y0). unfold ConcRowSync.needed in Hg. lia. }
    assert (Hbelow : forall y0, y < y0 -> done V s y0 <= x)
      by (intros y0 Hy0; pose proof (Hmono y y0 ltac:(lia)); lia).
    assert (Hother : forall j y1 x1 tl1 l1, nth_error (workers V s) j = Some (AtMB y1 x1 tl1 l1) ->
              j <> i -> y1 <> y).
    { intros j y1 x1 tl1 l1 Hj Hne ->. exact (Hne (i_unique n s HI j i y x1 x tl1 tl l1 l Hj Hw)). }
    constructor; cbn [nextRow workers done top out recRow tokens]; try solve [apply HI].
    - rewrite set_nth_length. apply (i_len n s HI).
    - intros y0. unfold upd1. destruct (y0 =? y); [lia|apply (i_done_le n s HI)].
    - intros y0 Hy0. rewrite upd1_neq by lia. apply (i_done_unstarted n s HI). exact Hy0.
    - intros y0 x0 Hx0. unfold upd2. destruct (Nat.eqb_spec y0 y) as [->|Hne]; cbn [andb].
      + rewrite upd1_eq in Hx0. destruct (Nat.eqb_spec x0 x) as [->|Hnx]; [now rewrite Hr|].
        apply (i_out n s HI). lia.
      + rewrite upd1_neq in Hx0 by exact Hne. apply (i_out n s HI). exact Hx0.
    - intros y0. pose proof (i_chain n s HI y0) as Hc. unfold upd1.
      destruct (Nat.eqb_spec (S y0) y) as [He|He]; destruct (Nat.eqb_spec y0 y) as [He'|He']; try lia.
      + destruct (Habove y0 ltac:(lia)); lia.
      + pose proof (Hbelow (S y0) ltac:(lia)). lia.
    - intros x0 Hx0. unfold upd1 in *. destruct (Nat.eqb_spec 0 y) as [<-|Hy0].
      + destruct (Nat.eqb_spec x0 x); [lia|]. apply (i_top0 n s HI). lia.
      + destruct (Habove 0 ltac:(lia)); (destruct (Nat.eqb_spec x0 x); [lia|]); apply (i_top0 n s HI); exact Hx0.
    - intros y0 x0 Hlt Hle. unfold upd1 in *. destruct (Nat.eqb_spec x0 x) as [->|Hnx].
      + (* cell x: after the step only row y has [done (S y0) <= x < done y0] *)
        destruct (Nat.eqb_spec y0 y) as [->|Hny]; [now rewrite Hr|]. exfalso.
        destruct (Nat.eqb_spec (S y0) y) as [He|Hne]; [lia|].
        destruct (Nat.lt_ge_cases y0 y) as [Hlt'|Hge'];
          [destruct (Habove (S y0) ltac:(lia)); lia|pose proof (Hbelow y0 ltac:(lia)); lia].
      + apply (i_top n s HI).
        * destruct (Nat.eqb_spec y0 y); [subst; lia|exact Hlt].
        * destruct (Nat.eqb_spec (S y0) y) as [He|]; [rewrite He in *; lia|exact Hle].
    - intros j y1 x1 tl1 l1 Hj. destruct (set_nth_inv _ _ _ _ _ Hj) as [[-> E]|[Hne Hj0]].
      + destruct (S x <? mbW) eqn:E'; [|discriminate]. apply Nat.ltb_lt in E'.
        inversion E; subst y1 x1 tl1 l1. rewrite upd1_eq. cbn [Nat.eqb].
        replace (S x - 1) with x by lia. repeat split; auto; lia.
      + destruct (i_worker n s HI j y1 x1 tl1 l1 Hj0) as (H1 & H2 & H3 & H4 & H5).
        rewrite upd1_neq by exact (Hother j y1 x1 tl1 l1 Hj0 Hne). repeat split; auto.
    - intros y0 Hy0. destruct (Nat.eq_dec y0 y) as [->|Hny].
      + rewrite upd1_eq. destruct (S x <? mbW) eqn:E.
        * right. exists i, t, r. rewrite set_nth_eq by exact Hil. reflexivity.
        * left. apply Nat.ltb_ge in E. lia.
      + rewrite upd1_neq by exact Hny.
        destruct (i_owner n s HI y0 Hy0) as [Hd0|(j & tl0 & l0 & Hj)]; [now left|].
        right. exists j, tl0, l0. rewrite set_nth_neq; [exact Hj|]. intros ->.
        rewrite Hw in Hj. inversion Hj. congruence.
    - apply uniq_rows, (uniq_set_nth row_at _ i (AtMB y x tl l)); [exact (inv_uniq n s HI)|exact Hw|].
      intros k Hk. left. destruct (S x <? mbW); [exact Hk|discriminate].
    - intros j Hj. destruct (set_nth_inv _ _ _ _ _ Hj) as [[-> E]|[Hne Hj0]].
      + destruct (S x <? mbW); discriminate.
      + exact (i_exited n s HI j Hj0).
    - intros y0 Hy0. pose proof (i_rec_done n s HI y0 Hy0) as Hd0.
      destruct (Nat.eq_dec y0 y) as [->|Hny]; [lia|]. rewrite upd1_neq by exact Hny. exact Hd0.
  Qed.

  Lemma spec_tokens_S k : spec_tokens (S k) = spec_tokens k ++ map (P (S k)) (seq 0 mbW).
  Proof.
    unfold spec_tokens. rewrite seq_S, flat_map_app. cbn [flat_map plus]. now rewrite app_nil_r.
  Qed.

  Lemma recorded_row n s : Inv n s -> done V s (recRow V s) = mbW ->
    map (out_or_v0 V v0 s (recRow V s)) (seq 0 mbW) = map (P (S (recRow V s))) (seq 0 mbW).
  Proof.
    intros HI Hd. apply map_ext_in. intros x Hx. apply in_seq in Hx.
    unfold out_or_v0. rewrite (i_out n s HI) by lia. reflexivity.
  Qed.

  Lemma step_rec_spec s s' : step_rec s = Some s' ->
    recRow V s < mbH /\ done V s (recRow V s) = mbW /\
    s' = mkState V (nextRow V s) (workers V s) (done V s) (top V s) (out V s) (S (recRow V s))
                 (tokens V s ++ map (out_or_v0 V v0 s (recRow V s)) (seq 0 mbW)).
  Proof.
    unfold ConcRowSync.step_rec.
    destruct ((recRow V s <? mbH) && (done V s (recRow V s) =? mbW)) eqn:E; [|discriminate].
    apply andb_true_iff in E. destruct E as [E1 E2]. apply Nat.ltb_lt in E1. apply Nat.eqb_eq in E2.
    intros H. inversion H. auto.
  Qed.

  Lemma step_rec_inv n s s' : Inv n s -> step_rec s = Some s' -> Inv n s'.
  Proof.
    intros HI Hs. destruct (step_rec_spec s s' Hs) as (E1 & E2 & ->).
    constructor; cbn [nextRow workers done top out recRow tokens]; try solve [apply HI].
    - lia.
    - intros y Hy. destruct (Nat.eq_dec y (recRow V s)) as [->|Hne]; [exact E2|].
      apply (i_rec_done n s HI). lia.
    - rewrite spec_tokens_S, (i_tokens n s HI), (recorded_row n s HI E2). reflexivity.
  Qed.

  Lemma step_worker_spec s i s' : step_worker s i = Some s' ->
    (nth_error (workers V s) i = Some Idle /\ nextRow V s < mbH /\
     s' = mkState V (S (nextRow V s)) (set_nth (workers V s) i (AtMB (nextRow V s) 0 v0 v0))
                  (done V s) (top V s) (out V s) (recRow V s) (tokens V s)) \/
    (nth_error (workers V s) i = Some Idle /\ ~ nextRow V s < mbH /\
     s' = mkState V (nextRow V s) (set_nth (workers V s) i Exited)
                  (done V s) (top V s) (out V s) (recRow V s) (tokens V s)) \/
    (exists y x tl l, nth_error (workers V s) i = Some (AtMB y x tl l) /\ guard s y x = true /\
     let t := snd (top V s x) in
     let tr := if S x <? mbW then snd (top V s (S x)) else v0 in
     let r := f y x tl t tr l in
     s' = mkState V (nextRow V s)
             (set_nth (workers V s) i (if S x <? mbW then AtMB y (S x) t r else Idle))
             (upd1 (done V s) y (S x)) (upd1 (top V s) x (Some y, r))
             (upd2 (out V s) y x (Some r)) (recRow V s) (tokens V s)).
  Proof.
    unfold ConcRowSync.step_worker.
    destruct (nth_error (workers V s) i) as [[|y x tl l|]|]; try discriminate.
    - destruct (nextRow V s <? mbH) eqn:E; intros H; inversion H.
      + left. apply Nat.ltb_lt in E. auto.
      + right. left. apply Nat.ltb_ge in E. split; [reflexivity|]. split; [lia|reflexivity].
    - destruct (guard s y x) eqn:Hg; [|discriminate]. intros H; inversion H.
      right. right. exists y, x, tl, l. auto.
  Qed.

  Lemma step_worker_enabled s i w : nth_error (workers V s) i = Some w ->
    match w with Idle => True | AtMB y x _ _ => guard s y x = true | Exited => False end ->
    step s (LW i) <> None.
  Proof.
    intros Hw Hc. cbn [ConcRowSync.step]. unfold ConcRowSync.step_worker. rewrite Hw.
    destruct w as [|y x tl l|]; [destruct (nextRow V s <? mbH); discriminate|rewrite Hc; discriminate|contradiction].
  Qed.

  Lemma step_inv n s l s' : Inv n s -> step s l = Some s' -> Inv n s'.
  Proof.
    intros HI Hs. destruct l as [i|]; cbn [ConcRowSync.step] in Hs; [|exact (step_rec_inv n s s' HI Hs)].
    destruct (step_worker_spec s i s' Hs) as [(Hw & E & ->)|[(Hw & E & ->)|(y & x & tl & l & Hw & Hg & ->)]].
    - exact (step_claim_inv n s i HI Hw E).
    - exact (step_exit_inv n s i HI Hw E).
    - exact (step_mb_inv n s i y x tl l HI Hw Hg).
  Qed.

  Theorem rowsync_inv : forall n sched s, run (init n) sched = Some s -> Inv n s.
  Proof.
    intros n sched s Hr.
    exact (orun_invariant _ _ step (Inv n) (step_inv n) sched _ s (init_inv n) Hr).
  Qed.

  Theorem rowsync_inv_pipeline : forall n sched s, run (init n) sched = Some s ->
    (forall y, done V s (S y) = 0 \/ done V s (S y) < done V s y \/ done V s y = mbW) /\
    (forall y x, x < done V s y -> done V s (S y) <= x -> top V s x = (Some y, P (S y) x)) /\
    (forall x, done V s 0 <= x -> top V s x = (None, v0)) /\
    (forall i j y x x' tl tl' l l',
        nth_error (workers V s) i = Some (AtMB y x tl l) ->
        nth_error (workers V s) j = Some (AtMB y x' tl' l') -> i = j).
  Proof.
    intros n sched s Hr. pose proof (rowsync_inv n sched s Hr) as HI.
    repeat split; [apply (i_chain n s HI)|apply (i_top n s HI)|apply (i_top0 n s HI)|apply (i_unique n s HI)].
  Qed.

  (** Whenever a worker at MB (x,y) is enabled, the cells it reads hold row y-1's
      values (writer tag y-1, or the initial fill for row 0), i.e. what the serial
      order has there. *)
  Theorem rowsync_reads_serial : forall n sched s i y x tl l,
    run (init n) sched = Some s ->
    nth_error (workers V s) i = Some (AtMB y x tl l) -> guard s y x = true ->
    top V s x = ((if y =? 0 then None else Some (y - 1)), P y x) /\
    (S x < mbW -> top V s (S x) = ((if y =? 0 then None else Some (y - 1)), P y (S x))) /\
    tl = (if x =? 0 then v0 else P y (x - 1)) /\
    l = (if x =? 0 then v0 else P (S y) (x - 1)).
  Proof.
    intros n sched s i y x tl l Hr Hw Hg. pose proof (rowsync_inv n sched s Hr) as HI.
    destruct (reads_serial n s i y x tl l HI Hw Hg) as [H1 H2].
    destruct (i_worker n s HI i y x tl l Hw) as (_ & _ & _ & H3 & H4). auto.
  Qed.

  Lemma final_spec s : final s = true <->
    Forall (fun w => w = Exited) (workers V s) /\ recRow V s = mbH.
  Proof.
    unfold ConcRowSync.final. rewrite andb_true_iff, Nat.eqb_eq, forallb_forall, Forall_forall.
    split; intros [H1 H2]; (split; [|exact H2]); intros w Hw; specialize (H1 w Hw).
    - destruct w; cbn in H1; congruence.
    - now subst.
  Qed.

  Theorem rowsync_deterministic : forall n sched s,
    run (init n) sched = Some s -> final s = true ->
    (forall y x, y < mbH -> x < mbW -> out V s y x = Some (serial_out V v0 f mbW y x)) /\
    tokens V s = serial_tokens V v0 f mbW mbH.
  Proof.
    intros n sched s Hr Hf. pose proof (rowsync_inv n sched s Hr) as HI.
    destruct (proj1 (final_spec s) Hf) as [Hall Hrec]. split.
    - intros y x Hy Hx. apply (i_out n s HI).
      rewrite (i_rec_done n s HI y) by lia. exact Hx.
    - rewrite (i_tokens n s HI), Hrec. reflexivity.
  Qed.

  (** Two maximal runs — any worker counts, any schedules — agree; in particular
      every run agrees with the one-worker (serial row-major) run. *)
  Corollary rowsync_schedule_independent : forall n1 n2 sched1 sched2 s1 s2,
    run (init n1) sched1 = Some s1 -> final s1 = true ->
    run (init n2) sched2 = Some s2 -> final s2 = true ->
    (forall y x, y < mbH -> x < mbW -> out V s1 y x = out V s2 y x) /\ tokens V s1 = tokens V s2.
  Proof.
    intros n1 n2 sc1 sc2 s1 s2 H1 F1 H2 F2.
    destruct (rowsync_deterministic n1 sc1 s1 H1 F1) as [A1 B1].
    destruct (rowsync_deterministic n2 sc2 s2 H2 F2) as [A2 B2].
    split; [intros y x Hy Hx; rewrite A1, A2 by assumption; reflexivity|congruence].
  Qed.

  (** a blocked worker waits for the row above, which has a worker ([i_owner]): induction
      on the row *)
  Lemma some_mb_enabled n s : Inv n s ->
    forall y i x tl l, nth_error (workers V s) i = Some (AtMB y x tl l) ->
    exists j, step s (LW j) <> None.
  Proof.
    intros HI. induction y as [y IH] using lt_wf_ind. intros i x tl l Hw.
    destruct (guard s y x) eqn:Hg.
    - exists i. exact (step_worker_enabled s i _ Hw Hg).
    - assert (Hng : ~ (y = 0 \/ needed x <= done V s (y - 1))) by (rewrite <- guard_spec; congruence).
      destruct (i_worker n s HI i y x tl l Hw) as (Hy & _).
      pose proof (needed_le x).
      destruct (i_owner n s HI (y - 1) ltac:(lia)) as [Hd|(j & tl' & l' & Hj)]; [lia|].
      exact (IH (y - 1) ltac:(lia) j _ tl' l' Hj).
  Qed.

  Lemma all_exited_rec_ready n s : Inv n s -> 1 <= n ->
    (forall i w, nth_error (workers V s) i = Some w -> w = Exited) -> final s = false ->
    recRow V s < mbH /\ done V s (recRow V s) = mbW.
  Proof.
    intros HI Hn Hall Hnf.
    assert (Hnext : nextRow V s = mbH).
    { destruct (workers V s) as [|w ws] eqn:Ew.
      - pose proof (i_len n s HI) as Hl. rewrite Ew in Hl. cbn in Hl. lia.
      - apply (i_exited n s HI 0). rewrite Ew. cbn. now rewrite (Hall 0 w eq_refl). }
    assert (Hrec : recRow V s <> mbH).
    { intros E. rewrite (proj2 (final_spec s)) in Hnf; [discriminate|]. split; [|exact E].
      apply Forall_forall. intros w Hw. destruct (In_nth_error _ _ Hw) as (i & Hi). exact (Hall i w Hi). }
    pose proof (i_rec_le n s HI). split; [lia|].
    destruct (i_owner n s HI (recRow V s) ltac:(lia)) as [Hd|(j & tl & l & Hj)]; [exact Hd|].
    discriminate (Hall j _ Hj).
  Qed.

  Lemma step_rec_enabled s : recRow V s < mbH -> done V s (recRow V s) = mbW -> step s LRec <> None.
  Proof.
    intros Hlt Hd. cbn [ConcRowSync.step]. unfold ConcRowSync.step_rec.
    apply Nat.ltb_lt in Hlt. rewrite Hlt, Hd, Nat.eqb_refl. discriminate.
  Qed.

  Theorem rowsync_deadlock_free : forall n sched s, 1 <= n ->
    run (init n) sched = Some s -> final s = false -> exists l, step s l <> None.
  Proof.
    intros n sched s Hn Hr Hnf. pose proof (rowsync_inv n sched s Hr) as HI.
    destruct (nth_all_or (workers V s) (exists j, step s (LW j) <> None) (fun w => w = Exited)) as [(j & Hj)|Hall].
    { intros i [|y x tl l|] Hi; [left; exists i; exact (step_worker_enabled s i _ Hi I)| |now right].
      left. exact (some_mb_enabled n s HI y i x tl l Hi). }
    - exists (LW j). exact Hj.
    - destruct (all_exited_rec_ready n s HI Hn Hall Hnf) as [Hlt Hd].
      exists LRec. exact (step_rec_enabled s Hlt Hd).
  Qed.

  (** Every maximal run (a run that cannot be extended) is final, hence serial. *)
  Corollary rowsync_maximal_runs_serial : forall n sched s, 1 <= n ->
    run (init n) sched = Some s -> (forall l, step s l = None) ->
    (forall y x, y < mbH -> x < mbW -> out V s y x = Some (serial_out V v0 f mbW y x)) /\
    tokens V s = serial_tokens V v0 f mbW mbH.
  Proof.
    intros n sched s Hn Hr Hstuck. destruct (final s) eqn:Hf.
    - exact (rowsync_deterministic n sched s Hr Hf).
    - destruct (rowsync_deadlock_free n sched s Hn Hr Hf) as (l & Hl). exfalso. exact (Hl (Hstuck l)).
  Qed.

  (** The recorder (Phase B) only ever records completed rows, in row order. *)
  Theorem recorder_order : forall n sched s s', run (init n) sched = Some s ->
    step s LRec = Some s' ->
    done V s (recRow V s) = mbW /\ recRow V s' = S (recRow V s) /\
    tokens V s' = tokens V s ++ map (serial_out V v0 f mbW (recRow V s)) (seq 0 mbW).
  Proof.
    intros n sched s s' Hr Hs. pose proof (rowsync_inv n sched s Hr) as HI.
    destruct (step_rec_spec s s' Hs) as (_ & E2 & ->). cbn [recRow tokens].
    rewrite (recorded_row n s HI E2). auto.
  Qed.

  (** No conflicting accesses: two macroblock steps that are enabled in the same
      reachable state touch disjoint cells of the shared context row (a step of row
      y at x reads cells x, x+1 and writes cell x), so they commute — the model's
      form of "no data race on the top arrays", and what justifies taking one
      macroblock as one atomic step. *)
  Lemma rows_apart n s i j y x tl l y' x' tl' l' : Inv n s -> y < y' ->
    nth_error (workers V s) i = Some (AtMB y x tl l) ->
    nth_error (workers V s) j = Some (AtMB y' x' tl' l') -> guard s y' x' = true ->
    x' + 2 <= x.
  Proof.
    intros HI Hyy Hi Hj Hg'.
    destruct (i_worker n s HI i y x tl l Hi) as (_ & Hx & Hd & _).
    destruct (i_worker n s HI j y' x' tl' l' Hj) as (_ & Hx' & Hd' & _).
    apply guard_spec in Hg'. destruct Hg' as [Hg'|Hg']; [lia|]. unfold ConcRowSync.needed in Hg'.
    destruct (Nat.eq_dec y' (S y)) as [->|Hne].
    - replace (S y - 1) with y in Hg' by lia. lia.
    - pose proof (done_mono n s HI (S y) (y' - 1) ltac:(lia)) as H1.
      pose proof (i_chain n s HI y) as Hc. lia.
  Qed.

  Theorem rowsync_no_conflict : forall n sched s i j y x tl l y' x' tl' l',
    run (init n) sched = Some s -> i <> j ->
    nth_error (workers V s) i = Some (AtMB y x tl l) -> guard s y x = true ->
    nth_error (workers V s) j = Some (AtMB y' x' tl' l') -> guard s y' x' = true ->
    y <> y' /\ x' <> x /\ x' <> S x /\ x <> S x'.
  Proof.
    intros n sched s i j y x tl l y' x' tl' l' Hr Hij Hi Hg Hj Hg'.
    pose proof (rowsync_inv n sched s Hr) as HI.
    assert (Hyy : y <> y').
    { intros ->. apply Hij. exact (i_unique n s HI i j y' x x' tl tl' l l' Hi Hj). }
    split; [exact Hyy|].
    destruct (Nat.lt_ge_cases y y') as [Hl|Hge].
    - pose proof (rows_apart n s i j y x tl l y' x' tl' l' HI Hl Hi Hj Hg'). lia.
    - pose proof (rows_apart n s j i y' x' tl' l' y x tl l HI ltac:(lia) Hj Hi Hg). lia.
  Qed.

  Fixpoint nexited (ws : list (wstate V)) : nat :=
    match ws with [] => 0 | w :: tl => (if is_exited V w then 1 else 0) + nexited tl end.

  Lemma nexited_sumg ws : nexited ws = sumg (fun w => if is_exited V w then 1 else 0) ws.
  Proof. induction ws as [|w ws IH]; [reflexivity|]. rewrite sumg_cons, <- IH. reflexivity. Qed.

  Lemma nexited_le ws : nexited ws <= length ws.
  Proof.
    rewrite nexited_sumg, <- (Nat.mul_1_l (length ws)). apply sumg_bound.
    intros w. destruct (is_exited V w); auto.
  Qed.

  Lemma nexited_set_nth ws i w w' : nth_error ws i = Some w ->
    nexited (set_nth ws i w') + (if is_exited V w then 1 else 0)
    = nexited ws + (if is_exited V w' then 1 else 0).
  Proof. rewrite !nexited_sumg. apply sumg_set_nth. Qed.

  (** +1 per step; at most mbH*mbW for [done], mbH each for [nextRow], [recRow], n exits *)
  Definition measure (s : state) : nat :=
    sumf (done V s) mbH + nextRow V s + nexited (workers V s) + recRow V s.

  Lemma step_measure n s l s' : Inv n s -> step s l = Some s' -> measure s' = S (measure s).
  Proof.
    intros HI Hs. unfold measure. destruct l as [i|]; cbn [ConcRowSync.step] in Hs.
    - pose proof (fun w w' => nexited_set_nth (workers V s) i w w') as Hn.
      destruct (step_worker_spec s i s' Hs) as [(Hw & E & ->)|[(Hw & E & ->)|(y & x & tl & l & Hw & Hg & ->)]];
        cbn [done nextRow workers recRow].
      + specialize (Hn _ (AtMB (nextRow V s) 0 v0 v0) Hw). cbn [is_exited] in Hn. lia.
      + specialize (Hn _ Exited Hw). cbn [is_exited] in Hn. lia.
      + destruct (i_worker n s HI i y x tl l Hw) as (Hy & Hx & Hd & _).
        pose proof (i_next n s HI) as Hnx.
        pose proof (sumf_upd1_lt (done V s) y (S x) mbH ltac:(lia)) as Hsum.
        set (w' := if S x <? mbW then AtMB y (S x) _ _ else Idle).
        specialize (Hn _ w' Hw). replace (is_exited V w') with false in Hn by (unfold w'; destruct (S x <? mbW); reflexivity).
        cbn [is_exited] in Hn. lia.
    - destruct (step_rec_spec s s' Hs) as (_ & _ & ->). cbn [done nextRow workers recRow]. lia.
  Qed.

  Lemma measure_le n s : Inv n s -> measure s <= mbH * mbW + 2 * mbH + n.
  Proof.
    intros HI. unfold measure. pose proof (sumf_le (done V s) mbH mbW (i_done_le n s HI)).
    pose proof (i_next n s HI). pose proof (i_rec_le n s HI).
    pose proof (nexited_le (workers V s)) as Hx. rewrite (i_len n s HI) in Hx. lia.
  Qed.

  Theorem rowsync_terminates : forall n sched s,
    run (init n) sched = Some s -> length sched <= mbH * mbW + 2 * mbH + n.
  Proof.
    intros n sched s Hr.
    destruct (orun_potential _ _ step (Inv n) measure (fun _ => 0)
                ltac:(intros s0 l s1 H0 Hs; rewrite (step_measure n s0 l s1 H0 Hs);
                      split; [exact (step_inv n s0 l s1 H0 Hs)|lia])
                sched _ s (init_inv n) Hr) as [HI Hm].
    pose proof (measure_le n s HI). lia.
  Qed.

  Notation check_event := (check_event V v0 f mbW mbH).
  Notation check_from := (check_from V v0 f mbW mbH).

  Lemma if_some {A} (c : bool) (x r : A) : (if c then Some x else None) = Some r -> r = x.
  Proof. destruct c; [intros H; inversion H; reflexivity|discriminate]. Qed.

  Lemma if_step_some {A B} (c : bool) (o : option A) (g : A -> B) r :
    (if c then match o with Some a => Some (g a) | None => None end else None) = Some r ->
    exists a, o = Some a /\ r = g a.
  Proof. destruct c; [|discriminate]. destruct o as [a|]; [|discriminate]. intros H; inversion H. eauto. Qed.

  Lemma check_event_run s ph e s' ph' :
    check_event s ph e = Some (s', ph') -> run s (label_of e) = Some s'.
  Proof.
    destruct e as [i y|i y x|i yw nd|i y x|i y x|i y d|yw nd|y];
      cbn [ConcRowSync.check_event label_of ConcRowSync.run ConcRowSync.step]; intros H.
    3: destruct (nth_error (workers V s) i) as [[|y x tl l|]|]; try discriminate H.
    1,6,8: apply if_step_some in H; destruct H as (s1 & -> & E); inversion E; reflexivity.
    all: apply if_some in H; inversion H; reflexivity.
  Qed.

  Lemma check_from_sound evs : forall s ph k,
    check_from s ph evs k = None ->
    exists s', run s (flat_map label_of evs) = Some s' /\ final s' = true.
  Proof.
    induction evs as [|e evs IH]; intros s ph k H; cbn [ConcRowSync.check_from] in H.
    - destruct (final s) eqn:Hf; [|discriminate]. exists s. split; [reflexivity|exact Hf].
    - destruct (check_event s ph e) as [[s1 ph1]|] eqn:He; [|discriminate].
      destruct (IH s1 ph1 (S k) H) as (s' & Hr & Hf). exists s'. split; [|exact Hf].
      cbn [flat_map]. rewrite <- Hr. exact (orun_app _ _ step s _ _ s1 (check_event_run s ph e s1 ph1 He)).
  Qed.

  (** A trace accepted by the extracted checker is a maximal run of the L1 system,
      so everything above applies to the execution that produced it. *)
  Theorem check_trace_sound : forall n evs,
    check_trace V v0 f mbW mbH n evs = None ->
    exists s, run (init n) (flat_map label_of evs) = Some s /\ final s = true /\
      (forall y x, y < mbH -> x < mbW -> out V s y x = Some (serial_out V v0 f mbW y x)) /\
      tokens V s = serial_tokens V v0 f mbW mbH.
  Proof.
    intros n evs H. unfold ConcRowSync.check_trace in H.
    destruct (check_from_sound evs _ _ _ H) as (s & Hr & Hf). exists s.
    destruct (rowsync_deterministic n _ s Hr Hf) as [A B]. auto.
  Qed.

End Proofs.

(** Not vacuous: an interleaved run of 2 workers over a 2x2 frame reaches a final state;
    the guard blocks row 1 until row 0 has done 2 macroblocks; the checker accepts that
    trace and rejects one whose wait asked for x+1 instead of x+2. *)
Definition ex_f (y x tl t tr l : nat) : nat := 1 + y * 1000 + x * 100 + 7 * tl + 5 * t + 3 * tr + l.

Example run_example :
  exists s, run nat 0 ex_f 2 2 (init nat 0 2)
              [LW 0; LW 1; LW 0; LW 0; LW 1; LW 0; LW 1; LW 1; LRec; LRec] = Some s /\
            final nat 2 s = true /\ tokens nat s = serial_tokens nat 0 ex_f 2 2.
Proof. eexists. split; [vm_compute; reflexivity|split; vm_compute; reflexivity]. Qed.

Example guard_blocks :
  exists s, run nat 0 ex_f 2 2 (init nat 0 2) [LW 0; LW 1; LW 0] = Some s /\
            step nat 0 ex_f 2 2 s (LW 1) = None /\ step nat 0 ex_f 2 2 s (LW 0) <> None.
Proof. eexists. split; [vm_compute; reflexivity|split; vm_compute; [reflexivity|discriminate]]. Qed.

Definition ex_trace (nd : nat) : list event :=
  [EClaim 0 0; EClaim 1 1; EBegin 0 0 0; EBegin 1 1 0; EWait 1 0 nd; EStart 0 0 0; EExport 0 0 0;
   ESignal 0 0 1; EBegin 0 0 1; EStart 0 0 1; EExport 0 0 1; ESignal 0 0 2; EClaim 0 2;
   EStart 1 1 0; EExport 1 1 0; ESignal 1 1 1; ERecWait 0 2; ERecord 0;
   EBegin 1 1 1; EWait 1 0 2; EStart 1 1 1; EExport 1 1 1; ESignal 1 1 2; EClaim 1 3;
   ERecWait 1 2; ERecord 1].

Example trace_accepted : check_trace nat 0 ex_f 2 2 2 (ex_trace 2) = None.
Proof. vm_compute. reflexivity. Qed.
Example trace_rejected_wrong_needed : check_trace nat 0 ex_f 2 2 2 (ex_trace 1) = Some 4.
Proof. vm_compute. reflexivity. Qed.
