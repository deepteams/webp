(** C10 — every run of the detailed system (ConcDetailed.v) is finite, with an explicit
    bound: a potential argument.  Abstract (L1) progress — claim, exit, the write half of
    the macroblock body, record — is bounded by [mbH*mbW + 2*mbH + n]; in between every
    process only moves forward through waitFor / signal, except that a Broadcast sends
    its row's sleepers back to [PWoken], which the signaller pays for by leaving [signal].
    A blocked process (mutex taken, asleep in cond.Wait) is DISABLED, not spinning.  With
    deadlock freedom (ConcDetailedLive.v): under every scheduler, without fairness, an
    execution continued while a step is enabled is final after at most [run_bound] steps. *)
From Coq Require Import List Arith Lia Bool.
From Webp Require Import Conc.ConcRowSync Conc.ConcShared Conc.ConcRowSyncProofs Conc.ConcDetailed Conc.ConcDetailedProofs
  Conc.ConcDetailedLive.
Import ListNotations.

(** Potential: [wrank] (<= 10) inside waitFor, [W2 n * srank] inside signal.  [W2]: a
    Broadcast gives back <= 3 ranks to each of n workers and the recorder, its worker
    re-enters with <= 10, and 1 must be left.  [W1]: progress adds <= 5 * W2 or 10, plus 1.
    [run_bound]: the progress bound times [W1], plus the initial potential 10. *)
Definition srank (sp : sph) : nat :=
  match sp with QStore => 5 | QLoad => 4 | QLock => 3 | QUnlock => 2 | QBcast => 1 end.

Definition W2 (n : nat) : nat := 3 * (n + 1) + 11.
Definition W1 (n : nat) : nat := 5 * W2 n + 11.

Definition run_bound (mbW mbH n : nat) : nat := W1 n * (mbH * mbW + 2 * mbH + n) + 10.

Section Term.
  Variable V : Type.
  Variable v0 : V.
  Variable f : nat -> nat -> V -> V -> V -> V -> V.
  Variables mbW mbH : nat.
  Hypothesis HmbW : 1 <= mbW.
  Variable n : nat.

  Notation dstate := (dstate V).
  Notation dstep := (dstep V v0 f mbW mbH).
  Notation drun := (drun V v0 f mbW mbH).
  Notation dinit := (dinit V v0).
  Notation DInv := (DInv V v0 f mbW mbH).
  Notation abs := (abs V mbW).

  Definition val (w : dw V) : nat :=
    match w with
    | DWait _ _ _ _ ph => wrank ph
    | DSig _ _ _ _ sp => W2 n * srank sp
    | DCompute _ _ _ _ => 1                      (* the read sub-step is still to come *)
    | _ => 0
    end.
  Definition valr (r : dr) : nat := match r with RWait ph => wrank ph | RReady => 0 end.
  Definition exd (w : dw V) : nat := if dw_exited V w then 1 else 0.

  (** abstract progress (= the L1 measure of the abstraction) and the process potential *)
  Definition prog (s : dstate) : nat :=
    sumf (d_adone V s) mbH + d_next V s + sumg exd (d_workers V s) + d_recRow V s.
  Definition pot (s : dstate) : nat := sumg val (d_workers V s) + valr (d_rec V s).

  Lemma prog_abs s : prog s = measure V mbH (abs s).
  Proof.
    unfold prog, measure. cbn [done nextRow workers recRow ConcDetailed.abs].
    rewrite nexited_sumg, sumg_map. do 2 f_equal. apply sumg_ext. intros w. unfold exd.
    destruct w; cbn [ConcDetailed.abs_w is_exited dw_exited]; try reflexivity. destruct (S x <? mbW); reflexivity.
  Qed.

  Lemma nex_abs ws : nexited V (map (abs_w V mbW) ws) <= length ws.
  Proof using HmbW. pose proof (nexited_le V (map (abs_w V mbW) ws)) as H. now rewrite map_length in H. Qed.

  Lemma val_wake row w : val (wake_w V row w) <= val w + 3.
  Proof. destruct (wake_w_spec V row w) as [-> |(x & tl & l & -> & ->)]; cbn; lia. Qed.

  Lemma exd_wake row w : exd (wake_w V row w) = exd w.
  Proof. destruct (wake_w_spec V row w) as [-> |(x & tl & l & -> & ->)]; reflexivity. Qed.

  Lemma val_start_mb y x tl l : val (start_mb V y x tl l) <= 10.
  Proof. destruct (start_mb_spec V y x tl l) as [[_ ->]|[_ ->]]; cbn; lia. Qed.
  Lemma val_sig_exit y x tl l : val (sig_exit V mbW y x tl l) <= 10.
  Proof. destruct (sig_exit_spec V mbW y x tl l) as [-> | ->]; [cbn; lia|apply val_start_mb]. Qed.
  Lemma ex_start_mb y x tl l : exd (start_mb V y x tl l) = 0.
  Proof. destruct (start_mb_spec V y x tl l) as [[_ ->]|[_ ->]]; reflexivity. Qed.
  Lemma ex_sig_exit y x tl l : exd (sig_exit V mbW y x tl l) = 0.
  Proof. destruct (sig_exit_spec V mbW y x tl l) as [-> | ->]; [reflexivity|apply ex_start_mb]. Qed.

  Lemma setw_sums s i w w' : nth_error (d_workers V s) i = Some w ->
    sumg val (setw V s i w') + val w = sumg val (d_workers V s) + val w' /\
    sumg exd (setw V s i w') + exd w = sumg exd (d_workers V s) + exd w'.
  Proof. intros H. split; apply sumg_set_nth; exact H. Qed.

  (** one step: either the potential drops, or abstract progress is made and the
      potential grows by less than [W1 n] *)
  Lemma step_potential s l s' : DInv n s -> dstep s l = Some s' ->
    (prog s' = prog s /\ pot s' + 1 <= pot s) \/ (prog s' = S (prog s) /\ pot s' + 1 <= pot s + W1 n).
  Proof.
    intros HD Hs.
    pose proof (abs_inv V v0 f mbW mbH HmbW n s HD) as HL1.
    assert (Hlen : length (d_workers V s) = n).
    { pose proof (i_len V v0 f mbW mbH n (abs s) HL1) as H. cbn [workers ConcDetailed.abs] in H. now rewrite map_length in H. }
    destruct l as [i|]; cbn [ConcDetailed.dstep] in Hs.
    - unfold ConcDetailed.dstep_worker in Hs.
      destruct (nth_error (d_workers V s) i) as [w|] eqn:Hw; [|discriminate].
      pose proof (fun w' => setw_sums s i w w' Hw) as Hsum.
      destruct w as [| |y x tl l ph|y x tl l|y x tl l t0 tr0|y x tl l sp]; try discriminate; cbn [val exd dw_exited] in Hsum.
      + destruct (d_next V s <? mbH); inversion Hs; subst s'; clear Hs; right; unfold prog, pot; cbn [d_adone d_next d_workers d_recRow d_rec].
        * destruct (Hsum (start_mb V (d_next V s) 0 v0 v0)) as [H1 H2]. rewrite ex_start_mb in H2.
          pose proof (val_start_mb (d_next V s) 0 v0 v0). unfold W1, W2. split; lia.
        * destruct (Hsum DExited) as [H1 H2]. cbn in H1, H2. unfold W1, W2. split; lia.
      + rewrite wait_step_wstep in Hs.
        destruct (wstep (d_done V s (y - 1)) (d_nwait V s (y - 1)) (d_mu V s (y - 1)) (OWk i) (needed mbW x) ph)
          as [[[o nw'] m']|] eqn:Hws; [|discriminate]. pose proof (wstep_rank _ _ _ _ _ _ _ _ _ Hws) as Hr.
        destruct o as [ph'|]; inversion Hs; subst s'; clear Hs; left;
          unfold prog, pot; cbn [d_adone d_next d_workers d_recRow d_rec];
          [destruct (Hsum (DWait y x tl l ph')) as [H1 H2]|destruct (Hsum (DCompute y x tl l)) as [H1 H2]];
          cbn in H1, H2; split; lia.
      + inversion Hs; subst s'; clear Hs. left. unfold prog, pot; cbn [d_adone d_next d_workers d_recRow d_rec].
        set (w' := DHold y x tl l _ _). destruct (Hsum w') as [H1 H2]. subst w'. cbn [val exd dw_exited] in H1, H2. split; lia.
      + (* DHold: the write sub-step — abstract progress *)
        inversion Hs; subst s'; clear Hs. right.
        destruct (i_worker V v0 f mbW mbH n (abs s) HL1 i y x tl l (abs_at V mbW s i _ Hw)) as (Hy & _ & Hadone & _).
        cbn [done nextRow ConcDetailed.abs] in Hadone, Hy. pose proof (i_next V v0 f mbW mbH n (abs s) HL1) as Hnx. cbn [nextRow ConcDetailed.abs] in Hnx.
        unfold prog, pot; cbn [d_adone d_next d_workers d_recRow d_rec].
        destruct (Hsum (DSig y x t0 (f y x tl t0 tr0 l) QStore)) as [H1 H2]. cbn [val exd dw_exited srank] in H1, H2.
        pose proof (sumf_upd1_lt (d_adone V s) y (S x) mbH ltac:(lia)) as Hf. unfold W1. split; lia.
      + (* DSig: every phase but the last pays [W2 n]; the Broadcast pays for the wake-ups *)
        destruct sp.
        * inversion Hs; subst s'; clear Hs. left. unfold prog, pot; cbn [d_adone d_next d_workers d_recRow d_rec].
          destruct (Hsum (DSig y x tl l QLoad)) as [H1 H2]. cbn in H1, H2. unfold W2 in *. split; lia.
        * inversion Hs; subst s'; clear Hs. left. unfold prog, pot; cbn [d_adone d_next d_workers d_recRow d_rec].
          destruct (0 <? d_nwait V s y).
          -- destruct (Hsum (DSig y x tl l QLock)) as [H1 H2]. cbn in H1, H2. unfold W2 in *. split; lia.
          -- destruct (Hsum (sig_exit V mbW y x tl l)) as [H1 H2]. rewrite ex_sig_exit in H2.
             pose proof (val_sig_exit y x tl l). cbn in H1, H2. unfold W2 in *. split; lia.
        * destruct (d_mu V s y); [discriminate|]. inversion Hs; subst s'; clear Hs. left.
          unfold prog, pot; cbn [d_adone d_next d_workers d_recRow d_rec].
          destruct (Hsum (DSig y x tl l QUnlock)) as [H1 H2]. cbn in H1, H2. unfold W2 in *. split; lia.
        * inversion Hs; subst s'; clear Hs. left. unfold prog, pot; cbn [d_adone d_next d_workers d_recRow d_rec].
          destruct (Hsum (DSig y x tl l QBcast)) as [H1 H2]. cbn in H1, H2. unfold W2 in *. split; lia.
        * inversion Hs; subst s'; clear Hs. left. unfold prog, pot; cbn [d_adone d_next d_workers d_recRow d_rec].
          assert (Hw' : nth_error (map (wake_w V y) (d_workers V s)) i = Some (DSig y x tl l QBcast))
            by (rewrite nth_error_map, Hw; reflexivity).
          pose proof (sumg_set_nth val _ i _ (sig_exit V mbW y x tl l) Hw') as H1.
          pose proof (sumg_set_nth exd _ i _ (sig_exit V mbW y x tl l) Hw') as H2.
          assert (Hex : sumg exd (map (wake_w V y) (d_workers V s)) = sumg exd (d_workers V s))
            by (rewrite sumg_map; apply sumg_ext; intros w; apply exd_wake).
          rewrite ex_sig_exit, Hex in H2.
          rewrite sumg_map in H1.
          pose proof (sumg_le (fun w => val (wake_w V y w)) val 3 (d_workers V s) (val_wake y)) as H3.
          pose proof (val_sig_exit y x tl l) as H4. cbn in H1, H2.
          assert (H5 : valr (wake_r y (d_recRow V s) (d_rec V s)) <= valr (d_rec V s) + 3).
          { destruct (d_rec V s) as [ph|]; cbn; [|lia]. destruct ph; cbn; try lia. destruct (d_recRow V s =? y); cbn; lia. }
          unfold W2 in *. split; lia.
    - unfold ConcDetailed.dstep_rec in Hs. destruct (d_recRow V s <? mbH); [|discriminate].
      destruct (d_rec V s) as [ph|] eqn:Er.
      + rewrite wait_step_wstep in Hs.
        destruct (wstep (d_done V s (d_recRow V s)) (d_nwait V s (d_recRow V s)) (d_mu V s (d_recRow V s)) ORec mbW ph)
          as [[[o nw'] m']|] eqn:Hws; [|discriminate]. pose proof (wstep_rank _ _ _ _ _ _ _ _ _ Hws) as Hr.
        destruct o as [ph'|]; inversion Hs; subst s'; clear Hs; left;
          unfold prog, pot; cbn [d_adone d_next d_workers d_recRow d_rec]; rewrite Er; cbn [valr]; split; lia.
      + inversion Hs; subst s'; clear Hs. right. unfold prog, pot; cbn [d_adone d_next d_workers d_recRow d_rec].
        rewrite Er. cbn [valr wrank]. unfold W1, W2. split; lia.
  Qed.

  Lemma prog_bound s : DInv n s -> prog s <= mbH * mbW + 2 * mbH + n.
  Proof.
    intros HD. rewrite prog_abs.
    exact (measure_le V v0 f mbW mbH HmbW n (abs s) (abs_inv V v0 f mbW mbH HmbW n s HD)).
  Qed.

  Theorem detailed_terminates : forall sched s,
    drun (dinit n) sched = Some s -> length sched <= run_bound mbW mbH n.
  Proof.
    intros sched s Hr.
    destruct (orun_potential _ _ dstep (DInv n) (fun s => W1 n * prog s) pot) with (sched := sched) (s := dinit n) (s' := s)
      as [HD Hle]; [|exact (dinit_inv V v0 f mbW mbH HmbW n)|exact Hr|].
    - intros s0 l s1 H0 Hs. split; [exact (dstep_inv V v0 f mbW mbH HmbW n s0 l s1 H0 Hs)|].
      destruct (step_potential s0 l s1 H0 Hs) as [[Hp Hq]|[Hp Hq]]; rewrite Hp; [lia|].
      rewrite Nat.mul_succ_r. lia.
    - pose proof (prog_bound s HD) as Hb.
      assert (Hp0 : pot (dinit n) = 10)
        by (unfold pot, ConcDetailed.dinit; cbn [d_workers d_rec]; rewrite sumg_repeat; cbn; lia).
      rewrite Hp0 in Hle. unfold run_bound.
      assert (W1 n * prog s <= W1 n * (mbH * mbW + 2 * mbH + n)) by (apply Nat.mul_le_mono_l; exact Hb).
      lia.
  Qed.

  (** Liveness under every scheduler, within the bound. *)
  Theorem detailed_always_reaches_final : forall sched s, 1 <= n ->
    drun (dinit n) sched = Some s ->
    length sched <= run_bound mbW mbH n /\
    (dfinal V mbH s = true \/ exists l, dstep s l <> None).
  Proof.
    intros sched s Hn Hr. split; [exact (detailed_terminates sched s Hr)|].
    destruct (dfinal V mbH s) eqn:Hf; [now left|right].
    exact (detailed_deadlock_free V v0 f mbW mbH HmbW n sched s Hn Hr Hf).
  Qed.

  (** A run of maximal length [run_bound] cannot be extended, so it is final: no
      execution, however scheduled, runs for ever. *)
  Corollary detailed_no_infinite_run : forall sched s l, 1 <= n ->
    drun (dinit n) sched = Some s -> length sched = run_bound mbW mbH n -> dstep s l = None.
  Proof.
    intros sched s l Hn Hr Hlen. destruct (dstep s l) as [s'|] eqn:Hs; [exfalso|reflexivity].
    pose proof (detailed_terminates _ _ (orun_snoc _ _ dstep _ _ _ _ _ Hr Hs)) as Hb.
    rewrite app_length in Hb. cbn [length] in Hb. rewrite Hlen in Hb. lia.
  Qed.

End Term.
