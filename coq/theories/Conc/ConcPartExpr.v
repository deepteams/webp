(** C12 — the spawn arithmetic of every go statement, as expressions that are EVALUATED.
    tools/gosrc2v/partshapes.go evaluates the statements on the path to each go statement
    symbolically into three expressions per site (Gen/PartShapes.v): the number of spawn-loop
    iterations [s_nw] over "#n" (what GOMAXPROCS returned) and free variables, and the range
    [s_start, s_stop) of worker "#w".  Exact cover is decided by [sweep] (bounded: a grid of
    values, a list of n; the ranges tile what ONE worker covers) and by [certify] (all values,
    all n, for three families recognised through an affine decomposition in "#w": clipped
    ceiling chunks, floor chunks with the remainder to the last worker, proportional bounds);
    [sweep_certified] takes the bounded statement from the certificate where it applies. *)
From Coq Require Import String List ZArith Lia Bool.
From Webp Require Import Conc.ConcPartition Conc.ConcPartitionProofs.
Import ListNotations.
Open Scope Z_scope.

Inductive cmpop := OLt | OLe | OGt | OGe | OEq | ONe.

Inductive pexpr : Type :=
| PVar (v : string)
| PConst (z : Z)
| PAdd (a b : pexpr)
| PSub (a b : pexpr)
| PMul (a b : pexpr)
| PDiv (a b : pexpr)
| PMod (a b : pexpr)
| PMin (a b : pexpr)
| PMax (a b : pexpr)
| PIf (o : cmpop) (a b x y : pexpr).   (* if a o b then x else y *)

Definition env := list (string * Z).

Fixpoint lookup (e : env) (v : string) : Z :=
  match e with
  | [] => 0
  | (k, z) :: tl => if String.eqb k v then z else lookup tl v
  end.

Definition cmp (o : cmpop) (a b : Z) : bool :=
  match o with
  | OLt => a <? b | OLe => a <=? b | OGt => a >? b | OGe => a >=? b
  | OEq => a =? b | ONe => negb (a =? b)
  end.

Fixpoint eval (e : env) (x : pexpr) : Z :=
  match x with
  | PVar v => lookup e v
  | PConst z => z
  | PAdd a b => eval e a + eval e b
  | PSub a b => eval e a - eval e b
  | PMul a b => eval e a * eval e b
  | PDiv a b => eval e a / eval e b
  | PMod a b => eval e a mod eval e b
  | PMin a b => Z.min (eval e a) (eval e b)
  | PMax a b => Z.max (eval e a) (eval e b)
  | PIf o a b x y => if cmp o (eval e a) (eval e b) then eval e x else eval e y
  end.

Record site := mkSite {
  s_file : string; s_fn : string; s_kind : string;
  s_nw : pexpr; s_start : pexpr; s_stop : pexpr;
  s_break : bool; s_vars : list string }.

Definition vN : string := "#n".
Definition vW : string := "#w".

Definition raw_ranges (s : site) (e : env) (n : Z) : list range :=
  let en := (vN, n) :: e in
  map (fun w => (eval ((vW, w) :: en) (s_start s), eval ((vW, w) :: en) (s_stop s)))
      (zrange (eval en (s_nw s))).

Definition site_ranges (s : site) (e : env) (n : Z) : list range :=
  if s_break s then take_nonempty (raw_ranges s e n) else raw_ranges s e n.

(** the interval spanned by the non-empty ranges (what one worker covers when n = 1) *)
Fixpoint hull_from (rs : list range) (acc : option range) : option range :=
  match rs with
  | [] => acc
  | r :: tl =>
      if snd r <=? fst r then hull_from tl acc
      else hull_from tl (match acc with
                         | None => Some r
                         | Some a => Some (Z.min (fst a) (fst r), Z.max (snd a) (snd r))
                         end)
  end.
Definition hull (rs : list range) : range :=
  match hull_from rs None with Some r => r | None => (0, 0) end.

Definition domain1 (s : site) (e : env) : range := hull (site_ranges s e 1).

(** the disjunction (a range of [rs], or the accumulator) is what the induction needs *)
Lemma hull_from_contains (rs : list range) : forall (acc : option range) (r : range), (In r rs /\ fst r < snd r) \/ acc = Some r ->
  exists h, hull_from rs acc = Some h /\ fst h <= fst r /\ snd r <= snd h.
Proof.
  induction rs as [|a rs IH]; intros acc r H; cbn [hull_from].
  - destruct H as [[[] _]| ->]. exists r. split; [reflexivity|lia].
  - destruct (snd a <=? fst a) eqn:E.
    + apply IH. destruct H as [[[->|Hin] Hne]|Hacc]; [lia|left; auto|right; exact Hacc].
    + destruct H as [[[->|Hin] Hne]| ->]; [|apply IH; left; auto|].
      * destruct acc as [a0|];
          [destruct (IH (Some (Z.min (fst a0) (fst r), Z.max (snd a0) (snd r))) _ (or_intror eq_refl))
             as (h & Hh & H1 & H2)
          |destruct (IH (Some r) _ (or_intror eq_refl)) as (h & Hh & H1 & H2)];
          exists h; (split; [exact Hh|cbn [fst snd] in *; lia]).
      * destruct (IH (Some (Z.min (fst r) (fst a), Z.max (snd r) (snd a))) _ (or_intror eq_refl))
          as (h & Hh & H1 & H2).
        exists h. split; [exact Hh|cbn [fst snd] in *; lia].
Qed.

Lemma hull_from_within lo hi (rs : list range) :
  (forall r, In r rs -> fst r < snd r -> lo <= fst r /\ snd r <= hi) ->
  forall (acc : option range) h, (forall a, acc = Some a -> lo <= fst a /\ snd a <= hi) ->
  hull_from rs acc = Some h -> lo <= fst h /\ snd h <= hi.
Proof.
  induction rs as [|a rs IH]; intros Hrs acc h Hacc; cbn [hull_from].
  - apply Hacc.
  - assert (Hrs' : forall r, In r rs -> fst r < snd r -> lo <= fst r /\ snd r <= hi)
      by (intros r Hr; apply Hrs; now right).
    destruct (snd a <=? fst a) eqn:E; [exact (IH Hrs' acc h Hacc)|].
    apply (IH Hrs'). intros b Hb. pose proof (Hrs a (or_introl eq_refl) ltac:(lia)).
    destruct acc as [a0|]; inversion Hb; subst; [|assumption].
    pose proof (Hacc a0 eq_refl). cbn [fst snd]. lia.
Qed.

Lemma hull_exact rs lo hi : exact_partition rs lo hi ->
  hull rs = if lo <? hi then (lo, hi) else (0, 0).
Proof.
  intros (Hin & Hcov & _). unfold hull. destruct (lo <? hi) eqn:E.
  - apply Z.ltb_lt in E.
    destruct (Hcov lo ltac:(lia)) as (r1 & In1 & R1). destruct (Hcov (hi - 1) ltac:(lia)) as (r2 & In2 & R2).
    unfold in_range in R1, R2.
    destruct (hull_from_contains rs None r1) as (h & Hh & A1 & _); [left; split; [exact In1|lia]|].
    destruct (hull_from_contains rs None r2) as (h' & Hh' & _ & A2); [left; split; [exact In2|lia]|].
    rewrite Hh in Hh'. inversion Hh'; subst h'. rewrite Hh.
    destruct (hull_from_within lo hi rs) with (acc := @None range) (h := h) as [B1 B2];
      [|discriminate|exact Hh|destruct h; cbn [fst snd] in *; f_equal; lia].
    intros r Hr Hne. pose proof (Hin r (fst r) Hr ltac:(unfold in_range; lia)).
    pose proof (Hin r (snd r - 1) Hr ltac:(unfold in_range; lia)). lia.
  - apply Z.ltb_ge in E. destruct (hull_from rs None) as [h|] eqn:Hh; [|reflexivity].
    exfalso. assert (Hemp : forall r, In r rs -> snd r <= fst r).
    { intros r Hr. destruct (Z_lt_le_dec (fst r) (snd r)) as [Hne|]; [|assumption].
      pose proof (Hin r (fst r) Hr ltac:(unfold in_range; lia)). lia. }
    clear - Hemp Hh. induction rs as [|a rs IH]; cbn [hull_from] in Hh; [discriminate|].
    pose proof (Hemp a (or_introl eq_refl)) as Ha. apply Z.leb_le in Ha. rewrite Ha in Hh.
    apply IH; [exact Hh|intros r Hr; apply Hemp; now right].
Qed.

Lemma exact_partition_hull rs1 rs lo hi :
  exact_partition rs1 lo hi -> exact_partition rs lo hi ->
  exact_partition rs (fst (hull rs1)) (snd (hull rs1)).
Proof.
  intros H1 H. rewrite (hull_exact _ _ _ H1). destruct (lo <? hi) eqn:E; [exact H|].
  apply Z.ltb_ge in E. destruct H as (Hin & _ & _). cbn [fst snd].
  assert (Hno : forall r i, In r rs -> ~ in_range r i) by (intros r i Hr Hi; specialize (Hin r i Hr Hi); lia).
  split; [|split].
  - intros r i Hr Hi. destruct (Hno r i Hr Hi).
  - intros i Hi. lia.
  - intros j k i Hj _ Hi. destruct (Hno _ i (nth_In rs (0, 0) Hj) Hi).
Qed.

Definition tiles_at (s : site) (e : env) (n : Z) : bool :=
  is_tiling (site_ranges s e n) (fst (domain1 s e)) (snd (domain1 s e)).

Fixpoint assigns (vars : list string) (grid : list Z) : list env :=
  match vars with
  | [] => [[]]
  | v :: tl => flat_map (fun z => map (fun e => (v, z) :: e) (assigns tl grid)) grid
  end.

Definition sweep (s : site) (grid ns : list Z) : bool :=
  forallb (fun e => forallb (fun n => tiles_at s e n) ns) (assigns (s_vars s) grid).

Lemma assigns_complete vars grid : forall vals,
  length vals = length vars -> Forall (fun z => In z grid) vals ->
  In (combine vars vals) (assigns vars grid).
Proof.
  induction vars as [|v tl IH]; intros vals Hlen Hall.
  - destruct vals; [left; reflexivity|discriminate].
  - destruct vals as [|z vals]; [discriminate|]. inversion Hall; subst.
    cbn [combine assigns]. apply in_flat_map. exists z. split; [assumption|].
    apply in_map. apply IH; [cbn in Hlen; lia|assumption].
Qed.

Definition tiles_on (s : site) (grid ns : list Z) : Prop :=
  forall vals n, length vals = length (s_vars s) -> Forall (fun z => In z grid) vals -> In n ns ->
  let e := combine (s_vars s) vals in
  exact_partition (site_ranges s e n) (fst (domain1 s e)) (snd (domain1 s e)).

Lemma sweep_by (ok : env -> Z -> bool) s grid ns :
  (forall e n, ok e n = true ->
     exact_partition (site_ranges s e n) (fst (domain1 s e)) (snd (domain1 s e))) ->
  forallb (fun e => forallb (fun n => if ok e n then true else tiles_at s e n) ns)
          (assigns (s_vars s) grid) = true ->
  tiles_on s grid ns.
Proof.
  intros Hok H vals n Hlen Hall Hn e.
  rewrite forallb_forall in H. specialize (H e (assigns_complete _ _ _ Hlen Hall)).
  rewrite forallb_forall in H. specialize (H n Hn).
  destruct (ok e n) eqn:E; [exact (Hok e n E)|exact (is_tiling_sound _ _ _ H)].
Qed.

Theorem sweep_sound : forall s grid ns, sweep s grid ns = true ->
  forall vals n, length vals = length (s_vars s) -> Forall (fun z => In z grid) vals -> In n ns ->
  let e := combine (s_vars s) vals in
  exact_partition (site_ranges s e n) (fst (domain1 s e)) (snd (domain1 s e)).
Proof. intros s grid ns. apply (sweep_by (fun _ _ => false)). discriminate. Qed.

Definition cmpop_eqb (a b : cmpop) : bool :=
  match a, b with
  | OLt, OLt | OLe, OLe | OGt, OGt | OGe, OGe | OEq, OEq | ONe, ONe => true
  | _, _ => false
  end.

(** equality up to commutativity of + * min max *)
Fixpoint peqb (x y : pexpr) : bool :=
  match x, y with
  | PVar a, PVar b => String.eqb a b
  | PConst a, PConst b => a =? b
  | PAdd a b, PAdd c d => (peqb a c && peqb b d) || (peqb a d && peqb b c)
  | PMul a b, PMul c d => (peqb a c && peqb b d) || (peqb a d && peqb b c)
  | PMin a b, PMin c d => (peqb a c && peqb b d) || (peqb a d && peqb b c)
  | PMax a b, PMax c d => (peqb a c && peqb b d) || (peqb a d && peqb b c)
  | PSub a b, PSub c d => peqb a c && peqb b d
  | PDiv a b, PDiv c d => peqb a c && peqb b d
  | PMod a b, PMod c d => peqb a c && peqb b d
  | PIf o a b p q, PIf o' a' b' p' q' =>
      cmpop_eqb o o' && peqb a a' && peqb b b' && peqb p p' && peqb q q'
  | _, _ => false
  end.

Lemma peqb_sound : forall x y, peqb x y = true -> forall e, eval e x = eval e y.
Proof.
  induction x; destruct y; cbn [peqb]; try discriminate; intros H e; cbn [eval].
  1: apply String.eqb_eq in H; now subst.
  1: apply Z.eqb_eq in H; now subst.
  1, 3, 6, 7: apply orb_true_iff in H; destruct H as [H|H]; apply andb_true_iff in H; destruct H as [H1 H2];
    rewrite (IHx1 _ H1 e), (IHx2 _ H2 e); [reflexivity|lia].
  1-3: apply andb_true_iff in H; destruct H as [H1 H2]; rewrite (IHx1 _ H1 e), (IHx2 _ H2 e); reflexivity.
  rewrite !andb_true_iff in H. destruct H as ((((Ho & H1) & H2) & H3) & H4).
  assert (o = o0) by (destruct o, o0; cbn in Ho; congruence). subst.
  rewrite (IHx1 _ H1 e), (IHx2 _ H2 e), (IHx3 _ H3 e), (IHx4 _ H4 e). reflexivity.
Qed.

Fixpoint has_var (v : string) (x : pexpr) : bool :=
  match x with
  | PVar u => String.eqb v u
  | PConst _ => false
  | PAdd a b | PSub a b | PMul a b | PDiv a b | PMod a b | PMin a b | PMax a b =>
      has_var v a || has_var v b
  | PIf _ a b p q => has_var v a || has_var v b || has_var v p || has_var v q
  end.

Lemma eval_free v z : forall x e, has_var v x = false -> eval ((v, z) :: e) x = eval e x.
Proof.
  induction x; intros e H; cbn [has_var] in H; cbn [eval];
    repeat (apply orb_false_iff in H; destruct H as [H ?]);
    try (rewrite ?IHx1, ?IHx2, ?IHx3, ?IHx4 by assumption; reflexivity).
  - cbn [lookup]. rewrite H. reflexivity.
Qed.

(** smart constructors (constant folding of units only) *)
Definition is_c (z : Z) (x : pexpr) : bool := match x with PConst c => c =? z | _ => false end.
Lemma is_c_spec z x : is_c z x = true -> x = PConst z.
Proof. destruct x; cbn; try discriminate. intros H. apply Z.eqb_eq in H. now subst. Qed.

Lemma is_cP z x : reflect (x = PConst z) (is_c z x).
Proof.
  destruct (is_c z x) eqn:E; constructor; [exact (is_c_spec z x E)|].
  intros ->. cbn in E. rewrite Z.eqb_refl in E. discriminate.
Qed.

Definition mkAdd (a b : pexpr) : pexpr := if is_c 0 a then b else if is_c 0 b then a else PAdd a b.
Definition mkSub (a b : pexpr) : pexpr := if is_c 0 b then a else PSub a b.
Definition mkMul (a b : pexpr) : pexpr :=
  if is_c 0 a || is_c 0 b then PConst 0 else if is_c 1 a then b else if is_c 1 b then a else PMul a b.

Lemma mkAdd_eval e a b : eval e (mkAdd a b) = eval e a + eval e b.
Proof.
  unfold mkAdd. destruct (is_cP 0 a) as [->|_]; [cbn [eval]; lia|].
  destruct (is_cP 0 b) as [->|_]; cbn [eval]; lia.
Qed.
Lemma mkSub_eval e a b : eval e (mkSub a b) = eval e a - eval e b.
Proof. unfold mkSub. destruct (is_cP 0 b) as [->|_]; cbn [eval]; lia. Qed.
Lemma mkMul_eval e a b : eval e (mkMul a b) = eval e a * eval e b.
Proof.
  unfold mkMul. destruct (is_cP 0 a) as [->|_]; [cbn [orb eval]; lia|].
  destruct (is_cP 0 b) as [->|_]; cbn [orb]; [cbn [eval]; lia|].
  destruct (is_cP 1 a) as [->|_]; [cbn [eval]; lia|].
  destruct (is_cP 1 b) as [->|_]; cbn [eval]; lia.
Qed.
Lemma mkAdd_free v a b : has_var v a = false -> has_var v b = false -> has_var v (mkAdd a b) = false.
Proof. intros Ha Hb. unfold mkAdd. destruct (is_c 0 a); [exact Hb|]. destruct (is_c 0 b); [exact Ha|]. cbn. now rewrite Ha, Hb. Qed.
Lemma mkSub_free v a b : has_var v a = false -> has_var v b = false -> has_var v (mkSub a b) = false.
Proof. intros Ha Hb. unfold mkSub. destruct (is_c 0 b); [exact Ha|]. cbn. now rewrite Ha, Hb. Qed.
Lemma mkMul_free v a b : has_var v a = false -> has_var v b = false -> has_var v (mkMul a b) = false.
Proof.
  intros Ha Hb. unfold mkMul. destruct (is_c 0 a || is_c 0 b); [reflexivity|].
  destruct (is_c 1 a); [exact Hb|]. destruct (is_c 1 b); [exact Ha|]. cbn. now rewrite Ha, Hb.
Qed.

(** affine decomposition in "#w": [aff x = Some (o, c)] means x = o + #w * c, o and c free of #w *)
Fixpoint aff (x : pexpr) : option (pexpr * pexpr) :=
  if negb (has_var vW x) then Some (x, PConst 0) else
  match x with
  | PVar _ => Some (PConst 0, PConst 1)
  | PAdd a b =>
      match aff a, aff b with
      | Some (oa, ca), Some (ob, cb) => Some (mkAdd oa ob, mkAdd ca cb)
      | _, _ => None
      end
  | PSub a b =>
      match aff a, aff b with
      | Some (oa, ca), Some (ob, cb) => Some (mkSub oa ob, mkSub ca cb)
      | _, _ => None
      end
  | PMul a b =>
      if negb (has_var vW a) then
        match aff b with Some (ob, cb) => Some (mkMul a ob, mkMul a cb) | None => None end
      else if negb (has_var vW b) then
        match aff a with Some (oa, ca) => Some (mkMul oa b, mkMul ca b) | None => None end
      else None
  | _ => None
  end.

Lemma aff_free x : has_var vW x = false -> aff x = Some (x, PConst 0).
Proof. intros H. destruct x; cbn [aff]; rewrite H; reflexivity. Qed.

Lemma aff_spec : forall x o c, aff x = Some (o, c) ->
  has_var vW o = false /\ has_var vW c = false /\
  forall e, eval e x = eval e o + lookup e vW * eval e c.
Proof.
  induction x; intros o' c' H;
    match type of H with aff ?t = _ => destruct (has_var vW t) eqn:F end;
    try (rewrite (aff_free _ F) in H; inversion H; subst; repeat split; auto; intros; cbn [eval]; lia).
  all: cbn [aff] in H; rewrite F in H; cbn [negb] in H; try discriminate.
  - cbn [has_var] in F. apply String.eqb_eq in F. subst v. inversion H; subst.
    repeat split; auto. intros e. cbn [eval]. lia.
  - destruct (aff x1) as [[oa ca]|]; [|discriminate]. destruct (aff x2) as [[ob cb]|]; [|discriminate].
    inversion H; subst. destruct (IHx1 _ _ eq_refl) as (A1 & A2 & A3). destruct (IHx2 _ _ eq_refl) as (B1 & B2 & B3).
    repeat split; [apply mkAdd_free; auto|apply mkAdd_free; auto|].
    intros e. cbn [eval]. rewrite !mkAdd_eval, A3, B3. ring.
  - destruct (aff x1) as [[oa ca]|]; [|discriminate]. destruct (aff x2) as [[ob cb]|]; [|discriminate].
    inversion H; subst. destruct (IHx1 _ _ eq_refl) as (A1 & A2 & A3). destruct (IHx2 _ _ eq_refl) as (B1 & B2 & B3).
    repeat split; [apply mkSub_free; auto|apply mkSub_free; auto|].
    intros e. cbn [eval]. rewrite !mkSub_eval, A3, B3. ring.
  - destruct (negb (has_var vW x1)) eqn:E1.
    + apply negb_true_iff in E1. destruct (aff x2) as [[ob cb]|]; [|discriminate]. inversion H; subst.
      destruct (IHx2 _ _ eq_refl) as (B1 & B2 & B3).
      repeat split; [apply mkMul_free; auto|apply mkMul_free; auto|].
      intros e. cbn [eval]. rewrite !mkMul_eval, B3. ring.
    + destruct (negb (has_var vW x2)) eqn:E2; [|discriminate].
      apply negb_true_iff in E2. destruct (aff x1) as [[oa ca]|]; [|discriminate]. inversion H; subst.
      destruct (IHx1 _ _ eq_refl) as (A1 & A2 & A3).
      repeat split; [apply mkMul_free; auto|apply mkMul_free; auto|].
      intros e. cbn [eval]. rewrite !mkMul_eval, A3. ring.
Qed.

(** [as_clip x = Some (a, b)]: x = min a b, however it is written *)
Definition as_clip (x : pexpr) : option (pexpr * pexpr) :=
  match x with
  | PMin a b => Some (a, b)
  | PIf o a b p q =>
      match o with
      | OGt | OGe => if peqb b p && peqb a q then Some (a, b) else None   (* if a > b then b else a *)
      | OLt | OLe => if peqb a p && peqb b q then Some (a, b) else None   (* if a < b then a else b *)
      | _ => None
      end
  | _ => None
  end.

Lemma as_clip_sound x a b : as_clip x = Some (a, b) -> forall e, eval e x = Z.min (eval e a) (eval e b).
Proof.
  destruct x; cbn [as_clip]; try discriminate.
  - intros H e. inversion H; subst. reflexivity.
  - destruct o; try discriminate;
      (destruct (peqb _ x3 && peqb _ x4) eqn:E; [|discriminate]; intros H e; inversion H; subst;
       apply andb_true_iff in E; destruct E as [E1 E2];
       pose proof (peqb_sound _ _ E1 e) as P1; pose proof (peqb_sound _ _ E2 e) as P2;
       cbn [eval cmp]; rewrite <- P1, <- P2).
    + destruct (eval e a <? eval e b) eqn:C; lia.
    + destruct (eval e a <=? eval e b) eqn:C; lia.
    + destruct (eval e a >? eval e b) eqn:C; lia.
    + destruct (eval e a >=? eval e b) eqn:C; lia.
Qed.

(** [ceil_of c n = Some d]: c = ceil (d / n) for n >= 1, in any of the usual spellings *)
Definition ceil_of (c n : pexpr) : option pexpr :=
  match c with
  | PDiv (PSub (PAdd d n1) k) n2 =>          (* (d + n - 1) / n *)
      if is_c 1 k && peqb n1 n && peqb n2 n then Some d else None
  | PDiv (PAdd d (PSub n1 k)) n2 =>          (* (d + (n - 1)) / n *)
      if is_c 1 k && peqb n1 n && peqb n2 n then Some d else None
  | PAdd (PDiv (PSub d k) n1) k2 =>          (* (d - 1) / n + 1 *)
      if is_c 1 k && is_c 1 k2 && peqb n1 n then Some d else None
  | PAdd (PDiv d n1) (PIf ONe (PMod d2 n2) z p q) =>   (* d / n + (d % n != 0 ? 1 : 0) *)
      if is_c 0 z && is_c 1 p && is_c 0 q && peqb n1 n && peqb n2 n && peqb d2 d then Some d else None
  | PIf ONe (PMod d n1) z (PAdd (PDiv d2 n2) k) (PDiv d3 n3) =>   (* c := d / n; if d % n != 0 { c++ } *)
      if is_c 0 z && is_c 1 k && peqb n1 n && peqb n2 n && peqb n3 n && peqb d2 d && peqb d3 d then Some d else None
  | PIf OEq (PMod d n1) z (PDiv d2 n2) (PAdd (PDiv d3 n3) k) =>   (* if d % n == 0 { d / n } else { d / n + 1 } *)
      if is_c 0 z && is_c 1 k && peqb n1 n && peqb n2 n && peqb n3 n && peqb d2 d && peqb d3 d then Some d else None
  | _ => None
  end.

Lemma ceil_shift d n : 1 <= n -> (d - 1) / n + 1 = (d + n - 1) / n.
Proof.
  intros Hn. replace (d + n - 1) with (d - 1 + 1 * n) by ring. rewrite Z.div_add by lia. reflexivity.
Qed.
Lemma ceil_mod d n : 1 <= n -> (d + n - 1) / n = if d mod n =? 0 then d / n else d / n + 1.
Proof.
  intros Hn. pose proof (Z.div_mod d n ltac:(lia)) as Hd. pose proof (Z.mod_pos_bound d n ltac:(lia)) as Hm.
  symmetry. destruct (d mod n =? 0) eqn:E.
  - apply Z.eqb_eq in E. apply Z.div_unique with (r := n - 1); lia.
  - apply Z.eqb_neq in E. apply Z.div_unique with (r := d mod n - 1); lia.
Qed.

Lemma ceil_of_sound c n d : ceil_of c n = Some d -> forall e, 1 <= eval e n ->
  eval e c = (eval e d + eval e n - 1) / eval e n.
Proof.
  intros H e Hn. unfold ceil_of in H.
  repeat match type of H with
         | (if ?b then _ else _) = _ => destruct b eqn:?; try discriminate
         | match ?x with _ => _ end = _ => destruct x; try discriminate
         end.
  all: inversion H; subst; clear H.
  all: repeat match goal with
              | E : _ && _ = true |- _ => apply andb_true_iff in E; destruct E
              end.
  all: repeat match goal with
              | E : is_c _ _ = true |- _ => apply is_c_spec in E; subst
              end.
  all: cbn [eval cmp].
  all: repeat match goal with
              | E : peqb _ _ = true |- _ => rewrite (peqb_sound _ _ E e) in *; clear E
              end.
  all: cbn [eval].
  (* (d+n-1)/n or (d+(n-1))/n; (d-1)/n+1; one of the three that test d mod n *)
  all: first [ f_equal; lia
             | apply ceil_shift; assumption
             | rewrite (ceil_mod _ _ Hn); destruct (_ mod _ =? 0); cbn [negb]; lia ].
Qed.

(** [diff_is hi lo d]: hi - lo = d (last case: hashchain, lo = 1, hi = size - 1, d = size - 2) *)
Definition diff_is (hi lo d : pexpr) : bool :=
  (is_c 0 lo && peqb hi d) || peqb d (PSub hi lo) || peqb hi (PAdd lo d) ||
  match lo, d, hi with
  | PConst a, PSub x (PConst b), PSub x' (PConst c) => peqb x x' && (c =? b - a)
  | _, _, _ => false
  end.

Lemma diff_is_sound hi lo d : diff_is hi lo d = true -> forall e, eval e hi - eval e lo = eval e d.
Proof.
  unfold diff_is. intros H e. repeat (apply orb_true_iff in H; destruct H as [H|H]).
  - apply andb_true_iff in H. destruct H as [H1 H2]. apply is_c_spec in H1. subst.
    rewrite (peqb_sound _ _ H2 e). cbn. lia.
  - rewrite (peqb_sound _ _ H e). reflexivity.
  - rewrite (peqb_sound _ _ H e). cbn. lia.
  - destruct lo; try discriminate. destruct d; try discriminate. destruct d2; try discriminate.
    destruct hi; try discriminate. destruct hi2; try discriminate.
    apply andb_true_iff in H. destruct H as [H1 H2]. apply Z.eqb_eq in H2.
    cbn [eval]. rewrite (peqb_sound _ _ H1 e). lia.
Qed.

(** a certificate: the interval covered and the expression that must be non-negative *)
Record cert := mkCert { c_family : string; c_lo : pexpr; c_hi : pexpr; c_nonneg : pexpr }.

Definition is_w (x : pexpr) : bool := match x with PVar v => String.eqb vW v | _ => false end.
Definition is_w1 (x : pexpr) : bool := peqb x (PAdd (PVar vW) (PConst 1)).

(** next = start + c, both affine in #w *)
Definition is_next (x off c : pexpr) : bool :=
  match aff x with
  | Some (ox, cx) => peqb cx c && peqb ox (mkAdd off c)
  | None => false
  end.

Lemma is_next_sound x off c : is_next x off c = true ->
  forall e, eval e x = eval e off + (lookup e vW + 1) * eval e c.
Proof.
  unfold is_next. destruct (aff x) as [[ox cx]|] eqn:A; [|discriminate]. intros H e.
  apply andb_true_iff in H. destruct H as [H1 H2].
  destruct (aff_spec _ _ _ A) as (_ & _ & Hx). rewrite Hx.
  rewrite (peqb_sound _ _ H1 e), (peqb_sound _ _ H2 e), mkAdd_eval. ring.
Qed.

Lemma lookup_w k e : lookup ((vW, k) :: e) vW = k.
Proof. cbn [lookup]. rewrite String.eqb_refl. reflexivity. Qed.

Lemma is_w_eval x k e : is_w x = true -> eval ((vW, k) :: e) x = k.
Proof.
  destruct x; cbn [is_w]; try discriminate. intros H. apply String.eqb_eq in H. subst. apply lookup_w.
Qed.

Lemma is_w1_eval x k e : is_w1 x = true -> eval ((vW, k) :: e) x = k + 1.
Proof. intros H. rewrite (peqb_sound _ _ H). cbn [eval]. rewrite lookup_w. reflexivity. Qed.

Definition certify_chunk (s : site) : option cert :=
  match aff (s_start s), as_clip (s_stop s) with
  | Some (off, c), Some (a, b) =>
      let pick :=
        if negb (has_var vW b) && is_next a off c then Some b
        else if negb (has_var vW a) && is_next b off c then Some a else None in
      match pick with
      | Some hi =>
          match ceil_of c (s_nw s) with
          | Some d => if diff_is hi off d && negb (has_var vW (s_nw s)) then Some (mkCert "chunk" off hi d) else None
          | None => None
          end
      | None => None
      end
  | _, _ => None
  end.

Definition certify_floor (s : site) : option cert :=
  if s_break s then None else
  match aff (s_start s), s_stop s with
  | Some (off, q), PIf OEq w last hi x =>
      match q with
      | PDiv d nn =>
          if is_w w && peqb last (PSub (s_nw s) (PConst 1)) && negb (has_var vW hi) && is_next x off q &&
             peqb nn (s_nw s) && diff_is hi off d && negb (has_var vW (s_nw s))
          then Some (mkCert "floor-last" off hi d) else None
      | _ => None
      end
  | _, _ => None
  end.

Definition certify_prop (s : site) : option cert :=
  if s_break s then None else
  match s_start s, s_stop s with
  | PDiv (PMul a b) n1, PDiv (PMul a' b') n2 =>
      let t := if is_w a then Some b else if is_w b then Some a else None in
      let t' := if is_w1 a' then Some b' else if is_w1 b' then Some a' else None in
      match t, t' with
      | Some T, Some T' =>
          if peqb T T' && negb (has_var vW T) && peqb n1 (s_nw s) && peqb n2 (s_nw s) && negb (has_var vW (s_nw s))
          then Some (mkCert "proportional" (PConst 0) T T) else None
      | _, _ => None
      end
  | _, _ => None
  end.

Definition certify (s : site) : option cert :=
  match certify_chunk s with
  | Some c => Some c
  | None => match certify_floor s with Some c => Some c | None => certify_prop s end
  end.

Section Sound.
  Variables (s : site) (e : env) (n : Z).
  Let en := (vN, n) :: e.
  Let N := eval en (s_nw s).

  Lemma nw_w k : has_var vW (s_nw s) = false -> eval ((vW, k) :: en) (s_nw s) = N.
  Proof. intros H. apply eval_free. exact H. Qed.

  Lemma certify_chunk_sound c : certify_chunk s = Some c ->
    1 <= N -> 0 <= eval en (c_nonneg c) ->
    exact_partition (site_ranges s e n) (eval en (c_lo c)) (eval en (c_hi c)).
  Proof.
    unfold certify_chunk.
    destruct (aff (s_start s)) as [[off cc]|] eqn:A; [|discriminate].
    destruct (as_clip (s_stop s)) as [[a b]|] eqn:C; [|discriminate].
    destruct (aff_spec _ _ _ A) as (Foff & Fc & Hs).
    set (pick := if negb (has_var vW b) && is_next a off cc then Some b
                 else if negb (has_var vW a) && is_next b off cc then Some a else None).
    destruct pick as [hi|] eqn:P; [|discriminate].
    destruct (ceil_of cc (s_nw s)) as [d|] eqn:Ce; [|discriminate].
    destruct (diff_is hi off d && negb (has_var vW (s_nw s))) eqn:D; [|discriminate].
    intros Hc HN Hd. inversion Hc; subst c; cbn [c_lo c_hi c_nonneg] in *. clear Hc.
    apply andb_true_iff in D. destruct D as [D Fn]. apply negb_true_iff in Fn.
    (* stop = min (start + c) hi, hi free of w *)
    assert (Hstop : has_var vW hi = false /\ forall e', eval e' (s_stop s) =
              Z.min (eval e' off + (lookup e' vW + 1) * eval e' cc) (eval e' hi)).
    { subst pick. destruct (negb (has_var vW b) && is_next a off cc) eqn:E1.
      - inversion P; subst. apply andb_true_iff in E1. destruct E1 as [E1 E2]. apply negb_true_iff in E1.
        split; [exact E1|]. intros e'. rewrite (as_clip_sound _ _ _ C), (is_next_sound _ _ _ E2). reflexivity.
      - destruct (negb (has_var vW a) && is_next b off cc) eqn:E2; [|discriminate].
        inversion P; subst. apply andb_true_iff in E2. destruct E2 as [E2 E3]. apply negb_true_iff in E2.
        split; [exact E2|]. intros e'. rewrite (as_clip_sound _ _ _ C), (is_next_sound _ _ _ E3). lia. }
    destruct Hstop as [Fhi Hstop].
    set (voff := eval en off). set (vc := eval en cc). set (vhi := eval en hi).
    pose proof (ceil_of_sound _ _ _ Ce en HN) as Hceil. fold vc N in Hceil.
    pose proof (diff_is_sound _ _ _ D en) as Hdiff. fold vhi voff in Hdiff.
    assert (Hge : eval en d <= N * vc) by (rewrite Hceil; apply ceil_mul_ge; lia).
    assert (Hc0 : 0 <= vc) by (rewrite Hceil; apply ceil_nonneg; lia).
    assert (Hraw : raw_ranges s e n =
              map (fun k => (voff + k * vc, zmin (voff + k * vc + vc) vhi)) (zrange N)).
    { unfold raw_ranges. fold en N. apply zrange_map_ext. intros k Hk. f_equal.
      - rewrite Hs, lookup_w, !eval_free by assumption. reflexivity.
      - rewrite Hstop, lookup_w, !eval_free by assumption.
        rewrite zmin_spec. fold voff vc vhi. f_equal. ring. }
    unfold site_ranges. rewrite Hraw. destruct (s_break s).
    - apply partition_chunks_break; lia.
    - apply partition_chunks; lia.
  Qed.

  Lemma certify_floor_sound c : certify_floor s = Some c ->
    1 <= N -> 0 <= eval en (c_nonneg c) ->
    exact_partition (site_ranges s e n) (eval en (c_lo c)) (eval en (c_hi c)).
  Proof.
    unfold certify_floor. destruct (s_break s) eqn:B; [discriminate|].
    destruct (aff (s_start s)) as [[off q]|] eqn:A; [|discriminate].
    destruct (s_stop s) as [| | | | | | | | |o w last hi x] eqn:St; try discriminate.
    destruct o; try discriminate. destruct q as [| | | | |d nn| | | |] eqn:Q; try discriminate.
    match goal with |- (if ?c then _ else _) = _ -> _ => destruct c eqn:E; [|discriminate] end.
    intros Hc HN Hd. inversion Hc; subst c; cbn [c_lo c_hi c_nonneg] in *. clear Hc.
    rewrite !andb_true_iff, !negb_true_iff in E.
    destruct E as ((((((Ew & Elast) & Fhi) & Enext) & Enn) & Ediff) & Fn).
    destruct (aff_spec _ _ _ A) as (Foff & Fq & Hs).
    set (voff := eval en off). set (vhi := eval en hi).
    pose proof (diff_is_sound _ _ _ Ediff en) as Hdiff. fold vhi voff in Hdiff.
    assert (Hq : eval en (PDiv d nn) = (vhi - voff) / N).
    { cbn [eval]. rewrite (peqb_sound _ _ Enn en). fold N. rewrite Hdiff. reflexivity. }
    assert (Hraw : raw_ranges s e n = ranges_floor_last N voff vhi).
    { unfold raw_ranges, ranges_floor_last. fold en N. apply zrange_map_ext. intros k Hk. f_equal.
      - rewrite Hs, lookup_w, !eval_free by assumption. fold voff. rewrite Hq. reflexivity.
      - rewrite St. cbn [eval cmp].
        rewrite (is_w_eval _ _ _ Ew), (peqb_sound _ _ Elast _). cbn [eval]. rewrite nw_w by assumption.
        destruct (k =? N - 1); [apply eval_free; assumption|].
        rewrite (is_next_sound _ _ _ Enext), lookup_w, !eval_free by assumption.
        fold voff. rewrite Hq. ring. }
    unfold site_ranges. rewrite B, Hraw. apply partition_floor_last; lia.
  Qed.

  Lemma certify_prop_sound c : certify_prop s = Some c ->
    1 <= N -> 0 <= eval en (c_nonneg c) ->
    exact_partition (site_ranges s e n) (eval en (c_lo c)) (eval en (c_hi c)).
  Proof.
    unfold certify_prop. destruct (s_break s) eqn:B; [discriminate|].
    destruct (s_start s) as [| | | | |m1 n1| | | |] eqn:S1; try discriminate.
    destruct m1 as [| | | |a b| | | | |]; try discriminate.
    destruct (s_stop s) as [| | | | |m2 n2| | | |] eqn:S2; try discriminate.
    destruct m2 as [| | | |a' b'| | | | |]; try discriminate.
    set (t := if is_w a then Some b else if is_w b then Some a else None).
    set (t' := if is_w1 a' then Some b' else if is_w1 b' then Some a' else None).
    destruct t as [T|] eqn:Et; [|discriminate]. destruct t' as [T'|] eqn:Et'; [|discriminate].
    match goal with |- (if ?c then _ else _) = _ -> _ => destruct c eqn:E; [|discriminate] end.
    intros Hc HN Hd. inversion Hc; subst c; cbn [c_lo c_hi c_nonneg] in *. clear Hc.
    rewrite !andb_true_iff, !negb_true_iff in E. destruct E as ((((ET & FT) & En1) & En2) & Fn).
    set (vT := eval en T) in *.
    assert (HT : forall k, eval ((vW, k) :: en) T = vT) by (intros; apply eval_free; assumption).
    assert (Hraw : raw_ranges s e n = map (fun k => (k * vT / N, (k + 1) * vT / N)) (zrange N)).
    { unfold raw_ranges. fold en N. apply zrange_map_ext. intros k Hk. f_equal.
      - rewrite S1. cbn [eval]. rewrite (peqb_sound _ _ En1 _), nw_w by assumption. f_equal.
        subst t. destruct (is_w a) eqn:Wa.
        + inversion Et; subst. rewrite (is_w_eval _ _ _ Wa), HT. reflexivity.
        + destruct (is_w b) eqn:Wb; [|discriminate]. inversion Et; subst. rewrite (is_w_eval _ _ _ Wb), HT. ring.
      - rewrite S2. cbn [eval]. rewrite (peqb_sound _ _ En2 _), nw_w by assumption. f_equal.
        subst t'. destruct (is_w1 a') eqn:Wa.
        + inversion Et'; subst. rewrite (is_w1_eval _ _ _ Wa), <- (peqb_sound _ _ ET _), HT. reflexivity.
        + destruct (is_w1 b') eqn:Wb; [|discriminate]. inversion Et'; subst.
          rewrite (is_w1_eval _ _ _ Wb), <- (peqb_sound _ _ ET _), HT. ring. }
    unfold site_ranges. rewrite B, Hraw. cbn [eval]. apply partition_prop_bounds; assumption.
  Qed.

  Theorem certify_sound c : certify s = Some c ->
    1 <= N -> 0 <= eval en (c_nonneg c) ->
    exact_partition (site_ranges s e n) (eval en (c_lo c)) (eval en (c_hi c)).
  Proof.
    unfold certify. destruct (certify_chunk s) eqn:A.
    - intros H; inversion H; subst. now apply certify_chunk_sound.
    - destruct (certify_floor s) eqn:B.
      + intros H; inversion H; subst. now apply certify_floor_sound.
      + now apply certify_prop_sound.
  Qed.
End Sound.

Definition side (s : site) (c : cert) (e : env) (n : Z) : bool :=
  let en := (vN, n) :: e in (1 <=? eval en (s_nw s)) && (0 <=? eval en (c_nonneg c)).

(** both lists of ranges tile the certificate's interval, which does not mention #n *)
Lemma certified_tiles_domain1 s c e n :
  certify s = Some c -> has_var vN (c_lo c) = false -> has_var vN (c_hi c) = false ->
  side s c e 1 = true -> side s c e n = true ->
  exact_partition (site_ranges s e n) (fst (domain1 s e)) (snd (domain1 s e)).
Proof.
  intros Hc Flo Fhi H1 Hn.
  assert (P : forall m, side s c e m = true ->
            exact_partition (site_ranges s e m) (eval e (c_lo c)) (eval e (c_hi c))).
  { intros m Hm. apply andb_true_iff in Hm. destruct Hm as [A B]. apply Z.leb_le in A, B.
    rewrite <- (eval_free vN m _ e Flo), <- (eval_free vN m _ e Fhi).
    exact (certify_sound s e m c Hc A B). }
  exact (exact_partition_hull _ _ _ _ (P 1 H1) (P n Hn)).
Qed.

(** [if] and not [||], whose arguments [vm_compute] would both evaluate *)
Definition sweep_certified (s : site) (grid ns : list Z) : bool :=
  match certify s with
  | Some c =>
      negb (has_var vN (c_lo c)) && negb (has_var vN (c_hi c)) &&
      forallb (fun e => let ok1 := side s c e 1 in
                        forallb (fun n => if ok1 && side s c e n then true else tiles_at s e n) ns)
              (assigns (s_vars s) grid)
  | None => sweep s grid ns
  end.

Lemma sweep_certified_sound s grid ns : sweep_certified s grid ns = true -> tiles_on s grid ns.
Proof.
  unfold sweep_certified. destruct (certify s) as [c|] eqn:Hc; [|exact (sweep_sound s grid ns)].
  intros H. apply andb_true_iff in H. destruct H as [H Hsw]. apply andb_true_iff in H.
  destruct H as [Flo Fhi]. apply negb_true_iff in Flo, Fhi.
  apply (sweep_by (fun e n => side s c e 1 && side s c e n)); [|exact Hsw].
  intros e n Hok. apply andb_true_iff in Hok. destruct Hok as [H1 Hn].
  exact (certified_tiles_domain1 s c e n Hc Flo Fhi H1 Hn).
Qed.

Definition kind_understood (s : site) : bool :=
  String.eqb (s_kind s) "ranges" || String.eqb (s_kind s) "workers" || String.eqb (s_kind s) "single".
Definition is_ranges (s : site) : bool := String.eqb (s_kind s) "ranges".
(** the goroutine STRUCTURE is understood (spawn loop `for w := 0; w < N; w++`, a loop over a
    collection, or a single goroutine), whatever the arithmetic of the ranges is — what C10 needs;
    kind "ranges?: ..." = spawn loop whose range arithmetic the evaluator could not express *)
Definition structure_understood (s : site) : bool :=
  String.prefix "ranges" (s_kind s) || String.eqb (s_kind s) "workers" || String.eqb (s_kind s) "single".

(** grids for the sweep (one free variable, two, more): small values, then values around what
    the sites compare with (64, 256 histograms; size / 1000) *)
Definition grid1 : list Z :=
  zrange 34 ++ [64; 100; 127; 128; 129; 255; 256; 1000; 1001; 1999; 2000; 2001; 3000; 5003; 40000].
Definition grid2 : list Z := zrange 13 ++ [33; 100; 2003].
Definition grid3 : list Z := zrange 7 ++ [17; 64].
Definition grid_for (s : site) : list Z :=
  match s_vars s with [] | [_] => grid1 | [_; _] => grid2 | _ => grid3 end.
Definition sweep_ns : list Z := map (fun k => k + 1) (zrange 12) ++ [13; 16; 17; 24; 31; 32; 40; 64].

Definition sweep_all (l : list site) : bool :=
  forallb (fun s => if is_ranges s then sweep s (grid_for s) sweep_ns else true) l.

Lemma ranges_sites_by (chk : site -> bool) l :
  forallb (fun s => if is_ranges s then chk s else true) l = true ->
  forall s, In s l -> s_kind s = "ranges"%string -> chk s = true.
Proof.
  intros H s Hs Hk. rewrite forallb_forall in H. specialize (H s Hs).
  unfold is_ranges in H. rewrite Hk in H. exact H.
Qed.

Theorem sweep_all_sound l : sweep_all l = true ->
  forall s, In s l -> s_kind s = "ranges"%string ->
  forall vals n, length vals = length (s_vars s) -> Forall (fun z => In z (grid_for s)) vals -> In n sweep_ns ->
  let e := combine (s_vars s) vals in
  exact_partition (site_ranges s e n) (fst (domain1 s e)) (snd (domain1 s e)).
Proof.
  intros H s Hs Hk. apply sweep_sound.
  exact (ranges_sites_by (fun s => sweep s (grid_for s) sweep_ns) l H s Hs Hk).
Qed.

Definition sweep_all_certified (l : list site) : bool :=
  forallb (fun s => if is_ranges s then sweep_certified s (grid_for s) sweep_ns else true) l.

Theorem sweep_all_certified_sound l : sweep_all_certified l = true ->
  forall s, In s l -> s_kind s = "ranges"%string -> tiles_on s (grid_for s) sweep_ns.
Proof.
  intros H s Hs Hk. apply sweep_certified_sound.
  exact (ranges_sites_by (fun s => sweep_certified s (grid_for s) sweep_ns) l H s Hs Hk).
Qed.

(** not vacuous: chunks of floor size T / N clipped at T leave a remainder uncovered *)
Example sweep_rejects_floor_chunks :
  let N := PIf OGt (PVar vN) (PVar "T") (PVar "T") (PVar vN) in
  let C := PDiv (PVar "T") N in
  let S := PMul (PVar vW) C in
  sweep (mkSite "" "" "ranges" N S (PMin (PAdd S C) (PVar "T")) false ["T"%string]) grid1 sweep_ns = false.
Proof. vm_compute. reflexivity. Qed.

Example certify_accepts_helper_spelling :
  let N := PIf OGt (PVar vN) (PVar "T") (PVar "T") (PVar vN) in
  let C := PAdd (PDiv (PSub (PVar "T") (PConst 1)) N) (PConst 1) in
  match certify (mkSite "" "" "ranges" N (PMul (PVar vW) C) (PMin (PMul (PAdd (PVar vW) (PConst 1)) C) (PVar "T")) false ["T"%string]) with
  | Some c => c_family c = "chunk"%string
  | None => False
  end.
Proof. vm_compute. reflexivity. Qed.
