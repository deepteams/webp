(** C12 — lossy computeAlphas (internal/lossy/encode_analysis.go): the serial body
    (computeAlphasSerial, taken when the worker count is 1) and the per-worker body of
    the parallel path compute the same per-macroblock values, the same [alphas] array
    and the same [uvAlphaSum] total, for every partition of the macroblock rows and
    every interleaving.

    Level of the model: the per-macroblock analysis values [luma mbX mbY] and
    [uv mbX mbY] are abstract (both bodies call the same kernels
    computeMBAlphaDCTWith / computeMBUVAlphaDCTWith on the same source planes and
    differ only in the scratch buffers they pass — a syntactic obligation regenerated
    by the translator, Gen/Analysis.v; that the kernels' results do not depend on the
    scratch contents is an assumption probed by the differential runs).  Modelled
    exactly: the loop structure, the index arithmetic idx = mbY*mbW + mbX, the mixing
    and clamping formula, the writes alphas[idx], the accumulation (local sum per
    worker, atomic add in completion order) and the final division. *)
From Coq Require Import List ZArith Lia Bool Permutation.
From Coq Require String.
From Coq Require Import ZifyBool ZifyNat ZifyN.
From Webp Require Import Conc.ConcPartition Conc.ConcPartitionProofs.
Import ListNotations.
Open Scope Z_scope.

Section Analysis.
  Variables luma uv : Z -> Z -> Z.      (* per-macroblock DCT-histogram alphas, arguments mbX mbY *)
  Variables mbW mbH : Z.

  Definition maxAlpha : Z := 255.

  (** mixed := (3*lumaAlpha + uvAlpha + 2) >> 2; mixed = maxAlpha - mixed; clamp to [0, maxAlpha] *)
  Definition mix (la ua : Z) : Z :=
    let m := maxAlpha - Z.shiftr (3 * la + ua + 2) 2 in
    if m <? 0 then 0 else if m >? maxAlpha then maxAlpha else m.

  (** the body shared by both loops, for one macroblock: (index written, value written, uv term) *)
  Definition mb_step (mbX mbY : Z) : Z * Z * Z :=
    (mbY * mbW + mbX, mix (luma mbX mbY) (uv mbX mbY), uv mbX mbY).

  (** macroblocks of the rows [startY, endY) in loop order (for mbY .. for mbX ..) *)
  Definition mbs_of_rows (r : range) : list (Z * Z * Z) :=
    flat_map (fun mbY => map (fun mbX => mb_step mbX mbY) (zrange mbW)) (indices r).

  Definition write_alpha (alphas : list Z) (st : Z * Z * Z) : list Z :=
    upd alphas (Z.to_nat (fst (fst st))) (snd (fst st)).

  (** computeAlphasSerial: one loop over all rows; returns (alphas, uvAlphaSum / total) *)
  Definition serial (alphas0 : list Z) : list Z * Z :=
    let steps := mbs_of_rows (0, mbH) in
    (fold_left write_alpha steps alphas0,
     Z.quot (fold_left (fun acc st => acc + snd st) steps 0) (mbH * mbW)).

  (** parallel path: worker k runs [mbs_of_rows r_k]; the writes of all workers are
      interleaved arbitrarily ([Shuffle]); each worker adds its local sum atomically
      when it finishes ([order]: any permutation of the workers) *)
  Definition worker_sum (r : range) : Z := fold_left (fun acc st => acc + snd st) (mbs_of_rows r) 0.

  Definition parallel (alphas0 : list Z) (interleaved : list (Z * Z * Z)) (order : list range) : list Z * Z :=
    (fold_left write_alpha interleaved alphas0,
     Z.quot (fold_left (fun acc r => acc + worker_sum r) order 0) (mbH * mbW)).

End Analysis.

Section AnalysisProofs.
  Variables luma uv : Z -> Z -> Z.
  Variables mbW mbH : Z.
  Hypothesis HW : 1 <= mbW.
  Hypothesis HH : 1 <= mbH.

  Notation mb_step := (mb_step luma uv mbW).
  Notation mbs_of_rows := (mbs_of_rows luma uv mbW).

  Definition scale (r : range) : range := (fst r * mbW, snd r * mbW).

  (** per macroblock INDEX: what is written and what is added *)
  Definition alpha_at (idx : Z) : Z := mix (luma (idx mod mbW) (idx / mbW)) (uv (idx mod mbW) (idx / mbW)).
  Definition uv_at (idx : Z) : Z := uv (idx mod mbW) (idx / mbW).

  Definition step_of (idx : Z) : Z * Z * Z := (idx, alpha_at idx, uv_at idx).

  Lemma mb_step_idx mbX mbY : 0 <= mbX < mbW -> mb_step mbX mbY = step_of (mbY * mbW + mbX).
  Proof.
    intros Hx. unfold ConcAnalysis.mb_step, step_of, alpha_at, uv_at.
    assert (E1 : (mbY * mbW + mbX) mod mbW = mbX).
    { rewrite Z.add_comm, Z.mod_add by lia. apply Z.mod_small. lia. }
    assert (E2 : (mbY * mbW + mbX) / mbW = mbY).
    { rewrite Z.add_comm, Z.div_add by lia. rewrite Z.div_small by lia. lia. }
    rewrite E1, E2. reflexivity.
  Qed.

  Lemma row_steps mbY : map (fun mbX => mb_step mbX mbY) (zrange mbW) = map step_of (indices (mbY * mbW, mbY * mbW + mbW)).
  Proof.
    unfold zrange, indices. cbn [fst snd]. rewrite !map_map.
    replace (Z.to_nat (mbY * mbW + mbW - mbY * mbW)) with (Z.to_nat mbW) by lia.
    apply map_ext_in. intros k Hk. apply in_seq in Hk. rewrite mb_step_idx by lia. reflexivity.
  Qed.

  Lemma map_seq_shift a b : forall q s t, a + Z.of_nat s = b + Z.of_nat t ->
    map (fun k : nat => a + Z.of_nat k) (seq s q) = map (fun k : nat => b + Z.of_nat k) (seq t q).
  Proof.
    induction q as [|q IH]; intros s t H; cbn [seq map]; [reflexivity|].
    f_equal; [exact H|]. apply IH. lia.
  Qed.

  Lemma indices_split a b c : a <= b -> b <= c -> indices (a, c) = indices (a, b) ++ indices (b, c).
  Proof.
    intros Hab Hbc. unfold indices. cbn [fst snd].
    replace (Z.to_nat (c - a)) with (Z.to_nat (b - a) + Z.to_nat (c - b))%nat by lia.
    rewrite seq_app, map_app. f_equal. apply map_seq_shift. lia.
  Qed.

  (** the double loop over rows [s, s+k) visits exactly the indices [s*mbW, (s+k)*mbW) in order *)
  Lemma rows_steps_nat (k : nat) : forall s,
    flat_map (fun mbY => map (fun mbX => mb_step mbX mbY) (zrange mbW)) (indices (s, s + Z.of_nat k))
    = map step_of (indices (s * mbW, (s + Z.of_nat k) * mbW)).
  Proof.
    induction k as [|k IH]; intros s.
    - unfold indices. cbn [fst snd]. replace (Z.to_nat (s + Z.of_nat 0 - s)) with 0%nat by lia.
      replace (Z.to_nat ((s + Z.of_nat 0) * mbW - s * mbW)) with 0%nat by lia. reflexivity.
    - rewrite (indices_split s (s + 1) (s + Z.of_nat (S k))) by lia.
      rewrite flat_map_app.
      replace (indices (s, s + 1)) with [s].
      2:{ unfold indices. cbn [fst snd]. replace (Z.to_nat (s + 1 - s)) with 1%nat by lia. cbn. f_equal. lia. }
      cbn [flat_map]. rewrite app_nil_r, row_steps.
      replace (s + Z.of_nat (S k)) with (s + 1 + Z.of_nat k) by lia. rewrite IH.
      rewrite <- map_app. f_equal.
      rewrite (indices_split (s * mbW) (s * mbW + mbW) ((s + 1 + Z.of_nat k) * mbW)) by nia.
      replace ((s + 1) * mbW) with (s * mbW + mbW) by ring. reflexivity.
  Qed.

  Lemma mbs_of_rows_any r : mbs_of_rows r = map step_of (indices (scale r)).
  Proof.
    unfold ConcAnalysis.mbs_of_rows, scale. destruct r as [s e]. cbn [fst snd].
    destruct (Z_le_gt_dec s e) as [H|H].
    - replace e with (s + Z.of_nat (Z.to_nat (e - s))) by lia. apply rows_steps_nat.
    - (* an inverted range has no rows and no indices *)
      unfold indices. cbn [fst snd]. replace (Z.to_nat (e - s)) with 0%nat by lia.
      replace (Z.to_nat (e * mbW - s * mbW)) with 0%nat by nia. reflexivity.
  Qed.

  (** scaling a partition of the rows gives a partition of the macroblock indices *)
  Lemma scale_in_range r i : in_range (scale r) i <-> in_range r (i / mbW).
  Proof.
    unfold in_range, scale. cbn [fst snd]. split; intros H.
    - split; [apply Z.div_le_lower_bound; lia|apply Z.div_lt_upper_bound; lia].
    - pose proof (Z.div_mod i mbW ltac:(lia)). pose proof (Z.mod_pos_bound i mbW ltac:(lia)). nia.
  Qed.

  Lemma scale_partition rs : exact_partition rs 0 mbH -> exact_partition (map scale rs) 0 (mbH * mbW).
  Proof.
    intros (Hin & Hcov & Hdis). split; [|split].
    - intros r i Hr Hi. apply in_map_iff in Hr. destruct Hr as (r0 & <- & Hr0).
      apply scale_in_range in Hi. pose proof (Hin r0 _ Hr0 Hi) as Hb.
      pose proof (Z.div_mod i mbW ltac:(lia)). pose proof (Z.mod_pos_bound i mbW ltac:(lia)). nia.
    - intros i Hi. destruct (Hcov (i / mbW)) as (r & Hr & Hri).
      { split; [apply Z.div_pos; lia|apply Z.div_lt_upper_bound; lia]. }
      exists (scale r). split; [apply in_map; exact Hr|apply scale_in_range; exact Hri].
    - intros j k i Hj Hk Hrj Hrk. rewrite map_length in Hj, Hk.
      change (0, 0) with (scale (0, 0)) in Hrj, Hrk.
      rewrite map_nth in Hrj, Hrk. apply scale_in_range in Hrj, Hrk. exact (Hdis j k _ Hj Hk Hrj Hrk).
  Qed.

  Lemma indices_all_rows : indices (scale (0, mbH)) = zrange (mbH * mbW).
  Proof.
    unfold scale, indices, zrange. cbn [fst snd]. replace (mbH * mbW - 0 * mbW) with (mbH * mbW) by lia.
    apply map_ext. intros k. lia.
  Qed.

  (** the writes are [run_writes alpha_at] on the visited indices, the sums are sums of [uv_at] *)
  Lemma fold_write_steps l alphas0 :
    fold_left write_alpha (map step_of l) alphas0 = run_writes alpha_at l alphas0.
  Proof.
    unfold run_writes. revert alphas0. induction l as [|i l IH]; intros a0; cbn [map fold_left]; [reflexivity|].
    rewrite IH. reflexivity.
  Qed.

  Lemma fold_sum_steps l a : fold_left (fun acc st => acc + snd st) (map step_of l) a = a + sum_list (map uv_at l).
  Proof.
    revert a. induction l as [|i l IH]; intros a; cbn [map fold_left]; [unfold sum_list; cbn; lia|].
    rewrite IH, sum_list_cons. cbn [snd step_of]. lia.
  Qed.

  (** an interleaving of the workers' step lists is [map step_of] of an interleaving of their index lists *)
  Lemma Shuffle_steps rs inter :
    Shuffle (map mbs_of_rows rs) inter ->
    exists ops, inter = map step_of ops /\ Shuffle (map indices (map scale rs)) ops.
  Proof.
    intros HS. exists (map (fun st => fst (fst st)) inter). split.
    - assert (G : forall st, In st inter -> step_of (fst (fst st)) = st).
      { intros st Hst. apply (Permutation_in _ (Shuffle_Permutation _ _ HS)), in_concat in Hst.
        destruct Hst as (l & Hl & Hst).
        apply in_map_iff in Hl. destruct Hl as (r & <- & _). rewrite mbs_of_rows_any in Hst.
        apply in_map_iff in Hst. destruct Hst as (i & <- & _). reflexivity. }
      rewrite map_map. rewrite <- (map_id inter) at 1. apply map_ext_in. intros st Hst. symmetry. apply G. exact Hst.
    - apply (Shuffle_map (fun st : Z * Z * Z => fst (fst st))) in HS.
      rewrite !map_map in HS. rewrite map_map.
      erewrite map_ext; [exact HS|]. intros r. cbn beta. rewrite mbs_of_rows_any, map_map.
      cbn [step_of fst]. rewrite map_id. reflexivity.
  Qed.

  Theorem analysis_worker_eq_serial : forall rs alphas0 inter order,
    exact_partition rs 0 mbH ->
    length alphas0 = Z.to_nat (mbH * mbW) ->
    Shuffle (map mbs_of_rows rs) inter ->
    Permutation order rs ->
    parallel luma uv mbW mbH alphas0 inter order = serial luma uv mbW mbH alphas0
    /\ fst (serial luma uv mbW mbH alphas0) = map alpha_at (zrange (mbH * mbW)).
  Proof.
    intros rs alphas0 inter order HP Hlen HS Hperm.
    pose proof (scale_partition rs HP) as HP'.
    assert (Hser_w : fold_left write_alpha (mbs_of_rows (0, mbH)) alphas0 = map alpha_at (zrange (mbH * mbW))).
    { rewrite mbs_of_rows_any, fold_write_steps, indices_all_rows.
      exact (queue_site_independent Z alpha_at (mbH * mbW) alphas0 _ (Permutation_refl _) Hlen). }
    assert (Hser_s : fold_left (fun acc st => acc + snd st) (mbs_of_rows (0, mbH)) 0 = sum_list (map uv_at (zrange (mbH * mbW))))
      by (rewrite mbs_of_rows_any, fold_sum_steps, indices_all_rows; reflexivity).
    split; [|unfold serial; cbn [fst]; exact Hser_w].
    unfold parallel, serial. f_equal.
    - rewrite Hser_w. destruct (Shuffle_steps rs inter HS) as (ops & -> & HSo).
      rewrite fold_write_steps.
      exact (map_site_independent Z alpha_at (map scale rs) (mbH * mbW) alphas0 ops HP' Hlen HSo).
    - f_equal. rewrite Hser_s.
      assert (Hw : forall r, worker_sum luma uv mbW r = sum_list (map uv_at (indices (scale r)))).
      { intros r. unfold worker_sum. rewrite mbs_of_rows_any, fold_sum_steps. lia. }
      assert (Hfold : forall l a, fold_left (fun acc r => acc + worker_sum luma uv mbW r) l a
                       = a + sum_list (map (fun r => sum_list (map uv_at (indices r))) (map scale l))).
      { induction l as [|r l IH]; intros a; cbn [map fold_left]; [unfold sum_list; cbn; lia|].
        rewrite IH, sum_list_cons, Hw. lia. }
      rewrite Hfold. cbn [Z.add].
      apply (sum_site_independent uv_at (map scale rs) (mbH * mbW) (map scale order) HP').
      apply Permutation_map. exact Hperm.
  Qed.

  (** instantiated with the code's own partition, for every worker count *)
  Corollary analysis_worker_eq_serial_all_n : forall n alphas0 inter order, 1 <= n ->
    length alphas0 = Z.to_nat (mbH * mbW) ->
    Shuffle (map mbs_of_rows (ranges_compute_alphas n mbW mbH)) inter ->
    Permutation order (ranges_compute_alphas n mbW mbH) ->
    parallel luma uv mbW mbH alphas0 inter order = serial luma uv mbW mbH alphas0.
  Proof.
    intros n alphas0 inter order Hn Hlen HS Hperm.
    exact (proj1 (analysis_worker_eq_serial _ alphas0 inter order
             (partition_exact_compute_alphas n mbW mbH Hn HW HH) Hlen HS Hperm)).
  Qed.

End AnalysisProofs.

(** not vacuous: 2x3 macroblocks, two workers (rows [0,2) and [2,3)), writes interleaved *)
Example analysis_example :
  let luma := fun x y => 10 * x + y in
  let uv := fun x y => 100 + x + 3 * y in
  parallel luma uv 2 3 [0; 0; 0; 0; 0; 0]
     (mbs_of_rows luma uv 2 (2, 3) ++ mbs_of_rows luma uv 2 (0, 2)) [(2, 3); (0, 2)]
  = serial luma uv 2 3 [0; 0; 0; 0; 0; 0].
Proof. vm_compute. reflexivity. Qed.

(** Source tie (Properties/C12.v, over Gen/Analysis.v).  What is required of the source is
    relative, not a transcription: the per-macroblock loop body of the worker goroutines and
    that of computeAlphasSerial are the SAME code once the wrapper calls (LUMA / UV), the
    accumulator (ACC) and the names of locals (L0, L1, ...) are normalised and hook lines
    dropped (the proofs above never look inside [mix]), and each serial / worker wrapper pair
    returns the same kernel on the same leading arguments, the worker taking all scratch from
    its own parameter, never from the shared encoder.  An entry of the table: role (serial or
    worker), wrapper, kernel it returns, leading arguments, origin of the scratch arguments. *)
Import String.
Fixpoint wrappers_ok (l : list (string * string * string * string * string)) : bool :=
  match l with
  | [] => true
  | (r1, _, k1, a1, _) :: (r2, _, k2, a2, c2) :: tl =>
      String.eqb r1 "serial" && String.eqb r2 "worker" && String.eqb k1 k2 && String.eqb a1 a2 &&
      String.eqb c2 "own-only" && wrappers_ok tl
  | _ => false
  end.
