(** C10, layer L2 — why [signal] takes and releases the row mutex before [Broadcast].
    The variant below is [ConcWaitSignal.step] with that pair removed
    (signal: done.Store(d); if waiters.Load() > 0 { cond.Broadcast() }).  It LOSES A
    WAKE-UP: a waiter that has checked [done < needed] under the mutex and is about to call
    cond.Wait (still holding the mutex) can be overtaken by the whole signal — store, load
    (waiters = 1), Broadcast to an empty wait-set — and then goes to sleep for ever.  With the
    Lock/Unlock pair the signaller blocks on the mutex until the waiter is inside Wait
    ([C10_no_lost_wakeup]).

    Also: the sequences of synchronisation operations of waitFor / signal and the order of
    the two calls in encodeRow's macroblock loop that the L2 model has transitions for;
    compared with the regenerated sequences (Gen/RowSyncSrc.v) by Properties/C10.v. *)
From Coq Require Import List Arith Lia Bool String.
From Webp Require Import Conc.ConcWaitSignal.
Import ListNotations.

Section NoLock.
  Variable mbW : nat.

  Definition step_sig_nolock (s : st) : option st :=
    match sig s with
    | SLoad d => Some (mkSt (done s) (nwait s) (mu s) (if 0 <? nwait s then SBcast d else next_sig mbW d) (ws s))
    | SLock _ | SUnlock _ => None                      (* not part of this variant *)
    | _ => step_sig mbW s
    end.

  Definition step_nolock (s : st) (l : label) : option st :=
    match l with LS => step_sig_nolock s | LWt j => step_w s j end.

  Fixpoint run_nolock (s : st) (sched : list label) : option st :=
    match sched with
    | [] => Some s
    | l :: rest => match step_nolock s l with Some s' => run_nolock s' rest | None => None end
    end.
End NoLock.

(** Full statement for the variant: a sleeper whose condition holds always has a Broadcast
    pending.  FALSE: one row of width 1, one waiter calling waitFor(1). *)
Definition nolock_no_lost_wakeup : Prop :=
  forall mbW calls sched s j w nd,
    run_nolock mbW (init mbW calls) sched = Some s -> nth_error (ws s) j = Some w ->
    pc w = WSleep nd -> nd <= done s ->
    match sig s with SLoad _ | SBcast _ => True | _ => False end.

Definition lost_wakeup_schedule : list label :=
  [LWt 0; LWt 0; LWt 0; LWt 0; LWt 0;   (* call; fast check fails; waiters++; Lock; check: done 0 < 1 *)
   LS; LS; LS;                          (* done.Store(1); waiters.Load() = 1; Broadcast to nobody *)
   LWt 0].                              (* cond.Wait: asleep for ever *)

Lemma lost_wakeup_state :
  run_nolock 1 (init 1 [[1]]) lost_wakeup_schedule = Some (mkSt 1 1 None SDone [mkW (WSleep 1) []]).
Proof. reflexivity. Qed.

Theorem nolock_lost_wakeup_refuted : ~ nolock_no_lost_wakeup.
Proof.
  intros H.
  exact (H 1 [[1]] lost_wakeup_schedule _ 0 (mkW (WSleep 1) []) 1 lost_wakeup_state eq_refl eq_refl (le_n 1)).
Qed.

(** ... and the state reached is a deadlock: nobody can move, the waiter never returns. *)
Theorem nolock_deadlock_witness :
  exists s, run_nolock 1 (init 1 [[1]]) lost_wakeup_schedule = Some s /\
            finished s = false /\ forall l, step_nolock 1 s l = None.
Proof.
  eexists. split; [exact lost_wakeup_state|]. split; [reflexivity|].
  intros [|[|[|j]]]; reflexivity.
Qed.

(** The same schedule in the real protocol is harmless: the signaller cannot pass its Lock
    while the waiter holds the mutex. *)
Example with_lock_signaller_blocks :
  exists s, run 1 (init 1 [[1]]) [LWt 0; LWt 0; LWt 0; LWt 0; LWt 0; LS; LS] = Some s /\
            sig s = SLock 1 /\ step 1 s LS = None /\ step 1 s (LWt 0) <> None.
Proof.
  eexists. split; [vm_compute; reflexivity|]. split; [reflexivity|]. split; [vm_compute; reflexivity|vm_compute; discriminate].
Qed.

(** The synchronisation-operation sequences the L2 model has one transition for.
    What is compared with the source is NOT its text but the sequence of operations on the
    row's done / waiters / mu / cond, with the block structure and comparison operator around
    them (tools/gosrc2v/rowsyncsrc.go); local names, hook lines, logging and any statement
    that performs no such operation do not appear.  Each element below is one phase of
    [ConcWaitSignal]: WFast (load, >=, return), WInc, WLock, WCheck (load, <) / WWaitCall (Wait),
    WUnlock, WDec; SStore, SLoad (load, >), SLock, SUnlock, SBcast. *)
Open Scope string_scope.
Definition modelled_waitFor_ops : list string :=
  ["if["; "done.Load"; ">="; "]{"; "return"; "}";
   "waiters.Add(1)";
   "mu.Lock";
   "for["; "done.Load"; "<"; "]{"; "cond.Wait"; "}";
   "mu.Unlock";
   "waiters.Add(-1)"].
Definition modelled_signal_ops : list string :=
  ["done.Store";
   "if["; "waiters.Load"; ">"; "]{"; "mu.Lock"; "mu.Unlock"; "cond.Broadcast"; "}"].
(** the variant refuted above, for reference: the same with the pair removed *)
Definition nolock_signal_ops : list string :=
  ["done.Store"; "if["; "waiters.Load"; ">"; "]{"; "cond.Broadcast"; "}"].
(** encodeRow's macroblock loop waits before it signals, once each per macroblock *)
Definition modelled_encodeRow_sync_calls : list string := ["waitFor"; "signal"].
