(** C10 — Phase A (row workers, call graph of encodeRow) and Phase B (overlapped token
    recorder, call graph of recordAllTokens) of encodeFrameParallel run concurrently.
    The translator (tools/gosrc2v/phaseb.go -> Gen/PhaseB.v) regenerates, from the
    current source, the sets of VP8Encoder fields each phase reads and writes.
    Here: the predicate the generated sets must satisfy.

    [synchronised]: fields both phases touch by design, handed over row by row
    through the progress counter: Phase B touches mbInfo[y*mbW .. ] only after
    done[y] = mbW ([recorder_order] in ConcRowSyncProofs.v), Phase A never returns
    to a completed row. *)
From Coq Require Import List String Bool.
Import ListNotations.
Open Scope string_scope.

Definition synchronised : list string := ["mbInfo"].

Definition mem (x : string) (l : list string) : bool := existsb (String.eqb x) l.

(** every element of [ws] that is not synchronised is absent from [others] *)
Definition disjoint_except (sync ws others : list string) : bool :=
  forallb (fun w => mem w sync || negb (mem w others)) ws.

Definition phases_disjoint (a_reads a_writes b_reads b_writes : list string) : bool :=
  disjoint_except synchronised b_writes (a_reads ++ a_writes) &&
  disjoint_except synchronised a_writes (b_reads ++ b_writes).

Lemma mem_In x l : mem x l = true <-> In x l.
Proof.
  unfold mem. rewrite existsb_exists. split.
  - intros (y & Hy & He). apply String.eqb_eq in He. now subst.
  - intros H. exists x. split; [exact H|apply String.eqb_refl].
Qed.

Lemma disjoint_except_spec sync ws others : disjoint_except sync ws others = true ->
  forall x, In x ws -> In x others -> In x sync.
Proof.
  intros H x Hw Ho. unfold disjoint_except in H. rewrite forallb_forall in H. specialize (H x Hw).
  apply orb_true_iff in H. destruct H as [H|H].
  - apply mem_In. exact H.
  - apply negb_true_iff in H. apply mem_In in Ho. congruence.
Qed.

Theorem phases_disjoint_spec : forall a_reads a_writes b_reads b_writes,
  phases_disjoint a_reads a_writes b_reads b_writes = true ->
  (forall fld, In fld b_writes -> In fld a_reads \/ In fld a_writes -> In fld synchronised) /\
  (forall fld, In fld a_writes -> In fld b_reads \/ In fld b_writes -> In fld synchronised).
Proof.
  intros ar aw br bw H. unfold phases_disjoint in H. apply andb_true_iff in H. destruct H as [H1 H2]. split.
  - intros fld Hb Ha. apply (disjoint_except_spec _ _ _ H1 fld Hb). apply in_or_app. exact Ha.
  - intros fld Ha Hb. apply (disjoint_except_spec _ _ _ H2 fld Ha). apply in_or_app. exact Hb.
Qed.

(** The check is not vacuous: a recorder that also refreshed the probabilities
    (writes "proba", which the workers read) is rejected. *)
Example phases_conflict_detected :
  phases_disjoint ["proba"; "yPlane"] ["mbInfo"; "yPlane"] ["topNz"] ["topNz"; "mbInfo"; "proba"] = false.
Proof. reflexivity. Qed.
Example phases_ok_example :
  phases_disjoint ["proba"; "yPlane"] ["mbInfo"; "yPlane"] ["topNz"; "proba"] ["topNz"; "mbInfo"] = true.
Proof. reflexivity. Qed.
