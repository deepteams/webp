(** C12 — lossy importImage, UV path (internal/lossy/encode.go): each worker goroutine
    takes a pooled [importUVWorker] whose buffers keep whatever an earlier call (of a
    possibly WIDER image: reuse only requires cap >= padW) left in them.  Taint
    model: every scratch cell is either fresh (written during this call) or
    stale; copies propagate staleness, the two kernels (dsp.AccumulateRGBA,
    dsp.ConvertRGBA32ToUV) produce a fresh value only from fresh inputs.  Theorem: for
    every width w >= 1, padded width padW = 16*mbW >= w, pooled buffer length
    L >= padW, with or without alpha, every value stored into the U / V planes by one
    row-pair iteration is computed from fresh cells only, so it cannot depend on what the
    pooled worker held, hence not on which goroutine runs the pair.

    The index sets are transcribed by hand from the loop body (rows: write [0,w), read
    cell w-1, write [w,padW); copy(planar[:padW], row0); copy(planar[padW:], row1);
    planarA filled with 0xff when there is no alpha; AccumulateRGBA reads planar[j],
    [j+1], [j+padW], [j+padW+1] for j = 0,2,..,padW-2 and writes tmpRGB[4i..4i+3];
    ConvertRGBA32ToUV reads tmpRGB[4i..4i+2] for i < uvWidth = padW/2); the translator
    does not extract them.  The second copy reads stale cells (row1[padW..L)) when the
    pooled buffer is longer than padW: they land in planar[2*padW..), which no kernel reads. *)
From Coq Require Import String List Arith Lia Bool.
Import ListNotations.

Definition arr := nat -> bool.                    (* true = fresh *)
Definition stale : arr := fun _ => false.

Definition fill (a : arr) (lo hi : nat) (v : bool) : arr :=
  fun k => if (lo <=? k) && (k <? hi) then v else a k.

(** copy(dst[off:], src) where n = min(len(dst)-off, len(src)) elements are copied *)
Definition copy_into (dst : arr) (off : nat) (src : arr) (n : nat) : arr :=
  fun k => if (off <=? k) && (k <? off + n) then src (k - off) else dst k.

Section UV.
  Variables w padW L : nat.      (* picture width, padded width, length of the pooled row buffers *)
  Variable hasAlpha : bool.
  Variables pooledRow0 pooledRow1 pooledPlanar pooledTmp : arr.   (* arbitrary leftovers *)

  (** one row buffer after the per-row loop: pixels, then edge replication of cell w-1 *)
  Definition row_after (pooled : arr) : arr :=
    let r := fill pooled 0 w true in
    if w <? padW then fill r w padW (r (w - 1)) else r.

  (** a colour plane's planar buffer (length 2*L) after the two copies *)
  Definition planar_after (pooled : arr) (r0 r1 : arr) : arr :=
    copy_into (copy_into pooled 0 r0 (Nat.min padW L)) padW r1 (Nat.min (2 * L - padW) L).

  Definition planarRGB : arr := planar_after pooledPlanar (row_after pooledRow0) (row_after pooledRow1).
  Definition planarA : arr :=
    if hasAlpha then planar_after pooledPlanar (row_after pooledRow0) (row_after pooledRow1)
    else fill pooledPlanar 0 (2 * L) true.      (* for i := range wk.planarA { = 0xff } *)

  (** AccumulateRGBA(planarR, G, B, A, stride = padW, tmpRGB, width = padW) *)
  Definition acc_inputs_fresh (i : nat) : bool :=
    let j := 2 * i in
    planarRGB j && planarRGB (j + 1) && planarRGB (j + padW) && planarRGB (j + padW + 1) &&
    planarA j && planarA (j + 1) && planarA (j + padW) && planarA (j + padW + 1).

  Definition tmp_after : arr :=
    fun k => if k <? 4 * (padW / 2) then acc_inputs_fresh (k / 4) else pooledTmp k.

  (** ConvertRGBA32ToUV(tmpRGB, u, v, uvWidth): output i is fresh iff its three inputs are *)
  Definition uv_output_fresh (i : nat) : bool :=
    tmp_after (4 * i) && tmp_after (4 * i + 1) && tmp_after (4 * i + 2).

End UV.

Lemma range_in lo hi k : lo <= k -> k < hi -> (lo <=? k) && (k <? hi) = true.
Proof. intros H1 H2. apply Nat.leb_le in H1. apply Nat.ltb_lt in H2. rewrite H1, H2. reflexivity. Qed.

Lemma range_out lo hi k : k < lo \/ hi <= k -> (lo <=? k) && (k <? hi) = false.
Proof.
  intros [H|H].
  - apply Nat.leb_gt in H. rewrite H. reflexivity.
  - apply Nat.ltb_ge in H. rewrite H. apply andb_false_r.
Qed.

Lemma fill_in a lo hi v k : lo <= k -> k < hi -> fill a lo hi v k = v.
Proof. intros H1 H2. unfold fill. rewrite range_in by assumption. reflexivity. Qed.

Lemma fill_out a lo hi v k : k < lo \/ hi <= k -> fill a lo hi v k = a k.
Proof. intros H. unfold fill. rewrite range_out by assumption. reflexivity. Qed.

Lemma copy_in dst off src n k : off <= k -> k < off + n -> copy_into dst off src n k = src (k - off).
Proof. intros H1 H2. unfold copy_into. rewrite range_in by assumption. reflexivity. Qed.

Lemma copy_out dst off src n k : k < off \/ off + n <= k -> copy_into dst off src n k = dst k.
Proof. intros H. unfold copy_into. rewrite range_out by assumption. reflexivity. Qed.

Lemma row_after_fresh w padW pooled k : 1 <= w -> w <= padW -> k < padW -> row_after w padW pooled k = true.
Proof.
  intros Hw Hwp Hk. unfold row_after.
  destruct (w <? padW) eqn:E.
  - destruct (Nat.lt_ge_cases k w) as [Hlt|Hge].
    + rewrite fill_out by (left; exact Hlt). apply fill_in; lia.
    + rewrite fill_in by lia. apply fill_in; lia.
  - apply Nat.ltb_ge in E. apply fill_in; lia.
Qed.

Lemma planar_after_fresh w padW L pooled p0 p1 k : 1 <= w -> w <= padW -> padW <= L -> k < 2 * padW ->
  planar_after padW L pooled (row_after w padW p0) (row_after w padW p1) k = true.
Proof.
  intros Hw Hwp HL Hk. unfold planar_after.
  replace (Nat.min padW L) with padW by lia. replace (Nat.min (2 * L - padW) L) with L by lia.
  destruct (Nat.lt_ge_cases k padW) as [Hlt|Hge].
  - rewrite copy_out by (left; exact Hlt). rewrite copy_in by lia. apply row_after_fresh; lia.
  - rewrite copy_in by lia. apply row_after_fresh; lia.
Qed.

Lemma planarRGB_fresh w padW L p0 p1 pp k : 1 <= w -> w <= padW -> padW <= L -> k < 2 * padW ->
  planarRGB w padW L p0 p1 pp k = true.
Proof. apply planar_after_fresh. Qed.

Lemma planarA_fresh w padW L hasAlpha p0 p1 pp k : 1 <= w -> w <= padW -> padW <= L -> k < 2 * padW ->
  planarA w padW L hasAlpha p0 p1 pp k = true.
Proof.
  intros Hw Hwp HL Hk. unfold planarA. destruct hasAlpha.
  - apply planar_after_fresh; assumption.
  - apply fill_in; lia.
Qed.

Theorem uv_output_fresh_half w padW L hasAlpha p0 p1 pp pt i :
  1 <= w -> w <= padW -> padW <= L -> i < padW / 2 ->
  uv_output_fresh w padW L hasAlpha p0 p1 pp pt i = true.
Proof.
  intros Hw Hwp HL Hi.
  assert (Hpw : 2 * (padW / 2) <= padW) by (apply Nat.mul_div_le; discriminate).
  assert (Hacc : forall q, q < padW / 2 -> acc_inputs_fresh w padW L hasAlpha p0 p1 pp q = true).
  { intros q Hq. unfold acc_inputs_fresh.
    rewrite !planarRGB_fresh, !planarA_fresh by (assumption || lia). reflexivity. }
  assert (Htmp : forall k, k < 4 * (padW / 2) -> tmp_after w padW L hasAlpha p0 p1 pp pt k = true).
  { intros k Hk. unfold tmp_after. rewrite (proj2 (Nat.ltb_lt _ _) Hk).
    apply Hacc. apply Nat.div_lt_upper_bound; lia. }
  unfold uv_output_fresh. rewrite !Htmp by lia. reflexivity.
Qed.

(** uvWidth := (padW + 1) >> 1 in the source *)
Lemma half_up_even padW h : padW = 2 * h -> (padW + 1) / 2 = padW / 2.
Proof.
  intros ->. transitivity h; [symmetry|].
  - apply Nat.div_unique with 1; lia.
  - apply Nat.div_unique with 0; lia.
Qed.

(** Every U / V sample written by a row-pair iteration depends on fresh scratch only. *)
Theorem uv_worker_scratch_overwritten :
  forall w mbW L hasAlpha pooledRow0 pooledRow1 pooledPlanar pooledTmp i,
  1 <= w -> w <= 16 * mbW -> 16 * mbW <= L -> i < (16 * mbW + 1) / 2 ->
  uv_output_fresh w (16 * mbW) L hasAlpha pooledRow0 pooledRow1 pooledPlanar pooledTmp i = true.
Proof.
  intros w mbW L hasAlpha p0 p1 pp pt i Hw Hwp HL Hi.
  rewrite (half_up_even _ (8 * mbW)) in Hi by lia.
  apply uv_output_fresh_half; assumption.
Qed.

(** not vacuous: a 10-pixel-wide picture handled by a worker pooled from a 48-wide one;
    and the model does detect a missing write: without the edge replication the last
    output column would depend on stale cells. *)
Example uv_scratch_example :
  uv_output_fresh 10 16 48 false stale stale stale stale 7 = true.
Proof. reflexivity. Qed.
Example uv_scratch_detects_missing_replication :
  (* rows written only for x < w (no replication): cell 10..15 stale -> output 5 tainted *)
  let row := fill stale 0 10 true in
  let planar := planar_after 16 48 stale row row in
  (planar 10 && planar 11 && planar 26 && planar 27) = false.
Proof. reflexivity. Qed.

(** The same theorem over REGENERATED index facts (tools/gosrc2v/uvscratch.go ->
    Gen/UVScratch.v): the step of j and the (stride coefficient, constant) pairs of
    AccumulateRGBA's reads, the step and constants of its writes to dst, the multiplier and
    constants of ConvertRGBA32ToUV's reads are parameters; it holds for all data passing
    [facts_ok], and Properties/C12.v instantiates it with the generated values. *)
Section UVGen.
  Variables w padW L : nat.
  Variable hasAlpha : bool.
  Variables pooledRow0 pooledRow1 pooledPlanar pooledTmp : arr.
  Variable jstep : nat.
  Variable acc_reads : list (nat * nat).
  Variable dstep : nat.
  Variable dst_writes : list nat.
  Variable cmult : nat.
  Variable creads : list nat.

  Definition facts_ok : bool :=
    (jstep =? 2) && forallb (fun ab => (fst ab <=? 1) && (snd ab <=? 1)) acc_reads &&
    (dstep =? cmult) && (1 <=? dstep) &&
    forallb (fun c => (c <? dstep) && existsb (Nat.eqb c) dst_writes) creads.

  Definition acc_fresh_gen (i : nat) : bool :=
    forallb (fun ab => planarRGB w padW L pooledRow0 pooledRow1 pooledPlanar (jstep * i + fst ab * padW + snd ab) &&
                       planarA w padW L hasAlpha pooledRow0 pooledRow1 pooledPlanar (jstep * i + fst ab * padW + snd ab)) acc_reads.

  Definition tmp_gen : arr :=
    fun k => if (k / dstep <? padW / 2) && existsb (Nat.eqb (k mod dstep)) dst_writes
             then acc_fresh_gen (k / dstep) else pooledTmp k.

  Definition uv_output_fresh_gen (i : nat) : bool := forallb (fun c => tmp_gen (cmult * i + c)) creads.
End UVGen.

Theorem uv_output_fresh_gen_half :
  forall w padW L hasAlpha p0 p1 pp pt jstep acc_reads dstep dst_writes cmult creads i,
  facts_ok jstep acc_reads dstep dst_writes cmult creads = true ->
  1 <= w -> w <= padW -> padW <= L -> i < padW / 2 ->
  uv_output_fresh_gen w padW L hasAlpha p0 p1 pp pt jstep acc_reads dstep dst_writes cmult creads i = true.
Proof.
  intros w padW L hasAlpha p0 p1 pp pt jstep acc_reads dstep dst_writes cmult creads i Hok Hw Hwp HL Hi.
  unfold facts_ok in Hok. rewrite !andb_true_iff in Hok. destruct Hok as [[[[Hj Har] Hdc] Hd1] Hcr].
  apply Nat.eqb_eq in Hj, Hdc. apply Nat.leb_le in Hd1. subst jstep cmult.
  rewrite forallb_forall in Har, Hcr.
  assert (Hpw : 2 * (padW / 2) <= padW) by (apply Nat.mul_div_le; discriminate).
  unfold uv_output_fresh_gen. apply forallb_forall. intros c Hc. specialize (Hcr c Hc).
  apply andb_true_iff in Hcr. destruct Hcr as [Hclt Hcin]. apply Nat.ltb_lt in Hclt.
  unfold tmp_gen.
  assert (Ediv : (dstep * i + c) / dstep = i) by (symmetry; apply Nat.div_unique with c; [exact Hclt|reflexivity]).
  assert (Emod : (dstep * i + c) mod dstep = c) by (symmetry; apply Nat.mod_unique with i; [exact Hclt|reflexivity]).
  rewrite Ediv, Emod.
  rewrite (proj2 (Nat.ltb_lt _ _) Hi), Hcin. cbn [andb].
  unfold acc_fresh_gen. apply forallb_forall. intros [a b] Hab. specialize (Har (a, b) Hab). cbn [fst snd] in *.
  apply andb_true_iff in Har. destruct Har as [Ha Hb]. apply Nat.leb_le in Ha, Hb.
  assert (Hrow : a * padW <= 1 * padW) by (apply Nat.mul_le_mono_r; exact Ha).
  rewrite planarRGB_fresh, planarA_fresh by (assumption || lia). reflexivity.
Qed.

Theorem uv_worker_scratch_overwritten_gen :
  forall w mbW L hasAlpha pooledRow0 pooledRow1 pooledPlanar pooledTmp jstep acc_reads dstep dst_writes cmult creads i,
  facts_ok jstep acc_reads dstep dst_writes cmult creads = true ->
  1 <= w -> w <= 16 * mbW -> 16 * mbW <= L -> i < (16 * mbW + 1) / 2 ->
  uv_output_fresh_gen w (16 * mbW) L hasAlpha pooledRow0 pooledRow1 pooledPlanar pooledTmp
                      jstep acc_reads dstep dst_writes cmult creads i = true.
Proof.
  intros w mbW L hasAlpha p0 p1 pp pt jstep acc_reads dstep dst_writes cmult creads i Hok Hw Hwp HL Hi.
  rewrite (half_up_even _ (8 * mbW)) in Hi by lia.
  apply uv_output_fresh_gen_half; assumption.
Qed.

(** The Go text of the UV goroutine's row-pair loop that [row_after] / [planar_after] /
    [planarA] transcribe (printed as tools/gosrc2v/uvscratch.go prints it); compared with the
    regenerated text, so that a change of the row fill, the edge replication, the copies or
    the call arguments breaks a proof obligation until the model is revisited. *)
Definition modelled_pair_loop_body : list string :=
  ["for row := 0; row < 2; row++ { srcY := y*2 + row sy := srcY if sy >= h { sy = h - 1 } rowOff := srcBase + sy*pixStride rBuf := wk.rowR[row] gBuf := wk.rowG[row] bBuf := wk.rowB[row] aBuf := wk.rowA[row] for x := 0; x < w; x++ { off := rowOff + x*4 rBuf[x] = pix[off] gBuf[x] = pix[off+1] bBuf[x] = pix[off+2] aBuf[x] = pix[off+3] } if padW > w { for x := w; x < padW; x++ { rBuf[x] = rBuf[w-1] gBuf[x] = gBuf[w-1] bBuf[x] = bBuf[w-1] aBuf[x] = aBuf[w-1] } } }";
   "copy(wk.planarR[:padW], wk.rowR[0])";
   "copy(wk.planarR[padW:], wk.rowR[1])";
   "copy(wk.planarG[:padW], wk.rowG[0])";
   "copy(wk.planarG[padW:], wk.rowG[1])";
   "copy(wk.planarB[:padW], wk.rowB[0])";
   "copy(wk.planarB[padW:], wk.rowB[1])";
   "if hasAlpha { copy(wk.planarA[:padW], wk.rowA[0]) copy(wk.planarA[padW:], wk.rowA[1]) }";
   "dsp.AccumulateRGBA(wk.planarR, wk.planarG, wk.planarB, wk.planarA, padW, wk.tmpRGB, padW)";
   "dsp.ConvertRGBA32ToUV(wk.tmpRGB, enc.uPlane[y*enc.uvStride:], enc.vPlane[y*enc.uvStride:], uvWidth)"]%string.
Definition modelled_goroutine_prelude : list string :=
  ["defer uvwg.Done()";
   "wk := getImportUVWorker(padW, uvWidth)";
   "if !hasAlpha { for i := range wk.planarA { wk.planarA[i] = 0xff } }";
   "srcBase := (bounds.Min.Y-pixRect.Min.Y)*pixStride + (bounds.Min.X-pixRect.Min.X)*4";
   "importUVWorkerPool.Put(wk)"]%string.
