(** C11 — the reset-completeness obligations over the regenerated field and
    assignment lists ([WebpGen.Fields]), the dimension-gate lemmas, the checks over the
    regenerated skeleton, return-site and global-write lists, and the two lemmas from
    which C11.v instantiates [history_independent] for the pooled types. *)
From Coq Require Import String List Bool.
From Webp Require Import Conc.PoolModel Conc.PoolFieldClass Conc.PoolSkel.
From WebpGen Require Fields Skel Owner Globals.
Import ListNotations.
Open Scope string_scope.
Open Scope list_scope.

Module F := WebpGen.Fields.

Definition when (b : bool) (l : list string) : list string := if b then l else [].
Definition inter (a b : list string) : list string := filter (fun x => mem x b) a.
Definition subset (a b : list string) : bool := forallb (fun x => mem x b) a.
Fixpoint dedup (l : list string) : list string :=
  match l with
  | [] => []
  | x :: r => if mem x r then dedup r else x :: dedup r
  end.

Lemma subset_In a b x : subset a b = true -> In x a -> In x b.
Proof. unfold subset. rewrite forallb_forall. intros H Hi. apply mem_In. now apply H. Qed.

(** If [unknown_fields_classify_them_in_PoolFieldClass] fails, the list in the error
    message names the struct fields that have no line in PoolFieldClass.v (a new or
    renamed field).  Field order never matters: all obligations go through
    [mem]/[lookup]. *)
Definition unclassified (fields : list string) (cls : list (string * fclass)) : list string :=
  filter (fun f => match lookup f cls with None => true | _ => false end) fields.
(** classification lines whose field no longer exists in the struct (left over after a
    rename or removal) *)
Definition stale_lines (fields : list string) (cls : list (string * fclass)) : list string :=
  filter (fun f => negb (mem f fields)) (map fst cls).

Lemma unknown_fields_classify_them_in_PoolFieldClass :
  unclassified F.lossy_VP8Encoder_fields class_VP8Encoder = [] /\
  unclassified F.lossy_TokenBuffer_fields class_TokenBuffer = [] /\
  unclassified F.lossy_Decoder_fields class_lossy_Decoder = [] /\
  unclassified F.lossless_Encoder_fields class_lossless_Encoder = [] /\
  unclassified F.lossless_Decoder_fields class_lossless_Decoder = [] /\
  unclassified F.lossy_parallelState_fields class_parallelState = [] /\
  unclassified F.lossy_RowWorker_fields class_RowWorker = [] /\
  unclassified F.lossy_importUVWorker_fields class_importUVWorker = [] /\
  unclassified F.bitio_BoolWriter_fields class_BoolWriter = [] /\
  unclassified F.root_argbBuf_fields class_argbBuf = [].
Proof. vm_compute. repeat apply conj. all: reflexivity. Qed.

(** lossy.TokenBuffer is nested in the pooled encoder.  Its pages grow with the amount
    of data, not the dimensions: the reuse path calls tokens.Reset, and Reset re-slices
    the page list and re-adds a first page whose count addPage zeroes *)
Definition assigned_TokenBuffer : list string :=
  strongly_written F.lossy_TokenBuffer_Reset_writes
  ++ when (mem "addPage" F.lossy_TokenBuffer_Reset_calls) (strongly_written F.lossy_TokenBuffer_addPage_writes)
  ++ when (mem "totalMB" (strongly_written F.lossy_TokenBuffer_Init_writes)) ["totalMB"].

Lemma reset_complete_TokenBuffer :
  reset_complete_b F.lossy_TokenBuffer_fields class_TokenBuffer assigned_TokenBuffer [] = true.
Proof. vm_compute. reflexivity. Qed.

(** the reset and init functions that the pool-hit blocks of NewEncoder and
    NewEncoderFromYUV must both call ([acquire_path_VP8Encoder]) *)
Definition acquire_calls_VP8Encoder : list string :=
  ["resetForReuse"; "initSegments"; "initEncoderParams"; "ResetProba(&proba)"; "tokens.Reset"].

(** What the reuse path of one entry point re-initialises, from that entry point's
    regenerated lists (calls and writes of the hit block, gate fields, fields its import
    step touches); the writes of a function count only when the hit block really calls it. *)
Definition assigned_via (calls : list string) (hit_writes : list (string * string)) (gate imp_touch : list string) : list string :=
  when (mem "resetForReuse" calls) (strongly_written F.lossy_VP8Encoder_resetForReuse_writes)
  ++ strongly_written hit_writes
  ++ filter (fun f => negb (String.eqb f "tokens")
                       || reset_complete_b F.lossy_TokenBuffer_fields class_TokenBuffer assigned_TokenBuffer [])
            (delegated hit_writes calls delegated_resets)   (* a reset delegated to TokenBuffer.Reset counts only if that reset is complete *)
  ++ when (mem "initSegments" calls) (strongly_written F.lossy_VP8Encoder_initSegments_writes)
  ++ when (mem "initEncoderParams" calls) (strongly_written F.lossy_VP8Encoder_initEncoderParams_writes)
  ++ gate
  ++ when (subset gate_derived_VP8Encoder (strongly_written F.lossy_VP8Encoder_allocateBuffers_writes)
           && subset ["mbW"; "mbH"] gate) gate_derived_VP8Encoder
  ++ inter import_overwritten_VP8Encoder imp_touch.

Definition assigned_VP8Encoder_img : list string :=
  assigned_via F.lossy_VP8Encoder_NewEncoder_calls F.lossy_VP8Encoder_NewEncoder_writes
               F.lossy_VP8Encoder_NewEncoder_gate
               (when (mem "importImage" F.lossy_VP8Encoder_NewEncoder_calls) F.lossy_VP8Encoder_importImage_touches).
Definition assigned_VP8Encoder_yuv : list string :=
  assigned_via F.lossy_VP8Encoder_NewEncoderFromYUV_calls F.lossy_VP8Encoder_NewEncoderFromYUV_writes
               F.lossy_VP8Encoder_NewEncoderFromYUV_gate
               (when (mem "importYCbCr" F.lossy_VP8Encoder_NewEncoderFromYUV_calls) F.lossy_VP8Encoder_importYCbCr_touches).
(** a field counts as assigned only if BOTH entry points assign it *)
Definition assigned_VP8Encoder : list string := inter assigned_VP8Encoder_img assigned_VP8Encoder_yuv.
Definition released_VP8Encoder : list string := strongly_written F.lossy_VP8Encoder_ReleaseEncoder_writes.

Lemma reset_complete_VP8Encoder :
  reset_complete_b F.lossy_VP8Encoder_fields class_VP8Encoder assigned_VP8Encoder released_VP8Encoder = true.
Proof. vm_compute. reflexivity. Qed.

Lemma acquire_path_VP8Encoder :
  subset acquire_calls_VP8Encoder F.lossy_VP8Encoder_NewEncoder_calls = true /\
  subset acquire_calls_VP8Encoder F.lossy_VP8Encoder_NewEncoderFromYUV_calls = true.
Proof. vm_compute. repeat apply conj. all: reflexivity. Qed.

(** the lossy encoder is reused only when (mbW, mbH) match — on both entry points *)
Lemma dimension_gate_VP8Encoder_dims :
  subset ["mbW"; "mbH"] F.lossy_VP8Encoder_NewEncoder_gate = true /\
  subset ["mbW"; "mbH"] F.lossy_VP8Encoder_NewEncoderFromYUV_gate = true.
Proof. repeat apply conj. all: reflexivity. Qed.

(** every buffer whose length is a function of (mbW, mbH) is allocated by
    allocateBuffers (which runs only for a fresh object, with exactly these
    dimensions), and nothing on the reuse path re-makes it *)
Lemma dimension_gate_VP8Encoder_buffers :
  subset dims_sized_VP8Encoder (written F.lossy_VP8Encoder_allocateBuffers_writes) = true.
Proof. vm_compute. reflexivity. Qed.

(** every Scratch field of the encoder is either a fixed-size array (no length to
    persist: not a slice the struct allocates) or one of the (mbW,mbH)-sized buffers
    above, or the iterator (a view of those) *)
Definition fixed_arrays_VP8Encoder : list string :=
  ["tmpCoeffs"; "tmpQCoeffs"; "tmpDQCoeffs"; "tmpDCCoeffs"; "tmpWHTDQ"; "tmpWHTBuf"; "tmpAllQ";
   "tmpACLevels"; "tmpRecon"; "tmpUVLevels"; "tmpBestDQ"; "tmpBestQ";
   "tmpAnSrc"; "tmpAnPred"; "tmpAnSrcU"; "tmpAnSrcV"; "tmpAnPredU"; "tmpAnPredV"; "mbIterator"].
Lemma dimension_gate_VP8Encoder_scratch :
  subset (fields_of_class Scratch class_VP8Encoder) (dims_sized_VP8Encoder ++ fixed_arrays_VP8Encoder) = true.
Proof. vm_compute. reflexivity. Qed.

(** numParts depends on cfg.Partitions, not on the dimensions: re-assigned on reuse *)
Lemma dimension_gate_numParts : In "numParts" (strongly_written F.lossy_VP8Encoder_resetForReuse_writes).
Proof. apply mem_In. vm_compute. reflexivity. Qed.

(** useDerr depends on cfg.Method; topDerr is always allocated (mbW) and cleared *)
Lemma dimension_gate_derr :
  In "useDerr" (strongly_written F.lossy_VP8Encoder_resetForReuse_writes) /\
  In "topDerr" (strongly_written F.lossy_VP8Encoder_resetForReuse_writes) /\
  In "topDerr" (strongly_written F.lossy_VP8Encoder_allocateBuffers_writes).
Proof. repeat apply conj. all: apply mem_In; vm_compute; reflexivity. Qed.

(** the token pages do not depend on the dimensions: both hit blocks call tokens.Reset,
    which re-establishes them *)
Lemma dimension_gate_tokens :
  In "tokens.Reset" F.lossy_VP8Encoder_NewEncoder_calls /\ In "tokens.Reset" F.lossy_VP8Encoder_NewEncoderFromYUV_calls /\
  In "pages" assigned_TokenBuffer /\ In "curPage" assigned_TokenBuffer.
Proof. repeat apply conj. all: apply mem_In; vm_compute; reflexivity. Qed.

(** ConstZero fields: [yuvP] is the only one; the package accesses it only to allocate
    it and to hand it to PickBestI4Mode; no analysed function of the acquire path, the
    import, the encode entry point or the release writes it. *)
Definition all_VP8Encoder_write_lists_but_alloc : list (list (string * string)) :=
  [F.lossy_VP8Encoder_resetForReuse_writes; F.lossy_VP8Encoder_NewEncoder_writes;
   F.lossy_VP8Encoder_NewEncoderFromYUV_writes; F.lossy_VP8Encoder_ReleaseEncoder_writes;
   F.lossy_VP8Encoder_initSegments_writes; F.lossy_VP8Encoder_initEncoderParams_writes;
   F.lossy_VP8Encoder_importImage_writes; F.lossy_VP8Encoder_importYCbCr_writes;
   F.lossy_VP8Encoder_EncodeFrame_writes].

Lemma constzero_fields_never_written :
  fields_of_class ConstZero class_VP8Encoder = ["yuvP"] /\
  F.lossy_VP8Encoder_yuvP_accesses = modelled_yuvP_accesses /\
  forallb (fun w => forallb (fun f => negb (mem f (written w))) (fields_of_class ConstZero class_VP8Encoder))
          all_VP8Encoder_write_lists_but_alloc = true /\
  subset (fields_of_class ConstZero class_VP8Encoder) (strongly_written F.lossy_VP8Encoder_allocateBuffers_writes) = true /\
  fields_of_class ConstZero class_TokenBuffer ++ fields_of_class ConstZero class_lossy_Decoder
  ++ fields_of_class ConstZero class_lossless_Encoder ++ fields_of_class ConstZero class_lossless_Decoder
  ++ fields_of_class ConstZero class_parallelState ++ fields_of_class ConstZero class_RowWorker
  ++ fields_of_class ConstZero class_importUVWorker ++ fields_of_class ConstZero class_BoolWriter
  ++ fields_of_class ConstZero class_argbBuf = [].
Proof. vm_compute. repeat apply conj. all: reflexivity. Qed.

(** parallel state is sized by (numWorkers, mbW, mbH): the gate compares all of them *)
Definition assigned_parallelState : list string :=
  written F.lossy_parallelState_getParallelState_writes.   (* rs: rows [0,mbH) reset — partial by design *)
Lemma reset_complete_parallelState :
  reset_complete_b F.lossy_parallelState_fields class_parallelState assigned_parallelState
                   (strongly_written F.lossy_parallelState_putParallelState_writes) = true.
Proof. vm_compute. reflexivity. Qed.
Lemma dimension_gate_parallelState :
  subset ["workers"; "rs"; "topY"; "topNz"] F.lossy_parallelState_getParallelState_gate = true /\
  subset ["topY"; "topU"; "topV"; "topModes"; "topNz"; "topNzDC"; "nextRow"]
         F.lossy_parallelState_encodeFrameParallel_touches = true.
Proof. repeat apply conj. all: reflexivity. Qed.

(** the gate only guarantees "large enough": every buffer of the pooled parallel state
    whose length the call can observe is re-sliced to this call's dimensions
    (workers[:numWorkers], topY[:mbW*16], …) before use *)
Lemma dimension_gate_parallelState_resliced :
  subset ["workers"; "topY"; "topU"; "topV"; "topModes"; "topNz"; "topNzDC"]
         F.lossy_parallelState_encodeFrameParallel_reslices = true.
Proof. reflexivity. Qed.

Definition assigned_RowWorker : list string := strongly_written F.lossy_RowWorker_encodeRow_writes.
Lemma reset_complete_RowWorker :
  reset_complete_b F.lossy_RowWorker_fields class_RowWorker assigned_RowWorker [] = true.
Proof. vm_compute. reflexivity. Qed.

Lemma reset_complete_importUVWorker :
  reset_complete_b F.lossy_importUVWorker_fields class_importUVWorker [] [] = true.
Proof. vm_compute. reflexivity. Qed.
Lemma dimension_gate_importUVWorker :
  subset ["rowR"; "tmpRGB"] F.lossy_importUVWorker_getImportUVWorker_gate = true.
Proof. reflexivity. Qed.

Definition assigned_BoolWriter : list string :=
  when (mem "Reset" F.lossy_BoolWriter_getBoolWriter_calls) (strongly_written F.bitio_BoolWriter_Reset_writes).
Lemma reset_complete_BoolWriter :
  reset_complete_b F.bitio_BoolWriter_fields class_BoolWriter assigned_BoolWriter [] = true.
Proof. vm_compute. reflexivity. Qed.

Definition assigned_argbBuf : list string :=
  inter (strongly_written F.root_argbBuf_encodeLossless_writes)
        (strongly_written F.root_argbBuf_encodeLosslessToWriter_writes).
Lemma reset_complete_argbBuf :
  reset_complete_b F.root_argbBuf_fields class_argbBuf assigned_argbBuf [] = true.
Proof. vm_compute. reflexivity. Qed.

Definition assigned_lossless_Encoder : list string :=
  strongly_written F.lossless_Encoder_acquireEncoder_writes
  ++ inter (strongly_written F.lossless_Encoder_Encode_writes)
           (strongly_written F.lossless_Encoder_EncodeToWriter_writes).
Definition released_lossless_Encoder : list string := strongly_written F.lossless_Encoder_releaseEncoder_writes.
Lemma reset_complete_lossless_Encoder :
  reset_complete_b F.lossless_Encoder_fields class_lossless_Encoder
                   assigned_lossless_Encoder released_lossless_Encoder = true.
Proof. vm_compute. reflexivity. Qed.
(** the caller's config and pixels do not survive release *)
Lemma released_lossless_Encoder_external :
  subset ["config"; "argb"; "argbOrig"; "palette"] released_lossless_Encoder = true.
Proof. vm_compute. reflexivity. Qed.

Definition assigned_lossless_Decoder : list string :=
  strongly_written F.lossless_Decoder_acquireDecoder_writes
  ++ strongly_written F.lossless_Decoder_DecodeVP8L_writes
  ++ when (mem "decodeHeader" F.lossless_Decoder_DecodeVP8L_calls) (strongly_written F.lossless_Decoder_decodeHeader_writes).
Definition released_lossless_Decoder : list string := strongly_written F.lossless_Decoder_releaseDecoder_writes.
Lemma reset_complete_lossless_Decoder :
  reset_complete_b F.lossless_Decoder_fields class_lossless_Decoder
                   assigned_lossless_Decoder released_lossless_Decoder = true.
Proof. vm_compute. reflexivity. Qed.
(** External fields are cleared by the release function itself (not merely re-assigned later) *)
Lemma released_lossless_Decoder_external :
  subset (fields_of_class External class_lossless_Decoder) released_lossless_Decoder = true.
Proof. vm_compute. reflexivity. Qed.

Definition assigned_lossy_Decoder : list string :=
  strongly_written F.lossy_Decoder_acquireDecoder_writes
  ++ when (mem "parseHeaders" F.lossy_Decoder_DecodeFrame_calls)
       (strongly_written F.lossy_Decoder_parseHeaders_writes
        ++ delegated F.lossy_Decoder_parseHeaders_writes F.lossy_Decoder_parseHeaders_calls delegated_resets
        ++ when (mem "parseFilterHeader" F.lossy_Decoder_parseHeaders_calls) (strongly_written F.lossy_Decoder_parseFilterHeader_writes)
        ++ when (mem "parsePartitions" F.lossy_Decoder_parseHeaders_calls) (strongly_written F.lossy_Decoder_parsePartitions_writes))
  ++ when (mem "initFrame" F.lossy_Decoder_DecodeFrame_calls) (strongly_written F.lossy_Decoder_initFrame_writes).
Definition released_lossy_Decoder : list string := strongly_written F.lossy_Decoder_ReleaseDecoder_writes.

Lemma reset_complete_lossy_Decoder :
  reset_complete_b F.lossy_Decoder_fields class_lossy_Decoder assigned_lossy_Decoder released_lossy_Decoder = true.
Proof. vm_compute. reflexivity. Qed.

(** Config and State fields the acquire path leaves alone.  [reset_complete_b] already
    implies there are none; stated as lists, a failure of [nothing_unreset] names them
    (the device of [unclassified]). *)
Definition unreset_state (fields : list string) (cls : list (string * fclass)) (assigned : list string) : list string :=
  filter (fun f => match lookup f cls with Some State | Some Config => negb (mem f assigned) | _ => false end) fields.

Lemma nothing_unreset :
  unreset_state F.lossy_Decoder_fields class_lossy_Decoder assigned_lossy_Decoder = [] /\
  unreset_state F.lossy_VP8Encoder_fields class_VP8Encoder assigned_VP8Encoder = [] /\
  unreset_state F.lossy_TokenBuffer_fields class_TokenBuffer assigned_TokenBuffer = [] /\
  unreset_state F.lossless_Encoder_fields class_lossless_Encoder assigned_lossless_Encoder = [] /\
  unreset_state F.lossless_Decoder_fields class_lossless_Decoder assigned_lossless_Decoder = [].
Proof. vm_compute. repeat apply conj. all: reflexivity. Qed.

Lemma released_lossy_Decoder_external :
  subset (fields_of_class External class_lossy_Decoder) released_lossy_Decoder = true.
Proof. vm_compute. reflexivity. Qed.

(** the buffers whose length depends on the frame (mbW, mbH of the file) are
    re-sliced-and-cleared or re-made by initFrame on every decode *)
Lemma dimension_gate_lossy_Decoder :
  subset ["yuvT"; "mbInfo"; "fInfo"; "mbData"; "slab"; "intraT"; "yuvB"; "cacheY"; "cacheU"; "cacheV";
          "cacheYStride"; "cacheUVStride"]
         (strongly_written F.lossy_Decoder_initFrame_writes) = true.
Proof. vm_compute. reflexivity. Qed.

(** Buffers that are not tied to the (mbW, mbH) gate keep whatever capacity the last
    call left; the code re-establishes their LENGTH on every call with the guard
    [if cap(x.f) >= n { x.f = x.f[:n] } else { x.f = make(T, n) }].  The translator lists
    every such guard whose two branches produce the same length expression; here:
    every buffer whose length a call can observe and that survives in the pool is
    covered by one (and the length expression is the modelled one). *)
Definition has_pairs (want got : list (string * string)) : bool :=
  forallb (fun p => existsb (fun q => String.eqb (fst p) (fst q) && String.eqb (snd p) (snd q)) got) want.

Lemma dimension_gate_resized :
  has_pairs [("yuvT", "mbW"); ("mbInfo", "mbW + 1"); ("fInfo", "mbW"); ("mbData", "mbW"); ("slab", "slabSize")]
            F.lossy_Decoder_initFrame_resizes = true /\
  has_pairs [("argb", "pixelCount")] F.lossless_Encoder_Encode_resizes = true /\
  has_pairs [("argb", "pixelCount")] F.lossless_Encoder_EncodeToWriter_resizes = true /\
  has_pairs [("pixels", "needed"); ("transformBuf", "numAlloc")] F.lossless_Decoder_DecodeVP8L_resizes = true /\
  has_pairs [("colorCacheBuf", "size")] F.lossless_Decoder_decodeImageStream_resizes = true /\
  has_pairs [("buf", "0")] F.bitio_BoolWriter_Reset_resizes = true /\
  has_pairs [("data", "pixelCount")] F.root_argbBuf_encodeLossless_resizes = true /\
  has_pairs [("data", "pixelCount")] F.root_argbBuf_encodeLosslessToWriter_resizes = true.
Proof. repeat apply conj. all: reflexivity. Qed.

Fixpoint skel_lookup (key : string) (t : list (string * skel_entry)) : skel_entry :=
  match t with
  | [] => {| se_status := "missing"; se_roots := []; se_env := [] |}
  | (k, e) :: r => if String.eqb key k then e else skel_lookup key r
  end.

Definition skel_of (prefix f : string) : skel_entry :=
  skel_lookup (prefix ++ f) WebpGen.Skel.skel_table.

(** the Scratch fields of a type whose regenerated skeleton passes the analysis *)
Definition wbr_computed (prefix : string) (cls : list (string * fclass)) : list string :=
  filter (fun f => decided (skel_of prefix f)) (fields_of_class Scratch cls).

(** The skeletons speak about "the field f of type T" without naming the object.  That
    is justified by the regenerated list of every expression of type T whose fields a
    function accesses, on which it calls a method, or which it passes on: every function
    of the package uses ONE such expression (a receiver, a parameter, the local bound at
    the acquisition site, or a fixed field path from one of those, e.g. enc.tokens) - so
    along any call chain from an entry point all accesses concern the object acquired at
    the top.  Variables declared in an if-block that ends in a return (the pool-hit path
    of NewEncoder) are separate scopes and may differ.  No expression is an element of a
    slice of T or otherwise unclassified ("other:").
    [inst_ok] takes the regenerated (function, base expression) pairs of a type; the
    translator prefixes a base with "ret:" when it is declared inside an if-block that
    ends in a return, and such bases are not compared with the others. *)
Definition base_live (b : string) : bool := negb (String.prefix "ret:" b).

Definition inst_ok (l : list (string * string)) (exceptions : list string) : bool :=
  forallb (fun p =>
             negb (String.prefix "other:" (snd p))
             && (negb (base_live (snd p)) || mem (fst p) exceptions
                 || forallb (fun q => negb (String.eqb (fst q) (fst p)) || negb (base_live (snd q))
                                      || String.eqb (snd q) (snd p)) l)) l.

Lemma single_instance_per_function :
  inst_ok WebpGen.Skel.inst_lossy_VP8Encoder two_base_functions = true /\
  inst_ok WebpGen.Skel.inst_lossy_TokenBuffer [] = true /\
  inst_ok WebpGen.Skel.inst_lossy_Decoder [] = true /\
  inst_ok WebpGen.Skel.inst_lossy_parallelState [] = true /\
  inst_ok WebpGen.Skel.inst_lossless_Encoder [] = true /\
  inst_ok WebpGen.Skel.inst_lossless_Decoder [] = true /\
  (* the exception is real and is exactly the modelled pair *)
  filter (fun p => String.eqb (fst p) "MBIterator.FillPredContext") WebpGen.Skel.inst_lossy_VP8Encoder
    = [("MBIterator.FillPredContext", "enc"); ("MBIterator.FillPredContext", "it.enc")].
Proof. vm_compute. repeat apply conj. all: reflexivity. Qed.

Example inst_check_rejects_two_objects :
  inst_ok [("f", "a"); ("f", "b")] [] = false /\ inst_ok [("f", "other:ws[i]")] [] = false /\
  inst_ok [("f", "ret:a"); ("f", "b")] [] = true.
Proof. vm_compute. repeat apply conj. all: reflexivity. Qed.

Lemma wbr_decided_fields :
  subset wbr_VP8Encoder (wbr_computed "lossy.VP8Encoder." class_VP8Encoder) = true /\
  subset wbr_lossy_Decoder (wbr_computed "lossy.Decoder." class_lossy_Decoder) = true /\
  subset wbr_parallelState (wbr_computed "lossy.parallelState." class_parallelState) = true.
Proof. vm_compute. repeat apply conj. all: reflexivity. Qed.

(** for every decided field: every trace of accesses that the regenerated skeleton of
    any entry point admits (all branches, loop counts, call depths, early returns)
    begins with a complete overwrite — or contains no access at all *)
Lemma wbr_field_safe prefix cls f :
  In f (wbr_computed prefix cls) ->
  forall r rho t, In r (se_roots (skel_of prefix f)) ->
                  den (env_of (se_env (skel_of prefix f))) rho (Call r) t -> safe t.
Proof.
  unfold wbr_computed. intros Hin. apply filter_In in Hin as [_ Hd].
  exact (decided_sound _ Hd).
Qed.

Definition all_scratch_b (fields : list string) (cls : list (string * fclass)) (D : list string) : bool :=
  forallb (fun f => mem f fields && match lookup f cls with Some Scratch => true | _ => false end) D.

Lemma all_scratch_sound (fields : list string) (cls : list (string * fclass)) (D : list string) :
  all_scratch_b fields cls D = true ->
  forall f, In f D -> In f fields /\ class_is cls Scratch f.
Proof.
  intros H f Hin. unfold all_scratch_b in H. rewrite forallb_forall in H. specialize (H f Hin).
  apply andb_prop in H as [H1 H2]. split; [now apply mem_In|].
  unfold class_is. destruct (lookup f cls) as [[]|]; try discriminate. reflexivity.
Qed.

Lemma wbr_fields_scratch :
  all_scratch_b F.lossy_VP8Encoder_fields class_VP8Encoder wbr_VP8Encoder = true /\
  all_scratch_b F.lossy_Decoder_fields class_lossy_Decoder wbr_lossy_Decoder = true /\
  all_scratch_b F.lossy_parallelState_fields class_parallelState wbr_parallelState = true.
Proof. vm_compute. repeat apply conj. all: reflexivity. Qed.

(** Ownership discipline over the regenerated list of return sites (Gen/Owner.v): every
    reference-typed value that the functions behind the public API return is nil, a
    fresh allocation (make, append to a nil slice, a literal whose reference-typed
    elements are themselves fresh), the result of an allocating function outside the
    module, or the result of a module function whose own return sites are in the
    list — never storage of a pooled object, never a parameter handed back, never
    something the translator could not classify.  Hence nothing a later call does to
    a pooled object can modify a value already returned. *)
Definition origin_ok (sites : list (string * string)) (k : string) : bool :=
  String.eqb k "nil"
  || String.prefix "fresh:" k
  || mem k fresh_external_origins
  || (String.prefix "call:" k
      && existsb (fun q => String.eqb ("call:" ++ fst q) k) sites).

Definition returned_values_fresh_b (sites : list (string * string)) : bool :=
  forallb (fun p => origin_ok sites (snd p)) sites.

Definition api_return_roots : list string :=
  ["root.decodeBytes#0"; "root.decodeFrameForAnimation#0"; "root.encodeLossless#0";
   "root.encodeLossyWithAlpha#0"; "root.encodeLossyWithAlpha#1";
   "root.encodeFrameForAnimation#0"; "root.simpleEncodeForAnimation#0"].

(** the return sites reachable from a set of roots through "call:" origins *)
Fixpoint reach (fuel : nat) (sites : list (string * string)) (front : list string) : list string :=
  match fuel with
  | O => front
  | S n =>
    let next := flat_map (fun p => if mem (fst p) front && String.prefix "call:" (snd p)
                                   then [substring 5 (String.length (snd p) - 5) (snd p)] else []) sites in
    let add := filter (fun k => negb (mem k front)) next in
    match add with
    | [] => front
    | _ => reach n sites (front ++ dedup add)
    end
  end.

Definition codec_sites (sites : list (string * string)) : list (string * string) :=
  let r := reach 30 sites api_return_roots in filter (fun p => mem (fst p) r) sites.

(** for the whole public API (every exported function or method of the non-internal
    packages that returns a reference): no returned value aliases a package-level
    variable or pooled storage.  (Returning the caller's own data - a Demuxer's views of
    the bytes it was given, an AnimDecoder's canvas - is the documented behaviour of those
    types and is allowed here; it is not allowed for the codec results above.) *)
Definition api_origin_ok (k : string) : bool :=
  negb (String.prefix "global:" k) && negb (String.prefix "pooled:" k).

Lemma returned_values_fresh :
  returned_values_fresh_b (codec_sites WebpGen.Owner.owner_sites) = true /\
  forallb (fun r => existsb (fun q => String.eqb (fst q) r) WebpGen.Owner.owner_sites) api_return_roots = true.
Proof. vm_compute. repeat apply conj. all: reflexivity. Qed.

Lemma api_returns_no_global_state :
  forallb (fun p => api_origin_ok (snd p)) WebpGen.Owner.owner_sites = true /\
  forallb (fun r => existsb (fun q => String.prefix r (fst q)) WebpGen.Owner.owner_sites)
          WebpGen.Owner.api_reference_returning = true /\
  mem "sharpyuv.GetConversionMatrix" WebpGen.Owner.api_reference_returning = true.
Proof. vm_compute. repeat apply conj. all: reflexivity. Qed.

Example api_check_rejects_global_alias :
  api_origin_ok "global:sharpyuv.predefinedMatrices" = false /\ api_origin_ok "param:d" = true.
Proof. vm_compute. split; reflexivity. Qed.

(** the check is not vacuous: it rejects a function that returns pooled storage, hands
    back a parameter, or calls a function that is not listed *)
Example returned_values_fresh_rejects :
  returned_values_fresh_b [("f#0", "pooled:Encoder.writerBuf")] = false /\
  returned_values_fresh_b [("f#0", "param:buf")] = false /\
  returned_values_fresh_b [("f#0", "call:g#0")] = false /\
  returned_values_fresh_b [("f#0", "call:g#0"); ("g#0", "fresh:make")] = true.
Proof. vm_compute. repeat apply conj. all: reflexivity. Qed.

(** Gen/Globals.v lists every write to a package-level variable after its declaration
    (whole variable, element / field, builtin copy / clear, through a pointer taken to
    it, through a module function that stores into the corresponding parameter) with
    the context the translator gives the enclosing function: "init" (an init function,
    or reachable only from those), "once" (inside the literal given to (sync.Once).Do,
    or reachable only from such literals and init functions), "runtime" (anything else).
    [globals_written_only_at_init] says that no listed write has context "runtime", and
    that three tables known to be filled at init are in the list.  So no call can
    observe a global table in two different states: lazily mutated tables would be
    history dependence outside the pool model.  Not compared with anything regenerated:
    [written_globals] and [modelled_sync_globals] of PoolFieldClass (the pools among the
    latter are covered by [pools_all_modelled]). *)
Definition global_write_ok (w : string * (string * (string * string))) : bool :=
  let ctx := snd (snd (snd w)) in String.eqb ctx "init" || String.eqb ctx "once".

Lemma globals_written_only_at_init :
  forallb global_write_ok WebpGen.Globals.global_writes = true /\
  (* the pass is not looking at an empty list: the tables known to be filled at init are there *)
  subset ["lossy.VP8FixedCostsI4"; "dsp.kGammaToLinearTab"; "sharpyuv.gammaToLinearTab"]
         (map fst WebpGen.Globals.global_writes) = true.
Proof. vm_compute. repeat apply conj. all: reflexivity. Qed.

Example global_write_check_rejects_runtime :
  global_write_ok ("lossy.VP8FixedCostsI4", ("VP8Encoder.encodeFrame", ("elem", "runtime"))) = false.
Proof. reflexivity. Qed.

Lemma pools_all_modelled : F.sync_pools = modelled_pools.
Proof. reflexivity. Qed.

(** [history_independent] for any type whose reset is complete; the frame condition, the
    dimension-gate condition and the two ConstZero conditions stay hypotheses.  C11.v
    applies this to the regenerated lists of the pooled types. *)
Section Instances.
  Variables (Args Out Val Shape : Type) (shape : Args -> Val -> Shape).
  Variables (init : Args -> string -> Val) (nilv : Val).
  Variables (gate : Args -> (string -> Val) -> bool) (run : Args -> (string -> Val) -> Out * (string -> Val)).

  Variable zerov : Val.

  Definition hist_indep (fields : list string) (cls : list (string * fclass)) (assigned released : list string) : Prop :=
    frame_condition Args Out Val Shape shape fields cls run ->
    dimension_gate_condition Args Val Shape shape fields cls assigned init gate ->
    (forall a, czero_inv Val fields cls zerov (fresh Args Val init a)) ->
    (forall a o, czero_inv Val fields cls zerov o -> czero_inv Val fields cls zerov (snd (run a o))) ->
    forall h a b b0 p0,
      pool_inv Val fields cls zerov p0 ->
      out_of_last Out Val (run_history Args Out Val assigned released init nilv gate run p0 (h ++ [(a, b)]))
      = out_of_last Out Val (run_history Args Out Val assigned released init nilv gate run [] [(a, b0)]).

  Lemma hist_indep_of_complete fields cls assigned released :
    reset_complete_b fields cls assigned released = true -> hist_indep fields cls assigned released.
  Proof.
    intros L Hf Hd Hi Hr.
    exact (history_independent Args Out Val Shape shape _ _ _ _ init nilv zerov gate run L Hf Hd Hi Hr).
  Qed.

  (** with the decided fields: the frame condition is only needed for objects that agree
      on the decided fields' contents, plus content independence of each decided field.
      The latter stays a hypothesis: [wbr_field_safe] shows every trace of the regenerated
      skeleton safe and [safe_trace_content_independent] derives content independence for
      an abstract machine that follows a safe trace, but that machine is not tied to [run]. *)
  Definition hist_indep_wbr (fields : list string) (cls : list (string * fclass)) (assigned released D : list string) : Prop :=
    (forall f, In f D -> indep_field Args Out Val Shape shape run f) ->
    frame_condition_given Args Out Val Shape shape fields cls run D ->
    dimension_gate_condition Args Val Shape shape fields cls assigned init gate ->
    (forall a, czero_inv Val fields cls zerov (fresh Args Val init a)) ->
    (forall a o, czero_inv Val fields cls zerov o -> czero_inv Val fields cls zerov (snd (run a o))) ->
    forall h a b b0 p0,
      pool_inv Val fields cls zerov p0 ->
      out_of_last Out Val (run_history Args Out Val assigned released init nilv gate run p0 (h ++ [(a, b)]))
      = out_of_last Out Val (run_history Args Out Val assigned released init nilv gate run [] [(a, b0)]).

  Lemma hist_indep_wbr_of_complete fields cls assigned released D :
    reset_complete_b fields cls assigned released = true -> all_scratch_b fields cls D = true ->
    hist_indep_wbr fields cls assigned released D.
  Proof.
    intros L HD Hind Hgiven.
    exact (hist_indep_of_complete _ _ _ _ L
             (frame_from_decided Args Out Val Shape shape _ _ run _ (all_scratch_sound _ _ _ HD) Hind Hgiven)).
  Qed.
End Instances.
