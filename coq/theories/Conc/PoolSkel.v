(** C11 — write-before-read analysis of Scratch fields over regenerated access
    skeletons.

    The translator (tools/gosrc2v/skel.go → Gen/Skel.v) abstracts, for one field f of a
    pooled type, every function of the package into a skeleton over the events
      Fill   f is completely re-initialised, independently of its old content
      Touch  any other access to f's content
    with sequencing, alternatives, loops and calls of package-local functions.

    [check] is the analysis (an abstract interpretation with three values) and
    [check_sound] its soundness with respect to the traces [den] a skeleton admits: if
    [check] does not answer [Bad], the first event of every trace is a [Fill] (or the
    trace is empty) — for all paths, loop counts and call depths.
    [safe_trace_content_independent] shows for an abstract machine whose accesses to f
    follow a safe trace that the final state of everything else depends on f's initial
    content only through its shape; [frame_from_decided] reduces the frame condition of
    the pool model to content independence of the decided fields ([indep_field]) plus
    the frame condition restricted to objects that agree on them.

    Trusted: that the skeleton over-approximates the code's accesses (the translator
    only abstracts syntax; the analysis itself is the Coq function [check]); and the
    step from "every admitted trace is safe" to [indep_field] for the real call body -
    the machine of [Section Machine] is tied neither to [den] nor to the pool model's
    [run], so [indep_field] stays a hypothesis where [frame_from_decided] is used. *)
From Coq Require Import String List Bool Arith Lia.
From Webp Require Import Conc.PoolModel.
Import ListNotations.
Open Scope string_scope.
Open Scope list_scope.

Inductive sk :=
| Skip | Fill | Touch
| Seq (a b : sk) | Alt (a b : sk) | Loop (a : sk)
| IfC (c : string) (a b : sk)
| Call (g : string).

Record skel_entry := { se_status : string; se_roots : list string; se_env : list (string * sk) }.

Inductive ev := EF | ET.

(** the guard names tested in a skeleton (not descending into callees: guards are
    parameters of one function, fixed for one activation of it) *)
Fixpoint conds_of (s : sk) : list string :=
  match s with
  | Seq a b | Alt a b => conds_of a ++ conds_of b
  | Loop a => conds_of a
  | IfC c a b => c :: conds_of a ++ conds_of b
  | _ => []
  end.

Fixpoint all_vals (cs : list string) : list (string -> bool) :=
  match cs with
  | [] => [fun _ => false]
  | c :: r => flat_map (fun rho => [fun x => if String.eqb x c then true else rho x;
                                    fun x => if String.eqb x c then false else rho x]) (all_vals r)
  end.

Lemma all_vals_complete cs (rho : string -> bool) :
  exists rho', In rho' (all_vals cs) /\ forall c, In c cs -> rho' c = rho c.
Proof.
  induction cs as [|c r IH]; cbn [all_vals].
  - exists (fun _ => false). split; [left; reflexivity|intros c []].
  - destruct IH as [r0 [Hin Hag]].
    exists (fun x => if String.eqb x c then rho c else r0 x). split.
    + apply in_flat_map. exists r0. split; [exact Hin|].
      destruct (rho c); [left|right; left]; reflexivity.
    + intros x [<-|Hx]; [now rewrite String.eqb_refl|].
      destruct (String.eqb x c) eqn:E; [apply String.eqb_eq in E; now subst|now apply Hag].
Qed.

Section Skeleton.
  Variable env : string -> sk.

  (** traces admitted by a skeleton under a guard valuation: any branch, any number of
      loop iterations, calls unfolded to any depth, each activation of a callee with
      its own guard valuation *)
  Inductive den : (string -> bool) -> sk -> list ev -> Prop :=
  | d_skip rho : den rho Skip []
  | d_fill rho : den rho Fill [EF]
  | d_touch rho : den rho Touch [ET]
  | d_seq rho a b t1 t2 : den rho a t1 -> den rho b t2 -> den rho (Seq a b) (t1 ++ t2)
  | d_altl rho a b t : den rho a t -> den rho (Alt a b) t
  | d_altr rho a b t : den rho b t -> den rho (Alt a b) t
  | d_loop0 rho a : den rho (Loop a) []
  | d_loopS rho a t1 t2 : den rho a t1 -> den rho (Loop a) t2 -> den rho (Loop a) (t1 ++ t2)
  | d_ifT rho c a b t : rho c = true -> den rho a t -> den rho (IfC c a b) t
  | d_ifF rho c a b t : rho c = false -> den rho b t -> den rho (IfC c a b) t
  | d_call rho rho' g t : den rho' (env g) t -> den rho (Call g) t.

  (** abstract values: [N] no event yet on some path (and nothing bad on any),
      [Fd] every path has filled, [Bad] some path may touch before a fill *)
  Inductive av := N | Fd | Bad.

  Definition join2 (x y : av) : av :=
    match x, y with
    | Bad, _ | _, Bad => Bad
    | Fd, Fd => Fd
    | _, _ => N
    end.

  (** [Fd] is the unit of [join2]; [all_vals] is never empty, so [check] does not take
      the empty join *)
  Fixpoint joinl (l : list av) : av :=
    match l with
    | [] => Fd
    | x :: r => join2 x (joinl r)
    end.

  Fixpoint check (fuel : nat) (rho : string -> bool) : sk -> av :=
    fix go (s : sk) : av :=
      match s with
      | Skip => N
      | Fill => Fd
      | Touch => Bad
      | Seq a b => match go a with N => go b | r => r end
      | Alt a b => join2 (go a) (go b)
      | Loop a => match go a with Bad => Bad | _ => N end
      | IfC c a b => if rho c then go a else go b
      | Call g => match fuel with
                  | O => Bad
                  | S n => joinl (map (fun rho' => check n rho' (env g)) (all_vals (nodup string_dec (conds_of (env g)))))
                  end
      end.

  Definition starts_F (t : list ev) : Prop := exists t', t = EF :: t'.
  (** only the first access matters: once f has been filled, its content is a function of
      the rest of the state and of its shape (see [safe_trace_content_independent]) *)
  Definition safe (t : list ev) : Prop := t = [] \/ starts_F t.

  Definition holds (r : av) (t : list ev) : Prop :=
    match r with Fd => starts_F t | N => safe t | Bad => True end.

  Lemma starts_F_app t1 t2 : starts_F t1 -> starts_F (t1 ++ t2).
  Proof. intros [t' ->]. exists (t' ++ t2). reflexivity. Qed.

  Lemma starts_holds r t : starts_F t -> holds r t.
  Proof. intros H. destruct r; cbn; [right; exact H|exact H|exact I]. Qed.

  Lemma holds_join2_l x y t : holds x t -> holds (join2 x y) t.
  Proof. destruct x, y; cbn; auto; try (intros H; right; exact H). Qed.
  Lemma holds_join2_r x y t : holds y t -> holds (join2 x y) t.
  Proof. destruct x, y; cbn; auto; try (intros H; right; exact H). Qed.

  Lemma holds_joinl r l t : In r l -> holds r t -> holds (joinl l) t.
  Proof.
    induction l as [|x l IH]; [intros []|]. intros [<-|Hin] Hh; cbn [joinl].
    - now apply holds_join2_l.
    - apply holds_join2_r. now apply IH.
  Qed.

  (** [check] is a fixpoint on the fuel with an inner one on the skeleton, so it unfolds
      only once the fuel is a constructor; these equations hold for any fuel *)
  Lemma check_Seq fuel rho a b :
    check fuel rho (Seq a b) = match check fuel rho a with N => check fuel rho b | r => r end.
  Proof. destruct fuel; reflexivity. Qed.

  Lemma check_Alt fuel rho a b : check fuel rho (Alt a b) = join2 (check fuel rho a) (check fuel rho b).
  Proof. destruct fuel; reflexivity. Qed.

  Lemma check_Loop fuel rho a : check fuel rho (Loop a) = match check fuel rho a with Bad => Bad | _ => N end.
  Proof. destruct fuel; reflexivity. Qed.

  Lemma check_IfC fuel rho c a b :
    check fuel rho (IfC c a b) = if rho c then check fuel rho a else check fuel rho b.
  Proof. destruct fuel; reflexivity. Qed.

  Lemma check_Call_S n rho g :
    check (S n) rho (Call g) =
    joinl (map (fun rho' => check n rho' (env g)) (all_vals (nodup string_dec (conds_of (env g))))).
  Proof. reflexivity. Qed.

  Lemma check_ext fuel s : forall r1 r2, (forall c, In c (conds_of s) -> r1 c = r2 c) ->
                                          check fuel r1 s = check fuel r2 s.
  Proof.
    induction s as [ | | |a IHa b IHb|a IHa b IHb|a IHa|c a IHa b IHb|g]; intros r1 r2 H;
      try (destruct fuel; reflexivity); cbn [conds_of] in H.
    - rewrite !check_Seq, (IHa r1 r2), (IHb r1 r2); [reflexivity| |]; intros c Hc; apply H, in_or_app; tauto.
    - rewrite !check_Alt, (IHa r1 r2), (IHb r1 r2); [reflexivity| |]; intros c Hc; apply H, in_or_app; tauto.
    - rewrite !check_Loop, (IHa r1 r2 H). reflexivity.
    - rewrite !check_IfC, (H c (or_introl eq_refl)), (IHa r1 r2), (IHb r1 r2); [reflexivity| |];
        intros x Hx; apply H; right; apply in_or_app; tauto.
  Qed.

  Lemma check_sound_gen : forall rho s t, den rho s t -> forall fuel, holds (check fuel rho s) t.
  Proof.
    induction 1 as [rho|rho|rho|rho a b t1 t2 H1 IH1 H2 IH2|rho a b t H IH|rho a b t H IH|rho a
                   |rho a t1 t2 H1 IH1 H2 IH2|rho c a b t Hc H IH|rho c a b t Hc H IH|rho rho' g t H IH]; intro fuel.
    - destruct fuel; cbn; left; reflexivity.
    - destruct fuel; cbn; exists []; reflexivity.
    - destruct fuel; cbn; exact I.
    - specialize (IH1 fuel). specialize (IH2 fuel).
      rewrite check_Seq. destruct (check fuel rho a) eqn:Ea; cbn [holds] in IH1.
      + destruct IH1 as [->|Hs]; [exact IH2|apply starts_holds, starts_F_app, Hs].
      + cbn. apply starts_F_app, IH1.
      + exact I.
    - rewrite check_Alt. apply holds_join2_l, IH.
    - rewrite check_Alt. apply holds_join2_r, IH.
    - rewrite check_Loop. destruct (check fuel rho a); cbn; auto; left; reflexivity.
    - specialize (IH1 fuel). specialize (IH2 fuel).
      rewrite check_Loop in *. destruct (check fuel rho a); cbn in *.
      + destruct IH1 as [->|Hs]; [exact IH2|right; apply starts_F_app, Hs].
      + right. apply starts_F_app, IH1.
      + exact I.
    - rewrite check_IfC, Hc. apply IH.
    - rewrite check_IfC, Hc. apply IH.
    - destruct fuel; [exact I|]. rewrite check_Call_S.
      destruct (all_vals_complete (nodup string_dec (conds_of (env g))) rho') as [r0 [Hin Hag]].
      assert (Hag' : forall c, In c (conds_of (env g)) -> r0 c = rho' c) by (intros c Hc; apply Hag; now apply nodup_In).
      apply (holds_joinl (check fuel r0 (env g))).
      + apply in_map_iff. exists r0. split; [reflexivity|exact Hin].
      + rewrite (check_ext fuel (env g) r0 rho' Hag'). apply IH.
  Qed.

  Theorem check_sound fuel rho s : check fuel rho s <> Bad -> forall t, den rho s t -> safe t.
  Proof.
    intros Hb t Hd. pose proof (check_sound_gen rho s t Hd fuel) as H.
    destruct (check fuel rho s); cbn in H; [exact H|right; exact H|congruence].
  Qed.

  (** an execution may stop early (return, error, panic) *)
  Lemma safe_prefix t1 t2 : safe (t1 ++ t2) -> safe t1.
  Proof.
    intros [H|[t' H]].
    - apply app_eq_nil in H as [-> _]. left; reflexivity.
    - destruct t1 as [|e r]; [left; reflexivity|]. cbn in H. inversion H; subst. right. exists r. reflexivity.
  Qed.
End Skeleton.

Fixpoint env_of (l : list (string * sk)) (g : string) : sk :=
  match l with
  | [] => Touch      (* unknown function: assume the worst *)
  | (k, s) :: r => if String.eqb g k then s else env_of r g
  end.

Definition is_bad (r : av) : bool := match r with Bad => true | _ => false end.

(** bound on the depth of calls [check] follows; beyond it a [Call] answers [Bad], which
    rejects the field: [check_sound] holds for every fuel *)
Definition skel_fuel : nat := 40.

(** the analysis on a regenerated entry: status ok and no root answers [Bad] *)
Definition decided (e : skel_entry) : bool :=
  String.eqb (se_status e) "ok"
  && forallb (fun r => negb (is_bad (check (env_of (se_env e)) skel_fuel (fun _ => false) (Call r)))) (se_roots e).

Lemma decided_sound e :
  decided e = true ->
  forall r rho t, In r (se_roots e) -> den (env_of (se_env e)) rho (Call r) t -> safe t.
Proof.
  unfold decided. intros H r rho t Hr Hd. apply andb_prop in H as [_ H].
  rewrite forallb_forall in H. specialize (H r Hr).
  assert (Hd' : den (env_of (se_env e)) (fun _ => false) (Call r) t) by (inversion Hd; subst; econstructor; eassumption).
  apply (check_sound (env_of (se_env e)) skel_fuel (fun _ => false) (Call r)); [|exact Hd'].
  intro Hb. rewrite Hb in H. discriminate.
Qed.

(** the life of one pooled object is a sequence of root calls *)
Lemma safe_concat (ts : list (list ev)) : Forall safe ts -> safe (concat ts).
Proof.
  induction 1 as [|t r Ht Hr IH]; [left; reflexivity|]. cbn.
  destruct Ht as [->|Hs]; [exact IH|right; now apply starts_F_app].
Qed.

Section Machine.
  (** [R]: everything except the content of f (arguments, other fields, locals, the
      result being built); [V]: the content of f; [Sh]: its observable shape *)
  Variables (R V Sh : Type).
  Variable shape : V -> Sh.
  (** which access to f comes next is decided by the rest of the state *)
  Variable next : R -> option ev.
  (** a Fill computes the new content from the rest of the state and the shape only *)
  Variable fillf : R -> Sh -> R * V.
  (** a Touch may do anything with the content *)
  Variable touchf : R -> V -> R * V.

  Fixpoint mrun (n : nat) (r : R) (v : V) : R * V :=
    match n with
    | O => (r, v)
    | S m => match next r with
             | None => (r, v)
             | Some EF => let '(r', v') := fillf r (shape v) in mrun m r' v'
             | Some ET => let '(r', v') := touchf r v in mrun m r' v'
             end
    end.

  Fixpoint mtrace (n : nat) (r : R) (v : V) : list ev :=
    match n with
    | O => []
    | S m => match next r with
             | None => []
             | Some EF => let '(r', v') := fillf r (shape v) in EF :: mtrace m r' v'
             | Some ET => let '(r', v') := touchf r v in ET :: mtrace m r' v'
             end
    end.

  (** The first step decides: a Fill makes the next state and content functions of
      (r, shape v), the same for v and v'; a Touch contradicts [safe]. *)
  Theorem safe_trace_content_independent n r v v' :
    shape v = shape v' -> safe (mtrace n r v) -> fst (mrun n r v) = fst (mrun n r v').
  Proof.
    intros Hs Hsafe. destruct n as [|m]; [reflexivity|]. cbn in *.
    destruct (next r) as [[|]|]; [| |reflexivity].
    - rewrite <- Hs. destruct (fillf r (shape v)) as [r' v'']. reflexivity.
    - destruct (touchf r v) as [r' v'']. destruct Hsafe as [H|[t' H]]; discriminate.
  Qed.
End Machine.

Section Frame.
  Variables (Args Out Val Shape : Type) (shape : Args -> Val -> Shape).
  Variable fields : list string.
  Variable cls : list (string * fclass).
  Variable run : Args -> (string -> Val) -> Out * (string -> Val).

  Definition upd (o : string -> Val) (f : string) (v : Val) : string -> Val :=
    fun g => if String.eqb g f then v else o g.

  (** the result does not depend on the content of field [f] (only on its shape) *)
  Definition indep_field (f : string) : Prop :=
    forall a o v', shape a (o f) = shape a v' -> fst (run a o) = fst (run a (upd o f v')).

  (** the frame condition for objects that agree on the content of the fields in [D] *)
  Definition frame_condition_given (D : list string) : Prop :=
    forall a o o',
      (forall f, In f fields -> class_is cls Config f \/ class_is cls State f \/ class_is cls ConstZero f -> o f = o' f) ->
      (forall f, In f fields -> class_is cls Scratch f -> shape a (o f) = shape a (o' f)) ->
      (forall f, In f D -> o f = o' f) ->
      fst (run a o) = fst (run a o').

  Fixpoint overlay (D : list string) (o o' : string -> Val) : string -> Val :=
    match D with
    | [] => o'
    | f :: r => upd (overlay r o o') f (o f)
    end.

  Lemma overlay_spec D o o' g : overlay D o o' g = if mem g D then o g else o' g.
  Proof.
    induction D as [|f r IH]; [reflexivity|]. cbn [overlay mem]. unfold upd.
    destruct (String.eqb g f) eqn:E; [apply String.eqb_eq in E; now subst|exact IH].
  Qed.

  Theorem frame_from_decided (D : list string) :
    (forall f, In f D -> In f fields /\ class_is cls Scratch f) ->
    (forall f, In f D -> indep_field f) ->
    frame_condition_given D ->
    frame_condition Args Out Val Shape shape fields cls run.
  Proof.
    intros HD Hind Hgiven a o o' Hcs Hsh.
    assert (Hchain : forall D', (forall f, In f D' -> In f D) ->
                                fst (run a o') = fst (run a (overlay D' o o'))).
    { induction D' as [|f r IH]; intros Hsub; [reflexivity|].
      transitivity (fst (run a (overlay r o o'))); [apply IH; intros g Hg; apply Hsub; right; exact Hg|].
      cbn [overlay]. apply (Hind f (Hsub f (or_introl eq_refl))).
      destruct (HD f (Hsub f (or_introl eq_refl))) as [Hin Hc].
      rewrite overlay_spec. destruct (mem f r); [reflexivity|symmetry; now apply Hsh]. }
    transitivity (fst (run a (overlay D o o'))); [|symmetry; exact (Hchain D (fun f H => H))].
    apply Hgiven.
    - intros f Hin Hc. rewrite overlay_spec. destruct (mem f D) eqn:E; [reflexivity|now apply Hcs].
    - intros f Hin Hc. rewrite overlay_spec. destruct (mem f D); [reflexivity|now apply Hsh].
    - intros f Hin. rewrite overlay_spec. apply mem_In in Hin. now rewrite Hin.
  Qed.
End Frame.

(** the analysis is not vacuous: it accepts fill-then-read and rejects read-then-fill,
    a fill on only one branch, and a fill inside a loop that may not run *)
Module SkelExample.
  Definition env (g : string) : sk :=
    if String.eqb g "init" then Fill else if String.eqb g "use" then Touch else Skip.
  Example accepts_fill_then_read : check env 5 (fun _ => false) (Seq (Call "init") (Loop (Call "use"))) = Fd.
  Proof. reflexivity. Qed.
  Example rejects_read_then_fill : check env 5 (fun _ => false) (Seq (Call "use") (Call "init")) = Bad.
  Proof. reflexivity. Qed.
  Example rejects_fill_on_one_branch : check env 5 (fun _ => false) (Seq (Alt Fill Skip) Touch) = Bad.
  Proof. reflexivity. Qed.
  Example rejects_fill_in_loop : check env 5 (fun _ => false) (Seq (Loop Fill) Touch) = Bad.
  Proof. reflexivity. Qed.
  (** correlated guards: fill and use under the same guard are accepted, under different
      guards rejected (the callee "g" is analysed for every valuation of its guards) *)
  Definition env2 (g : string) : sk :=
    if String.eqb g "g" then Seq (IfC "p" Fill Skip) (IfC "p" Touch Skip)
    else if String.eqb g "h" then Seq (IfC "p" Fill Skip) (IfC "q" Touch Skip) else Skip.
  Example accepts_correlated_guard : check env2 5 (fun _ => false) (Call "g") = N.
  Proof. reflexivity. Qed.
  Example rejects_uncorrelated_guard : check env2 5 (fun _ => false) (Call "h") = Bad.
  Proof. reflexivity. Qed.
  Example unsafe_trace_exists : den env (fun _ => false) (Seq (Loop Fill) Touch) [ET] /\ ~ safe [ET].
  Proof.
    split.
    - change [ET] with ([] ++ [ET]). constructor; constructor.
    - intros [H|[t' H]]; discriminate.
  Qed.
End SkelExample.
