(** C10 — the detailed system (ConcDetailed.v) refines the L1 system (ConcRowSync.v):
    a forward simulation with stuttering.  Every step of a worker inside waitFor or
    signal, and every waitFor step of the recorder, leaves the abstraction unchanged;
    the macroblock body maps to L1's macroblock step (its guard holds because the
    preceding waitFor returned only with done >= needed); claim / exit / record map to
    the L1 steps of the same name.  Hence every reachable detailed state abstracts to
    a reachable L1 state, and the L1 theorems transfer. *)
From Coq Require Import List Arith Lia Bool.
From Webp Require Import Conc.ConcRowSync Conc.ConcShared Conc.ConcRowSyncProofs Conc.ConcDetailed.
From Webp Require Import Base.ListFacts.
Import ListNotations.

Section Proofs.
  Variable V : Type.
  Variable v0 : V.
  Variable f : nat -> nat -> V -> V -> V -> V -> V.
  Variables mbW mbH : nat.
  Hypothesis HmbW : 1 <= mbW.

  Notation dstate := (dstate V).
  Notation dstep := (dstep V v0 f mbW mbH).
  Notation dstep_worker := (dstep_worker V v0 f mbW mbH).
  Notation dstep_rec := (dstep_rec V v0 mbW mbH).
  Notation drun := (drun V v0 f mbW mbH).
  Notation dinit := (dinit V v0).
  Notation abs := (abs V mbW).
  Notation abs_w := (abs_w V mbW).
  Notation step1 := (step V v0 f mbW mbH).
  Notation run1 := (run V v0 f mbW mbH).
  Notation init1 := (init V v0).
  Notation needed := (needed mbW).

  Lemma set_nth_length {A} (l : list A) i v : length (set_nth l i v) = length l.
  Proof. exact (ConcShared.set_nth_length l i v). Qed.

  Lemma wake_w_spec row w :
    wake_w V row w = w \/
    exists x tl l, w = DWait (S row) x tl l PSleep /\ wake_w V row w = DWait (S row) x tl l PWoken.
  Proof.
    destruct w as [| |y x tl l ph|y x tl l|y x tl l t0 tr0|y x tl l ph]; cbn; auto.
    destruct ph; cbn; auto. destruct (Nat.eqb_spec y (S row)) as [->|]; [right; eauto|auto].
  Qed.

  Lemma start_mb_spec y x tl l :
    (y = 0 /\ start_mb V y x tl l = DCompute y x tl l) \/ (0 < y /\ start_mb V y x tl l = DWait y x tl l PFast).
  Proof. unfold start_mb. destruct (Nat.eqb_spec y 0); [left|right]; split; auto. now apply Nat.neq_0_lt_0. Qed.

  Lemma sig_exit_spec y x tl l :
    sig_exit V mbW y x tl l = DIdle \/ sig_exit V mbW y x tl l = start_mb V y (S x) tl l.
  Proof. unfold sig_exit. destruct (S x <? mbW); auto. Qed.

  Lemma abs_wake row w : abs_w (wake_w V row w) = abs_w w.
  Proof. destruct (wake_w_spec row w) as [->|(x & tl & l & -> & ->)]; reflexivity. Qed.

  Lemma abs_start_mb y x tl l : abs_w (start_mb V y x tl l) = AtMB y x tl l.
  Proof. destruct (start_mb_spec y x tl l) as [[_ ->]|[_ ->]]; reflexivity. Qed.

  Lemma abs_sig_exit y x tl l ph : abs_w (sig_exit V mbW y x tl l) = abs_w (DSig y x tl l ph).
  Proof. unfold sig_exit. cbn [ConcDetailed.abs_w]. destruct (S x <? mbW); [apply abs_start_mb|reflexivity]. Qed.

  Definition row_of (w : dw V) : option nat :=
    match w with
    | DWait y _ _ _ _ | DCompute y _ _ _ | DHold y _ _ _ _ _ | DSig y _ _ _ _ => Some y
    | _ => None
    end.

  Definition worker_ok (dn ad : nat -> nat) (tp : nat -> option nat * V) (w : dw V) : Prop :=
    match w with
    | DWait y x _ _ ph => 0 < y /\ (passed ph = true -> needed x <= dn (y - 1))
    | DCompute y x _ _ => y = 0 \/ needed x <= dn (y - 1)
    | DHold y x _ _ t tr => (y = 0 \/ needed x <= dn (y - 1)) /\
                            t = snd (tp x) /\ tr = (if S x <? mbW then snd (tp (S x)) else v0)
    | DSig y x _ _ _ => ad y = S x
    | _ => True
    end.

  Definition rec_ok (dn : nat -> nat) (r : dr) (row : nat) : Prop :=
    match r with
    | RWait ph => passed ph = true -> mbW <= dn row
    | RReady => mbW <= dn row
    end.

  (** [p_proj] keeps the abstraction reachable in L1, so that the L1 theorems apply to
      [abs s]; [done] lags behind the ghost [adone] between a macroblock's write and its
      [done.Store] ([p_done_le]). *)
  Record DInv (n : nat) (s : dstate) : Prop := {
    p_proj : exists sched, run1 (init1 n) sched = Some (abs s);
    p_done_le : forall y, d_done V s y <= d_adone V s y;
    p_ok : forall i w, nth_error (d_workers V s) i = Some w ->
             worker_ok (d_done V s) (d_adone V s) (d_top V s) w;
    p_rows_lt : forall i w y, nth_error (d_workers V s) i = Some w -> row_of w = Some y -> y < d_next V s;
    p_unique : uniq row_of (d_workers V s);
    p_rec : rec_ok (d_done V s) (d_rec V s) (d_recRow V s) }.

  Lemma abs_inv n s : DInv n s -> Inv V v0 f mbW mbH n (abs s).
  Proof. intros HI. destruct (p_proj n s HI) as (sched & Hr). exact (rowsync_inv V v0 f mbW mbH HmbW n sched _ Hr). Qed.

  Lemma abs_at s i w : nth_error (d_workers V s) i = Some w ->
    nth_error (workers V (abs s)) i = Some (abs_w w).
  Proof. intros H. cbn. rewrite nth_error_map, H. reflexivity. Qed.

  Lemma ok_guard n s y x : DInv n s -> y = 0 \/ needed x <= d_done V s (y - 1) ->
    guard V mbW (abs s) y x = true.
  Proof.
    intros HI H. apply guard_spec. cbn [done ConcDetailed.abs].
    destruct H as [->|H]; [now left|right]. pose proof (p_done_le n s HI (y - 1)). lia.
  Qed.

  Lemma dinit_inv n : DInv n (dinit n).
  Proof.
    constructor; cbn.
    - exists []. cbn. unfold ConcDetailed.abs, ConcRowSync.init. cbn. rewrite map_repeat. reflexivity.
    - intros y. lia.
    - intros i w H. apply nth_error_repeat_inv in H. subst. exact I.
    - intros i w y H Hr. apply nth_error_repeat_inv in H. subst. discriminate.
    - intros i j wi wj y H _ Hr. apply nth_error_repeat_inv in H. subst. discriminate.
    - discriminate.
  Qed.

  (** [done] only grows, so what was established stays established *)
  Lemma worker_ok_mono dn dn' ad ad' tp tp' w : (forall y, dn y <= dn' y) ->
    (forall y x tl l ph, w = DSig y x tl l ph -> ad' y = ad y) ->
    (forall y x tl l t tr, w = DHold y x tl l t tr -> snd (tp' x) = snd (tp x) /\ snd (tp' (S x)) = snd (tp (S x))) ->
    worker_ok dn ad tp w -> worker_ok dn' ad' tp' w.
  Proof.
    intros Hg Ha Ht Hok. destruct w as [| |y x tl l ph|y x tl l|y x tl l t0 tr0|y x tl l ph]; cbn in *; auto.
    - destruct Hok as [H0 H1]. split; [exact H0|]. intros Hp. specialize (H1 Hp). specialize (Hg (y - 1)). lia.
    - destruct Hok as [H0|H1]; [now left|right]. specialize (Hg (y - 1)). lia.
    - destruct Hok as (H0 & H1 & H2). destruct (Ht y x tl l t0 tr0 eq_refl) as [E1 E2]. rewrite E1, E2.
      split; [|split; assumption]. destruct H0 as [H0|H0]; [now left|right]. specialize (Hg (y - 1)). lia.
    - rewrite (Ha y x tl l ph eq_refl). exact Hok.
  Qed.

  Lemma rec_ok_mono dn dn' r row : (forall y, dn y <= dn' y) -> rec_ok dn r row -> rec_ok dn' r row.
  Proof. intros Hg Hok. specialize (Hg row). destruct r; cbn in *; [intros Hp; specialize (Hok Hp)|]; lia. Qed.

  (** the frame lemma for a step of worker [i]: its entry is replaced, [done] grows
      below [adone], its row stays or is a freshly drawn ticket *)
  Lemma worker_step_inv n s i w w' nx' dn' ad' nw' mu' tp' ot' :
    DInv n s -> nth_error (d_workers V s) i = Some w ->
    (exists sched, run1 (init1 n) sched =
       Some (abs (mkD V nx' (setw V s i w') (d_rec V s) (d_recRow V s) dn' ad' nw' mu' tp' ot' (d_tokens V s)))) ->
    d_next V s <= nx' ->
    (forall y, d_done V s y <= dn' y <= ad' y) ->
    (forall j wj, j <> i -> nth_error (d_workers V s) j = Some wj -> worker_ok dn' ad' tp' wj) ->
    worker_ok dn' ad' tp' w' ->
    (forall y, row_of w' = Some y -> row_of w = Some y \/ d_next V s <= y < nx') ->
    DInv n (mkD V nx' (setw V s i w') (d_rec V s) (d_recRow V s) dn' ad' nw' mu' tp' ot' (d_tokens V s)).
  Proof.
    intros HI Hw Hproj Hnx Hdn Hoth Hok Hrow.
    constructor; cbn [d_next d_workers d_rec d_recRow d_done d_adone d_top]; unfold setw.
    - exact Hproj.
    - intros y. apply Hdn.
    - intros j wj Hj. destruct (set_nth_inv _ _ _ _ _ Hj) as [[-> ->]|[Hne Hj0]]; [exact Hok|exact (Hoth j wj Hne Hj0)].
    - intros j wj y Hj Hr. destruct (set_nth_inv _ _ _ _ _ Hj) as [[-> ->]|[Hne Hj0]].
      + destruct (Hrow y Hr) as [Hr0|Hfresh]; [|lia]. pose proof (p_rows_lt n s HI i w y Hw Hr0). lia.
      + pose proof (p_rows_lt n s HI j wj y Hj0 Hr). lia.
    - apply (uniq_set_nth row_of _ i w); [exact (p_unique n s HI)|exact Hw|].
      intros y Hr. destruct (Hrow y Hr) as [Hr0|Hfresh]; [now left|right].
      intros j b Hj Hb. pose proof (p_rows_lt n s HI j b y Hj Hb). lia.
    - apply (rec_ok_mono (d_done V s)); [intros y; apply Hdn|exact (p_rec n s HI)].
  Qed.

  (** a step of worker [i] that the abstraction does not see *)
  Lemma stutter_inv n s i w w' dn' nw' mu' :
    DInv n s -> nth_error (d_workers V s) i = Some w ->
    abs_w w' = abs_w w -> (forall y, row_of w' = Some y -> row_of w = Some y) ->
    (forall y, d_done V s y <= dn' y <= d_adone V s y) ->
    worker_ok dn' (d_adone V s) (d_top V s) w' ->
    DInv n (mkD V (d_next V s) (setw V s i w') (d_rec V s) (d_recRow V s) dn' (d_adone V s)
                nw' mu' (d_top V s) (d_out V s) (d_tokens V s)).
  Proof.
    intros HI Hw Habs Hrow Hdn Hok. apply (worker_step_inv n s i w); auto.
    - destruct (p_proj n s HI) as (sched & Hr). exists sched. rewrite Hr. f_equal.
      unfold ConcDetailed.abs, setw. cbn. now rewrite (map_set_nth_same abs_w _ i w w' Hw Habs).
    - intros j wj _ Hj. apply (worker_ok_mono (d_done V s) _ (d_adone V s) _ (d_top V s)); auto.
      + intros y. apply Hdn.
      + exact (p_ok n s HI j wj Hj).
  Qed.

  Lemma sig_exit_ok dn ad tp y x tl l : worker_ok dn ad tp (sig_exit V mbW y x tl l).
  Proof.
    destruct (sig_exit_spec y x tl l) as [-> | ->]; [exact I|].
    destruct (start_mb_spec y (S x) tl l) as [[-> ->]|[Hy ->]]; cbn; [now left|split; [exact Hy|discriminate]].
  Qed.

  Lemma start_mb_row y x tl l : row_of (start_mb V y x tl l) = Some y.
  Proof. destruct (start_mb_spec y x tl l) as [[_ ->]|[_ ->]]; reflexivity. Qed.

  Lemma sig_exit_row y x tl l y0 : row_of (sig_exit V mbW y x tl l) = Some y0 -> y0 = y.
  Proof.
    destruct (sig_exit_spec y x tl l) as [-> | ->]; [discriminate|]. rewrite start_mb_row. congruence.
  Qed.

  Lemma wake_ok dn ad tp row w : worker_ok dn ad tp w -> worker_ok dn ad tp (wake_w V row w).
  Proof.
    destruct (wake_w_spec row w) as [->|(x & tl & l & -> & ->)]; [auto|]. cbn. intros [H0 _]. split; [exact H0|discriminate].
  Qed.

  Lemma wake_row row w : row_of (wake_w V row w) = row_of w.
  Proof. destruct (wake_w_spec row w) as [->|(x & tl & l & -> & ->)]; reflexivity. Qed.

  (** the Broadcast wakes every sleeper of the row: no sleeper has passed, so nothing
      that was established is lost *)
  Lemma wake_all_inv n s y : DInv n s ->
    DInv n (mkD V (d_next V s) (map (wake_w V y) (d_workers V s)) (wake_r y (d_recRow V s) (d_rec V s))
                (d_recRow V s) (d_done V s) (d_adone V s) (d_nwait V s) (d_mu V s) (d_top V s) (d_out V s) (d_tokens V s)).
  Proof.
    intros HI. constructor; cbn [d_next d_workers d_rec d_recRow d_done d_adone d_top].
    - destruct (p_proj n s HI) as (sched & Hr). exists sched. rewrite Hr. f_equal.
      unfold ConcDetailed.abs. cbn. rewrite map_map. f_equal. apply map_ext. intros w. now rewrite abs_wake.
    - apply (p_done_le n s HI).
    - intros j wj Hj. destruct (nth_error_map_inv _ _ _ _ Hj) as (w0 & H0 & ->). apply wake_ok. exact (p_ok n s HI j w0 H0).
    - intros j wj y0 Hj Hr. destruct (nth_error_map_inv _ _ _ _ Hj) as (w0 & H0 & ->). rewrite wake_row in Hr.
      exact (p_rows_lt n s HI j w0 y0 H0 Hr).
    - apply uniq_map; [apply wake_row|exact (p_unique n s HI)].
    - pose proof (p_rec n s HI) as Hr. destruct (d_rec V s) as [ph|]; cbn [wake_r]; [|exact Hr].
      destruct ph; cbn [wake_r]; try exact Hr. destruct (d_recRow V s =? y); [discriminate|exact Hr].
  Qed.

  Lemma dstep_worker_inv n s i s' : DInv n s -> dstep_worker s i = Some s' -> DInv n s'.
  Proof.
    intros HI Hs. unfold ConcDetailed.dstep_worker in Hs.
    destruct (nth_error (d_workers V s) i) as [w|] eqn:Hw; [|discriminate].
    pose proof (p_ok n s HI i w Hw) as Hok. pose proof (abs_at s i w Hw) as Habsw.
    destruct (p_proj n s HI) as (sched & Hrun).
    (* the other workers are on other rows, and keep what they know *)
    assert (Hother : forall y j wj, row_of w = Some y -> j <> i -> nth_error (d_workers V s) j = Some wj -> row_of wj <> Some y).
    { intros y j wj Hr Hne Hj Hrj. apply Hne. exact (p_unique n s HI j i wj w y Hj Hw Hrj Hr). }
    assert (Hkeep : forall j wj, j <> i -> nth_error (d_workers V s) j = Some wj ->
              worker_ok (d_done V s) (d_adone V s) (d_top V s) wj) by (intros j wj _; apply (p_ok n s HI)).
    assert (Hdn : forall y, d_done V s y <= d_done V s y <= d_adone V s y)
      by (intros y; pose proof (p_done_le n s HI y); lia).
    destruct w as [| |y x tl l ph|y x tl l|y x tl l t0 tr0|y x tl l ph]; try discriminate.
    - (* DIdle: claim or exit = the L1 step of the same worker *)
      assert (Hstep : step1 (abs s) (LW i) = Some (abs s')).
      { cbn [ConcRowSync.step]. unfold ConcRowSync.step_worker. rewrite Habsw. cbn [ConcDetailed.abs_w nextRow ConcDetailed.abs].
        destruct (d_next V s <? mbH); inversion Hs; subst s'; unfold ConcDetailed.abs, setw; cbn;
          rewrite map_set_nth; rewrite ?abs_start_mb; reflexivity. }
      pose proof (orun_snoc _ _ step1 _ _ _ _ _ Hrun Hstep) as Hrun'.
      destruct (d_next V s <? mbH) eqn:E; inversion Hs; subst s'; clear Hs;
        (apply (worker_step_inv n s i DIdle);
           [exact HI|exact Hw|exists (sched ++ [LW i]); exact Hrun'|lia|exact Hdn|exact Hkeep| |]).
      + destruct (start_mb_spec (d_next V s) 0 v0 v0) as [[E0 ->]|[E0 ->]]; cbn; [now left|split; [exact E0|discriminate]].
      + intros y. rewrite start_mb_row. intros Hy. inversion Hy; subst. right. lia.
      + exact I.
      + discriminate.
    - cbn in Hok. destruct Hok as [Hy Hpass]. rewrite wait_step_wstep in Hs.
      destruct (wstep (d_done V s (y - 1)) (d_nwait V s (y - 1)) (d_mu V s (y - 1)) (OWk i) (needed x) ph)
        as [[[o nw'] m']|] eqn:Hws; [|discriminate].
      pose proof (wstep_passed _ _ _ _ _ _ _ _ _ Hws Hpass) as Hp.
      destruct o as [ph'|]; inversion Hs; subst s'; clear Hs;
        apply (stutter_inv n s i (DWait y x tl l ph)); cbn; auto.
    - inversion Hs; subst s'; clear Hs. cbn in Hok.
      apply (stutter_inv n s i (DCompute y x tl l)); cbn; auto.
    - (* DHold: compute on the values read earlier and write — L1's macroblock step *)
      inversion Hs; subst s'; clear Hs. cbn in Hok. destruct Hok as (Hok & Ht0 & Htr0).
      pose proof (ok_guard n s y x HI Hok) as Hguard.
      set (rv := f y x tl t0 tr0 l).
      assert (Hstep : step1 (abs s) (LW i) =
          Some (abs (mkD V (d_next V s) (setw V s i (DSig y x t0 rv QStore))
             (d_rec V s) (d_recRow V s) (d_done V s) (upd1 (d_adone V s) y (S x)) (d_nwait V s) (d_mu V s)
             (upd1 (d_top V s) x (Some y, rv)) (upd2 (d_out V s) y x (Some rv)) (d_tokens V s)))).
      { cbn [ConcRowSync.step]. unfold ConcRowSync.step_worker. rewrite Habsw. cbn [ConcDetailed.abs_w]. rewrite Hguard.
        unfold ConcDetailed.abs, setw, rv. cbn. rewrite map_set_nth. rewrite <- Ht0, <- Htr0. reflexivity. }
      destruct (i_worker V v0 f mbW mbH n (abs s) (abs_inv n s HI) i y x tl l Habsw) as (_ & Hx & Hadone & _).
      cbn [done ConcDetailed.abs] in Hadone.
      apply (worker_step_inv n s i (DHold y x tl l t0 tr0)); auto.
      + exists (sched ++ [LW i]). exact (orun_snoc _ _ step1 _ _ _ _ _ Hrun Hstep).
      + intros y0. pose proof (p_done_le n s HI y0). unfold upd1. destruct (y0 =? y) eqn:E; [apply Nat.eqb_eq in E; subst|]; lia.
      + intros j wj Hne Hj. pose proof (p_ok n s HI j wj Hj) as H0.
        pose proof (Hother y j wj eq_refl Hne Hj) as Hrow.
        destruct wj as [| |y1 x1 tl1 l1 ph1|y1 x1 tl1 l1|y1 x1 tl1 l1 t1 tr1|y1 x1 tl1 l1 ph1]; cbn in *; auto.
        * (* another worker holding values it read: the cell written now is none of its cells *)
          destruct H0 as (Hg1 & Ht1 & Htr1).
          destruct (rowsync_no_conflict V v0 f mbW mbH HmbW n sched (abs s) i j y x tl l y1 x1 tl1 l1 Hrun
                      ltac:(congruence) Habsw Hguard (abs_at s j _ Hj) (ok_guard n s y1 x1 HI Hg1))
            as (_ & Hc1 & _ & Hc3).
          split; [exact Hg1|]. rewrite !upd1_neq by lia. split; assumption.
        * rewrite upd1_neq by congruence. exact H0.
      + cbn. apply upd1_eq.
    - cbn in Hok. destruct ph.
      + inversion Hs; subst s'; clear Hs.
        apply (stutter_inv n s i (DSig y x tl l QStore)); cbn; auto.
        intros y0. pose proof (p_done_le n s HI y0). unfold upd1. destruct (y0 =? y) eqn:E; [apply Nat.eqb_eq in E; subst|]; lia.
      + inversion Hs; subst s'; clear Hs.
        destruct (0 <? d_nwait V s y); apply (stutter_inv n s i (DSig y x tl l QLoad)); cbn; auto.
        * apply (abs_sig_exit y x tl l QLoad).
        * intros y0 Hr. apply sig_exit_row in Hr. subst. reflexivity.
        * apply sig_exit_ok.
      + destruct (d_mu V s y); [discriminate|]. inversion Hs; subst s'; clear Hs.
        apply (stutter_inv n s i (DSig y x tl l QLock)); cbn; auto.
      + inversion Hs; subst s'; clear Hs.
        apply (stutter_inv n s i (DSig y x tl l QUnlock)); cbn; auto.
      + (* QBcast: wake the row's sleepers, then leave signal *)
        inversion Hs; subst s'; clear Hs.
        apply (stutter_inv n _ i (DSig y x tl l QBcast) _ _ _ _ (wake_all_inv n s y HI)); cbn; auto.
        * rewrite nth_error_map, Hw. reflexivity.
        * apply (abs_sig_exit y x tl l QBcast).
        * intros y0 Hr. apply sig_exit_row in Hr. subst. reflexivity.
        * apply sig_exit_ok.
  Qed.

  Lemma rec_frame_inv n s r' nw' mu' :
    DInv n s -> rec_ok (d_done V s) r' (d_recRow V s) ->
    DInv n (mkD V (d_next V s) (d_workers V s) r' (d_recRow V s) (d_done V s) (d_adone V s)
                nw' mu' (d_top V s) (d_out V s) (d_tokens V s)).
  Proof. intros HI Hr. constructor; cbn; try solve [apply HI]. exact Hr. Qed.

  Lemma dstep_rec_inv n s s' : DInv n s -> dstep_rec s = Some s' -> DInv n s'.
  Proof.
    intros HI Hs. unfold ConcDetailed.dstep_rec in Hs.
    destruct (d_recRow V s <? mbH) eqn:Elt; [|discriminate].
    pose proof (p_rec n s HI) as Hrec.
    destruct (d_rec V s) as [ph|] eqn:Er; cbn in Hrec.
    - rewrite wait_step_wstep in Hs.
      destruct (wstep (d_done V s (d_recRow V s)) (d_nwait V s (d_recRow V s)) (d_mu V s (d_recRow V s)) ORec mbW ph)
        as [[[o nw'] m']|] eqn:Hws; [|discriminate].
      pose proof (wstep_passed _ _ _ _ _ _ _ _ _ Hws Hrec) as Hp.
      destruct o as [ph'|]; inversion Hs; subst s'; clear Hs; apply (rec_frame_inv n s); auto.
    - (* record = L1's recorder step *)
      inversion Hs; subst s'; clear Hs.
      destruct (p_proj n s HI) as (sched & Hrun).
      pose proof (i_done_le V v0 f mbW mbH n (abs s) (abs_inv n s HI) (d_recRow V s)) as Hle. cbn [done ConcDetailed.abs] in Hle.
      pose proof (p_done_le n s HI (d_recRow V s)) as Hda.
      assert (Hstep : step1 (abs s) LRec =
         Some (abs (mkD V (d_next V s) (d_workers V s) (RWait PFast) (S (d_recRow V s)) (d_done V s) (d_adone V s)
                    (d_nwait V s) (d_mu V s) (d_top V s) (d_out V s)
                    (d_tokens V s ++ map (dout_or_v0 V v0 s (d_recRow V s)) (seq 0 mbW))))).
      { cbn [ConcRowSync.step]. unfold ConcRowSync.step_rec. cbn [recRow done ConcDetailed.abs]. rewrite Elt.
        replace (d_adone V s (d_recRow V s) =? mbW) with true by (symmetry; apply Nat.eqb_eq; lia).
        reflexivity. }
      constructor; cbn; try solve [apply HI].
      + exists (sched ++ [LRec]). exact (orun_snoc _ _ step1 _ _ _ _ _ Hrun Hstep).
      + discriminate.
  Qed.

  Lemma dstep_inv n s l s' : DInv n s -> dstep s l = Some s' -> DInv n s'.
  Proof. destruct l as [i|]; cbn [ConcDetailed.dstep]; [apply dstep_worker_inv|apply dstep_rec_inv]. Qed.

  Theorem detailed_inv : forall n sched s, drun (dinit n) sched = Some s -> DInv n s.
  Proof.
    intros n sched s Hr.
    exact (orun_invariant _ _ dstep (DInv n) (dstep_inv n) sched _ s (dinit_inv n) Hr).
  Qed.

  (** The refinement theorem: every run of the detailed system projects to a run of
      the L1 system that ends in the abstraction of its last state. *)
  Theorem detailed_refines_rowsync : forall n sched s,
    drun (dinit n) sched = Some s ->
    exists sched1, run1 (init1 n) sched1 = Some (abs s).
  Proof. intros n sched s Hr. exact (p_proj n s (detailed_inv n sched s Hr)). Qed.

  Lemma final_abs s : final V mbH (abs s) = dfinal V mbH s.
  Proof.
    unfold dfinal, ConcRowSync.final. cbn [workers recRow ConcDetailed.abs]. f_equal.
    induction (d_workers V s) as [|w ws IH]; [reflexivity|]. cbn [map forallb]. rewrite IH. f_equal.
    destruct w; cbn [ConcDetailed.abs_w is_exited dw_exited]; try reflexivity. destruct (S x <? mbW); reflexivity.
  Qed.

  (** Every detailed run that reaches a final state ends with the serial result: the L1
      determinism theorem transfers through the simulation ([out] and [tokens] are the
      same fields in both systems). *)
  Theorem detailed_deterministic : forall n sched s,
    drun (dinit n) sched = Some s -> dfinal V mbH s = true ->
    (forall y x, y < mbH -> x < mbW -> d_out V s y x = Some (serial_out V v0 f mbW y x)) /\
    d_tokens V s = serial_tokens V v0 f mbW mbH.
  Proof.
    intros n sched s Hr Hf. destruct (detailed_refines_rowsync n sched s Hr) as (sched1 & H1).
    rewrite <- final_abs in Hf.
    exact (rowsync_deterministic V v0 f mbW mbH HmbW n sched1 (abs s) H1 Hf).
  Qed.

  (** In the detailed system too, a macroblock body reads what the serial order has. *)
  Theorem detailed_reads_serial : forall n sched s i y x tl l,
    drun (dinit n) sched = Some s -> nth_error (d_workers V s) i = Some (DCompute y x tl l) ->
    d_top V s x = ((if y =? 0 then None else Some (y - 1)), P V v0 f mbW y x) /\
    (S x < mbW -> d_top V s (S x) = ((if y =? 0 then None else Some (y - 1)), P V v0 f mbW y (S x))).
  Proof.
    intros n sched s i y x tl l Hr Hw. pose proof (detailed_inv n sched s Hr) as HI.
    destruct (p_proj n s HI) as (sched1 & H1).
    pose proof (ok_guard n s y x HI (p_ok n s HI i _ Hw)) as Hguard.
    destruct (rowsync_reads_serial V v0 f mbW mbH HmbW n sched1 (abs s) i y x tl l H1 (abs_at s i _ Hw) Hguard) as (A & B & _).
    split; assumption.
  Qed.

  (** ... and the values a worker HOLDS between its read sub-step and its write sub-step are
      still the serial ones when it writes: nobody overwrites the cells it read. *)
  Theorem detailed_held_values_serial : forall n sched s i y x tl l t tr,
    drun (dinit n) sched = Some s -> nth_error (d_workers V s) i = Some (DHold y x tl l t tr) ->
    t = P V v0 f mbW y x /\ (S x < mbW -> tr = P V v0 f mbW y (S x)) /\
    f y x tl t tr l = serial_out V v0 f mbW y x.
  Proof.
    intros n sched s i y x tl l t tr Hr Hw. pose proof (detailed_inv n sched s Hr) as HI.
    destruct (p_proj n s HI) as (sched1 & H1).
    pose proof (abs_at s i _ Hw) as Habsw. cbn [ConcDetailed.abs_w] in Habsw.
    destruct (p_ok n s HI i _ Hw) as (Hg & Ht & Htr).
    pose proof (ok_guard n s y x HI Hg) as Hguard.
    destruct (rowsync_reads_serial V v0 f mbW mbH HmbW n sched1 (abs s) i y x tl l H1 Habsw Hguard) as (A & B & C & D).
    change (top V (abs s)) with (d_top V s) in A, B.
    assert (Et : t = P V v0 f mbW y x) by (rewrite Ht, A; reflexivity).
    split; [exact Et|]. split.
    - intros Hlt. rewrite Htr. replace (S x <? mbW) with true by (symmetry; apply Nat.ltb_lt; exact Hlt). rewrite (B Hlt). reflexivity.
    - pose proof (step_value V v0 f mbW mbH HmbW n (abs s) i y x tl l (abs_inv n s HI) Habsw Hguard) as Hv.
      change (top V (abs s)) with (d_top V s) in Hv. rewrite <- Ht, <- Htr in Hv. exact Hv.
  Qed.

End Proofs.
