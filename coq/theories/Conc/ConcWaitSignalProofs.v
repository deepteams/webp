(** C10, layer L2 — proofs about the waitFor / signal protocol (ConcWaitSignal.v):
    an inductive invariant of all reachable states, for any row width, any number of
    waiters and any schedule, giving
      - waitFor returns only when done >= needed                      (safety),
      - no lost wake-up: a waiter that is asleep in cond.Wait (or committed to it)
        while done >= needed always has a Broadcast of the signaller pending,
      - the protocol never deadlocks (some step is enabled until everybody is done). *)
From Coq Require Import List Arith Lia Bool.
From Webp Require Import Conc.ConcShared Conc.ConcWaitSignal.
From Webp Require Conc.ConcDetailed.
From Webp Require Import Base.ListFacts.
Import ConcDetailed(wph(..)).   (* only the names of the phases of waitFor *)
Import ListNotations.

Section Proofs.
  Variable mbW : nat.

  Notation step := (step mbW).
  Notation step_sig := (step_sig mbW).
  Notation run := (run mbW).
  Notation init := (init mbW).
  Notation next_sig := (next_sig mbW).

  (** a waiter's pc is a phase of the waitFor automaton
      (ConcShared.wstep) with the call's argument, or [WIdle] between calls *)
  Definition phase (p : wpc) : option wph :=
    match p with
    | WIdle => None
    | WFast _ => Some PFast | WInc _ => Some PInc | WLock _ => Some PLock | WCheck _ => Some PCheck
    | WWaitCall _ => Some PWaitCall | WSleep _ => Some PSleep | WWoken _ => Some PWoken
    | WUnlock _ => Some PUnlock | WDec _ => Some PDec
    end.

  Definition pc_nd (p : wpc) : nat :=
    match p with
    | WIdle => 0
    | WFast nd | WInc nd | WLock nd | WCheck nd | WWaitCall nd | WSleep nd | WWoken nd
    | WUnlock nd | WDec nd => nd
    end.

  Definition pc_of (nd : nat) (o : option wph) : wpc :=
    match o with
    | None => WIdle
    | Some PFast => WFast nd | Some PInc => WInc nd | Some PLock => WLock nd | Some PCheck => WCheck nd
    | Some PWaitCall => WWaitCall nd | Some PSleep => WSleep nd | Some PWoken => WWoken nd
    | Some PUnlock => WUnlock nd | Some PDec => WDec nd
    end.

  Lemma phase_pc_of nd o : phase (pc_of nd o) = o.
  Proof. destruct o as [[]|]; reflexivity. Qed.
  Lemma pc_nd_pc_of nd ph : pc_nd (pc_of nd (Some ph)) = nd.
  Proof. destruct ph; reflexivity. Qed.
  Lemma pc_nd_pc_of_le nd o : pc_nd (pc_of nd o) <= nd.
  Proof. destruct o as [ph|]; [rewrite pc_nd_pc_of|cbn]; lia. Qed.

  Lemma step_w_spec s j w : nth_error (ws s) j = Some w ->
    step_w s j =
    match phase (pc w) with
    | None => match todo w with
              | [] => None
              | nd :: rest => Some (mkSt (done s) (nwait s) (mu s) (sig s) (setw s j (WFast nd) rest))
              end
    | Some ph =>
        match wstep (done s) (nwait s) (mu s) (OW j) (pc_nd (pc w)) ph with
        | Some (o, nw', m') => Some (mkSt (done s) nw' m' (sig s) (setw s j (pc_of (pc_nd (pc w)) o) (todo w)))
        | None => None
        end
    end.
  Proof.
    intros Hw. unfold step_w. rewrite Hw.
    destruct (pc w) as [|nd|nd|nd|nd|nd|nd|nd|nd|nd]; cbn [phase pc_nd wstep]; try reflexivity.
    - destruct (nd <=? done s); reflexivity.
    - destruct (mu s); reflexivity.
    - destruct (done s <? nd); reflexivity.
    - destruct (mu s); reflexivity.
  Qed.

  Definition pending (p : spc) : bool :=
    match p with SLoad _ | SLock _ | SUnlock _ | SBcast _ => true | _ => false end.
  Definition load_lock (p : spc) : bool :=
    match p with SLoad _ | SLock _ => true | _ => false end.
  Definition is_unlock (p : spc) : bool := match p with SUnlock _ => true | _ => false end.

  (** where the signaller must be for a waiter in phase [ph] to be woken for sure
      (cf. [ConcDetailedLive.okphase]) *)
  Definition sig_wakes (ph : wph) (p : spc) : bool :=
    match ph with PWaitCall => load_lock p | PSleep => pending p | _ => false end.

  (** [done] against the signaller's pc: [SStore d'] is about to store [d'], so [done] is
      still [d' - 1]; from [SLoad d'] on the store has happened *)
  Definition sig_at (d : nat) (p : spc) : Prop :=
    match p with
    | SStore d' => S d = d' /\ d' <= mbW
    | SLoad d' | SLock d' | SUnlock d' | SBcast d' => d = d' /\ 1 <= d' <= mbW
    | SDone => d = mbW
    end.

  Lemma next_sig_spec d : next_sig d = SStore (S d) /\ d < mbW \/ next_sig d = SDone /\ mbW <= d.
  Proof. unfold ConcWaitSignal.next_sig. destruct (d <? mbW) eqn:E; [left|right];
    [apply Nat.ltb_lt in E|apply Nat.ltb_ge in E]; auto. Qed.

  Definition wcnt (w : wproc) : nat := cnt (phase (pc w)).

  (** [v_cnt]: the counter is the number of waiters between increment and decrement;
      [v_mu_w], [v_mu_s]: the mutex owner is the process in a holding phase; [v_wake]: a waiter
      asleep (or committed to cond.Wait) whose condition holds has the signaller before its
      Broadcast (before its Lock). *)
  Record Inv (s : st) : Prop := {
    v_cnt : nwait s = sumg wcnt (ws s);
    v_mu_w : forall j w, nth_error (ws s) j = Some w ->
               (hld (phase (pc w)) = true <-> mu s = Some (OW j));
    v_mu_range : forall j, mu s = Some (OW j) -> j < length (ws s);
    v_mu_s : mu s = Some OSig <-> is_unlock (sig s) = true;
    v_sig : sig_at (done s) (sig s);
    v_ret : forall j w ph, nth_error (ws s) j = Some w -> phase (pc w) = Some ph ->
              passed ph = true -> pc_nd (pc w) <= done s;
    v_wake : forall j w ph, nth_error (ws s) j = Some w -> phase (pc w) = Some ph ->
              asleepish ph = true -> pc_nd (pc w) <= done s -> sig_wakes ph (sig s) = true;
    v_nd : forall j w, nth_error (ws s) j = Some w ->
              pc_nd (pc w) <= mbW /\ Forall (fun nd => nd <= mbW) (todo w) }.

  Lemma init_inv calls : Forall (Forall (fun nd => nd <= mbW)) calls -> Inv (init calls).
  Proof.
    intros Hc. unfold ConcWaitSignal.init.
    assert (Hidle : forall j w, nth_error (map (fun c => mkW WIdle c) calls) j = Some w ->
                     pc w = WIdle /\ In (todo w) calls).
    { intros j w H. destruct (nth_error_map_inv _ _ _ _ H) as (c & Hj & ->).
      split; [reflexivity|]. eapply nth_error_In; eauto. }
    constructor; cbn [done nwait mu sig ws].
    - rewrite sumg_map. clear. induction calls as [|c calls IH]; [reflexivity|exact IH].
    - intros j w H. destruct (Hidle j w H) as [-> _]. cbn. split; discriminate.
    - discriminate.
    - destruct (mbW =? 0); cbn; split; discriminate.
    - destruct (mbW =? 0) eqn:E; cbn; [apply Nat.eqb_eq in E|apply Nat.eqb_neq in E]; lia.
    - intros j w ph H Hp. destruct (Hidle j w H) as [E _]. rewrite E in Hp. discriminate.
    - intros j w ph H Hp. destruct (Hidle j w H) as [E _]. rewrite E in Hp. discriminate.
    - intros j w H. destruct (Hidle j w H) as [-> Hin]. cbn. split; [lia|].
      rewrite Forall_forall in Hc. exact (Hc _ Hin).
  Qed.

  Lemma counted_pos s j w ph : Inv s -> nth_error (ws s) j = Some w -> phase (pc w) = Some ph ->
    counted ph = true -> 1 <= nwait s.
  Proof.
    intros HI Hw Hp Hc. rewrite (v_cnt s HI). pose proof (sumg_ge wcnt _ _ _ Hw) as H.
    unfold wcnt in H. rewrite Hp in H. cbn in H. rewrite Hc in H. exact H.
  Qed.

  Lemma sig_frame s d' mu' sg' :
    Inv s -> done s <= d' ->
    (forall k, mu' = Some (OW k) <-> mu s = Some (OW k)) ->
    (mu' = Some OSig <-> is_unlock sg' = true) ->
    sig_at d' sg' ->
    (forall j w ph, nth_error (ws s) j = Some w -> phase (pc w) = Some ph ->
       asleepish ph = true -> sig_wakes ph sg' = true) ->
    Inv (mkSt d' (nwait s) mu' sg' (ws s)).
  Proof.
    intros HI Hd Hmu Hmus Hsig Hab. constructor; cbn [done nwait mu sig ws].
    - apply (v_cnt s HI).
    - intros j w H. rewrite (v_mu_w s HI j w H). symmetry. apply Hmu.
    - intros j Hj. apply (v_mu_range s HI). apply Hmu. exact Hj.
    - exact Hmus.
    - exact Hsig.
    - intros j w ph H Hp Hpa. pose proof (v_ret s HI j w ph H Hp Hpa). lia.
    - intros j w ph H Hp Ha _. exact (Hab j w ph H Hp Ha).
    - apply (v_nd s HI).
  Qed.

  (** [wake] only turns [WSleep] into [WWoken]: weight, hold, argument and call list stay *)
  Lemma wake_keeps w :
    wcnt (wake w) = wcnt w /\ hld (phase (pc (wake w))) = hld (phase (pc w)) /\
    pc_nd (pc (wake w)) = pc_nd (pc w) /\ todo (wake w) = todo w /\
    (forall ph, phase (pc (wake w)) = Some ph -> ph <> PWoken -> phase (pc w) = Some ph /\ ph <> PSleep).
  Proof.
    unfold wake, wcnt. destruct (pc w) eqn:E; cbn [pc todo]; rewrite ?E; repeat (split; [reflexivity|]); cbn;
      intros ph H Hnw; inversion H; subst; try (split; [reflexivity|discriminate]). congruence.
  Qed.

  Lemma step_sig_inv s s' : Inv s -> step_sig s = Some s' -> Inv s'.
  Proof.
    intros HI Hs. unfold ConcWaitSignal.step_sig in Hs.
    pose proof (v_sig s HI) as Hsig. pose proof (v_mu_s s HI) as Hmus.
    (* a waiter committed to cond.Wait holds the mutex *)
    assert (Hcommitted : forall j w, nth_error (ws s) j = Some w -> phase (pc w) = Some PWaitCall ->
              mu s = Some (OW j)).
    { intros j w H Hp. apply (v_mu_w s HI j w H). rewrite Hp. reflexivity. }
    destruct (sig s) as [d|d|d|d|d|] eqn:Esig; try discriminate; cbn [sig_at is_unlock] in Hsig, Hmus.
    - inversion Hs; subst s'; clear Hs.
      apply (sig_frame s d (mu s) (SLoad d) HI); cbn [sig_at is_unlock]; [lia|tauto|tauto|lia|].
      intros j w ph _ _ Ha. exact Ha.
    - (* SLoad d: without a counted waiter nobody is asleep or about to be *)
      inversion Hs; subst s'; clear Hs.
      apply (sig_frame s (done s) (mu s) _ HI); [lia|tauto| | |].
      + destruct (0 <? nwait s); [|destruct (next_sig_spec d) as [[-> _]|[-> _]]]; cbn; tauto.
      + destruct (0 <? nwait s); [|destruct (next_sig_spec d) as [[-> Hlt]|[-> Hge]]]; cbn; lia.
      + intros j w ph H Hp Ha. destruct (0 <? nwait s) eqn:E; [destruct ph; try discriminate Ha; reflexivity|].
        apply Nat.ltb_ge in E. pose proof (counted_pos s j w ph HI H Hp) as Hpos.
        destruct ph; try discriminate Ha; specialize (Hpos eq_refl); lia.
    - destruct (mu s) as [o|] eqn:Emu; [discriminate|]. inversion Hs; subst s'; clear Hs.
      apply (sig_frame s (done s) (Some OSig) (SUnlock d) HI); cbn [sig_at is_unlock]; [lia| |tauto|lia|].
      + intros k. rewrite Emu. split; discriminate.
      + intros j w ph H Hp Ha. destruct ph; try discriminate Ha; [|reflexivity].
        pose proof (Hcommitted j w H Hp). congruence.
    - inversion Hs; subst s'; clear Hs.
      assert (Emu : mu s = Some OSig) by (apply Hmus; reflexivity).
      apply (sig_frame s (done s) None (SBcast d) HI); cbn [sig_at is_unlock]; [lia| | |lia|].
      + intros k. rewrite Emu. split; discriminate.
      + split; discriminate.
      + intros j w ph H Hp Ha. destruct ph; try discriminate Ha; [|reflexivity].
        pose proof (Hcommitted j w H Hp). congruence.
    - (* SBcast d: every sleeper becomes [WWoken]; nobody is committed, by [v_wake] *)
      inversion Hs; subst s'; clear Hs. destruct Hsig as [Hd Hle].
      assert (Hwk : forall j w', nth_error (map wake (ws s)) j = Some w' ->
                 exists w, nth_error (ws s) j = Some w /\ w' = wake w)
        by (intros j w' H; exact (nth_error_map_inv _ _ _ _ H)).
      constructor; cbn [done nwait mu sig ws].
      + rewrite (v_cnt s HI), sumg_map. apply sumg_ext. intros w. symmetry. apply (wake_keeps w).
      + intros j w' H. destruct (Hwk j w' H) as (w & Hw & ->). destruct (wake_keeps w) as (_ & -> & _).
        exact (v_mu_w s HI j w Hw).
      + intros j Hj. rewrite map_length. apply (v_mu_range s HI j Hj).
      + rewrite Hmus. destruct (next_sig_spec d) as [[-> _]|[-> _]]; cbn; tauto.
      + destruct (next_sig_spec d) as [[-> Hlt]|[-> Hge]]; cbn; lia.
      + intros j w' ph H Hp Hpa. destruct (Hwk j w' H) as (w & Hw & ->). destruct (wake_keeps w) as (_ & _ & -> & _ & Hph).
        destruct (Hph ph Hp) as [Hp0 _]; [intros ->; discriminate|]. exact (v_ret s HI j w ph Hw Hp0 Hpa).
      + intros j w' ph H Hp Ha Hnd. exfalso. destruct (Hwk j w' H) as (w & Hw & ->).
        destruct (wake_keeps w) as (_ & _ & Hn & _ & Hph).
        destruct (Hph ph Hp) as [Hp0 Hns]; [intros ->; discriminate|]. rewrite Hn in Hnd.
        pose proof (v_wake s HI j w ph Hw Hp0 Ha Hnd) as Hok. rewrite Esig in Hok.
        destruct ph; try discriminate Ha; [discriminate Hok|congruence].
      + intros j w' H. destruct (Hwk j w' H) as (w & Hw & ->). destruct (wake_keeps w) as (_ & _ & -> & -> & _).
        exact (v_nd s HI j w Hw).
  Qed.

  (** A waiter step rewrites only its own entry, moves
      the counter with its phase and the mutex with its holding. *)
  Lemma waiter_step_inv s j w p' t' nw' mu' :
    Inv s -> nth_error (ws s) j = Some w ->
    nw' + cnt (phase (pc w)) = nwait s + cnt (phase p') ->
    mu_mode (mu s) mu' (OW j) (hld (phase (pc w)) = true) (hld (phase p') = true) ->
    (forall ph, phase p' = Some ph -> passed ph = true -> pc_nd p' <= done s) ->
    (forall ph, phase p' = Some ph -> asleepish ph = true -> pc_nd p' <= done s -> sig_wakes ph (sig s) = true) ->
    pc_nd p' <= mbW -> Forall (fun nd => nd <= mbW) t' ->
    Inv (mkSt (done s) nw' mu' (sig s) (setw s j p' t')).
  Proof.
    intros HI Hw Hcnt Hmode Hret Hab Hnd Ht.
    destruct (mutex_mode _ _ _ _ _ (v_mu_w s HI j w Hw) Hmode) as [Hme Hoth].
    assert (Hk : forall k, k <> j -> (mu' = Some (OW k) <-> mu s = Some (OW k)))
      by (intros k Hne; apply Hoth; congruence).
    unfold setw. rewrite set_nth_W.
    constructor; cbn [done nwait mu sig ws].
    - pose proof (sumg_set_nth wcnt (ws s) j w (mkW p' t') Hw) as Hn.
      change (wcnt w) with (cnt (phase (pc w))) in Hn. change (wcnt (mkW p' t')) with (cnt (phase p')) in Hn.
      rewrite <- (v_cnt s HI) in Hn. lia.
    - intros k wk H. destruct (set_nth_inv _ _ _ _ _ H) as [[-> ->]|[Hne H0]]; [exact Hme|].
      rewrite (v_mu_w s HI k wk H0). symmetry. exact (Hk k Hne).
    - intros k H. rewrite set_nth_length. destruct (Nat.eq_dec k j) as [->|Hne]; [exact (nth_error_lt _ _ _ Hw)|].
      apply (v_mu_range s HI). apply Hk; assumption.
    - rewrite (Hoth OSig) by discriminate. apply (v_mu_s s HI).
    - apply (v_sig s HI).
    - intros k wk ph H. destruct (set_nth_inv _ _ _ _ _ H) as [[-> ->]|[Hne H0]]; [apply Hret|exact (v_ret s HI k wk ph H0)].
    - intros k wk ph H. destruct (set_nth_inv _ _ _ _ _ H) as [[-> ->]|[Hne H0]]; [apply Hab|exact (v_wake s HI k wk ph H0)].
    - intros k wk H. destruct (set_nth_inv _ _ _ _ _ H) as [[-> ->]|[Hne H0]]; [split; assumption|exact (v_nd s HI k wk H0)].
  Qed.

  Lemma step_w_inv s j s' : Inv s -> step_w s j = Some s' -> Inv s'.
  Proof.
    intros HI Hs.
    destruct (nth_error (ws s) j) as [w|] eqn:Hw; [|unfold step_w in Hs; rewrite Hw in Hs; discriminate].
    rewrite (step_w_spec s j w Hw) in Hs. destruct (v_nd s HI j w Hw) as [Hnd Htodo].
    destruct (phase (pc w)) as [ph|] eqn:Eph.
    - (* inside a call: the side conditions are the facts about [wstep] *)
      destruct (wstep (done s) (nwait s) (mu s) (OW j) (pc_nd (pc w)) ph) as [[[o nw'] m']|] eqn:Hws; [|discriminate].
      inversion Hs; subst s'; clear Hs.
      apply (waiter_step_inv s j w _ _ _ _ HI Hw); rewrite ?phase_pc_of, ?Eph.
      + apply (wstep_count _ _ _ _ _ _ _ _ _ Hws). intros ->. exact (counted_pos s j w PDec HI Hw Eph eq_refl).
      + exact (wstep_mutex _ _ _ _ _ _ _ _ _ Hws).
      + intros ph' -> Hp. pose proof (wstep_passed _ _ _ _ _ _ _ _ _ Hws (v_ret s HI j w ph Hw Eph)) as H.
        cbn in H. rewrite pc_nd_pc_of. exact (H Hp).
      + intros ph' -> Ha. rewrite pc_nd_pc_of. intros Hle.
        pose proof (wstep_asleep _ _ _ _ _ _ _ _ _ Hws) as H. cbn in H.
        destruct (H Ha) as [[-> Hlt]|[-> ->]]; [lia|].
        (* falls asleep: the signaller was before its Lock, so the Broadcast is still to come *)
        pose proof (v_wake s HI j w PWaitCall Hw Eph eq_refl Hle) as Hok. cbn in *. destruct (sig s); cbn in *; congruence.
      + pose proof (pc_nd_pc_of_le (pc_nd (pc w)) o). lia.
      + exact Htodo.
    - destruct (todo w) as [|nd rest] eqn:Et; [discriminate|]. inversion Hs; subst s'; clear Hs.
      inversion Htodo; subst.
      apply (waiter_step_inv s j w (WFast nd) rest _ _ HI Hw); rewrite ?Eph; cbn; auto;
        [apply mu_mode_same; reflexivity|intros ph E; inversion E; discriminate..].
  Qed.

  Lemma step_inv s l s' : Inv s -> step s l = Some s' -> Inv s'.
  Proof. destruct l as [|j]; cbn [ConcWaitSignal.step]; [apply step_sig_inv|apply step_w_inv]. Qed.

  Theorem l2_inv : forall calls sched s,
    Forall (Forall (fun nd => nd <= mbW)) calls ->
    run (init calls) sched = Some s -> Inv s.
  Proof.
    intros calls sched s Hc Hr.
    exact (orun_invariant _ _ step Inv step_inv sched _ s (init_inv calls Hc) Hr).
  Qed.

  (** Safety: waitFor returns only when done >= needed. *)
  Definition in_call (p : wpc) : bool := match p with WIdle => false | _ => true end.

  Theorem waitfor_returns_only_when_done : forall calls sched s j s' w w',
    Forall (Forall (fun nd => nd <= mbW)) calls ->
    run (init calls) sched = Some s -> step s (LWt j) = Some s' ->
    nth_error (ws s) j = Some w -> nth_error (ws s') j = Some w' ->
    in_call (pc w) = true -> pc w' = WIdle ->
    pc_nd (pc w) <= done s'.
  Proof.
    intros calls sched s j s' w w' Hc Hr Hs Hw Hw' Hin Hret.
    pose proof (l2_inv calls sched s Hc Hr) as HI.
    cbn [ConcWaitSignal.step] in Hs. rewrite (step_w_spec s j w Hw) in Hs.
    destruct (phase (pc w)) as [ph|] eqn:Eph; [|destruct (pc w); discriminate].
    destruct (wstep (done s) (nwait s) (mu s) (OW j) (pc_nd (pc w)) ph) as [[[o nw'] m']|] eqn:Hws; [|discriminate].
    inversion Hs; subst s'; cbn [ws done] in *. unfold setw in Hw'.
    rewrite set_nth_W, set_nth_eq in Hw' by exact (nth_error_lt _ _ _ Hw). inversion Hw'; subst w'. cbn [pc] in Hret.
    pose proof (wstep_passed _ _ _ _ _ _ _ _ _ Hws (v_ret s HI j w ph Hw Eph)) as H.
    destruct o as [ph'|]; [destruct ph'; discriminate|exact H].
  Qed.

  (** No lost wake-up. *)
  Theorem no_lost_wakeup : forall calls sched s j w nd,
    Forall (Forall (fun nd => nd <= mbW)) calls ->
    run (init calls) sched = Some s -> nth_error (ws s) j = Some w ->
    nd <= done s ->
    (pc w = WSleep nd -> pending (sig s) = true) /\
    (pc w = WWaitCall nd -> load_lock (sig s) = true /\ mu s = Some (OW j)).
  Proof.
    intros calls sched s j w nd Hc Hr Hw Hnd. pose proof (l2_inv calls sched s Hc Hr) as HI. split.
    - intros Hp. apply (v_wake s HI j w PSleep Hw); rewrite ?Hp; auto.
    - intros Hp. split; [apply (v_wake s HI j w PWaitCall Hw); rewrite ?Hp; auto|].
      apply (v_mu_w s HI j w Hw). rewrite Hp. reflexivity.
  Qed.

  (** The Broadcast step leaves no waiter asleep. *)
  Theorem broadcast_wakes_all : forall s d s', sig s = SBcast d -> step s LS = Some s' ->
    forall j w', nth_error (ws s') j = Some w' -> forall nd, pc w' <> WSleep nd.
  Proof.
    intros s d s' Hsig Hs j w' Hw' nd. cbn [ConcWaitSignal.step] in Hs.
    unfold ConcWaitSignal.step_sig in Hs. rewrite Hsig in Hs. inversion Hs; subst s'. cbn [ws] in Hw'.
    destruct (nth_error_map_inv _ _ _ _ Hw') as (w & _ & ->). intros E.
    destruct (wake_keeps w) as (_ & _ & _ & _ & Hph). rewrite E in Hph.
    destruct (Hph PSleep eq_refl ltac:(discriminate)) as [_ Hns]. exact (Hns eq_refl).
  Qed.

  Lemma waiter_enabled s j w : nth_error (ws s) j = Some w ->
    match phase (pc w) with
    | None => todo w <> []
    | Some ph => ph <> PSleep /\ (ph = PLock \/ ph = PWoken -> mu s = None)
    end -> step s (LWt j) <> None.
  Proof.
    intros Hw Hc. cbn [ConcWaitSignal.step]. rewrite (step_w_spec s j w Hw).
    destruct (phase (pc w)) as [ph|].
    - destruct Hc as [H1 H2]. pose proof (wstep_enabled (done s) (nwait s) (mu s) (OW j) (pc_nd (pc w)) ph H1 H2) as H.
      destruct (wstep (done s) (nwait s) (mu s) (OW j) (pc_nd (pc w)) ph) as [[[o nw'] m']|]; [discriminate|exfalso; exact (H eq_refl)].
    - destruct (todo w); [contradiction|discriminate].
  Qed.

  (** the holder is the signaller at its Unlock or a waiter in a holding phase *)
  Lemma holder_enabled s o : Inv s -> mu s = Some o -> exists l, step s l <> None.
  Proof.
    intros HI Hm. destruct o as [|k].
    - exists LS. apply (v_mu_s s HI) in Hm. cbn [ConcWaitSignal.step]. unfold ConcWaitSignal.step_sig.
      destruct (sig s); try discriminate Hm. discriminate.
    - pose proof (v_mu_range s HI k Hm) as Hk.
      destruct (nth_error (ws s) k) as [w|] eqn:Hw; [|apply nth_error_None in Hw; lia].
      exists (LWt k). apply (waiter_enabled s k w Hw). apply (v_mu_w s HI k w Hw) in Hm.
      destruct (phase (pc w)) as [ph|]; [|discriminate Hm].
      destruct ph; try discriminate Hm; (split; [discriminate|intros [H|H]; discriminate H]).
  Qed.

  Theorem l2_deadlock_free : forall calls sched s,
    Forall (Forall (fun nd => nd <= mbW)) calls ->
    run (init calls) sched = Some s -> finished s = false -> exists l, step s l <> None.
  Proof.
    intros calls sched s Hc Hr Hnf. pose proof (l2_inv calls sched s Hc Hr) as HI.
    (* if the mutex is taken its holder moves; so assume it is free *)
    destruct (mu s) as [o|] eqn:Emu; [exact (holder_enabled s o HI Emu)|].
    destruct (sig s) as [d|d|d|d|d|] eqn:Esig.
    1-5: exists LS; cbn [ConcWaitSignal.step]; unfold ConcWaitSignal.step_sig; rewrite Esig, ?Emu; discriminate.
    (* SDone: done = mbW; some waiter is unfinished, and it is not asleep *)
    pose proof (v_sig s HI) as Hsig. rewrite Esig in Hsig. cbn in Hsig.
    unfold finished in Hnf. rewrite Esig in Hnf. cbn [andb] in Hnf.
    assert (Hex : exists j w, nth_error (ws s) j = Some w /\ w_finished w = false).
    { clear -Hnf. induction (ws s) as [|h tl IH]; cbn in Hnf; [discriminate|].
      destruct (w_finished h) eqn:E.
      - destruct (IH Hnf) as (j & w & Hj & Hw). exists (S j), w. auto.
      - exists 0, h. auto. }
    destruct Hex as (j & w & Hw & Hwf). exists (LWt j). apply (waiter_enabled s j w Hw).
    destruct (phase (pc w)) as [ph|] eqn:Eph.
    - split; [|intros _; exact Emu]. intros ->.
      destruct (v_nd s HI j w Hw) as [Hnd _].
      pose proof (v_wake s HI j w PSleep Hw Eph eq_refl ltac:(lia)) as Hp. rewrite Esig in Hp. discriminate.
    - unfold w_finished in Hwf. destruct (pc w); try discriminate Eph. destruct (todo w); [discriminate|discriminate].
  Qed.

End Proofs.

(** Not vacuous: the encoder's situation for one row of width 3 — the worker of the
    row below calls waitFor(2), waitFor(3), waitFor(3) and the recorder waitFor(3) —
    under a schedule that drives the first waiter into cond.Wait and has it woken by
    the broadcast of signal(2). *)
Example l2_run_example :
  exists s, ConcWaitSignal.run 3 (ConcWaitSignal.init 3 [[2; 3; 3]; [3]])
      [LWt 0; LWt 0; LWt 0; LWt 0; LWt 0;  (* call, fast check fails, inc, lock, check: done 0 < 2 *)
       LS;                                 (* signal(1): store *)
       LWt 0;                              (* cond.Wait: unlock + sleep *)
       LS; LS; LS; LS;                     (* load (waiters = 1), lock, unlock, broadcast *)
       LWt 0; LWt 0;                       (* woken: re-lock, re-check: 1 < 2 *)
       LS;                                 (* signal(2): store — the waiter holds the mutex *)
       LWt 0;                              (* cond.Wait although done = 2 >= needed: the critical window *)
       LS; LS; LS; LS]                     (* load, lock, unlock, broadcast: wakes it *)
      = Some s /\
    exists w, nth_error (ws s) 0 = Some w /\ pc w = WWoken 2 /\ ConcWaitSignal.done s = 2.
Proof. eexists. split; [vm_compute; reflexivity|]. eexists. repeat split. Qed.
