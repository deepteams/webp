(** C17 at the container level: the parser on a prefix of a still file it accepts.
    [prefix_all_or_nothing] (repaired parser): on every proper prefix the parser returns an
    error or exactly the same result (same features, same frame payload and alpha bytes);
    hence GetFeatures, DecodeConfig and the Decode glue (for any codec) fail or agree with
    the complete file.  [features_prefix_refuted] (pinned parser): false there; cutting a
    VP8X file between the VP8X chunk and the image chunk makes the parser succeed with no
    frame. *)
From Coq Require Import List ZArith Lia Bool.
From Coq Require Import ZifyBool ZifyNat.
From Webp Require Import Base.Res Base.Bytes Riff.ParserModel Riff.ParserLemmas Riff.FeaturesModel.
Import ListNotations.
Open Scope Z_scope.

Definition proper_prefix {A} (p bs : list A) : Prop := exists s, s <> [] /\ bs = p ++ s.

Definition prefix_all_or_nothing_statement (fix_noimage : bool) : Prop :=
  forall bs p r, parse_ex fix_noimage bs = Ok (r, KStill) -> proper_prefix p bs ->
    (exists e, parse_ex fix_noimage p = Err e) \/ parse_ex fix_noimage p = Ok (r, KStill).

(** the parser on a prefix of a still it accepts: an error, the same result, or -- pinned
    variant only -- success with no frame (the chunk list ended before the image chunk) *)
Definition prefix_outcome (fx : bool) (r : Parsed) (res : Res (Parsed * Kind)) : Prop :=
  (exists e, res = Err e) \/ res = Ok (r, KStill) \/
  (fx = false /\ exists r', res = Ok (r', KList) /\ pFrames r' = [] /\ fHasAnim (pFeat r') = false).

Lemma outcome_err fx r e : prefix_outcome fx r (Err e).
Proof. left. exists e. reflexivity. Qed.

Lemma outcome_same fx r : prefix_outcome fx r (Ok (r, KStill)).
Proof. right; left. reflexivity. Qed.

Lemma outcome_no_image r feat chunks : fHasAnim feat = false ->
  prefix_outcome false r (Ok (mkParsed feat [] chunks, KList)).
Proof. intros H. right; right. split; [reflexivity|]. eexists. split; [reflexivity|]. split; [reflexivity|exact H]. Qed.

Lemma outcome_still fx r (x y : Res Parsed) :
  (forall r0, x = Ok r0 -> (exists e, y = Err e) \/ y = Ok r0) ->
  (r0 <- x ;; Ok (r0, KStill)) = Ok (r, KStill) ->
  prefix_outcome fx r (r0 <- y ;; Ok (r0, KStill)).
Proof.
  intros Hxy H. destruct x as [r0|e|]; cbn [bind] in H; try discriminate. injection H as ->.
  destruct (Hxy _ eq_refl) as [[e ->]| ->]; cbn [bind]; [apply outcome_err|apply outcome_same].
Qed.

Lemma ext_single_prefix : forall fuel1 fuel2 feat frames chunks alph p s r,
  parse_ext_single fuel1 feat frames chunks alph (p ++ s) = Ok r ->
  (length p < fuel2)%nat ->
  (exists e, parse_ext_single fuel2 feat frames chunks alph p = Err e) \/
  parse_ext_single fuel2 feat frames chunks alph p = Ok r.
Proof.
  induction fuel1 as [|fuel1 IH]; intros fuel2 feat frames chunks alph p s r H Hf; [discriminate|].
  destruct fuel2 as [|fuel2]; [lia|].
  cbn [parse_ext_single] in *.
  destruct (len (p ++ s) <? ChunkHeaderSize) eqn:E8; [discriminate|].
  destruct (chunk_at (p ++ s)) as [[[[f sz] tot] pl]|e|] eqn:Ec; cbn [bind] in H; try discriminate.
  destruct (chunk_at_prefix _ _ _ _ _ _ Ec) as [[Hle Ecp]|[Hlt Ecp]].
  2:{ left. destruct (len p <? ChunkHeaderSize); [eauto|]. rewrite Ecp. cbn [bind]. eauto. }
  destruct (chunk_at_ok_inv _ _ _ _ _ Ecp) as (_ & Hsz & Htot & _ & H8 & _).
  unfold ChunkHeaderSize. destruct (Z.ltb_spec (len p) 8) as [?|_]; [lia|].
  rewrite Ecp. cbn [bind].
  destruct (f =? FourCCALPH) eqn:EA.
  - destruct (rest_app p s tot ltac:(lia)) as [R1 R2]. rewrite R1 in H. rewrite R2. cbn [bind] in *.
    eapply IH; [exact H|]. rewrite skipn_length. unfold len in *. lia.
  - right. exact H.
Qed.

(** The body of parseVP8XChunks' loop with its two ways of going on left open: [image]
    (parseExtSingleImage on the buffer) and [next] (the iteration behind the chunk).  The
    choice depends on the buffer only through the chunk's header and payload. *)
Definition vp8x_body {T} (feat : Features) (frames : list FrameInfo) (chunks : list Chunk) (a : Z)
    (f sz : Z) (pl : list Z) (image : Res T)
    (next : Features -> list FrameInfo -> list Chunk -> Z -> Res T) : Res T :=
  if f =? FourCCVP8X then Err EInvalidChunk
  else if f =? FourCCANIM then
    if sz <? ANIMChunkSize then Err EInvalidChunk else
    bg <- slice pl 0 4 ;;
    lc <- slice pl 4 6 ;;
    next (set_anim feat (rd32 bg) (rd16 lc)) frames chunks (a + 1)
  else if f =? FourCCANMF then
    if a =? 0 then Err EInvalidChunk else
    if len frames >=? MaxFrames then Err EInvalidChunk else
    fr <- parse_anmf pl ;;
    next feat (frames ++ [fr]) chunks a
  else if is_image_fourcc f || (f =? FourCCALPH) then
    if (a >? 0) || fHasAnim feat then Err EInvalidChunk else image
  else if f =? FourCCICCP then
    cs <- add_meta (fHasICCP feat) sz f pl chunks ;; next feat frames cs a
  else if f =? FourCCEXIF then
    cs <- add_meta (fHasEXIF feat) sz f pl chunks ;; next feat frames cs a
  else if f =? FourCCXMP then
    cs <- add_meta (fHasXMP feat) sz f pl chunks ;; next feat frames cs a
  else
    if len chunks >=? MaxChunks then Err EInvalidChunk else
    if sz >? MaxMetadataSize then Err EInvalidChunk else
    next feat frames (chunks ++ [mkChunk f pl]) a.

Lemma chunks_step fuel fx feat frames chunks a buf :
  parse_vp8x_chunks (S fuel) fx feat frames chunks a buf =
  if len buf <? ChunkHeaderSize then
    if fx && negb (fHasAnim feat) && (len frames =? 0) then Err ETruncated
    else Ok (mkParsed feat frames chunks, KList)
  else
    '(f, sz, tot, pl) <- chunk_at buf ;;
    vp8x_body feat frames chunks a f sz pl
      (r <- parse_ext_single (S (length buf)) feat frames chunks None buf ;; Ok (r, KStill))
      (fun feat' frames' chunks' a' =>
         rest <- slice buf tot (len buf) ;; parse_vp8x_chunks fuel fx feat' frames' chunks' a' rest).
Proof. reflexivity. Qed.

(** Bodies with related continuations are related: the image is accepted only outside an
    animation; the loop goes on with one more ANIM chunk counted, or with the same features
    and, outside an animation, the same frames. *)
Lemma body_rel {T U} (R : Res T -> Res U -> Prop) feat frames chunks a f sz pl im1 nx1 im2 nx2 :
  (forall e, R (Err e) (Err e)) -> R Panic Panic ->
  (a <= 0 -> fHasAnim feat = false -> R im1 im2) ->
  (forall feat' frames' chunks' a',
     a' = a + 1 \/ (a' = a /\ feat' = feat /\ (a = 0 -> frames' = frames)) ->
     R (nx1 feat' frames' chunks' a') (nx2 feat' frames' chunks' a')) ->
  R (vp8x_body feat frames chunks a f sz pl im1 nx1) (vp8x_body feat frames chunks a f sz pl im2 nx2).
Proof.
  intros He Hp Hi Hn. unfold vp8x_body.
  assert (Hmeta : forall flag, R (cs <- add_meta flag sz f pl chunks ;; nx1 feat frames cs a)
                                 (cs <- add_meta flag sz f pl chunks ;; nx2 feat frames cs a)).
  { intros flag. destruct (add_meta flag sz f pl chunks); cbn [bind]; [apply Hn; right; auto|apply He|apply Hp]. }
  destruct (f =? FourCCVP8X); [apply He|].
  destruct (f =? FourCCANIM).
  { destruct (sz <? ANIMChunkSize); [apply He|].
    destruct (slice pl 0 4); cbn [bind]; [|apply He|apply Hp].
    destruct (slice pl 4 6); cbn [bind]; [|apply He|apply Hp]. apply Hn. left. reflexivity. }
  destruct (f =? FourCCANMF).
  { destruct (Z.eqb_spec a 0); [apply He|]. destruct (len frames >=? MaxFrames); [apply He|].
    destruct (parse_anmf pl); cbn [bind]; [|apply He|apply Hp].
    apply Hn. right. split; [reflexivity|]. split; [reflexivity|]. intros; contradiction. }
  destruct (is_image_fourcc f || (f =? FourCCALPH)).
  { destruct (Z.gtb_spec a 0); [apply He|]. destruct (fHasAnim feat); [apply He|]. apply Hi; [lia|reflexivity]. }
  destruct (f =? FourCCICCP); [apply Hmeta|].
  destruct (f =? FourCCEXIF); [apply Hmeta|].
  destruct (f =? FourCCXMP); [apply Hmeta|].
  destruct (len chunks >=? MaxChunks); [apply He|]. destruct (sz >? MaxMetadataSize); [apply He|].
  apply Hn. right. auto.
Qed.

(** a still result needs a clear animation flag and no ANIM chunk so far *)
Lemma chunks_still_inv : forall fuel fx feat frames chunks a buf r,
  parse_vp8x_chunks fuel fx feat frames chunks a buf = Ok (r, KStill) -> 0 <= a ->
  a = 0 /\ fHasAnim feat = false.
Proof.
  induction fuel as [|fuel IH]; intros fx feat frames chunks a buf r H Ha; [discriminate|].
  rewrite chunks_step in H.
  destruct (len buf <? ChunkHeaderSize).
  { destruct (fx && negb (fHasAnim feat) && (len frames =? 0)); discriminate. }
  destruct (chunk_at buf) as [[[[f sz] tot] pl]|e|]; cbn [bind] in H; try discriminate.
  revert H.
  apply (body_rel (fun x (_ : Res unit) => x = Ok (r, KStill) -> a = 0 /\ fHasAnim feat = false)
           feat frames chunks a f sz pl _ _ Panic (fun _ _ _ _ => Panic)); [discriminate|discriminate| |].
  - intros Ha0 Hanim _. split; [lia|exact Hanim].
  - intros feat' frames' chunks' a' Hst H.
    destruct (slice buf tot (len buf)); cbn [bind] in H; try discriminate.
    destruct Hst as [->|(-> & -> & _)]; apply IH in H; lia || exact H.
Qed.

Lemma chunks_prefix : forall fuel1 fuel2 fx feat chunks p s r,
  parse_vp8x_chunks fuel1 fx feat [] chunks 0 (p ++ s) = Ok (r, KStill) ->
  (length p < fuel2)%nat ->
  prefix_outcome fx r (parse_vp8x_chunks fuel2 fx feat [] chunks 0 p).
Proof.
  induction fuel1 as [|fuel1 IH]; intros fuel2 fx feat chunks p s r H Hf; [discriminate|].
  destruct fuel2 as [|fuel2]; [lia|].
  destruct (chunks_still_inv _ _ _ _ _ _ _ _ H ltac:(lia)) as [_ Hanim].
  rewrite chunks_step in H |- *.
  destruct (len (p ++ s) <? ChunkHeaderSize) eqn:E8.
  { destruct (fx && negb (fHasAnim feat) && (len (@nil FrameInfo) =? 0)); discriminate. }
  destruct (chunk_at (p ++ s)) as [[[[f sz] tot] pl]|e|] eqn:Ec; cbn [bind] in H; try discriminate.
  destruct (chunk_at_prefix _ _ _ _ _ _ Ec) as [[Hle Ecp]|[Hlt Ecp]].
  2:{ (* the chunk is cut: the loop stops at the end of the prefix, or the chunk is refused *)
      destruct (len p <? ChunkHeaderSize); [|rewrite Ecp; apply outcome_err].
      rewrite Hanim. destruct fx; [apply outcome_err|apply outcome_no_image; exact Hanim]. }
  destruct (chunk_at_ok_inv _ _ _ _ _ Ecp) as (_ & Hsz & Htot & _ & H8 & _).
  unfold ChunkHeaderSize in *. destruct (Z.ltb_spec (len p) 8) as [?|_]; [lia|].
  rewrite Ecp. cbn [bind]. revert H.
  apply (body_rel (fun x y => x = Ok (r, KStill) -> prefix_outcome fx r y)); [discriminate|discriminate| |].
  - intros _ _ H. eapply outcome_still; [|exact H]. intros r0 Ex.
    apply (ext_single_prefix _ (S (length p)) _ _ _ _ _ _ _ Ex). lia.
  - intros feat' frames' chunks' a' Hst H.
    destruct (rest_app p s tot ltac:(lia)) as [R1 R2]. rewrite R1 in H. rewrite R2. cbn [bind] in *.
    (* the loop goes on to a still: no ANIM chunk was counted, so state and frame list are unchanged *)
    destruct Hst as [->|(-> & -> & Hfr)]; [apply chunks_still_inv in H; lia|].
    rewrite (Hfr eq_refl) in *. eapply IH; [exact H|]. rewrite skipn_length. unfold len in *. lia.
Qed.

Lemma single_image_prefix fmt p s : forall r,
  parse_single_image fmt (p ++ s) = Ok r ->
  (exists e, parse_single_image fmt p = Err e) \/ parse_single_image fmt p = Ok r.
Proof.
  unfold parse_single_image. intros r H.
  destruct (chunk_at (p ++ s)) as [[[[f sz] tot] pl]|e|] eqn:Ec; cbn [bind] in H; try discriminate.
  destruct (chunk_at_prefix _ _ _ _ _ _ Ec) as [[Hle Ecp]|[Hlt Ecp]]; rewrite Ecp; cbn [bind]; eauto.
Qed.

Lemma vp8x_prefix fx p s r :
  parse_vp8x fx (p ++ s) = Ok (r, KStill) ->
  prefix_outcome fx r (parse_vp8x fx p).
Proof.
  unfold parse_vp8x. intros H.
  destruct (Z.lt_ge_cases (len p) 8) as [Hs|Hs].
  { rewrite read_chunk_header_short by exact Hs. apply outcome_err. }
  rewrite read_chunk_header_app in H by exact Hs.
  destruct (read_chunk_header p) as [[f sz]|e|]; cbn [bind] in *; try discriminate.
  destruct (Z.eqb_spec sz VP8XChunkSize) as [Hsz|]; cbn [negb] in *; [|discriminate]. subst sz.
  unfold ChunkHeaderSize, VP8XChunkSize in *. change (10 mod 2) with 0 in *. change (8 + (10 + 0)) with 18 in *.
  change (8 + 10) with 18 in *.
  destruct (Z.gtb_spec 18 (len (p ++ s))); [discriminate|].
  destruct (Z.gtb_spec 18 (len p)); [apply outcome_err|].
  rewrite slice_app in H by lia.
  destruct (slice p 8 18) as [pl|e|]; cbn [bind] in *; try discriminate.
  (* VP8X payload: flags, 3 reserved bytes, canvas width-1 and height-1; mask = ^AllValidFlags *)
  destruct pl as [|flags [|? [|? [|? [|w0 [|w1 [|w2 [|h0 [|h1 [|h2 [|? ?]]]]]]]]]]]; try discriminate.
  destruct (negb (Z.land flags 4294967233 =? 0)); [discriminate|].
  destruct ((1 + rd24 [w0; w1; w2]) * (1 + rd24 [h0; h1; h2]) >=? MaxImageArea); [discriminate|].
  destruct (rest_app p s 18 ltac:(lia)) as [R1 R2]. rewrite R1 in H. rewrite R2. cbn [bind] in *.
  eapply chunks_prefix; [exact H|]. lia.
Qed.

Lemma riff_header_app p s : 12 <= len p -> parse_riff_header (p ++ s) = parse_riff_header p.
Proof.
  intros H. unfold parse_riff_header, RIFFHeaderSize. rewrite len_app. pose proof (len_nonneg s).
  destruct (Z.ltb_spec (len p + len s) 12); [lia|].
  destruct (Z.ltb_spec (len p) 12); [lia|].
  rewrite !slice_app by lia. reflexivity.
Qed.

Lemma parse_ex_app fx p s r :
  parse_ex fx (p ++ s) = Ok (r, KStill) ->
  prefix_outcome fx r (parse_ex fx p).
Proof.
  unfold parse_ex. intros H.
  destruct (Z.lt_ge_cases (len p) 12) as [Hs|Hs].
  { unfold parse_riff_header, RIFFHeaderSize. destruct (Z.ltb_spec (len p) 12); [|lia]. apply outcome_err. }
  rewrite riff_header_app in H by exact Hs.
  destruct (parse_riff_header p) as [fs|e|]; cbn [bind] in *; [|apply outcome_err|discriminate].
  unfold ChunkHeaderSize, RIFFHeaderSize in *.
  pose proof (len_nonneg s) as Hsn.
  destruct (Z.gtb_spec (fs + 8) (len p)) as [Hg|Hg].
  2:{ (* the declared RIFF size ends inside the prefix: identical buffers *)
    destruct (Z.gtb_spec (fs + 8) (len (p ++ s))) as [Hg'|_]; [rewrite len_app in Hg'; lia|].
    rewrite slice_app in H by lia. rewrite H. apply outcome_same. }
  set (hiF := if fs + 8 >? len (p ++ s) then len (p ++ s) else fs + 8) in *.
  assert (HhiF : len p <= hiF <= len (p ++ s)).
  { subst hiF. rewrite len_app in *. destruct (Z.gtb_spec (fs + 8) (len p + len s)); lia. }
  rewrite slice_app_span in H by lia. cbn [bind] in H.
  rewrite slice_to_end by lia. cbn [bind].
  set (bp := skipn (Z.to_nat 12) p) in *. set (s' := firstn (Z.to_nat (hiF - len p)) s) in *.
  destruct (len (bp ++ s') <? 8) eqn:E8; [discriminate|].
  destruct (Z.ltb_spec (len bp) 8) as [Hb|Hb]; [apply outcome_err|].
  rewrite slice_app in H by lia.
  destruct (slice bp 0 4) as [t|e|]; cbn [bind] in *; try discriminate.
  destruct (rd32 t =? FourCCVP8X).
  { apply (vp8x_prefix _ _ _ _ H). }
  destruct (rd32 t =? FourCCVP8); [apply (outcome_still _ _ _ _ (single_image_prefix _ _ _) H)|].
  destruct (rd32 t =? FourCCVP8L); [apply (outcome_still _ _ _ _ (single_image_prefix _ _ _) H)|].
  discriminate.
Qed.

Theorem prefix_classified : forall fx bs p r,
  parse_ex fx bs = Ok (r, KStill) -> proper_prefix p bs -> prefix_outcome fx r (parse_ex fx p).
Proof.
  intros fx bs p r H (s & _ & ->). apply (parse_ex_app _ _ _ _ H).
Qed.

Theorem prefix_all_or_nothing : prefix_all_or_nothing_statement true.
Proof.
  intros bs p r H Hp. destruct (prefix_classified true bs p r H Hp) as [He|[Hs|[Hf _]]]; auto.
  discriminate.
Qed.

Lemma parse_of_parse_ex fx bs r k : parse_ex fx bs = Ok (r, k) -> parse fx bs = Ok r.
Proof. unfold parse. intros ->. reflexivity. Qed.

Lemma parse_prefix bs p r : parse_ex true bs = Ok (r, KStill) -> proper_prefix p bs ->
  (exists e, parse true p = Err e) \/ parse true p = parse true bs.
Proof.
  intros H Hp. rewrite (parse_of_parse_ex _ _ _ _ H).
  destruct (prefix_all_or_nothing bs p r H Hp) as [[e He]|He].
  - left. exists e. unfold parse. rewrite He. reflexivity.
  - right. apply (parse_of_parse_ex _ _ _ _ He).
Qed.

Theorem get_features_prefix : forall bs p r,
  parse_ex true bs = Ok (r, KStill) -> proper_prefix p bs ->
  (exists e, get_features true p = Err e) \/ get_features true p = get_features true bs.
Proof.
  intros bs p r H Hp. unfold get_features.
  destruct (parse_prefix bs p r H Hp) as [[e ->]| ->]; [left; cbn [bind]; eauto|right; reflexivity].
Qed.

Theorem decode_config_prefix : forall fa bs p r,
  parse_ex true bs = Ok (r, KStill) -> proper_prefix p bs ->
  (exists e, decode_config fa true p = Err e) \/ decode_config fa true p = decode_config fa true bs.
Proof.
  intros fa bs p r H Hp. unfold decode_config.
  destruct (parse_prefix bs p r H Hp) as [[e ->]| ->]; [left; cbn [bind]; eauto|right; reflexivity].
Qed.

(** Decode: whatever the three codecs are, a prefix is rejected or decodes to the
    very same image (the codecs are handed identical payload and alpha bytes). *)
Theorem decode_prefix : forall (Pix : Type) (lossy_dec lossless_dec : list Z -> Res (Z * Z * Pix))
    (alpha_dec : list Z -> Z -> Z -> Res Pix) bs p r img,
  parse_ex true bs = Ok (r, KStill) -> proper_prefix p bs ->
  decode_bytes lossy_dec lossless_dec alpha_dec true bs = Ok img ->
  (exists e, decode_bytes lossy_dec lossless_dec alpha_dec true p = Err e) \/
  decode_bytes lossy_dec lossless_dec alpha_dec true p = Ok img.
Proof.
  intros Pix ld ll ad bs p r img H Hp Hd. unfold decode_bytes in *.
  destruct (parse_prefix bs p r H Hp) as [[e ->]| ->]; [left; cbn [bind]; eauto|right; exact Hd].
Qed.

(** RIFF / VP8X (no flags, 1x1) / VP8 chunk holding a 10-byte key-frame header. *)
Definition wit_vp8x_vp8 : list Z :=
  [82; 73; 70; 70; 40; 0; 0; 0; 87; 69; 66; 80; 86; 80; 56; 88; 10; 0; 0; 0; 0; 0; 0; 0; 0; 0; 0; 0; 0; 0;
   86; 80; 56; 32; 10; 0; 0; 0; 0; 0; 0; 157; 1; 42; 1; 0; 1; 0].

(** RIFF / VP8X (ICC flag, 1x1) / ICCP (2 bytes) / VP8L header with the alpha bit clear. *)
Definition wit_vp8x_iccp_vp8l : list Z :=
  [82; 73; 70; 70; 46; 0; 0; 0; 87; 69; 66; 80; 86; 80; 56; 88; 10; 0; 0; 0; 32; 0; 0; 0; 0; 0; 0; 0; 0; 0;
   73; 67; 67; 80; 2; 0; 0; 0; 1; 2; 86; 80; 56; 76; 5; 0; 0; 0; 47; 0; 0; 0; 0; 0].

Lemma firstn_proper_prefix {A} (n : nat) (l : list A) : (n < length l)%nat -> proper_prefix (firstn n l) l.
Proof.
  intros H. exists (skipn n l). split.
  - intros E. apply (f_equal (@length A)) in E. rewrite skipn_length in E. cbn in E. lia.
  - symmetry. apply firstn_skipn.
Qed.

Example still_hypothesis_satisfiable :
  exists r, parse_ex true wit_vp8x_vp8 = Ok (r, KStill) /\ length (pFrames r) = 1%nat /\
            proper_prefix (firstn 30 wit_vp8x_vp8) wit_vp8x_vp8.
Proof.
  eexists. split; [vm_compute; reflexivity|]. split; [reflexivity|].
  apply firstn_proper_prefix. cbn. lia.
Qed.

(** Pinned parser: GetFeatures on the 30-byte prefix (cut right after the VP8X
    chunk) succeeds and reports no frame, the complete file reports one. *)
Theorem features_prefix_refuted :
  exists bs p r g g',
    parse_ex false bs = Ok (r, KStill) /\ proper_prefix p bs /\
    get_features false bs = Ok g /\ get_features false p = Ok g' /\
    gFrames g = 1 /\ gFrames g' = 0.
Proof.
  exists wit_vp8x_vp8, (firstn 30 wit_vp8x_vp8). do 3 eexists.
  split; [vm_compute; reflexivity|].
  split; [apply firstn_proper_prefix; cbn; lia|].
  split; [vm_compute; reflexivity|]. split; [vm_compute; reflexivity|]. split; reflexivity.
Qed.

Theorem prefix_all_or_nothing_pinned_false : ~ prefix_all_or_nothing_statement false.
Proof.
  intros H.
  assert (Hp : proper_prefix (firstn 30 wit_vp8x_vp8) wit_vp8x_vp8) by (apply firstn_proper_prefix; cbn; lia).
  assert (Hf : exists r, parse_ex false wit_vp8x_vp8 = Ok (r, KStill)) by (eexists; vm_compute; reflexivity).
  destruct Hf as [r Hf]. destruct (H _ _ _ Hf Hp) as [[e He]|He]; vm_compute in He; discriminate.
Qed.

(** Pinned parser + pinned DecodeConfig: a cut between a metadata chunk and a
    VP8L image whose VP8X alpha flag is clear flips the predicted colour model. *)
Theorem config_prefix_refuted :
  exists bs p r c c',
    parse_ex false bs = Ok (r, KStill) /\ proper_prefix p bs /\
    decode_config false false bs = Ok c /\ decode_config false false p = Ok c' /\
    cModel c = CM_NRGBA /\ cModel c' = CM_YCbCr.
Proof.
  exists wit_vp8x_iccp_vp8l, (firstn 40 wit_vp8x_iccp_vp8l). do 3 eexists.
  split; [vm_compute; reflexivity|].
  split; [apply firstn_proper_prefix; cbn; lia|].
  split; [vm_compute; reflexivity|]. split; [vm_compute; reflexivity|]. split; reflexivity.
Qed.
