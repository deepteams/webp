(** C17, codec layer: the end-of-input flag of internal/bitio.BoolReader (model
    [Vp8.Vp8GoReader.greader]; [gr_eof] is set by loadFinalBytes when a load finds no byte
    left).  lossy.Decoder turns the flag into an error after the headers and after every
    macroblock ([br.EOF()], [tokenBR.EOF()]).  The flag is characterised ([gr_bit_eof]) and
    shown to make that discipline all-or-nothing: for every decoding strategy, a run over
    [l] that ends with the flag clear is repeated bit for bit over [l ++ ext]
    ([go_bool_reader_prefix_stable]).  Both readers are related to the exact-integer decoder
    [Vp8BoolAbs.aget], and the two abstract runs to each other. *)
From Coq Require Import List ZArith Lia Bool.
From Webp Require Import Vp8.Vp8Bool Vp8.Vp8BoolAbs Vp8.Vp8GoReader.
Import ListNotations.
Open Scope Z_scope.

Definition is_nil {A} (l : list A) : bool := match l with [] => true | _ => false end.

(** NewBoolReader *)
Definition gr_init (data : list Z) : greader := mkGr 0 254 (-8) data false.
Definition gr_new (data : list Z) : greader := gr_load (gr_init data).

Lemma gr_load_eof g : gr_eof (gr_load g) = gr_eof g || is_nil (gr_rest g).
Proof.
  unfold gr_load. destruct (8 <=? length (gr_rest g))%nat eqn:E.
  - cbn [gr_eof]. destruct (gr_rest g); [discriminate|]. cbn. rewrite orb_false_r. reflexivity.
  - destruct (gr_rest g) as [|b tl]; cbn [gr_eof is_nil].
    + destruct (gr_eof g); reflexivity.
    + rewrite orb_false_r. reflexivity.
Qed.

Lemma gr_fast_bit_eof p g : gr_eof (snd (gr_fast_bit p g)) = gr_eof g.
Proof. unfold gr_fast_bit. cbv zeta. destruct (_ <=? 126); reflexivity. Qed.

(** GetBit sets the flag exactly when it needs a byte and none is left; it never clears it *)
Theorem gr_bit_eof p g :
  gr_eof (snd (gr_bit p g)) = gr_eof g || ((gr_bits g <? 0) && is_nil (gr_rest g)).
Proof.
  unfold gr_bit. rewrite gr_fast_bit_eof.
  destruct (gr_bits g <? 0); cbn [andb]; [apply gr_load_eof|rewrite orb_false_r; reflexivity].
Qed.

(** three zero bytes behind the data: then [gr_load_rel]'s [16 <= j] and
    [gr_fast_bit_refines]'s [8 <= j] hold as long as a data byte is left *)
Definition pad3 (g : greader) : greader :=
  mkGr (gr_value g) (gr_range g) (gr_bits g) (gr_rest g ++ [0; 0; 0]) (gr_eof g).

Lemma fast_bit_pad p g :
  gr_fast_bit p (pad3 g) = (fst (gr_fast_bit p g), pad3 (snd (gr_fast_bit p g))).
Proof.
  unfold gr_fast_bit, pad3. cbv zeta. cbn [gr_value gr_range gr_bits gr_rest gr_eof].
  destruct (_ <=? 126); reflexivity.
Qed.

(** [gr_load] with one to seven bytes left *)
Definition load_one (g : greader) : greader :=
  match gr_rest g with
  | b :: tl => mkGr (b + w64 (gr_value g * 256)) (gr_range g) (gr_bits g + 8) tl (gr_eof g)
  | [] => g
  end.

(** from [D < R * 2^j] with [j] below the number of bits still to load *)
Lemma grel_value_small g R D j : grel g R D j -> gr_bits g < 0 -> 1 <= R <= 255 -> gr_value g < 256.
Proof.
  intros (ER & Hb & Hv & HB & ED & Ej & HD & Heof) Hneg HR.
  set (m := Z.of_nat (length (gr_rest g))) in *.
  pose proof (bval_bound _ Hb) as HF. fold m in HF.
  assert (HW : 0 < 2 ^ (8 * m)) by (apply Z.pow_pos_nonneg; lia).
  destruct (Z.lt_ge_cases j 0) as [Hj|Hj].
  - rewrite (Z.pow_neg_r 2 j Hj) in HD. lia.
  - assert (Hle : 2 ^ j <= 2 ^ (8 * m)) by (apply Z.pow_le_mono_r; lia).
    assert (0 < 2 ^ j) by (apply Z.pow_pos_nonneg; lia). nia.
Qed.

Lemma load_one_rel g R D j : grel g R D j -> gr_bits g < 0 -> 1 <= R <= 255 -> gr_rest g <> [] ->
  grel (load_one g) R D j /\ 0 <= gr_bits (load_one g).
Proof.
  intros Hrel Hneg HR Hne. pose proof (grel_value_small g R D j Hrel Hneg HR) as Hv8.
  destruct Hrel as (ER & Hb & Hv & HB & ED & Ej & HD & Heof).
  unfold load_one. destruct (gr_rest g) as [|b tl] eqn:Er; [contradiction|].
  pose proof (Forall_inv Hb) as Hb1. pose proof (Forall_inv_tail Hb) as Hbt. unfold is_byte in Hb1.
  unfold w64. rewrite Z.mod_small by (change (2 ^ 64) with 18446744073709551616; lia).
  unfold grel. cbn [gr_range gr_rest gr_value gr_bits gr_eof]. split; [|lia].
  split; [exact ER|]. split; [exact Hbt|]. split; [lia|]. split; [lia|].
  cbn [length bval] in ED, Ej.
  split.
  { rewrite ED. rewrite Nat2Z.inj_succ.
    replace (8 * Z.succ (Z.of_nat (length tl))) with (8 + 8 * Z.of_nat (length tl)) by lia.
    rewrite Z.pow_add_r by lia. change (2 ^ 8) with 256. ring. }
  split; [lia|]. split; [exact HD|exact Heof].
Qed.

Lemma load_pad g R D j : grel (pad3 g) R D j -> gr_bits g < 0 -> 1 <= R <= 255 -> gr_rest g <> [] ->
  grel (pad3 (gr_load g)) R D j /\ 0 <= gr_bits (gr_load g).
Proof.
  intros Hrel Hneg HR Hne.
  assert (Hj : 16 <= j).
  { destruct Hrel as (_ & _ & _ & HB & _ & Ej & _). cbn [pad3 gr_bits gr_rest] in *.
    rewrite app_length in Ej. cbn [length] in Ej. destruct (gr_rest g); [contradiction|]. cbn [length] in Ej. lia. }
  destruct (8 <=? length (gr_rest g))%nat eqn:E8.
  - apply Nat.leb_le in E8.
    assert (Ecomm : gr_load (pad3 g) = pad3 (gr_load g)).
    { unfold gr_load, pad3. cbn [gr_value gr_range gr_bits gr_rest gr_eof].
      assert (E1 : Nat.leb 8 (length (gr_rest g ++ [0; 0; 0])) = true) by (apply Nat.leb_le; rewrite app_length; lia).
      assert (E2 : Nat.leb 8 (length (gr_rest g)) = true) by (apply Nat.leb_le; exact E8).
      rewrite E1, E2. cbn [gr_value gr_range gr_bits gr_rest gr_eof].
      rewrite firstn_app, skipn_app. replace (7 - length (gr_rest g))%nat with 0%nat by lia.
      cbn [firstn skipn]. rewrite app_nil_r. reflexivity. }
    destruct (gr_load_rel (pad3 g) R D j Hrel Hneg HR Hj) as [H1 H2]. rewrite Ecomm in H1, H2.
    split; [exact H1|exact H2].
  - apply Nat.leb_gt in E8.
    assert (El : gr_load g = load_one g).
    { unfold gr_load, load_one. apply Nat.leb_gt in E8. rewrite E8.
      destruct (gr_rest g); [contradiction|reflexivity]. }
    rewrite El.
    assert (Ep : pad3 (load_one g) = load_one (pad3 g)).
    { unfold load_one, pad3. cbn [gr_value gr_range gr_bits gr_rest gr_eof].
      destruct (gr_rest g); [contradiction|reflexivity]. }
    rewrite Ep.
    assert (Hne' : gr_rest (pad3 g) <> []) by (cbn [pad3 gr_rest]; destruct (gr_rest g); discriminate).
    destruct (load_one_rel (pad3 g) R D j Hrel Hneg HR Hne') as [H1 H2]. split; [exact H1|].
    rewrite <- Ep in H2. exact H2.
Qed.

Lemma bit_pad g R D j p : grel (pad3 g) R D j -> 128 <= R <= 255 -> 0 <= p <= 255 ->
  (gr_bits g <? 0) && is_nil (gr_rest g) = false ->
  exists g1, gr_bit p g = (fst (aget p (R, D, j)), g1) /\
    (let '(R2, D2, j2) := snd (aget p (R, D, j)) in grel (pad3 g1) R2 D2 j2 /\ 128 <= R2 <= 254).
Proof.
  intros Hrel HR Hp Hno. unfold gr_bit.
  assert (Hstep : forall gl, grel (pad3 gl) R D j -> 0 <= gr_bits gl ->
            exists g1, gr_fast_bit p gl = (fst (aget p (R, D, j)), g1) /\
              (let '(R2, D2, j2) := snd (aget p (R, D, j)) in grel (pad3 g1) R2 D2 j2 /\ 128 <= R2 <= 254)).
  { intros gl Hl Hb.
    assert (Hj8 : 8 <= j).
    { destruct Hl as (_ & _ & _ & _ & _ & Ej & _). cbn [pad3 gr_bits gr_rest] in *.
      rewrite app_length in Ej. cbn [length] in Ej. lia. }
    pose proof (gr_fast_bit_refines (pad3 gl) R D j p Hl Hb HR Hp Hj8) as H.
    destruct (aget p (R, D, j)) as [b [[R2 D2] j2]]. destruct H as (g' & E & H1 & H2 & _ & _).
    rewrite fast_bit_pad in E. injection E as Eb Eg.
    exists (snd (gr_fast_bit p gl)). cbn [fst snd]. split.
    - rewrite <- Eb. destruct (gr_fast_bit p gl); reflexivity.
    - rewrite Eg. split; assumption. }
  destruct (gr_bits g <? 0) eqn:Eb.
  - apply Z.ltb_lt in Eb. cbn [andb] in Hno.
    assert (Hne : gr_rest g <> []) by (destruct (gr_rest g); [discriminate|discriminate]).
    destruct (load_pad g R D j Hrel Eb ltac:(lia) Hne) as [Hl Hb]. apply Hstep; assumption.
  - apply Z.ltb_ge in Eb. apply Hstep; assumption.
Qed.

(** [e] more bits of value [X]: for [24 <= j] the two comparisons, divided by [2^24], read
    [s * 2^(j-24) <= Dr] and [s * 2^(j-24) * 2^e <= Dr * 2^e + X], which agree. *)
Lemma aget_prefix R Dr j e X p : 128 <= R <= 255 -> 0 <= p <= 255 -> 24 <= j -> 0 <= e -> 0 <= X < 2 ^ e ->
  aget p (R, (Dr * 2 ^ 24) * 2 ^ e + X * 2 ^ 24, j + e) =
  (fst (aget p (R, Dr * 2 ^ 24, j)),
   (let '(R2, D2, j2) := snd (aget p (R, Dr * 2 ^ 24, j)) in (R2, D2 * 2 ^ e + X * 2 ^ 24, j2 + e))).
Proof.
  intros HR Hp Hj He HX. unfold aget. set (s := nsplit R p).
  pose proof (nsplit_bounds R p HR Hp) as Hs. fold s in Hs.
  replace (2 ^ (j + e)) with (2 ^ (j - 24) * 2 ^ 24 * 2 ^ e)
    by (rewrite <- !Z.pow_add_r by lia; f_equal; lia).
  replace (2 ^ j) with (2 ^ (j - 24) * 2 ^ 24) by (rewrite <- Z.pow_add_r by lia; f_equal; lia).
  set (T := 2 ^ 24). set (E := 2 ^ e) in *. set (J := 2 ^ (j - 24)).
  assert (HT : 0 < T) by reflexivity.
  assert (HE : 0 < E) by (apply Z.pow_pos_nonneg; lia).
  assert (HJ : 0 < J) by (apply Z.pow_pos_nonneg; lia).
  assert (Hdec : (s * (J * T * E) <=? Dr * T * E + X * T) = (s * (J * T) <=? Dr * T)).
  { destruct (Z.leb_spec (s * (J * T)) (Dr * T)) as [H1|H1];
      destruct (Z.leb_spec (s * (J * T * E)) (Dr * T * E + X * T)) as [H2|H2]; try reflexivity; exfalso.
    - assert (s * J <= Dr) by nia. nia.
    - assert (Dr < s * J) by nia. assert (Dr + 1 <= s * J) by lia.
      assert (Dr * E + X < s * J * E) by nia. nia. }
  rewrite Hdec. set (b := s * (J * T) <=? Dr * T).
  destruct (norm_loop 8 (if b then R - s else s) 0) as [R2 sh]. cbn [fst snd].
  f_equal. f_equal; [f_equal|lia]. destruct b; ring.
Qed.

(** readers over [l] and over [l ++ ext] at the same position: the second sees the [e]
    bits [X] of the extension between the data and the padding *)
Definition gsim (g g' : greader) : Prop :=
  exists R Dr j e X,
    grel (pad3 g) R (Dr * 2 ^ 24) j /\ grel (pad3 g') R ((Dr * 2 ^ 24) * 2 ^ e + X * 2 ^ 24) (j + e) /\
    128 <= R <= 255 /\ 0 <= e /\ 0 <= X < 2 ^ e.

Lemma pad_j g R D j : grel (pad3 g) R D j -> j = gr_bits g + 8 * Z.of_nat (length (gr_rest g)) + 24 /\ -8 <= gr_bits g.
Proof.
  intros (_ & _ & _ & HB & _ & Ej & _). cbn [pad3 gr_bits gr_rest] in *. rewrite app_length in Ej. cbn [length] in Ej.
  split; lia.
Qed.

Lemma no_eof_j g R D j : grel (pad3 g) R D j -> (gr_bits g <? 0) && is_nil (gr_rest g) = false -> 24 <= j.
Proof.
  intros Hrel Hno. destruct (pad_j g R D j Hrel) as [-> HB].
  destruct (gr_rest g) as [|b tl]; cbn [is_nil length] in *; [rewrite andb_true_r in Hno; lia|lia].
Qed.

Lemma j_no_eof g R D j : grel (pad3 g) R D j -> 24 <= j -> (gr_bits g <? 0) && is_nil (gr_rest g) = false.
Proof.
  intros Hrel Hj. destruct (pad_j g R D j Hrel) as [-> HB].
  destruct (gr_rest g) as [|b tl]; cbn [is_nil length] in *; [rewrite andb_true_r; lia|apply andb_false_r].
Qed.

Lemma sim_bit g g' p b g1 : gsim g g' -> 0 <= p <= 255 ->
  (gr_bits g <? 0) && is_nil (gr_rest g) = false -> gr_bit p g = (b, g1) ->
  exists g1', gr_bit p g' = (b, g1') /\ gsim g1 g1'.
Proof.
  intros (R & Dr & j & e & X & Hr & Hr' & HR & He & HX) Hp Hno E.
  pose proof (no_eof_j _ _ _ _ Hr Hno) as Hj.
  assert (Hno' : (gr_bits g' <? 0) && is_nil (gr_rest g') = false) by (apply (j_no_eof _ _ _ _ Hr'); lia).
  destruct (bit_pad g R _ j p Hr HR Hp Hno) as (ga & Ea & Ha).
  destruct (bit_pad g' R _ (j + e) p Hr' HR Hp Hno') as (gb & Eb & Hb).
  rewrite (aget_prefix R Dr j e X p HR Hp Hj He HX) in Eb, Hb. cbn [fst snd] in Eb, Hb.
  rewrite E in Ea. injection Ea as -> ->.
  exists gb. split; [exact Eb|].
  destruct (snd (aget p (R, Dr * 2 ^ 24, j))) as [[R2 D2] j2] eqn:Es.
  destruct Ha as [Ha HR2]. destruct Hb as [Hb _].
  (* the new abstract value is again a multiple of 2^24 *)
  assert (Hm : exists Dr2, D2 = Dr2 * 2 ^ 24).
  { unfold aget in Es. set (s := nsplit R p) in *.
    replace (2 ^ j) with (2 ^ (j - 24) * 2 ^ 24) in Es by (rewrite <- Z.pow_add_r by lia; f_equal; lia).
    destruct (norm_loop 8 _ 0) as [r2 sh] in Es. cbn [snd] in Es. injection Es as _ <- _.
    change (Z.pow_pos 2 24) with (2 ^ 24).
    destruct (s * (2 ^ (j - 24) * 2 ^ 24) <=? Dr * 2 ^ 24); [exists (Dr - s * 2 ^ (j - 24)); ring|exists Dr; reflexivity]. }
  destruct Hm as [Dr2 ->].
  exists R2, Dr2, j2, e, X. split; [exact Ha|]. split; [exact Hb|]. split; [lia|]. split; [exact He|exact HX].
Qed.

Inductive prog : Type :=
| Done
| Bit (p : Z) (k : bool -> prog).

Fixpoint prog_ok (pr : prog) : Prop :=
  match pr with
  | Done => True
  | Bit p k => 0 <= p <= 255 /\ forall b, prog_ok (k b)
  end.

Fixpoint run (pr : prog) (g : greader) : list bool * greader :=
  match pr with
  | Done => ([], g)
  | Bit p k => let '(b, g1) := gr_bit p g in let '(bs, g2) := run (k b) g1 in (b :: bs, g2)
  end.

Lemma run_eof_mono : forall pr g, gr_eof g = true -> gr_eof (snd (run pr g)) = true.
Proof.
  induction pr as [|p k IH]; intros g H; cbn [run]; [exact H|].
  pose proof (gr_bit_eof p g) as E. destruct (gr_bit p g) as [b g1]. cbn [snd] in E.
  rewrite H in E. cbn [orb] in E. specialize (IH b g1 E). destruct (run (k b) g1). exact IH.
Qed.

Lemma gsim_eof g g' : gsim g g' -> gr_eof g' = false.
Proof. intros (R & Dr & j & e & X & _ & (_ & _ & _ & _ & _ & _ & _ & H) & _). exact H. Qed.

Lemma run_sim : forall pr g g' bs g1, gsim g g' -> prog_ok pr ->
  run pr g = (bs, g1) -> gr_eof g1 = false ->
  exists g1', run pr g' = (bs, g1') /\ gr_eof g1' = false.
Proof.
  induction pr as [|p k IH]; intros g g' bs g1 Hs Hok E Hf; cbn [run] in *.
  - injection E as <- <-. exists g'. split; [reflexivity|apply (gsim_eof _ _ Hs)].
  - destruct Hok as [Hp Hk].
    destruct (gr_bit p g) as [b gm] eqn:Eb. destruct (run (k b) gm) as [bs' g2] eqn:Er. injection E as <- <-.
    assert (Hfm : gr_eof gm = false).
    { destruct (gr_eof gm) eqn:Em; [|reflexivity].
      pose proof (run_eof_mono (k b) gm Em) as Hm. rewrite Er in Hm. cbn [snd] in Hm. congruence. }
    assert (Hno : (gr_bits g <? 0) && is_nil (gr_rest g) = false).
    { pose proof (gr_bit_eof p g) as Ee. rewrite Eb in Ee. cbn [snd] in Ee. rewrite Hfm in Ee.
      symmetry in Ee. apply orb_false_iff in Ee. apply Ee. }
    destruct (sim_bit g g' p b gm Hs Hp Hno Eb) as (gm' & Eb' & Hsm).
    rewrite Eb'. destruct (IH b gm gm' bs' g2 Hsm (Hk b) Er Hf) as (g2' & Er' & Hf').
    rewrite Er'. exists g2'. split; [reflexivity|exact Hf'].
Qed.

Lemma bval_zeros3 l : bval (l ++ [0; 0; 0]) = bval l * 2 ^ 24.
Proof. rewrite bval_app. cbn [length bval]. change (8 * Z.of_nat 3) with 24. cbn. lia. Qed.

Lemma init_grel l : Forall is_byte l -> l <> [] ->
  bval l < 255 * 2 ^ (8 * (Z.of_nat (length l) - 1)) ->
  grel (pad3 (gr_init l)) 255 (bval l * 2 ^ 24) (8 * Z.of_nat (length l) + 16).
Proof.
  intros Hl Hne Hff. pose proof (bval_bound l Hl) as Bl.
  assert (Hm : 1 <= Z.of_nat (length l)) by (destruct l; [contradiction|cbn [length]; lia]).
  unfold grel, pad3, gr_init. cbn [gr_range gr_rest gr_value gr_bits gr_eof].
  rewrite bval_zeros3, app_length, Nat2Z.inj_add. change (Z.of_nat (length [0; 0; 0])) with 3.
  set (m := Z.of_nat (length l)) in *.
  split; [reflexivity|].
  split; [apply Forall_app; split; [exact Hl|repeat constructor; unfold is_byte; lia]|].
  split; [lia|]. split; [lia|]. split; [ring|]. split; [lia|]. split; [|reflexivity].
  replace (8 * m + 16) with (8 * (m - 1) + 24) by lia. rewrite Z.pow_add_r by lia.
  assert (0 < 2 ^ 24) by reflexivity. nia.
Qed.

Lemma below_ff_app l ext : Forall is_byte ext -> l <> [] ->
  bval l < 255 * 2 ^ (8 * (Z.of_nat (length l) - 1)) ->
  bval (l ++ ext) < 255 * 2 ^ (8 * (Z.of_nat (length (l ++ ext)) - 1)).
Proof.
  intros He Hne Hff. pose proof (bval_bound ext He) as Be.
  assert (Hm : 1 <= Z.of_nat (length l)) by (destruct l; [contradiction|cbn [length]; lia]).
  rewrite bval_app, app_length, Nat2Z.inj_add.
  replace (8 * (Z.of_nat (length l) + Z.of_nat (length ext) - 1))
    with (8 * (Z.of_nat (length l) - 1) + 8 * Z.of_nat (length ext)) by lia.
  rewrite Z.pow_add_r by lia.
  set (W := 2 ^ (8 * (Z.of_nat (length l) - 1))) in *. set (E := 2 ^ (8 * Z.of_nat (length ext))) in *.
  clear - Hff Be. nia.
Qed.

Lemma init_sim l ext : Forall is_byte l -> Forall is_byte ext -> l <> [] ->
  bval l < 255 * 2 ^ (8 * (Z.of_nat (length l) - 1)) ->
  gsim (gr_init l) (gr_init (l ++ ext)).
Proof.
  intros Hl He Hne Hff.
  exists 255, (bval l), (8 * Z.of_nat (length l) + 16), (8 * Z.of_nat (length ext)), (bval ext).
  split; [apply init_grel; assumption|]. split.
  - pose proof (init_grel (l ++ ext) (proj2 (Forall_app _ _ _) (conj Hl He))
                  ltac:(destruct l; [contradiction|discriminate]) (below_ff_app l ext He Hne Hff)) as G.
    rewrite bval_app, app_length, Nat2Z.inj_add in G.
    replace (8 * (Z.of_nat (length l) + Z.of_nat (length ext)) + 16)
      with (8 * Z.of_nat (length l) + 16 + 8 * Z.of_nat (length ext)) in G by lia.
    replace (bval l * 2 ^ 24 * 2 ^ (8 * Z.of_nat (length ext)) + bval ext * 2 ^ 24)
      with ((bval l * 2 ^ (8 * Z.of_nat (length ext)) + bval ext) * 2 ^ 24) by ring.
    exact G.
  - pose proof (bval_bound ext He). lia.
Qed.

Lemma sim_load g g' : gsim g g' -> gr_bits g < 0 -> gr_rest g <> [] -> gr_bits g' < 0 -> gr_rest g' <> [] ->
  gsim (gr_load g) (gr_load g').
Proof.
  intros (R & Dr & j & e & X & Hr & Hr' & HR & He & HX) Hb Hn Hb' Hn'.
  exists R, Dr, j, e, X.
  split; [apply (load_pad g R _ j Hr Hb ltac:(lia) Hn)|].
  split; [apply (load_pad g' R _ (j + e) Hr' Hb' ltac:(lia) Hn')|]. auto.
Qed.

(** the data: non-empty, first byte not 0xFF (the arithmetic decoder's invariant
    value < range, which every encoder output has) *)
Theorem go_bool_reader_prefix_stable : forall pr l ext bs g1,
  Forall is_byte l -> Forall is_byte ext -> l <> [] ->
  bval l < 255 * 2 ^ (8 * (Z.of_nat (length l) - 1)) -> prog_ok pr ->
  run pr (gr_new l) = (bs, g1) -> gr_eof g1 = false ->
  exists g1', run pr (gr_new (l ++ ext)) = (bs, g1') /\ gr_eof g1' = false.
Proof.
  intros pr l ext bs g1 Hl He Hne Hff Hok E Hf.
  apply (run_sim pr (gr_new l) (gr_new (l ++ ext)) bs g1); try assumption.
  unfold gr_new. apply sim_load.
  - apply init_sim; assumption.
  - cbn. lia.
  - exact Hne.
  - cbn. lia.
  - cbn [gr_init gr_rest]. destruct l; [contradiction|discriminate].
Qed.

(** without the flag the reader is not prefix-stable: after the byte 0x00, an appended
    0xFF changes the 9th of twelve bits read at probability 128; that run sets the flag *)
Fixpoint lit (n : nat) : prog := match n with O => Done | S m => Bit 128 (fun _ => lit m) end.

Theorem go_bool_reader_past_end_differs :
  fst (run (lit 12) (gr_new [0])) <> fst (run (lit 12) (gr_new [0; 255])) /\
  gr_eof (snd (run (lit 12) (gr_new [0]))) = true.
Proof. vm_compute. split; [discriminate|reflexivity]. Qed.
