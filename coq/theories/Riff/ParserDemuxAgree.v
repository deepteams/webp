(** C16 views_agree across the two container parsers, stills: on every file the
    grammar [RiffGrammar.wf] accepts, the model of internal/container.Parser
    ([ParserModel.parse]) and the model of mux.Demuxer ([DemuxModel.parse true]) both
    succeed and agree on canvas, animation flag, frame count and the frame's fields.
    Loop count is left out for stills: the parser reports 1 (extended) or 0
    (simple), the demuxer 0. *)
From Coq Require Import List ZArith Lia Bool.
From Coq Require Import ZifyBool ZifyNat.
From Webp Require Import Base.Res Base.Bytes Riff.ParserModel Riff.ParserLemmas Riff.ParserSpec
     Riff.WriterModel Riff.WriterProofs Riff.MetadataProofs Riff.ParserProofs Riff.WriterTheorems
     Riff.ParserSpecProofs Riff.ParserGrammar.
From Webp Require Riff.DemuxModel Riff.DemuxTotal Riff.RiffGrammar.
Import ListNotations.
Open Scope Z_scope.

(** [D.len], [ParserModel.len] and [RiffGrammar.glen] are the same function under three names
    (each model is self-contained); the proofs below change one into the other freely. *)
Module D := DemuxModel.

Lemma dlen_len {A} (l : list A) : D.len l = len l.
Proof. reflexivity. Qed.

(** ** One well-formed chunk, read by the demuxer model *)
Lemma d_read_chunk id d rest :
  0 <= id < 4294967296 -> len d <= 4294967286 ->
  D.read_chunk (chunk id d ++ rest) = Ok (D.mkchunk id (len d) d, len (chunk id d)).
Proof.
  intros Hid Hd. pose proof (len_nonneg d) as Hd0. pose proof (len_nonneg rest) as Hr0.
  unfold D.read_chunk, D.read_chunk_header, D.u32at, D.ChunkHeaderSize, D.MaxChunkPayload.
  change (@D.len Z) with (@len Z).
  pose proof (len_chunk_app_ge id d rest) as H8.
  destruct (Z.ltb_spec (len (chunk id d ++ rest)) 8); [lia|].
  change (0 + 4) with 4. change (4 + 4) with 8.
  rewrite first_fourcc_of_chunk. cbn [bind]. rewrite rd32_le32_id by exact Hid.
  assert (Hs2 : slice (chunk id d ++ rest) 4 8 = Ok (le32 (len d))).
  { unfold chunk. rewrite <- !app_assoc. change 4 with (len (le32 id)) at 1.
    change 8 with (len (le32 id) + len (le32 (len d))). apply slice_mid. }
  rewrite Hs2. cbn [bind]. rewrite rd32_le32_id by lia.
  destruct (Z.gtb_spec (len d) 4294967286); [lia|]. cbn [bind].
  rewrite len_app, len_chunk. unfold padded_chunk_size, ChunkHeaderSize.
  destruct (Z.gtb_spec (8 + len d) (8 + len d + len d mod 2 + len rest)); [lia|].
  rewrite payload_of_chunk. cbn [bind]. f_equal. f_equal.
  destruct (Z.eqb_spec (len d mod 2) 0) as [E|E]; cbn [negb andb]; [lia|].
  destruct (Z.ltb_spec (8 + len d) (8 + len d + len d mod 2 + len rest)); lia.
Qed.

Lemma d_read_chunk_header id d rest :
  0 <= id < 4294967296 -> len d <= 4294967286 ->
  D.read_chunk_header (chunk id d ++ rest) = Ok (id, len d).
Proof.
  intros Hid Hd. pose proof (d_read_chunk id d rest Hid Hd) as H.
  unfold D.read_chunk in H.
  destruct (D.read_chunk_header (chunk id d ++ rest)) as [[i sz]|e|]; cbn [bind] in H; try discriminate.
  destruct (D.ChunkHeaderSize + sz >? D.len (chunk id d ++ rest)); [discriminate|].
  destruct (slice _ _ _); cbn [bind] in H; try discriminate. injection H as <- <- _ _. reflexivity.
Qed.

(** ** One iteration of each demuxer loop on a written chunk *)
Lemma d_ext_loop_step fuel id d rest st :
  0 <= id < 4294967296 -> len d <= 4294967286 ->
  D.ext_loop (S fuel) (chunk id d ++ rest) st =
  (st' <- D.ext_dispatch (D.add_chunk st (D.mkchunk id (len d) d)) (D.mkchunk id (len d) d) (chunk id d ++ rest) ;;
   D.ext_loop fuel rest st').
Proof.
  intros Hid Hd. cbn [D.ext_loop]. unfold D.ChunkHeaderSize. change (@D.len Z) with (@len Z).
  pose proof (len_chunk_app_ge id d rest).
  destruct (Z.ltb_spec (len (chunk id d ++ rest)) 8); [lia|].
  rewrite d_read_chunk by assumption. rewrite rest_after_chunk. reflexivity.
Qed.

Lemma d_single_loop_step fuel id d rest img alpha :
  0 <= id < 4294967296 -> len d <= 4294967286 ->
  D.single_loop (S fuel) (chunk id d ++ rest) img alpha =
  if D.is_image_id id then Ok (Some d, if id =? D.FCC_ALPH then Some d else alpha)
  else match img with
       | Some _ => Ok (img, if id =? D.FCC_ALPH then Some d else alpha)
       | None => D.single_loop fuel rest None (if id =? D.FCC_ALPH then Some d else alpha)
       end.
Proof.
  intros Hid Hd. cbn [D.single_loop]. unfold D.ChunkHeaderSize. change (@D.len Z) with (@len Z).
  pose proof (len_chunk_app_ge id d rest).
  destruct (Z.ltb_spec (len (chunk id d ++ rest)) 8); [lia|].
  rewrite d_read_chunk by assumption. cbn [D.c_id D.c_data]. rewrite rest_after_chunk.
  destruct (D.is_image_id id); [reflexivity|]. destruct img; reflexivity.
Qed.

Lemma d_anmf_loop_step fuel id d rest img alpha :
  0 <= id < 4294967296 -> len d <= 4294967286 ->
  D.anmf_loop (S fuel) (chunk id d ++ rest) img alpha =
  D.anmf_loop fuel rest (if D.is_image_id id then Some d else img) (if id =? D.FCC_ALPH then Some d else alpha).
Proof.
  intros Hid Hd. pose proof (len_nonneg d) as Hd0. pose proof (len_nonneg rest) as Hr0.
  cbn [D.anmf_loop]. unfold D.ChunkHeaderSize. change (@D.len Z) with (@len Z).
  pose proof (len_chunk_app_ge id d rest).
  destruct (Z.ltb_spec (len (chunk id d ++ rest)) 8); [lia|].
  rewrite d_read_chunk_header by assumption.
  assert (Hlc : len (chunk id d ++ rest) = 8 + len d + len d mod 2 + len rest).
  { rewrite len_app, len_chunk. unfold padded_chunk_size, ChunkHeaderSize. lia. }
  destruct (Z.gtb_spec (8 + len d) (len (chunk id d ++ rest))); [lia|].
  rewrite payload_of_chunk. cbn [bind].
  set (adv := if negb (len d mod 2 =? 0) && (8 + len d <? len (chunk id d ++ rest)) then 8 + len d + 1 else 8 + len d).
  assert (Hadv : adv = len (chunk id d)).
  { subst adv. rewrite len_chunk. unfold padded_chunk_size, ChunkHeaderSize.
    destruct (Z.eqb_spec (len d mod 2) 0); cbn [negb andb]; [lia|].
    destruct (Z.ltb_spec (8 + len d) (len (chunk id d ++ rest))); lia. }
  rewrite Hadv. pose proof (chunk_min_len id d).
  destruct (Z.leb_spec (len (chunk id d)) 0); [lia|].
  rewrite rest_after_chunk. cbn [bind]. reflexivity.
Qed.

(** ** Bitstream header readers of the demuxer vs the parser's *)
Lemma d_vp8_dims bs w h :
  bytes_ok bs -> parse_vp8_header bs = Ok (w, h) -> D.parse_vp8_dims bs = Ok (w, h).
Proof.
  intros Hb. destruct (Z.lt_ge_cases (len bs) 10) as [Hs|Hl]; [rewrite parse_vp8_header_short by exact Hs; discriminate|].
  destruct (len_ge_10 bs Hl) as (b0 & b1 & b2 & b3 & b4 & b5 & b6 & b7 & b8 & b9 & tl & ->).
  rewrite parse_vp8_header_bytes. unfold D.parse_vp8_dims. change (@D.len Z) with (@len Z).
  destruct (Z.ltb_spec (len (b0 :: b1 :: b2 :: b3 :: b4 :: b5 :: b6 :: b7 :: b8 :: b9 :: tl)) 10); [lia|].
  rewrite !bytes_ok_cons in Hb. destruct Hb as (_ & _ & _ & B3 & B4 & B5 & _). unfold is_byte in *.
  destruct (negb _); [discriminate|].
  destruct (Z.eqb_spec (65536 * b3 + 256 * b4 + b5) 10289450) as [Es|]; cbn [negb]; [|discriminate].
  assert (b3 = 157 /\ b4 = 1 /\ b5 = 42) as (-> & -> & ->) by lia.
  destruct (_ || _); [discriminate|]. intros Hq. rewrite <- Hq. reflexivity.
Qed.

Lemma d_vp8l_dims bs w h a :
  parse_vp8l_header bs = Ok (w, h, a) -> D.parse_vp8l_dims bs = Ok (w, h, a).
Proof.
  destruct (Z.lt_ge_cases (len bs) 5) as [Hs|Hl]; [rewrite parse_vp8l_header_short by exact Hs; discriminate|].
  destruct (len_ge_5 bs Hl) as (b0 & b1 & b2 & b3 & b4 & tl & ->).
  rewrite parse_vp8l_header_bytes. unfold D.parse_vp8l_dims. change (@D.len Z) with (@len Z). cbv zeta.
  destruct (Z.ltb_spec (len (b0 :: b1 :: b2 :: b3 :: b4 :: tl)) 5); [lia|].
  change D.VP8LMagicByte with VP8LMagicByte. destruct (negb (b0 =? VP8LMagicByte)); [discriminate|].
  destruct (negb _); [discriminate|]. destruct (_ || _); [discriminate|]. intros Hq. rewrite <- Hq. reflexivity.
Qed.

(** ** Demuxer.parse on [RIFF header ++ body]: dispatch on the first chunk *)
Lemma d_parse_written rs body id d rest :
  rs = 4 + len body -> 0 <= rs < 4294967296 -> body = chunk id d ++ rest -> 0 <= id < 4294967296 ->
  D.parse true (le32 FourCCRIFF ++ le32 rs ++ le32 FourCCWEBP ++ body) =
  if id =? D.FCC_VP8X then D.parse_extended body
  else if id =? D.FCC_VP8 then D.parse_simple_vp8 body
  else if id =? D.FCC_VP8L then D.parse_simple_vp8l body
  else Err D.E_unknown.
Proof.
  intros Hrs Hr Hb Hid. destruct fourcc_ranges as (_ & _ & _ & _ & _ & _ & _ & HR & HW).
  destruct (riff_hdr_slices FourCCRIFF rs FourCCWEBP body) as (S0 & S4 & S8 & S12 & Hlen).
  unfold D.parse, D.u32at, D.RIFFHeaderSize, D.ChunkHeaderSize. change (@D.len Z) with (@len Z).
  set (file := le32 FourCCRIFF ++ le32 rs ++ le32 FourCCWEBP ++ body) in *.
  pose proof (len_nonneg body) as Hb0.
  destruct (Z.ltb_spec (len file) 12); [lia|].
  change (0 + 4) with 4. change (4 + 4) with 8. change (8 + 4) with 12.
  rewrite S0. cbn [bind]. rewrite rd32_le32_id by exact HR.
  change (FourCCRIFF =? D.FCC_RIFF) with true. cbn [negb].
  rewrite S4. cbn [bind]. rewrite S8. cbn [bind]. rewrite !rd32_le32_id by assumption.
  change (FourCCWEBP =? D.FCC_WEBP) with true. cbn [negb].
  destruct (Z.gtb_spec (rs + 8) (len file)); [lia|].
  unfold D.maxint. destruct (Z.gtb_spec (rs + 8) (2 ^ 63 - 1)); [lia|].
  destruct (Z.ltb_spec (rs + 8) 12); [lia|]. cbn [andb].
  replace (rs + 8) with (len file) by lia. rewrite S12. cbn [bind].
  assert (8 <= len body) by (rewrite Hb; apply len_chunk_app_ge).
  destruct (Z.ltb_spec (len body) 8); [lia|].
  rewrite Hb at 1. rewrite first_fourcc_of_chunk. cbn [bind]. rewrite rd32_le32_id by exact Hid.
  reflexivity.
Qed.

Lemma d_parse_extended_chunk f w h rest :
  0 <= f < 64 -> 1 <= w <= 16777216 -> 1 <= h <= 16777216 ->
  D.parse_extended (chunk FourCCVP8X (vp8x_payload f w h) ++ rest) =
  if w * h >=? D.MaxImageArea then Err D.E_vp8x else
  (st <- D.ext_loop (S (length rest)) rest
           (D.mkd [D.mkchunk FourCCVP8X 10 (vp8x_payload f w h)]
                  (D.mkfeat w h (negb ((f / 16) mod 2 =? 0)) (negb ((f / 2) mod 2 =? 0)) (negb ((f / 32) mod 2 =? 0))
                            (negb ((f / 8) mod 2 =? 0)) (negb ((f / 4) mod 2 =? 0)) 3) [] None None None 0 0) ;;
   if D.len (D.d_frames st) =? 0 then Err D.E_noimage else Ok st).
Proof.
  intros Hf Hw Hh. destruct fourcc_ranges as (HX & _). unfold D.parse_extended.
  rewrite d_read_chunk by (exact HX || (change (len (vp8x_payload f w h)) with 10; lia)).
  cbn [bind D.c_size D.c_data]. change (len (vp8x_payload f w h)) with 10.
  unfold D.VP8XChunkSize. change (10 <? 10) with false. cbv iota.
  rewrite (vp8x_payload_explicit f w h Hf) at 1. cbv iota.
  change (@D.len Z) with (@len Z). rewrite rest_after_chunk. cbn [bind].
  fold (rd24 [(w - 1) mod 256; ((w - 1) / 256) mod 256; ((w - 1) / 65536) mod 256]).
  fold (rd24 [(h - 1) mod 256; ((h - 1) / 256) mod 256; ((h - 1) / 65536) mod 256]).
  rewrite !rd24_le24' by lia.
  replace (w - 1 + 1) with w by lia. replace (h - 1 + 1) with h by lia. reflexivity.
Qed.

Lemma d_parse_vp8x f w h rest :
  0 <= f < 64 -> 1 <= w <= 16777216 -> 1 <= h <= 16777216 ->
  let body := chunk FourCCVP8X (vp8x_payload f w h) ++ rest in
  4 + len body < 4294967296 ->
  D.parse true (le32 FourCCRIFF ++ le32 (4 + len body) ++ le32 FourCCWEBP ++ body) =
  D.parse_extended body.
Proof.
  intros Hf Hw Hh body Hs. destruct fourcc_ranges as (HX & _). pose proof (len_nonneg body).
  rewrite (d_parse_written (4 + len body) body FourCCVP8X (vp8x_payload f w h) rest eq_refl ltac:(lia) eq_refl HX).
  reflexivity.
Qed.

(** Chunks that leave features, frames and loop count alone: metadata, unknown ones, image chunks once a frame exists. *)
Definition not_anim_id (id : Z) : Prop := id <> D.FCC_ANIM /\ id <> D.FCC_ANMF.

Lemma d_dispatch_keep st id d rest :
  not_anim_id id -> len d <= 104857600 ->
  (D.d_frames st <> [] \/ ((id =? D.FCC_VP8) || (id =? D.FCC_VP8L) || (id =? D.FCC_ALPH)) = false) ->
  exists st', D.ext_dispatch (D.add_chunk st (D.mkchunk id (len d) d)) (D.mkchunk id (len d) d) rest = Ok st' /\
              D.d_feat st' = D.d_feat st /\ D.d_frames st' = D.d_frames st /\ D.d_loop st' = D.d_loop st.
Proof.
  intros [Hn1 Hn2] Hcap Hfr.
  unfold D.ext_dispatch. cbn [D.c_id D.c_data]. unfold D.maxMetadataSize. change (@D.len Z) with (@len Z).
  destruct (id =? D.FCC_ICCP). { destruct (Z.gtb_spec (len d) 104857600); [lia|]. eexists. split; [reflexivity|]. auto. }
  destruct (id =? D.FCC_EXIF). { destruct (Z.gtb_spec (len d) 104857600); [lia|]. eexists. split; [reflexivity|]. auto. }
  destruct (id =? D.FCC_XMP). { destruct (Z.gtb_spec (len d) 104857600); [lia|]. eexists. split; [reflexivity|]. auto. }
  destruct (Z.eqb_spec id D.FCC_ANIM); [contradiction|]. destruct (Z.eqb_spec id D.FCC_ANMF); [contradiction|].
  destruct ((id =? D.FCC_VP8) || (id =? D.FCC_VP8L) || (id =? D.FCC_ALPH)).
  - destruct Hfr as [Hfr|]; [|discriminate]. cbn [D.add_chunk D.d_feat D.d_frames].
    assert (Hz : (D.len (D.d_frames st) =? 0) = false).
    { destruct (D.d_frames st); [contradiction|]. unfold D.len. cbn [length]. lia. }
    rewrite Hz, andb_false_r. eexists. split; [reflexivity|]. auto.
  - eexists. split; [reflexivity|]. auto.
Qed.

Lemma d_ext_loop_tail : forall cs fuel tl st,
  bytes_ok tl -> walk fuel tl = Some cs -> (length tl < fuel)%nat ->
  Forall (fun c => not_anim_id (fst c) /\ len (snd c) <= 104857600) cs ->
  D.d_frames st <> [] ->
  exists st', D.ext_loop fuel tl st = Ok st' /\ D.d_feat st' = D.d_feat st /\ D.d_frames st' = D.d_frames st /\
              D.d_loop st' = D.d_loop st.
Proof.
  induction cs as [|[id dat] cs IH]; intros fuel tl st Hb Hw Hf Hall Hfr.
  - apply walk_nil_inv in Hw. subst tl. destruct fuel as [|fuel]; [cbn in Hf; lia|]. exists st. auto.
  - destruct (walk_cons_inv _ _ _ _ _ Hb Hw) as (rest & fuel' & -> & Hw' & Hr & Hd & Hid & Hl).
    inversion Hall as [|? ? [Hna Hcap] Hall']; subst. cbn [fst snd] in *.
    destruct fuel as [|fuel]; [lia|]. rewrite d_ext_loop_step by lia.
    destruct (d_dispatch_keep st id dat (chunk id dat ++ rest) Hna Hcap (or_introl Hfr)) as (st2 & -> & F1 & F2 & F3).
    cbn [bind]. rewrite app_length in Hf. pose proof (chunk_min_len id dat).
    destruct (IH fuel rest st2 Hr) as (st' & Ed' & G1 & G2 & G3).
    + apply (walk_any_fuel fuel'); [exact Hr|exact Hw'|]. pose proof (walk_count _ _ _ Hr Hw'). unfold len in *. lia.
    + unfold len in *. lia.
    + exact Hall'.
    + rewrite F2. exact Hfr.
    + exists st'. split; [exact Ed'|]. split; [congruence|]. split; congruence.
Qed.

(** ** parseSingleExtendedFrame on [ALPH]? image ... *)
Lemma d_single_ext id bs alph tl :
  (id = FourCCVP8 \/ id = FourCCVP8L) -> len bs <= 4294967286 ->
  (forall al, alph = Some al -> len al <= 4294967286) ->
  exists hasA, forall st,
    D.parse_single_ext st (optc FourCCALPH alph ++ chunk id bs ++ tl) =
    Ok (D.set_frames st [D.mkfi (Some bs) alph (D.ft_w (D.d_feat st)) (D.ft_h (D.d_feat st)) 0 0 0 true hasA 0 0]).
Proof.
  intros Hid Hbs Hal.
  assert (Hidr : 0 <= id < 4294967296) by (destruct Hid as [->| ->]; [unfold FourCCVP8|unfold FourCCVP8L]; lia).
  assert (Himg : D.is_image_id id = true) by (destruct Hid as [->| ->]; reflexivity).
  assert (Hnal : (id =? D.FCC_ALPH) = false) by (destruct Hid as [->| ->]; reflexivity).
  assert (Hloop : D.single_loop (S (length (optc FourCCALPH alph ++ chunk id bs ++ tl)))
                    (optc FourCCALPH alph ++ chunk id bs ++ tl) None None = Ok (Some bs, alph)).
  { destruct alph as [al|]; cbn [optc app].
    - rewrite d_single_loop_step by (unfold FourCCALPH; lia || auto).
      change (D.is_image_id FourCCALPH) with false. change (FourCCALPH =? D.FCC_ALPH) with true. cbv iota.
      destruct (chunk_length_S FourCCALPH al (chunk id bs ++ tl)) as [n ->].
      rewrite d_single_loop_step by assumption. rewrite Himg, Hnal. reflexivity.
    - rewrite d_single_loop_step by assumption. rewrite Himg, Hnal. reflexivity. }
  unfold D.parse_single_ext. rewrite Hloop. cbn [bind].
  destruct (0 <? D.olen alph); [exists true; reflexivity|].
  destruct (DemuxTotal.frame_data_has_alpha_spec bs) as [b ->]. exists b. reflexivity.
Qed.

(** The first ALPH or image chunk makes the frame through parseSingleExtendedFrame; the rest changes nothing. *)
Lemma d_ext_loop_first fuel id0 d0 rest cs fuel' st fi :
  ((id0 =? D.FCC_VP8) || (id0 =? D.FCC_VP8L) || (id0 =? D.FCC_ALPH)) = true ->
  0 <= id0 < 4294967296 -> len d0 <= 104857600 ->
  D.d_frames st = [] -> D.ft_anim (D.d_feat st) = false ->
  D.parse_single_ext (D.add_chunk st (D.mkchunk id0 (len d0) d0)) (chunk id0 d0 ++ rest) =
    Ok (D.set_frames (D.add_chunk st (D.mkchunk id0 (len d0) d0)) [fi]) ->
  bytes_ok rest -> walk fuel' rest = Some cs ->
  Forall (fun c => not_anim_id (fst c) /\ len (snd c) <= 104857600) cs ->
  (length (chunk id0 d0 ++ rest) < fuel)%nat ->
  exists st', D.ext_loop fuel (chunk id0 d0 ++ rest) st = Ok st' /\ D.d_feat st' = D.d_feat st /\
              D.d_frames st' = [fi] /\ D.d_loop st' = D.d_loop st.
Proof.
  intros Hid0 Hr0 Hc0 Hfr Han Hsingle Hb Hw Hall Hfu.
  destruct fuel as [|fuel]; [lia|]. rewrite d_ext_loop_step by lia.
  assert (Hdis : forall r, D.ext_dispatch (D.add_chunk st (D.mkchunk id0 (len d0) d0)) (D.mkchunk id0 (len d0) d0) r =
                           D.parse_single_ext (D.add_chunk st (D.mkchunk id0 (len d0) d0)) r).
  { intros r. unfold D.ext_dispatch. cbn [D.c_id D.add_chunk D.d_feat D.d_frames].
    rewrite Hid0, Hfr, Han.
    destruct (id0 =? D.FCC_ICCP) eqn:E1; [apply Z.eqb_eq in E1; subst id0; discriminate|].
    destruct (id0 =? D.FCC_EXIF) eqn:E2; [apply Z.eqb_eq in E2; subst id0; discriminate|].
    destruct (id0 =? D.FCC_XMP) eqn:E3; [apply Z.eqb_eq in E3; subst id0; discriminate|].
    destruct (id0 =? D.FCC_ANIM) eqn:E4; [apply Z.eqb_eq in E4; subst id0; discriminate|].
    destruct (id0 =? D.FCC_ANMF) eqn:E5; [apply Z.eqb_eq in E5; subst id0; discriminate|]. reflexivity. }
  rewrite Hdis, Hsingle. cbn [bind].
  rewrite app_length in Hfu. pose proof (chunk_min_len id0 d0).
  destruct (d_ext_loop_tail cs fuel rest (D.set_frames (D.add_chunk st (D.mkchunk id0 (len d0) d0)) [fi]) Hb)
    as (st' & E & G1 & G2 & G3); try assumption.
  - apply (walk_any_fuel fuel'); [exact Hb|exact Hw|]. pose proof (walk_count _ _ _ Hb Hw). unfold len in *. lia.
  - unfold len in *. lia.
  - discriminate.
  - exists st'. auto.
Qed.

(** ** parseExtended on the extended still shape *)
Lemma d_parse_extended_still flags w h icc alph id bs tl cst fuelT :
  0 <= flags < 64 -> (flags / 2) mod 2 = 0 -> 1 <= w <= 16384 -> 1 <= h <= 16384 ->
  (id = FourCCVP8 \/ id = FourCCVP8L) -> len bs <= 104857600 ->
  (forall x, icc = Some x -> len x <= 104857600) -> (forall x, alph = Some x -> len x <= 104857600) ->
  bytes_ok bs -> bytes_ok tl -> walk fuelT tl = Some cst ->
  Forall (fun c => not_anim_id (fst c) /\ len (snd c) <= 104857600) cst ->
  exists st hasA,
    D.parse_extended (chunk FourCCVP8X (vp8x_payload flags w h) ++ optc FourCCICCP icc ++
                      optc FourCCALPH alph ++ chunk id bs ++ tl) = Ok st /\
    D.ft_w (D.d_feat st) = w /\ D.ft_h (D.d_feat st) = h /\ D.ft_anim (D.d_feat st) = false /\
    D.d_frames st = [D.mkfi (Some bs) alph w h 0 0 0 true hasA 0 0] /\ D.d_loop st = 0.
Proof.
  intros Hfl Hanim Hw Hh Hid Hbs Hicc Halph Hbbs Hbtl Hwt Hall.
  destruct fourcc_ranges as (_ & HI & HA & _).
  assert (Hidr : 0 <= id < 4294967296) by (destruct Hid as [->| ->]; [unfold FourCCVP8|unfold FourCCVP8L]; lia).
  assert (Hnid : not_anim_id id) by (destruct Hid as [->| ->]; split; discriminate).
  rewrite d_parse_extended_chunk by lia.
  destruct (Z.geb_spec (w * h) D.MaxImageArea) as [Hbad|_]; [unfold D.MaxImageArea in Hbad; nia|].
  rewrite Hanim. change (negb (0 =? 0)) with false.
  set (st0 := D.mkd _ _ [] None None None 0 0).
  destruct (d_single_ext id bs alph tl Hid ltac:(lia) ltac:(intros x E; specialize (Halph x E); lia)) as (hasA & Es).
  (* the image part, from any state without frames *)
  assert (Himage : forall fuel st, D.d_frames st = [] -> D.d_feat st = D.d_feat st0 -> D.d_loop st = 0 ->
            (length (optc FourCCALPH alph ++ chunk id bs ++ tl) < fuel)%nat ->
            exists st', D.ext_loop fuel (optc FourCCALPH alph ++ chunk id bs ++ tl) st = Ok st' /\
               D.d_feat st' = D.d_feat st0 /\ D.d_frames st' = [D.mkfi (Some bs) alph w h 0 0 0 true hasA 0 0] /\
               D.d_loop st' = 0).
  { intros fuel st Hfr Hft Hlp Hfu.
    assert (Hfi : forall c, D.parse_single_ext (D.add_chunk st c) (optc FourCCALPH alph ++ chunk id bs ++ tl) =
                            Ok (D.set_frames (D.add_chunk st c) [D.mkfi (Some bs) alph w h 0 0 0 true hasA 0 0])).
    { intros c. rewrite Es. cbn [D.add_chunk D.d_feat]. rewrite Hft. reflexivity. }
    enough (exists st', D.ext_loop fuel (optc FourCCALPH alph ++ chunk id bs ++ tl) st = Ok st' /\
               D.d_feat st' = D.d_feat st /\ D.d_frames st' = [D.mkfi (Some bs) alph w h 0 0 0 true hasA 0 0] /\
               D.d_loop st' = D.d_loop st) as (st' & E & G1 & G2 & G3)
      by (exists st'; split; [exact E|]; split; [congruence|]; split; [exact G2|congruence]).
    destruct alph as [al|]; cbn [optc app] in *.
    - apply (d_ext_loop_first fuel FourCCALPH al (chunk id bs ++ tl) ((id, bs) :: cst) (S fuelT)); auto.
      + rewrite Hft. reflexivity.
      + rewrite bytes_ok_app. split; [apply bytes_ok_chunk; exact Hbbs|exact Hbtl].
      + apply walk_chunk_some; [exact Hidr|lia|exact Hwt].
    - apply (d_ext_loop_first fuel id bs tl cst fuelT); auto.
      + destruct Hid as [->| ->]; reflexivity.
      + rewrite Hft. reflexivity. }
  (* optional ICCP first *)
  assert (Hloop : exists st',
     D.ext_loop (S (length (optc FourCCICCP icc ++ optc FourCCALPH alph ++ chunk id bs ++ tl)))
                (optc FourCCICCP icc ++ optc FourCCALPH alph ++ chunk id bs ++ tl) st0 = Ok st' /\
     D.d_feat st' = D.d_feat st0 /\ D.d_frames st' = [D.mkfi (Some bs) alph w h 0 0 0 true hasA 0 0] /\ D.d_loop st' = 0).
  { destruct icc as [ic|]; cbn [optc app].
    - rewrite d_ext_loop_step by (exact HI || (specialize (Hicc ic eq_refl); lia)).
      destruct (d_dispatch_keep st0 FourCCICCP ic (chunk FourCCICCP ic ++ optc FourCCALPH alph ++ chunk id bs ++ tl))
        as (st1 & -> & F1 & F2 & F3); [split; discriminate|auto|right; reflexivity|].
      cbn [bind]. apply Himage; [exact F2|exact F1|exact F3|].
      rewrite (app_length (chunk FourCCICCP ic)). pose proof (chunk_min_len FourCCICCP ic). unfold len in *. lia.
    - apply Himage; try reflexivity. lia. }
  destruct Hloop as (st' & -> & G1 & G2 & G3). cbn [bind].
  exists st', hasA. rewrite G2, G1. change (D.len [D.mkfi (Some bs) alph w h 0 0 0 true hasA 0 0] =? 0) with false.
  auto 10.
Qed.

(** ** views_agree for stills *)
Definition frame_agrees (f : FrameInfo) (fi : D.frame_info) : Prop :=
  D.fi_data fi = Some (frPayload f) /\ D.fi_alpha fi = frAlpha f /\
  D.fi_w fi = frW f /\ D.fi_h fi = frH f /\ D.fi_ox fi = frX f /\ D.fi_oy fi = frY f /\
  D.fi_dur fi = frDur f /\ D.fi_blend fi = (if frBlendNone f then 1 else 0) /\
  D.fi_dispose fi = (if frDisposeBG f then 1 else 0).

Theorem views_agree_still :
  forall fx bs,
    RiffGrammar.wf bs = true -> g_is_anim bs = false -> len bs <= MaxMetadataSize ->
    exists r d,
      parse fx bs = Ok r /\ D.parse true bs = Ok d /\
      Forall2 frame_agrees (pFrames r) (D.d_frames d) /\ length (pFrames r) = 1%nat /\
      fCanvasW (pFeat r) = D.ft_w (D.d_feat d) /\ fCanvasH (pFeat r) = D.ft_h (D.d_feat d) /\
      fWidth (pFeat r) = D.ft_w (D.d_feat d) /\ fHeight (pFeat r) = D.ft_h (D.d_feat d) /\
      fHasAnim (pFeat r) = false /\ D.ft_anim (D.d_feat d) = false /\
      (* loop count: not part of the agreement for stills (parser 1 or 0, demuxer 0) *)
      D.d_loop d = 0 /\ (fLoopCount (pFeat r) = 1 \/ fLoopCount (pFeat r) = 0).
Proof.
  intros fx file Hg Hna Hlen.
  destruct (grammar_still_riff_wf _ Hg Hna) as [Hwf Hb].
  destruct (riff_wf_inv file Hb Hwf) as (cs & body & _ & Hfile & Hrs & Hshape).
  assert (Hlb : len file = 12 + len body) by (rewrite Hfile, !len_app, !len_le32; lia).
  unfold MaxMetadataSize in Hlen. pose proof (len_nonneg body) as Hb0. unfold parse.
  destruct Hshape as
    [(id & bs & w & h & a & _ & Eb & Ed & Hbs)|
     (flags & w & h & icc & alph & id & bs & exif & xmp & a & tl & fu & _ & Eb & Hwt & Hbtl & Hbbs & Hd & Hf64 & Hland &
      Hbit1 & F5 & F3 & F2 & F4 & Halph)].
  - (* simple layout *)
    pose proof (image_dims_fourcc _ _ _ _ _ Ed) as Hf.
    assert (Hsmall : len bs <= 104857600).
    { rewrite Eb, len_chunk in Hlb. unfold padded_chunk_size, ChunkHeaderSize in Hlb. pose proof (len_nonneg bs). lia. }
    pose proof (parse_written_simple fx id bs w h a Hf ltac:(lia) Ed) as Hp.
    unfold simple_file in Hp. rewrite <- Eb, <- Hfile in Hp.
    assert (Hdm : exists d, D.parse true file = Ok d /\ D.d_feat d = D.mkfeat w h a false false false false (if id =? FourCCVP8L then 2 else 1) /\
                            D.d_frames d = [D.mkfi (Some bs) None w h 0 0 0 true a 0 0] /\ D.d_loop d = 0).
    { rewrite Hfile. rewrite <- (app_nil_r (chunk id bs)) in Eb.
      rewrite (d_parse_written (4 + len body) body id bs [] eq_refl ltac:(lia) Eb (image_fourcc_range _ Hf)). rewrite Eb.
      destruct (image_dims_inv _ _ _ _ _ Ed) as [(-> & Eh)|(-> & -> & Eh)].
      - change (FourCCVP8L =? D.FCC_VP8X) with false. change (FourCCVP8L =? D.FCC_VP8) with false.
        change (FourCCVP8L =? D.FCC_VP8L) with true. cbv iota.
        unfold D.parse_simple_vp8l. rewrite d_read_chunk by (unfold FourCCVP8L; lia). cbn [bind D.c_data].
        rewrite (d_vp8l_dims _ _ _ _ Eh). eexists. split; [reflexivity|]. cbn. auto.
      - change (FourCCVP8 =? D.FCC_VP8X) with false. change (FourCCVP8 =? D.FCC_VP8) with true. cbv iota.
        unfold D.parse_simple_vp8. rewrite d_read_chunk by (unfold FourCCVP8; lia). cbn [bind D.c_data].
        rewrite (d_vp8_dims _ _ _ Hbs Eh). eexists. split; [reflexivity|]. cbn. auto. }
    destruct Hdm as (d & Ed' & Dft & Dfr & Dlp).
    exists (mkParsed (simple_features id w h a) [expected_frame id bs [] w h a] []), d.
    split; [rewrite Hp; reflexivity|]. split; [exact Ed'|].
    rewrite Dfr, Dft. cbn [pFrames pFeat simple_features fCanvasW fCanvasH fWidth fHeight fHasAnim fLoopCount
                           D.ft_w D.ft_h D.ft_anim].
    split.
    { constructor; [|constructor]. unfold frame_agrees, expected_frame, opt_blob.
      change (len (@nil Z) >? 0) with false. destruct (id =? FourCCVP8L); cbn; repeat split; reflexivity. }
    repeat split; auto.
  - (* extended layout *)
    pose proof (image_dims_fourcc _ _ _ _ _ Hd) as Hf.
    destruct (image_dims_range _ _ _ _ _ Hd) as [Hwr Hhr].
    destruct (still_body_parts (vp8x_payload flags w h) icc alph id bs tl) as (Pbs & Picc & Palph & Ptl).
    rewrite <- Eb in Pbs, Picc, Palph, Ptl.
    assert (Hsicc : forall x, icc = Some x -> len x <= 104857600) by (intros x E; specialize (Picc x E); lia).
    assert (Hsalph : forall x, alph = Some x -> len x <= 104857600) by (intros x E; specialize (Palph x E); lia).
    (* the tail: EXIF / XMP chunks, within the cap *)
    assert (Htail : Forall (fun c => not_anim_id (fst c) /\ len (snd c) <= 104857600)
                           (optl FourCCEXIF exif ++ optl FourCCXMP xmp)).
    { pose proof (walk_payload_len _ _ _ Hbtl Hwt) as Hbound. rewrite Forall_forall in *. intros c Hin. split.
      - apply in_app_or in Hin. destruct Hin as [Hin|Hin].
        + destruct exif; [|contradiction]. destruct Hin as [<-|[]]. cbn. split; discriminate.
        + destruct xmp; [|contradiction]. destruct Hin as [<-|[]]. cbn. split; discriminate.
      - specialize (Hbound c Hin). cbn beta in Hbound. lia. }
    assert (Hanim0 : (flags / 2) mod 2 = 0).
    { destruct (flag_bits_bridge flags ltac:(lia)) as (_ & _ & _ & _ & G1 & _). rewrite Hbit1 in G1.
      symmetry in G1. apply negb_false_iff in G1. apply Z.eqb_eq in G1. exact G1. }
    destruct (d_parse_extended_still flags w h icc alph id bs tl _ fu Hf64 Hanim0 Hwr Hhr
                ltac:(destruct Hf; auto) ltac:(lia) Hsicc Hsalph Hbbs Hbtl Hwt Htail) as (d & hasA & Edm & Dw & Dh & Dan & Dfr & Dlp).
    pose proof (parse_extended_still fx flags w h icc alph id bs a tl Hf64 Hland Hbit1 F5 F4 Hd Halph) as Hp.
    cbv zeta in Hp. rewrite <- Eb, <- Hfile in Hp. rewrite Hp by (unfold MaxMetadataSize; lia).
    rewrite <- Eb in Edm. eexists _, d.
    split; [reflexivity|]. split; [rewrite Hfile, Eb, d_parse_vp8x, <- Eb by (rewrite <- ?Eb; lia); exact Edm|].
    cbn [bind fst pFrames pFeat]. rewrite Dfr, Dw, Dh, Dan, Dlp.
    split.
    { constructor; [|constructor]. unfold frame_agrees, frame_of.
      destruct (Z.eqb_spec id FourCCVP8L) as [->|]; cbn; repeat split; try reflexivity.
      destruct alph; [specialize (Halph eq_refl); discriminate|reflexivity]. }
    destruct (is_some alph || a); cbn; repeat split; auto.
Qed.
