(** Facts about the writer model's building blocks, and how the parser model and
    the specification walker read one written chunk back. *)
From Coq Require Import List ZArith Lia Bool.
From Coq Require Import ZifyBool ZifyNat.
From Webp Require Import Base.Res Base.Bytes Base.ListFacts Riff.ChunkBytes Riff.ParserModel Riff.ParserLemmas Riff.ParserSpec
     Riff.WriterModel.
Import ListNotations.
Open Scope Z_scope.

Lemma chunk_is_chunk_bytes id d : chunk id d = chunk_bytes (le32 id) d.
Proof. reflexivity. Qed.

Lemma len_pad n : len (pad n) = n mod 2.
Proof. exact (length_pad_bytes n). Qed.

Lemma len_le32 v : len (le32 v) = 4. Proof. reflexivity. Qed.
Lemma len_le24 v : len (le24 v) = 3. Proof. reflexivity. Qed.

Lemma len_chunk id d : len (chunk id d) = padded_chunk_size (len d).
Proof.
  pose proof (length_chunk_bytes (le32 id) d) as H. rewrite le32_length in H.
  unfold padded_chunk_size, ChunkHeaderSize, len. rewrite chunk_is_chunk_bytes. lia.
Qed.

Lemma len_opt_chunk id d : len (opt_chunk id d) = opt_size d.
Proof.
  unfold opt_chunk, opt_size. destruct (len d >? 0); [apply len_chunk|reflexivity].
Qed.

Lemma padded_even n : 0 <= n -> (padded_chunk_size n) mod 2 = 0.
Proof. intros H. unfold padded_chunk_size, ChunkHeaderSize. lia. Qed.

Lemma rd32_le32' v : 0 <= v < 4294967296 ->
  rd32 [v mod 256; (v / 256) mod 256; (v / 65536) mod 256; (v / 16777216) mod 256] = v.
Proof. exact (rd32_le32_bytes v). Qed.

Lemma rd32_le32_id v : 0 <= v < 4294967296 -> rd32 (le32 v) = v.
Proof. exact (rd32_le32_bytes v). Qed.

Lemma rd24_le24' v : 0 <= v < 16777216 ->
  rd24 [v mod 256; (v / 256) mod 256; (v / 65536) mod 256] = v.
Proof. exact (rd24_le24_bytes v). Qed.

Lemma slice_mid {A} (pre d post : list A) :
  slice (pre ++ d ++ post) (len pre) (len pre + len d) = Ok d.
Proof. exact (slice_app_mid pre d post _ _ eq_refl eq_refl). Qed.

Lemma slice_head {A} (d post : list A) : slice (d ++ post) 0 (len d) = Ok d.
Proof. apply (slice_mid [] d post). Qed.

Lemma slice_tail {A} (pre post : list A) :
  slice (pre ++ post) (len pre) (len (pre ++ post)) = Ok post.
Proof. exact (slice_app_tail pre post). Qed.

Lemma chunk_shape id d rest :
  chunk id d ++ rest = (le32 id ++ le32 (len d)) ++ d ++ (pad (len d) ++ rest).
Proof. unfold chunk. rewrite <- !app_assoc. reflexivity. Qed.

Lemma read_header_chunk id d rest :
  0 <= id < 4294967296 -> len d <= MaxChunkPayload ->
  read_chunk_header (chunk id d ++ rest) = Ok (id, len d).
Proof.
  intros Hid Hd. pose proof (len_nonneg d) as Hd0. unfold MaxChunkPayload in Hd.
  unfold read_chunk_header, ChunkHeaderSize.
  assert (Hl : 8 <= len (chunk id d ++ rest)).
  { rewrite len_app, len_chunk. unfold padded_chunk_size, ChunkHeaderSize. pose proof (len_nonneg rest). lia. }
  destruct (Z.ltb_spec (len (chunk id d ++ rest)) 8); [lia|].
  unfold chunk. rewrite <- !app_assoc.
  change 4 with (len (le32 id)) at 1. rewrite slice_head. cbn [bind].
  change 4 with (len (le32 id)) at 1. change 8 with (len (le32 id) + len (le32 (len d))).
  rewrite slice_mid. cbn [bind].
  rewrite !rd32_le32_id by lia.
  unfold MaxChunkPayload. destruct (Z.gtb_spec (len d) 4294967286); [lia|reflexivity].
Qed.

Lemma chunk_at_chunk id d rest :
  0 <= id < 4294967296 -> len d <= MaxChunkPayload ->
  chunk_at (chunk id d ++ rest) = Ok (id, len d, len (chunk id d), d).
Proof.
  intros Hid Hd. unfold chunk_at. rewrite read_header_chunk by assumption. cbn [bind].
  rewrite len_app, len_chunk. unfold padded_chunk_size, ChunkHeaderSize.
  pose proof (len_nonneg rest). pose proof (len_nonneg d).
  destruct (Z.gtb_spec (8 + (len d + len d mod 2)) (8 + len d + len d mod 2 + len rest)); [lia|].
  rewrite chunk_shape.
  change 8 with (len (le32 id ++ le32 (len d))).
  rewrite slice_mid. cbn [bind]. change (len (le32 id ++ le32 (len d))) with 8.
  replace (8 + (len d + len d mod 2)) with (8 + len d + len d mod 2) by lia. reflexivity.
Qed.

Lemma rest_after_chunk id d rest :
  slice (chunk id d ++ rest) (len (chunk id d)) (len (chunk id d ++ rest)) = Ok rest.
Proof. apply slice_tail. Qed.

Lemma chunk_min_len id d : 8 <= len (chunk id d).
Proof. rewrite len_chunk. unfold padded_chunk_size, ChunkHeaderSize. pose proof (len_nonneg d). lia. Qed.

Lemma walk_chunk fuel id d rest :
  0 <= id < 4294967296 -> len d < 4294967296 ->
  walk (S fuel) (chunk id d ++ rest) =
  match walk fuel rest with Some cs => Some ((id, d) :: cs) | None => None end.
Proof.
  intros Hid Hd. pose proof (len_nonneg d) as Hd0. pose proof (len_nonneg rest) as Hr.
  unfold chunk, le32. cbn [app walk]. rewrite !rd32_le32' by lia.
  rewrite <- app_assoc, !len_app, len_pad.
  destruct (Z.leb_spec (len d + len d mod 2) (len d + (len d mod 2 + len rest))); [|lia].
  rewrite (skipn_app_len d), (firstn_app_len d).
  (* past the payload and its padding byte lies [rest] *)
  replace (skipn (Z.to_nat (len d + len d mod 2)) (d ++ pad (len d) ++ rest)) with rest.
  2:{ rewrite app_assoc. symmetry. rewrite <- (skipn_app_exact (d ++ pad (len d)) rest) at 2. f_equal.
      rewrite app_length. pose proof (len_pad (len d)). unfold len in *. lia. }
  unfold pad. destruct (len d mod 2 =? 0); reflexivity.
Qed.

(** more fuel never changes a result the walker has reached *)
Lemma walk_fuel_mono : forall fuel fuel' buf cs,
  walk fuel buf = Some cs -> (fuel <= fuel')%nat -> walk fuel' buf = Some cs.
Proof.
  induction fuel as [|fuel IH]; intros fuel' buf cs H Hle.
  - destruct buf; cbn in H; [|discriminate]. destruct fuel'; exact H.
  - destruct fuel' as [|fuel']; [lia|].
    destruct buf as [|a0 [|a1 [|a2 [|a3 [|s0 [|s1 [|s2 [|s3 rest]]]]]]]]; try exact H.
    cbn [walk] in *.
    destruct (rd32 [s0; s1; s2; s3] + rd32 [s0; s1; s2; s3] mod 2 <=? len rest); [|discriminate].
    destruct (if rd32 [s0; s1; s2; s3] mod 2 =? 0 then true
              else match skipn (Z.to_nat (rd32 [s0; s1; s2; s3])) rest with p :: _ => p =? 0 | [] => false end);
      [|discriminate].
    destruct (walk fuel (skipn _ rest)) as [cs'|] eqn:E; [|discriminate].
    rewrite (IH fuel' _ _ E ltac:(lia)). exact H.
Qed.

Definition opt_entry (id : Z) (d : list Z) : list (Z * list Z) :=
  if len d >? 0 then [(id, d)] else [].

Lemma walk_opt_some fuel id d rest cs :
  0 <= id < 4294967296 -> len d < 4294967296 ->
  walk fuel rest = Some cs ->
  walk (S fuel) (opt_chunk id d ++ rest) = Some (opt_entry id d ++ cs).
Proof.
  intros Hid Hd H. unfold opt_chunk, opt_entry. destruct (len d >? 0).
  - rewrite walk_chunk by assumption. rewrite H. reflexivity.
  - cbn [app]. apply (walk_fuel_mono fuel); [exact H|lia].
Qed.

Lemma walk_chunk_some fuel id d rest cs :
  0 <= id < 4294967296 -> len d < 4294967296 ->
  walk fuel rest = Some cs ->
  walk (S fuel) (chunk id d ++ rest) = Some ((id, d) :: cs).
Proof. intros Hid Hd H. rewrite walk_chunk by assumption. rewrite H. reflexivity. Qed.
