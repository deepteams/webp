(** C16 views_agree across the two container parsers, animations: on the
    chunk shape that [RiffGrammar.wf] prescribes for an animated file
    (VP8X [ICCP] ANIM ANMF+ [EXIF] [XMP], every ANMF = 16-byte header + [ALPH] VP8 |
    VP8L), the model of internal/container.Parser and the model of mux.Demuxer both
    succeed and agree on canvas, animation flag, loop count, frame count and every
    frame's payload / alpha / offsets / size / duration / blend / dispose. *)
From Coq Require Import List ZArith Lia Bool.
From Coq Require Import ZifyBool ZifyNat.
From Webp Require Import Base.Res Base.Bytes Base.ListFacts Riff.ParserModel Riff.ParserLemmas Riff.ParserSpec
     Riff.WriterModel Riff.WriterProofs Riff.MetadataProofs Riff.ParserProofs Riff.WriterTheorems
     Riff.ParserSpecProofs Riff.ParserGrammar Riff.ParserDemuxAgree.
From Webp Require Riff.DemuxModel Riff.RiffGrammar.
Import ListNotations.
Open Scope Z_scope.

(** ** One ANMF frame of the grammar's shape *)
Record aframe := mkaf {
  af_hdr : list Z;                 (* the 16 header bytes *)
  af_alph : option (list Z);
  af_id : Z; af_bs : list Z }.

Definition af_payload (f : aframe) : list Z :=
  af_hdr f ++ optc FourCCALPH (af_alph f) ++ chunk (af_id f) (af_bs f).

Definition hb (f : aframe) (i : nat) : Z := nth i (af_hdr f) 0.
Definition af_x f := 2 * rd24 [hb f 0; hb f 1; hb f 2].
Definition af_y f := 2 * rd24 [hb f 3; hb f 4; hb f 5].
Definition af_w f := 1 + rd24 [hb f 6; hb f 7; hb f 8].
Definition af_h f := 1 + rd24 [hb f 9; hb f 10; hb f 11].
Definition af_dur f := rd24 [hb f 12; hb f 13; hb f 14].
Definition af_fl f := hb f 15.

(** The 100 MB caps on the payloads come from the theorems' hypothesis [len bs <= MaxMetadataSize]:
    every payload lies inside the file. *)
Record af_ok (cw ch : Z) (f : aframe) : Prop := {
  afo_len : length (af_hdr f) = 16%nat;
  afo_bytes : bytes_ok (af_hdr f);
  afo_fl : af_fl f / 4 = 0;
  afo_id : af_id f = FourCCVP8 \/ af_id f = FourCCVP8L;
  afo_alph : is_some (af_alph f) = true -> af_id f = FourCCVP8;
  afo_dims : exists a, image_dims (af_id f) (af_bs f) = Some (af_w f, af_h f, a);
  afo_in : af_x f + af_w f <= cw /\ af_y f + af_h f <= ch;
  afo_bs : bytes_ok (af_bs f) /\ len (af_bs f) <= 104857600;
  afo_al : forall al, af_alph f = Some al -> len al <= 104857600 }.

(** what container.Parser makes of it ([dframe] below: mux.Demuxer) *)
Definition pframe (f : aframe) (a : bool) : FrameInfo :=
  mkFrame (af_x f) (af_y f) (af_w f) (af_h f) (af_dur f)
          (negb (af_fl f mod 2 =? 0)) (negb ((af_fl f / 2) mod 2 =? 0))
          (if af_id f =? FourCCVP8L then a else is_some (af_alph f))
          (af_id f =? FourCCVP8L) (af_bs f) (af_alph f).

Lemma hdr16 f : length (af_hdr f) = 16%nat ->
  af_hdr f = [hb f 0; hb f 1; hb f 2; hb f 3; hb f 4; hb f 5; hb f 6; hb f 7; hb f 8; hb f 9; hb f 10;
              hb f 11; hb f 12; hb f 13; hb f 14; hb f 15].
Proof.
  unfold hb. destruct (af_hdr f) as [|a0 l]; [discriminate|].
  do 15 (destruct l as [|? l]; [discriminate|]). destruct l; [|discriminate]. reflexivity.
Qed.

Lemma hb_byte f i : bytes_ok (af_hdr f) -> length (af_hdr f) = 16%nat -> (i < 16)%nat -> 0 <= hb f i < 256.
Proof.
  intros Hb Hl Hi. unfold hb, bytes_ok in *. rewrite Forall_forall in Hb. apply Hb. apply nth_In. lia.
Qed.

Lemma af_fields_range cw ch f :
  af_ok cw ch f -> cw * ch < MaxImageArea -> 1 <= cw -> 1 <= ch ->
  0 <= af_x f /\ 0 <= af_y f /\ af_w f * af_h f < MaxImageArea.
Proof.
  intros [Hl Hb _ _ _ _ [Hinx Hiny] _ _] Harea Hcw Hch.
  assert (Hr : forall i, (i < 16)%nat -> is_byte (hb f i)) by (intros; apply hb_byte; assumption).
  pose proof (rd24_bound _ _ _ [] (Hr 0%nat ltac:(lia)) (Hr 1%nat ltac:(lia)) (Hr 2%nat ltac:(lia))).
  pose proof (rd24_bound _ _ _ [] (Hr 3%nat ltac:(lia)) (Hr 4%nat ltac:(lia)) (Hr 5%nat ltac:(lia))).
  pose proof (rd24_bound _ _ _ [] (Hr 6%nat ltac:(lia)) (Hr 7%nat ltac:(lia)) (Hr 8%nat ltac:(lia))).
  pose proof (rd24_bound _ _ _ [] (Hr 9%nat ltac:(lia)) (Hr 10%nat ltac:(lia)) (Hr 11%nat ltac:(lia))).
  unfold af_x, af_y, af_w, af_h in *. unfold MaxImageArea in *. clear Hr Hb Hl. split; [lia|]. split; [lia|nia].
Qed.

(** ** The parser model on one ANMF payload *)
Lemma parse_anmf_bytes x0 x1 x2 y0 y1 y2 w0 w1 w2 h0 h1 h2 d0 d1 d2 bits sub :
  parse_anmf ([x0; x1; x2; y0; y1; y2; w0; w1; w2; h0; h1; h2; d0; d1; d2; bits] ++ sub) =
  if (2 * rd24 [x0; x1; x2] <? 0) || (2 * rd24 [y0; y1; y2] <? 0) then Err EInvalidChunk else
  if (1 + rd24 [w0; w1; w2]) * (1 + rd24 [h0; h1; h2]) >=? MaxImageArea then Err EInvalidImage else
  parse_frame_sub (S (length sub))
    (mkFrame (2 * rd24 [x0; x1; x2]) (2 * rd24 [y0; y1; y2]) (1 + rd24 [w0; w1; w2]) (1 + rd24 [h0; h1; h2])
             (rd24 [d0; d1; d2]) (negb (bits mod 2 =? 0)) (negb ((bits / 2) mod 2 =? 0)) false false [] None) None sub.
Proof.
  set (hdr := [x0; x1; x2; y0; y1; y2; w0; w1; w2; h0; h1; h2; d0; d1; d2; bits]).
  unfold parse_anmf, ANMFChunkSize.
  assert (Hl : len (hdr ++ sub) = 16 + len sub) by (rewrite len_app; reflexivity). pose proof (len_nonneg sub).
  destruct (Z.ltb_spec (len (hdr ++ sub)) 16); [lia|].
  change 16 with (len hdr). rewrite slice_head, slice_tail. reflexivity.
Qed.

Lemma p_parse_anmf cw ch f :
  af_ok cw ch f -> cw * ch < MaxImageArea -> 1 <= cw -> 1 <= ch ->
  exists a, parse_anmf (af_payload f) = Ok (pframe f a).
Proof.
  intros Hok Harea Hcw Hch. destruct (af_fields_range cw ch f Hok Harea Hcw Hch) as (Hx0 & Hy0 & Har).
  destruct Hok as [Hl Hb Hfl Hid Halph [a Hd] _ [Hbs Hsbs] Hsal].
  exists a. unfold af_payload. rewrite (hdr16 f Hl) at 1. rewrite parse_anmf_bytes.
  fold (af_x f) (af_y f) (af_w f) (af_h f) (af_dur f) (af_fl f).
  destruct (Z.ltb_spec (af_x f) 0); [lia|]. destruct (Z.ltb_spec (af_y f) 0); [lia|]. cbn [orb].
  destruct (Z.geb_spec (af_w f * af_h f) MaxImageArea); [lia|].
  destruct fourcc_ranges as (_ & _ & RA & _ & _ & R8 & R8L & _).
  unfold pframe, MaxChunkPayload in *. rewrite <- (app_nil_r (chunk (af_id f) (af_bs f))).
  destruct (af_alph f) as [al|] eqn:Eal; cbn [optc app is_some].
  - rewrite (Halph eq_refl). specialize (Hsal al eq_refl).
    rewrite frame_sub_step by (exact RA || (unfold MaxChunkPayload; lia)).
    change (FourCCALPH =? FourCCALPH) with true. cbv iota.
    destruct (chunk_length_S FourCCALPH al (chunk FourCCVP8 (af_bs f) ++ [])) as [n ->].
    rewrite frame_sub_step by (exact R8 || (unfold MaxChunkPayload; lia)). reflexivity.
  - destruct (image_dims_inv _ _ _ _ _ Hd) as [(Ei & Eh)|(Ei & -> & Eh)]; rewrite Ei.
    + rewrite frame_sub_step by (exact R8L || (unfold MaxChunkPayload; lia)).
      change (FourCCVP8L =? FourCCALPH) with false. change (FourCCVP8L =? FourCCVP8L) with true. cbv iota.
      rewrite Eh. destruct a; reflexivity.
    + rewrite frame_sub_step by (exact R8 || (unfold MaxChunkPayload; lia)). reflexivity.
Qed.

(** ** The demuxer model on one ANMF payload *)
Definition dframe (f : aframe) (key hasA : bool) : D.frame_info :=
  D.mkfi (Some (af_bs f)) (af_alph f) (af_w f) (af_h f) (af_x f) (af_y f) (af_dur f) key hasA
         (if negb ((af_fl f / 2) mod 2 =? 0) then 1 else 0) (if negb (af_fl f mod 2 =? 0) then 1 else 0).

(** parseANMF parses the whole frame first and applies the frame-count limit last *)
Lemma d_parse_anmf cw ch f d :
  af_ok cw ch f -> cw * ch < MaxImageArea -> 1 <= cw -> 1 <= ch ->
  exists hasA,
    D.parse_anmf d (af_payload f) =
    if D.len (D.d_frames d) >=? D.maxFrames then Err D.E_toomany
    else Ok (D.set_frames d (D.d_frames d ++ [dframe f (D.len (D.d_frames d) =? 0) hasA])).
Proof.
  intros Hok Harea Hcw Hch. destruct (af_fields_range cw ch f Hok Harea Hcw Hch) as (Hx0 & Hy0 & Har).
  destruct Hok as [Hl Hb Hfl Hid Halph [a Hd] _ [Hbs Hsbs] Hsal].
  assert (HhasA : exists b, (if 0 <? D.olen (af_alph f) then Ok true
                             else if 0 <? D.len (af_bs f) then D.frame_data_has_alpha (af_bs f) else Ok false) = Ok b).
  { destruct (0 <? D.olen (af_alph f)); [eauto|]. destruct (0 <? D.len (af_bs f)); [|eauto].
    apply DemuxTotal.frame_data_has_alpha_spec. }
  destruct HhasA as [b HhasA]. exists b.
  assert (Hidr : 0 <= af_id f < 4294967296) by (destruct Hid as [->| ->]; [unfold FourCCVP8|unfold FourCCVP8L]; lia).
  assert (Himg : D.is_image_id (af_id f) = true) by (destruct Hid as [->| ->]; reflexivity).
  assert (Hnal : (af_id f =? D.FCC_ALPH) = false) by (destruct Hid as [->| ->]; reflexivity).
  assert (Hloop : D.anmf_loop (S (length (optc FourCCALPH (af_alph f) ++ chunk (af_id f) (af_bs f))))
                              (optc FourCCALPH (af_alph f) ++ chunk (af_id f) (af_bs f)) None None =
                  Ok (Some (af_bs f), af_alph f)).
  { rewrite <- (app_nil_r (chunk (af_id f) (af_bs f))).
    destruct (af_alph f) as [al|] eqn:Eal; cbn [optc app].
    - specialize (Hsal al eq_refl). rewrite d_anmf_loop_step by (unfold FourCCALPH; lia).
      pose proof (chunk_length_ge FourCCALPH al (chunk (af_id f) (af_bs f) ++ [])).
      pose proof (chunk_length_ge (af_id f) (af_bs f) []).
      destruct (length (chunk FourCCALPH al ++ chunk (af_id f) (af_bs f) ++ [])) as [|[|n]]; [lia|lia|].
      change (D.is_image_id FourCCALPH) with false. change (FourCCALPH =? D.FCC_ALPH) with true. cbv iota.
      rewrite d_anmf_loop_step by (exact Hidr || lia). rewrite Himg, Hnal. reflexivity.
    - rewrite d_anmf_loop_step by (exact Hidr || lia). rewrite Himg, Hnal.
      destruct (chunk_length_S (af_id f) (af_bs f) []) as [n ->]. reflexivity. }
  assert (Hlen16 : len (af_hdr f) = 16) by (unfold len; rewrite Hl; reflexivity).
  unfold D.parse_anmf, D.ANMFChunkSize. change (@D.len Z) with (@len Z).
  destruct (Z.ltb_spec (len (af_payload f)) 16) as [Hlt|_].
  { unfold af_payload in Hlt. rewrite len_app, Hlen16 in Hlt.
    pose proof (len_nonneg (optc FourCCALPH (af_alph f) ++ chunk (af_id f) (af_bs f))). lia. }
  unfold af_payload. rewrite (hdr16 f Hl) at 1. cbn [app]. cbv iota.
  fold (rd24 [hb f 0; hb f 1; hb f 2]) (rd24 [hb f 3; hb f 4; hb f 5]) (rd24 [hb f 6; hb f 7; hb f 8])
       (rd24 [hb f 9; hb f 10; hb f 11]) (rd24 [hb f 12; hb f 13; hb f 14]).
  rewrite (Z.mul_comm (rd24 [hb f 0; hb f 1; hb f 2]) 2), (Z.mul_comm (rd24 [hb f 3; hb f 4; hb f 5]) 2),
          (Z.add_comm (rd24 [hb f 6; hb f 7; hb f 8]) 1), (Z.add_comm (rd24 [hb f 9; hb f 10; hb f 11]) 1).
  fold (af_x f) (af_y f) (af_w f) (af_h f) (af_dur f) (af_fl f).
  destruct (Z.ltb_spec (af_x f) 0); [lia|]. destruct (Z.ltb_spec (af_y f) 0); [lia|]. cbn [orb].
  change D.MaxImageArea with MaxImageArea. destruct (Z.geb_spec (af_w f * af_h f) MaxImageArea); [lia|].
  rewrite Hloop. cbn [bind]. change (@D.len Z) with (@len Z) in HhasA. rewrite HhasA. reflexivity.
Qed.

(** ** The run of ANMF chunks, both loops *)
Definition frames_bytes (fs : list aframe) : list Z :=
  concat (map (fun f => chunk FourCCANMF (af_payload f)) fs).

Lemma af_payload_len cw ch f : af_ok cw ch f -> len (af_payload f) <= 4294967286.
Proof.
  intros [Hl _ _ _ _ _ _ [_ Hsbs] Hsal]. unfold af_payload. rewrite !len_app, len_chunk.
  unfold padded_chunk_size, ChunkHeaderSize. pose proof (len_nonneg (af_bs f)).
  assert (len (af_hdr f) = 16) by (unfold len; rewrite Hl; reflexivity).
  assert (len (optc FourCCALPH (af_alph f)) <= 104857610).
  { destruct (af_alph f) as [al|]; cbn [optc]; [|cbn; lia]. specialize (Hsal al eq_refl).
    rewrite len_chunk. unfold padded_chunk_size, ChunkHeaderSize. pose proof (len_nonneg al). lia. }
  lia.
Qed.

Lemma frames_bytes_len fs : (8 * length fs <= length (frames_bytes fs))%nat.
Proof.
  induction fs as [|f fs IH]; [cbn; lia|].
  unfold frames_bytes in *. cbn [map concat length]. rewrite app_length.
  pose proof (chunk_min_len FourCCANMF (af_payload f)). unfold len in *. lia.
Qed.

Lemma anmf_id_range : 0 <= FourCCANMF < 4294967296.
Proof. unfold FourCCANMF. lia. Qed.

(** One ANMF chunk in the parser's loop, after an ANIM chunk and below the frame limit. *)
Lemma p_step_anmf cw ch fuel fx feat frames chunks a f tl :
  af_ok cw ch f -> cw * ch < MaxImageArea -> 1 <= cw -> 1 <= ch -> 1 <= a -> len frames < MaxFrames ->
  exists al, parse_vp8x_chunks (S fuel) fx feat frames chunks a (chunk FourCCANMF (af_payload f) ++ tl) =
             parse_vp8x_chunks fuel fx feat (frames ++ [pframe f al]) chunks a tl.
Proof.
  intros Hf Harea Hcw Hch Ha Hn. destruct (p_parse_anmf cw ch f Hf Harea Hcw Hch) as [al Ep]. exists al.
  rewrite chunks_step by (exact anmf_id_range || apply (af_payload_len cw ch f Hf)).
  change (FourCCANMF =? FourCCVP8X) with false. change (FourCCANMF =? FourCCANIM) with false.
  change (FourCCANMF =? FourCCANMF) with true. cbv iota zeta.
  destruct (Z.eqb_spec a 0); [lia|]. destruct (Z.geb_spec (len frames) MaxFrames); [lia|].
  rewrite Ep. reflexivity.
Qed.

Lemma p_frames_loop cw ch fx feat chunks a tl :
  cw * ch < MaxImageArea -> 1 <= cw -> 1 <= ch -> 1 <= a ->
  forall fs fuel frames,
    Forall (af_ok cw ch) fs -> len frames + len fs <= MaxFrames ->
    exists pfs, Forall2 (fun f pf => exists al, pf = pframe f al) fs pfs /\
      parse_vp8x_chunks (length fs + fuel) fx feat frames chunks a (frames_bytes fs ++ tl) =
      parse_vp8x_chunks fuel fx feat (frames ++ pfs) chunks a tl.
Proof.
  intros Harea Hcw Hch Ha. induction fs as [|f fs IH]; intros fuel frames Hok Hn.
  - exists []. split; [constructor|]. cbn. rewrite app_nil_r. reflexivity.
  - inversion Hok as [|? ? Hf Hfs]; subst.
    rewrite len_cons in Hn. pose proof (len_nonneg fs). pose proof (len_nonneg frames).
    destruct (p_step_anmf cw ch (length fs + fuel) fx feat frames chunks a f (frames_bytes fs ++ tl) Hf Harea Hcw Hch Ha
                ltac:(lia)) as (al & Es).
    destruct (IH fuel (frames ++ [pframe f al]) Hfs) as (pfs & Hall & Eq).
    { rewrite len_app, len_cons, len_nil. lia. }
    exists (pframe f al :: pfs). split; [constructor; eauto|].
    unfold frames_bytes. cbn [map concat length Nat.add]. rewrite <- app_assoc. fold (frames_bytes fs).
    rewrite Es, Eq, <- app_assoc. reflexivity.
Qed.

Lemma d_step_anmf cw ch fuel f tl st :
  af_ok cw ch f -> cw * ch < MaxImageArea -> 1 <= cw -> 1 <= ch ->
  exists hasA,
    D.ext_loop (S fuel) (chunk FourCCANMF (af_payload f) ++ tl) st =
    if D.len (D.d_frames st) >=? D.maxFrames then Err D.E_toomany
    else D.ext_loop fuel tl
           (D.set_frames (D.add_chunk st (D.mkchunk FourCCANMF (len (af_payload f)) (af_payload f)))
                         (D.d_frames st ++ [dframe f (D.len (D.d_frames st) =? 0) hasA])).
Proof.
  intros Hf Harea Hcw Hch.
  destruct (d_parse_anmf cw ch f (D.add_chunk st (D.mkchunk FourCCANMF (len (af_payload f)) (af_payload f)))
              Hf Harea Hcw Hch) as [hasA Ep].
  exists hasA. rewrite d_ext_loop_step by (exact anmf_id_range || apply (af_payload_len cw ch f Hf)).
  unfold D.ext_dispatch. cbn [D.c_id D.c_data].
  change (FourCCANMF =? D.FCC_ICCP) with false. change (FourCCANMF =? D.FCC_EXIF) with false.
  change (FourCCANMF =? D.FCC_XMP) with false. change (FourCCANMF =? D.FCC_ANIM) with false.
  change (FourCCANMF =? D.FCC_ANMF) with true. cbv iota.
  rewrite Ep. cbn [D.add_chunk D.d_frames]. destruct (D.len (D.d_frames st) >=? D.maxFrames); reflexivity.
Qed.

Lemma d_frames_loop cw ch tl :
  cw * ch < MaxImageArea -> 1 <= cw -> 1 <= ch ->
  forall fs fuel st,
    Forall (af_ok cw ch) fs -> D.len (D.d_frames st) + len fs <= D.maxFrames ->
    exists st' dfs, Forall2 (fun f df => exists k hA, df = dframe f k hA) fs dfs /\
      D.ext_loop (length fs + fuel) (frames_bytes fs ++ tl) st = D.ext_loop fuel tl st' /\
      D.d_frames st' = D.d_frames st ++ dfs /\ D.d_feat st' = D.d_feat st /\ D.d_loop st' = D.d_loop st.
Proof.
  intros Harea Hcw Hch. induction fs as [|f fs IH]; intros fuel st Hok Hn.
  - exists st, []. split; [constructor|]. cbn. rewrite app_nil_r. auto.
  - inversion Hok as [|? ? Hf Hfs]; subst.
    rewrite len_cons in Hn. pose proof (len_nonneg fs).
    assert (Hdl : 0 <= D.len (D.d_frames st)) by (unfold D.len; lia).
    destruct (d_step_anmf cw ch (length fs + fuel) f (frames_bytes fs ++ tl) st Hf Harea Hcw Hch) as [hA Es].
    destruct (Z.geb_spec (D.len (D.d_frames st)) D.maxFrames); [lia|].
    match type of Es with _ = D.ext_loop _ _ ?s => set (st1 := s) in * end.
    destruct (IH fuel st1 Hfs) as (st' & dfs & Hall & Eq & Gf & Gft & Glp).
    { subst st1. cbn [D.set_frames D.d_frames]. unfold D.len in *. rewrite app_length. cbn [length]. unfold len in *. lia. }
    exists st', (dframe f (D.len (D.d_frames st) =? 0) hA :: dfs).
    split; [constructor; eauto|].
    split.
    { unfold frames_bytes. cbn [map concat length Nat.add]. rewrite <- app_assoc. fold (frames_bytes fs).
      rewrite Es. exact Eq. }
    subst st1. cbn [D.set_frames D.add_chunk D.d_frames D.d_feat D.d_loop] in Gf, Gft, Glp.
    split; [rewrite Gf, <- app_assoc; reflexivity|]. split; assumption.
Qed.

(** ** Parser model: ANIM, metadata tail *)
Lemma p_step_anim fuel fx feat frames chunks a b0 b1 b2 b3 b4 b5 rest :
  parse_vp8x_chunks (S fuel) fx feat frames chunks a (chunk FourCCANIM [b0; b1; b2; b3; b4; b5] ++ rest) =
  parse_vp8x_chunks fuel fx (set_anim feat (rd32 [b0; b1; b2; b3]) (rd16 [b4; b5])) frames chunks (a + 1) rest.
Proof. rewrite chunks_step by (unfold FourCCANIM, MaxChunkPayload; cbn; lia). reflexivity. Qed.

Lemma p_step_meta fuel fx feat frames chunks a id d rest :
  (id = FourCCEXIF \/ id = FourCCXMP) -> len d <= MaxMetadataSize ->
  exists chunks', parse_vp8x_chunks (S fuel) fx feat frames chunks a (chunk id d ++ rest) =
                  parse_vp8x_chunks fuel fx feat frames chunks' a rest.
Proof.
  intros Hid Hd. unfold MaxMetadataSize in Hd.
  assert (Hidr : 0 <= id < 4294967296) by (destruct Hid as [->| ->]; [unfold FourCCEXIF|unfold FourCCXMP]; lia).
  rewrite chunks_step by (exact Hidr || (unfold MaxChunkPayload; lia)).
  unfold add_meta, MaxMetadataSize. destruct (Z.gtb_spec (len d) 104857600); [lia|].
  destruct Hid as [->| ->]; [destruct (fHasEXIF feat)|destruct (fHasXMP feat)]; eexists; reflexivity.
Qed.

Lemma p_tail fx feat frames chunks a (exif xmp : option (list Z)) :
  fHasAnim feat = true ->
  (forall x, exif = Some x -> len x <= MaxMetadataSize) -> (forall x, xmp = Some x -> len x <= MaxMetadataSize) ->
  exists chunks', parse_vp8x_chunks 3 fx feat frames chunks a (optc FourCCEXIF exif ++ optc FourCCXMP xmp) =
                  Ok (mkParsed feat frames chunks', KList).
Proof.
  intros Han He Hx.
  assert (Hend : forall fuel cs, parse_vp8x_chunks (S fuel) fx feat frames cs a [] = Ok (mkParsed feat frames cs, KList)).
  { intros. rewrite chunks_end, Han. cbn [negb andb]. rewrite andb_false_r. reflexivity. }
  assert (Hopt : forall fuel id o cs rest, (id = FourCCEXIF \/ id = FourCCXMP) ->
            (forall x, o = Some x -> len x <= MaxMetadataSize) ->
            exists cs', parse_vp8x_chunks (S fuel) fx feat frames cs a (optc id o ++ rest) =
                        parse_vp8x_chunks (match o with Some _ => fuel | None => S fuel end) fx feat frames cs' a rest).
  { intros fuel id [x|] cs rest Hid Hc; cbn [optc app]; [apply p_step_meta; auto|eexists; reflexivity]. }
  destruct (Hopt 2%nat FourCCEXIF exif chunks (optc FourCCXMP xmp) (or_introl eq_refl) He) as (c1 & ->).
  rewrite <- (app_nil_r (optc FourCCXMP xmp)).
  destruct exif; [destruct (Hopt 1%nat FourCCXMP xmp c1 [] (or_intror eq_refl) Hx) as (c2 & ->)
                 |destruct (Hopt 2%nat FourCCXMP xmp c1 [] (or_intror eq_refl) Hx) as (c2 & ->)];
    destruct xmp; eexists; apply Hend.
Qed.

(** ** Demuxer model: ICCP and ANIM steps *)
Lemma d_step_iccp fuel ic rest st :
  len ic <= 104857600 ->
  exists st1, D.ext_loop (S fuel) (chunk FourCCICCP ic ++ rest) st = D.ext_loop fuel rest st1 /\
              D.d_feat st1 = D.d_feat st /\ D.d_frames st1 = D.d_frames st /\ D.d_loop st1 = D.d_loop st.
Proof.
  intros Hc. rewrite d_ext_loop_step by (unfold FourCCICCP; lia).
  destruct (d_dispatch_keep st FourCCICCP ic (chunk FourCCICCP ic ++ rest)) as (st1 & -> & F);
    [split; discriminate|exact Hc|right; reflexivity|].
  exists st1. split; [reflexivity|exact F].
Qed.

Lemma d_step_anim fuel b0 b1 b2 b3 b4 b5 rest st :
  exists st1, D.ext_loop (S fuel) (chunk FourCCANIM [b0; b1; b2; b3; b4; b5] ++ rest) st = D.ext_loop fuel rest st1 /\
              D.d_feat st1 = D.d_feat st /\ D.d_frames st1 = D.d_frames st /\ D.d_loop st1 = b4 + 256 * b5.
Proof.
  rewrite d_ext_loop_step by (unfold FourCCANIM; cbn; lia). eexists. split; [reflexivity|]. cbn. auto.
Qed.

(** ** Both parsers on the animated shape *)
Section AnimShape.
  Variables (fx : bool) (flags cw ch : Z) (icc : option (list Z)) (b0 b1 b2 b3 b4 b5 : Z)
            (fs : list aframe) (exif xmp : option (list Z)).

  Definition anim_tail : list Z := optc FourCCEXIF exif ++ optc FourCCXMP xmp.
  Definition anim_rest : list Z :=
    optc FourCCICCP icc ++ chunk FourCCANIM [b0; b1; b2; b3; b4; b5] ++ frames_bytes fs ++ anim_tail.
  Definition anim_body : list Z := chunk FourCCVP8X (vp8x_payload flags cw ch) ++ anim_rest.
  Definition anim_file : list Z :=
    le32 FourCCRIFF ++ le32 (4 + len anim_body) ++ le32 FourCCWEBP ++ anim_body.

  Hypothesis Hf64 : 0 <= flags < 64.
  Hypothesis Hland : Z.land flags 4294967233 = 0.
  Hypothesis Hanim : Z.testbit flags 1 = true.
  Hypothesis Hficc : Z.testbit flags 5 = is_some icc.
  Hypothesis Hcw : 1 <= cw <= 16777216.
  Hypothesis Hch : 1 <= ch <= 16777216.
  Hypothesis Harea : cw * ch < MaxImageArea.
  Hypothesis Hfs : Forall (af_ok cw ch) fs.
  Hypothesis Hne : fs <> [].
  Hypothesis Hcount : len fs <= MaxFrames.
  Hypothesis Hcicc : forall x, icc = Some x -> len x <= 104857600.
  Hypothesis Hcexif : forall x, exif = Some x -> len x <= 104857600.
  Hypothesis Hcxmp : forall x, xmp = Some x -> len x <= 104857600.
  Hypothesis Hsize : 4 + len anim_body <= 4294967286.

  Lemma anim_rest_len : (length fs + 5 <= length anim_rest)%nat.
  Proof.
    unfold anim_rest. rewrite !app_length. pose proof (frames_bytes_len fs).
    pose proof (chunk_min_len FourCCANIM [b0; b1; b2; b3; b4; b5]). unfold len in *.
    destruct fs as [|f0 fs']; [contradiction|]. cbn [length] in *. lia.
  Qed.

  Definition anim_feat0 := mkFeatures cw ch (Z.testbit flags 4) true (is_some icc) (Z.testbit flags 3) (Z.testbit flags 2)
                          FormatVP8X 1 4294967295 cw ch.
  Definition anim_feat1 := set_anim anim_feat0 (rd32 [b0; b1; b2; b3]) (rd16 [b4; b5]).

  Lemma p_core chunks1 :
    exists pfs chunks',
      Forall2 (fun f pf => exists al, pf = pframe f al) fs pfs /\
      parse_vp8x_chunks (S (length fs + 3)) fx anim_feat0 [] chunks1 0
        (chunk FourCCANIM [b0; b1; b2; b3; b4; b5] ++ frames_bytes fs ++ anim_tail) =
      Ok (mkParsed anim_feat1 pfs chunks', KList).
  Proof.
    destruct (p_frames_loop cw ch fx anim_feat1 chunks1 1 anim_tail Harea ltac:(lia) ltac:(lia) ltac:(lia) fs 3%nat []
                Hfs ltac:(change (len (@nil FrameInfo)) with 0; lia)) as (pfs & Hall & Eq).
    destruct (p_tail fx anim_feat1 ([] ++ pfs) chunks1 1 exif xmp eq_refl Hcexif Hcxmp) as (chunks' & Et).
    exists pfs, chunks'. split; [exact Hall|].
    rewrite p_step_anim. fold anim_feat1. change (0 + 1) with 1. rewrite Eq. exact Et.
  Qed.

  Lemma p_anim_shape :
    exists r pfs, parse_ex fx anim_file = Ok (r, KList) /\ pFrames r = pfs /\
      Forall2 (fun f pf => exists al, pf = pframe f al) fs pfs /\
      fCanvasW (pFeat r) = cw /\ fCanvasH (pFeat r) = ch /\ fWidth (pFeat r) = cw /\ fHeight (pFeat r) = ch /\
      fHasAnim (pFeat r) = true /\ fLoopCount (pFeat r) = rd16 [b4; b5].
  Proof.
    destruct (p_core ([] ++ match icc with Some d => [mkChunk FourCCICCP d] | None => [] end))
      as (pfs & chunks' & Hall & Ec).
    exists (mkParsed anim_feat1 pfs chunks'), pfs.
    split; [|split; [reflexivity|]; split; [exact Hall|]; cbn; auto 10].
    unfold anim_file, anim_body.
    rewrite parse_ex_vp8x by (assumption || (unfold MaxChunkPayload; exact Hsize)).
    rewrite Hland, Hanim, Hficc. destruct (Z.geb_spec (cw * ch) MaxImageArea); [lia|].
    change (negb (0 =? 0)) with false. cbv iota. fold anim_feat0. unfold anim_rest.
    apply chunks_step_opt_iccp; [reflexivity|exact Hcicc|].
    apply (chunks_fuel_mono (S (length fs + 3))); [exact Ec|]. pose proof anim_rest_len. unfold anim_rest in *. lia.
  Qed.

  Hypothesis Hbytes_tail : bytes_ok anim_tail.

  Lemma anim_tail_walk :
    exists cst, walk 3 anim_tail = Some cst /\
      Forall (fun c => not_anim_id (fst c) /\ len (snd c) <= 104857600) cst.
  Proof.
    destruct fourcc_ranges as (_ & _ & _ & HE & HM & _).
    exists (optl FourCCEXIF exif ++ optl FourCCXMP xmp). unfold anim_tail. split.
    - rewrite <- (app_nil_r (optc FourCCXMP xmp)), <- (app_nil_r (optl FourCCXMP xmp)).
      apply walk_optc_some; [exact HE|intros d E; specialize (Hcexif d E); lia|].
      apply walk_optc_some; [exact HM|intros d E; specialize (Hcxmp d E); lia|reflexivity].
    - apply Forall_app. split.
      + destruct exif as [e|]; constructor; [|constructor]. cbn. split; [split; discriminate|apply Hcexif; reflexivity].
      + destruct xmp as [x|]; constructor; [|constructor]. cbn. split; [split; discriminate|apply Hcxmp; reflexivity].
  Qed.

  Lemma d_anim_shape :
    exists d dfs, D.parse true anim_file = Ok d /\ D.d_frames d = dfs /\
      Forall2 (fun f df => exists k hA, df = dframe f k hA) fs dfs /\
      D.ft_w (D.d_feat d) = cw /\ D.ft_h (D.d_feat d) = ch /\ D.ft_anim (D.d_feat d) = true /\
      D.d_loop d = b4 + 256 * b5.
  Proof.
    destruct anim_tail_walk as (cst & Hwt & Hct).
    pose proof Hsize as Hs. unfold anim_file, anim_body in *.
    rewrite d_parse_vp8x, d_parse_extended_chunk by (assumption || lia).
    change D.MaxImageArea with MaxImageArea. destruct (Z.geb_spec (cw * ch) MaxImageArea); [lia|].
    assert (Han : negb ((flags / 2) mod 2 =? 0) = true).
    { destruct (flag_bits_bridge flags ltac:(lia)) as (_ & _ & _ & _ & G1 & _). rewrite <- G1. exact Hanim. }
    rewrite Han. set (st0 := D.mkd _ _ [] None None None 0 0).
    pose proof anim_rest_len as Hlen. pose proof (frames_bytes_len fs) as Hfb.
    (* ANIM, the frames, the tail, from any state without frames *)
    assert (Hstep : forall fuel st, D.d_frames st = [] -> D.d_feat st = D.d_feat st0 ->
               (length fs + length anim_tail + 2 <= fuel)%nat ->
               exists st' dfs, D.ext_loop fuel (chunk FourCCANIM [b0; b1; b2; b3; b4; b5] ++ frames_bytes fs ++ anim_tail) st = Ok st' /\
                 D.d_frames st' = dfs /\ Forall2 (fun f df => exists k hA, df = dframe f k hA) fs dfs /\
                 D.d_feat st' = D.d_feat st0 /\ D.d_loop st' = b4 + 256 * b5).
    { intros fuel st Hfr Hft Hfu.
      destruct fuel as [|fuel]; [lia|].
      destruct (d_step_anim fuel b0 b1 b2 b3 b4 b5 (frames_bytes fs ++ anim_tail) st) as (st1 & -> & T1 & F1 & L1).
      replace fuel with (length fs + (fuel - length fs))%nat by lia.
      destruct (d_frames_loop cw ch anim_tail Harea ltac:(lia) ltac:(lia) fs (fuel - length fs)%nat st1 Hfs) as
        (st2 & dfs & Hall & -> & F2 & T2 & L2).
      { rewrite F1, Hfr. change (D.len (@nil D.frame_info)) with 0. exact Hcount. }
      destruct (d_ext_loop_tail cst (fuel - length fs)%nat anim_tail st2 Hbytes_tail) as (st3 & E3 & T3 & F3 & L3).
      - apply (walk_any_fuel 3); [exact Hbytes_tail|exact Hwt|]. pose proof (walk_count _ _ _ Hbytes_tail Hwt). lia.
      - lia.
      - exact Hct.
      - rewrite F2, F1, Hfr. destruct fs as [|f0 fs']; [contradiction|]. inversion Hall; subst. discriminate.
      - exists st3, dfs. split; [exact E3|]. rewrite F3, F2, F1, Hfr. split; [reflexivity|].
        split; [exact Hall|]. split; congruence. }
    assert (Hloop : exists st' dfs, D.ext_loop (S (length anim_rest)) anim_rest st0 = Ok st' /\
               D.d_frames st' = dfs /\ Forall2 (fun f df => exists k hA, df = dframe f k hA) fs dfs /\
               D.d_feat st' = D.d_feat st0 /\ D.d_loop st' = b4 + 256 * b5).
    { unfold anim_rest in *. destruct icc as [ic|] eqn:Eic; cbn [optc app] in *.
      - destruct (d_step_iccp (length (chunk FourCCICCP ic ++ chunk FourCCANIM [b0; b1; b2; b3; b4; b5] ++ frames_bytes fs ++ anim_tail))
                              ic (chunk FourCCANIM [b0; b1; b2; b3; b4; b5] ++ frames_bytes fs ++ anim_tail) st0
                              (Hcicc ic eq_refl)) as (st1 & -> & T1 & F1 & L1).
        apply Hstep; [exact F1|exact T1|].
        pose proof (chunk_length_ge FourCCICCP ic (chunk FourCCANIM [b0; b1; b2; b3; b4; b5] ++ frames_bytes fs ++ anim_tail)).
        pose proof (chunk_length_ge FourCCANIM [b0; b1; b2; b3; b4; b5] (frames_bytes fs ++ anim_tail)).
        rewrite !app_length in *. lia.
      - apply Hstep; [reflexivity|reflexivity|].
        pose proof (chunk_length_ge FourCCANIM [b0; b1; b2; b3; b4; b5] (frames_bytes fs ++ anim_tail)).
        rewrite !app_length in *. lia. }
    destruct Hloop as (st' & dfs & -> & Gf & Hall & Gt & Gl). cbn [bind].
    exists st', dfs. rewrite Gf, Gt.
    split; [destruct fs as [|f0 fs']; [contradiction|]; inversion Hall; subst; reflexivity|].
    cbn. auto 10.
  Qed.

    Theorem views_agree_anim_shape :
    exists r d,
      parse fx anim_file = Ok r /\ D.parse true anim_file = Ok d /\
      Forall2 frame_agrees (pFrames r) (D.d_frames d) /\ length (pFrames r) = length fs /\
      fCanvasW (pFeat r) = D.ft_w (D.d_feat d) /\ fCanvasH (pFeat r) = D.ft_h (D.d_feat d) /\
      fWidth (pFeat r) = D.ft_w (D.d_feat d) /\ fHeight (pFeat r) = D.ft_h (D.d_feat d) /\
      fHasAnim (pFeat r) = true /\ D.ft_anim (D.d_feat d) = true /\
      fLoopCount (pFeat r) = D.d_loop d.
  Proof.
    destruct p_anim_shape as (r & pfs & Ep & Pf & Pall & Pcw & Pch & Pw & Ph & Pan & Plp).
    destruct d_anim_shape as (d & dfs & Ed & Df & Dall & Dw & Dh & Dan & Dlp).
    exists r, d. unfold parse. rewrite Ep. cbn [bind fst].
    split; [reflexivity|]. split; [exact Ed|]. rewrite Pf, Df.
    split.
    { clear -Pall Dall. revert pfs dfs Pall Dall. induction fs as [|f l IH]; intros pfs dfs Pall Dall.
      - inversion Pall; inversion Dall; constructor.
      - inversion Pall as [|? pf ? pfs' [al ->] Pall']; subst. inversion Dall as [|? df ? dfs' (k & hA & ->) Dall']; subst.
        constructor; [|apply IH; assumption].
        unfold frame_agrees, pframe, dframe. cbn. repeat split; reflexivity. }
    split; [symmetry; apply (Forall2_length _ _ _ Pall)|].
    rewrite Pcw, Pch, Pw, Ph, Pan, Plp, Dw, Dh, Dan, Dlp. repeat split; reflexivity.
  Qed.
End AnimShape.

(** ** From the grammar to the shape *)
Lemma g_anmf_ok_inv cw ch p a :
  bytes_ok p -> len p <= 104857600 -> G.anmf_ok cw ch p = Some a ->
  exists f, p = af_payload f /\ af_ok cw ch f.
Proof.
  intros Hb Hcap H. unfold G.anmf_ok in H.
  destruct p as [|x0 [|x1 [|x2 [|y0 [|y1 [|y2 [|w0 [|w1 [|w2 [|h0 [|h1 [|h2 [|d0 [|d1 [|d2 [|fl p]]]]]]]]]]]]]]]];
    try discriminate H.
  destruct (Z.eqb_spec (fl / 4) 0) as [Hfl|]; [|discriminate H]. cbn [negb] in H.
  set (hdr := [x0; x1; x2; y0; y1; y2; w0; w1; w2; h0; h1; h2; d0; d1; d2; fl]).
  assert (Hbh : bytes_ok hdr /\ bytes_ok p) by (apply bytes_ok_app; exact Hb).
  destruct Hbh as [Hbh Hbsub].
  destruct (G.chunks (length p) p) as [gcs|] eqn:Ech; [|discriminate].
  destruct (walk_of_chunks _ _ _ Hbsub Ech) as (cs & -> & Hwalk).
  pose proof (walk_ids_ok _ _ _ Hbsub Hwalk) as Hids.
  destruct (G.image_data (map conv cs)) as [[[[iw ih] a'] gcs3]|] eqn:Eim; [|discriminate].
  destruct gcs3; [|discriminate].
  destruct (g_image_data_conv _ _ _ _ _ Hids Eim) as (alph & id & bs & cs3 & a0 & E2 & E3 & Hd & -> & Halph).
  symmetry in E3. apply map_conv_nil in E3. subst cs3.
  apply take_opt_spec in E2. subst cs.
  match type of H with (if ?c then _ else _) = _ => destruct c eqn:Ec; [|discriminate] end.
  rewrite !andb_true_iff in Ec. destruct Ec as (((Ew & Eh) & Ex) & Ey).
  apply Z.eqb_eq in Ew, Eh. apply Z.leb_le in Ex, Ey.
  destruct (walk_optl_inv _ _ _ _ _ Hbsub Hwalk) as (rest2 & fu2 & Eb2 & Hw2 & Hr2 & Hal).
  destruct (walk_cons_inv _ _ _ _ _ Hr2 Hw2) as (rest3 & fu3 & Eb3 & Hw3 & _ & Hbs & _ & _).
  apply walk_nil_inv in Hw3. subst rest3 rest2. rewrite app_nil_r in Eb2.
  exists (mkaf hdr alph id bs).
  split; [unfold af_payload; cbn [af_hdr af_alph af_id af_bs app]; rewrite Eb2; reflexivity|].
  assert (Hsz : len p <= 104857600) by (rewrite !len_cons in Hcap; pose proof (len_nonneg p); lia).
  rewrite Eb2, len_app, len_chunk in Hsz. unfold padded_chunk_size, ChunkHeaderSize in Hsz.
  pose proof (len_nonneg bs). assert (0 <= len (optc FourCCALPH alph)) by apply len_nonneg.
  constructor; cbn [af_hdr af_alph af_id af_bs].
  - reflexivity.
  - exact Hbh.
  - unfold af_fl, hb. cbn [af_hdr]. subst hdr. cbn [nth]. exact Hfl.
  - apply (image_dims_fourcc _ _ _ _ _ Hd).
  - exact Halph.
  - exists a0. unfold af_w, af_h, hb. cbn [af_hdr]. subst hdr. cbn [nth]. rewrite <- Ew, <- Eh. exact Hd.
  - unfold af_x, af_y, af_w, af_h, hb. cbn [af_hdr]. subst hdr. cbn [nth]. split; assumption.
  - split; [exact Hbs|lia].
  - intros al ->. cbn [optc] in *. rewrite len_chunk in *. unfold padded_chunk_size, ChunkHeaderSize in *.
    pose proof (len_nonneg al). lia.
Qed.

Definition mk_anmf (f : aframe) : Z * list Z := (FourCCANMF, af_payload f).

Lemma g_anmf_run_inv cw ch : forall cs alpha n grest,
  ids_ok cs -> Forall (fun c => len (snd c) <= 104857600) cs ->
  G.anmf_run cw ch (map conv cs) = Some (alpha, n, grest) ->
  exists fs cs', cs = map mk_anmf fs ++ cs' /\ grest = map conv cs' /\ n = length fs /\ Forall (af_ok cw ch) fs.
Proof.
  destruct fourcc_ranges as (_ & _ & _ & _ & _ & _ & _ & _).
  assert (RF : 0 <= FourCCANMF < 4294967296) by (unfold FourCCANMF; lia).
  induction cs as [|[t p] cs IH]; intros alpha n grest Hids Hcap H.
  - cbn in H. injection H as <- <- <-. exists [], []. repeat split; constructor.
  - inversion Hids as [|? ? [Ht Hp] Hids']; subst. inversion Hcap as [|? ? Hc Hcap']; subst.
    cbn [fst snd] in *. cbn [map conv fst snd G.anmf_run] in H.
    change G.T_ANMF with (le32 FourCCANMF) in H. rewrite tag_eqb in H by assumption.
    destruct (Z.eqb_spec t FourCCANMF) as [->|Hne].
    + destruct (G.anmf_ok cw ch p) as [a|] eqn:Ea; [|discriminate].
      destruct (G.anmf_run cw ch (map conv cs)) as [[[a' n'] r']|] eqn:Er; [|discriminate].
      injection H as <- <- <-.
      destruct (IH _ _ _ Hids' Hcap' eq_refl) as (fs & cs' & -> & E2 & -> & Hall).
      destruct (g_anmf_ok_inv _ _ _ _ Hp Hc Ea) as (f & -> & Hf).
      exists (f :: fs), cs'. cbn [map app length]. repeat split; auto.
    + injection H as <- <- <-. exists [], ((t, p) :: cs). cbn. repeat split; constructor.
Qed.

Lemma walk_frames_inv : forall fs fuel buf cs',
  bytes_ok buf -> walk fuel buf = Some (map mk_anmf fs ++ cs') ->
  exists rest fuel', buf = frames_bytes fs ++ rest /\ walk fuel' rest = Some cs' /\ bytes_ok rest.
Proof.
  induction fs as [|f fs IH]; intros fuel buf cs' Hb H.
  - exists buf, fuel. auto.
  - cbn [map app mk_anmf] in H.
    destruct (walk_cons_inv _ _ _ _ _ Hb H) as (rest & fuel' & Eb & Hw & Hr & _).
    destruct (IH _ _ _ Hr Hw) as (rest' & fuel'' & Eb' & Hw' & Hr').
    exists rest', fuel''. split; [|auto]. unfold frames_bytes in *. cbn [map concat]. rewrite <- app_assoc.
    rewrite Eb, Eb'. reflexivity.
Qed.

Definition g_canvas_area (bs : list Z) : Z :=
  match skipn 24 bs with
  | w0 :: w1 :: w2 :: h0 :: h1 :: h2 :: _ => (1 + rd24 [w0; w1; w2]) * (1 + rd24 [h0; h1; h2])
  | _ => 0
  end.

Definition anmf_count (bs : list Z) : Z :=
  match riff_chunks bs with
  | Some cs => len (filter (fun c => fst c =? FourCCANMF) cs)
  | None => 0
  end.

Lemma filter_anmf_frames fs : filter (fun c => fst c =? FourCCANMF) (map mk_anmf fs) = map mk_anmf fs.
Proof. induction fs as [|f fs IH]; [reflexivity|]. cbn [map filter mk_anmf fst]. rewrite Z.eqb_refl, IH. reflexivity. Qed.

Lemma filter_anmf_optl id o : id <> FourCCANMF -> filter (fun c => fst c =? FourCCANMF) (optl id o) = [].
Proof.
  intros H. destruct o; [|reflexivity]. cbn [optl filter fst]. destruct (Z.eqb_spec id FourCCANMF); [contradiction|reflexivity].
Qed.

Lemma len6_inv (l : list Z) : len l = 6 -> exists b0 b1 b2 b3 b4 b5, l = [b0; b1; b2; b3; b4; b5].
Proof.
  intros H. do 6 (destruct l as [|? l]; [discriminate H|]). destruct l; [eauto 7|].
  exfalso. rewrite !len_cons in H. pose proof (len_nonneg l). lia.
Qed.

(** every well-formed animated file within the size cap has the shape of [anim_file] *)
Lemma g_anim_decompose file :
  RiffGrammar.wf file = true -> g_is_anim file = true -> len file <= MaxMetadataSize ->
  exists flags cw ch icc b0 b1 b2 b3 b4 b5 fs exif xmp,
    file = anim_file flags cw ch icc b0 b1 b2 b3 b4 b5 fs exif xmp /\
    0 <= flags < 64 /\ Z.land flags 4294967233 = 0 /\ Z.testbit flags 1 = true /\
    Z.testbit flags 5 = is_some icc /\ 1 <= cw <= 16777216 /\ 1 <= ch <= 16777216 /\
    Forall (af_ok cw ch) fs /\ fs <> [] /\
    (forall x, icc = Some x -> len x <= 104857600) /\ (forall x, exif = Some x -> len x <= 104857600) /\
    (forall x, xmp = Some x -> len x <= 104857600) /\
    4 + len (anim_body flags cw ch icc b0 b1 b2 b3 b4 b5 fs exif xmp) <= 4294967286 /\
    bytes_ok (anim_tail exif xmp) /\
    g_canvas_area file = cw * ch /\ anmf_count file = len fs.
Proof.
  intros Hg Han Hlen.
  destruct (g_wf_inv file Hg) as (body & cs & Hfile & _ & Hbody & Hrs & Hwalk & Hids & Hlay).
  assert (Hlb : len file = 12 + len body) by (rewrite Hfile, !len_app, !len_le32; lia).
  unfold MaxMetadataSize in Hlen. pose proof (len_nonneg body) as Hb0.
  pose proof (walk_payload_len _ _ _ Hbody Hwalk) as Hplen.
  destruct tag_consts as (_ & _ & _ & _ & TX & _ & TAN & _ & TI & TE & TM).
  destruct fourcc_ranges as (RX & RI & _ & RE & RM & _).
  (* the first chunk is VP8X with the animation bit *)
  destruct cs as [|[x p] rest]; [discriminate Hlay|].
  pose proof (Forall_inv Hids) as [Hx Hp]. pose proof (Forall_inv_tail Hids) as Hrest. cbn [fst snd] in Hx, Hp.
  destruct (walk_cons_inv _ _ _ _ _ Hbody Hwalk) as (rest1 & fu1 & Eb1 & Hw1 & Hr1 & _).
  rewrite Hfile, Eb1, g_is_anim_body in Han by exact Hx.
  destruct ((p ++ pad (len p)) ++ rest1) as [|fl0 l0] eqn:Efl; [discriminate Han|].
  apply andb_true_iff in Han. destruct Han as [Ex Hbit]. apply Z.eqb_eq in Ex. subst x.
  cbn [map conv fst snd g_layout] in Hlay. rewrite TX, bytes_eqb_refl in Hlay.
  destruct (g_ext_ok_payload _ _ Hlay) as (flags & c0 & c1 & c2 & e0 & e1 & e2 & -> & Hm & H64).
  cbn [app] in Efl. injection Efl as <- _.
  unfold G.ext_ok in Hlay. cbv zeta in Hlay. rewrite Hbit in Hlay.
  rewrite <- TI, <- TE, <- TM in Hlay.
  rewrite (g_take_opt_conv FourCCICCP rest RI Hrest) in Hlay.
  destruct (take_opt FourCCICCP rest) as [icc rest2] eqn:E1. cbn [fst snd] in Hlay.
  pose proof (ids_ok_take_opt FourCCICCP rest Hrest) as Hr2. rewrite E1 in Hr2. cbn [snd] in Hr2.
  rewrite !andb_true_iff in Hlay. destruct Hlay as (_ & (Hicc & Hanimb)).
  destruct rest2 as [|[t an] cs2]; [discriminate Hanimb|].
  pose proof (Forall_inv Hr2) as [Ht _]. pose proof (Forall_inv_tail Hr2) as Hcs2. cbn [fst] in Ht.
  cbn [map conv fst snd] in Hanimb. rewrite !andb_true_iff in Hanimb.
  destruct Hanimb as ((Htag & Hl6) & Hrun).
  change G.T_ANIM with (le32 FourCCANIM) in Htag. rewrite tag_eqb in Htag by (assumption || (unfold FourCCANIM; lia)).
  apply Z.eqb_eq in Htag. subst t. apply Z.eqb_eq in Hl6.
  destruct (len6_inv an Hl6) as (b0 & b1 & b2 & b3 & b4 & b5 & ->).
  destruct (vp8x_payload_of_bytes _ _ _ _ _ _ _ Hp) as (Epay & Hcwr & Hchr).
  set (cw := 1 + rd24 [c0; c1; c2]) in *. set (ch := 1 + rd24 [e0; e1; e2]) in *.
  destruct (G.anmf_run cw ch (map conv cs2)) as [[[alpha n] gcs3]|] eqn:Erun; [|discriminate Hrun].
  apply take_opt_spec in E1. subst rest.
  (* every payload is inside the body, hence below the metadata cap *)
  assert (Hcap : Forall (fun c => len (snd c) <= 104857600) (optl FourCCICCP icc ++ (FourCCANIM, [b0; b1; b2; b3; b4; b5]) :: cs2)).
  { eapply Forall_impl; [|exact (Forall_inv_tail Hplen)]. intros c Hc. cbn beta in *. lia. }
  apply Forall_app in Hcap. destruct Hcap as [Hcapi Hcap2]. apply Forall_inv_tail in Hcap2.
  destruct (g_anmf_run_inv cw ch _ _ _ _ Hcs2 Hcap2 Erun) as (fs & cs' & -> & -> & -> & Hfs).
  assert (Hids' : ids_ok cs') by (unfold ids_ok in *; apply Forall_app in Hcs2; apply Hcs2).
  rewrite (g_take_opt_conv FourCCEXIF cs' RE Hids') in Hrun.
  destruct (take_opt FourCCEXIF cs') as [exif cs4] eqn:E3. cbn [fst snd] in Hrun.
  pose proof (ids_ok_take_opt FourCCEXIF cs' Hids') as Hr4. rewrite E3 in Hr4. cbn [snd] in Hr4.
  rewrite (g_take_opt_conv FourCCXMP cs4 RM Hr4) in Hrun.
  destruct (take_opt FourCCXMP cs4) as [xmp cs5] eqn:E4. cbn [fst snd] in Hrun.
  rewrite !andb_true_iff in Hrun.
  destruct Hrun as ((Hn0 & _) & (_ & Hend)).
  destruct (map conv cs5) eqn:E5; [|discriminate Hend]. apply map_conv_nil in E5. subst cs5.
  apply take_opt_spec in E3, E4. rewrite app_nil_r in E4. subst cs4 cs'.
  apply eqb_prop in Hicc.
  apply Forall_app in Hcap2. destruct Hcap2 as [_ Hcapt]. apply Forall_app in Hcapt. destruct Hcapt as [Hcape Hcapx].
  assert (Hopt : forall id o, Forall (fun c => len (snd c) <= 104857600) (optl id o) ->
                              forall xx, o = Some xx -> len xx <= 104857600).
  { intros id o HF xx ->. exact (Forall_inv HF). }
  (* the body, chunk by chunk *)
  destruct (walk_optl_inv _ _ _ _ _ Hr1 Hw1) as (rest2 & fu2 & -> & Hw2 & Hrb2 & _).
  destruct (walk_cons_inv _ _ _ _ _ Hrb2 Hw2) as (rest3 & fu3 & -> & Hw3 & Hrb3 & _).
  destruct (walk_frames_inv _ _ _ _ Hrb3 Hw3) as (rest4 & fu4 & -> & Hw4 & Hrb4).
  destruct (walk_optl_inv _ _ _ _ _ Hrb4 Hw4) as (rest5 & fu5 & Eb5 & Hw5 & Hrb5 & _).
  rewrite <- (app_nil_r (optl FourCCXMP xmp)) in Hw5.
  destruct (walk_optl_inv _ _ _ _ _ Hrb5 Hw5) as (rest6 & fu6 & Eb6 & Hw6 & _ & _).
  apply walk_nil_inv in Hw6. subst rest6. rewrite app_nil_r in Eb6. subst rest5 rest4.
  destruct (flag_bits_bridge flags ltac:(apply bytes_ok_cons in Hp; apply Hp)) as (G5 & _ & _ & _ & G1 & _ & Gl).
  exists flags, cw, ch, icc, b0, b1, b2, b3, b4, b5, fs, exif, xmp.
  unfold anim_file, anim_body, anim_rest, anim_tail. rewrite <- Epay, <- Eb1.
  split; [exact Hfile|]. split; [lia|]. split; [auto|]. split; [rewrite G1; exact Hbit|].
  split; [rewrite G5; symmetry; exact Hicc|]. split; [exact Hcwr|]. split; [exact Hchr|]. split; [exact Hfs|].
  split; [intros ->; cbn in Hn0; discriminate Hn0|].
  split; [exact (Hopt _ _ Hcapi)|]. split; [exact (Hopt _ _ Hcape)|]. split; [exact (Hopt _ _ Hcapx)|].
  split; [lia|]. split; [exact Hrb4|].
  split.
  - unfold g_canvas_area. rewrite Hfile, Eb1. unfold chunk, le32. cbn [app skipn]. reflexivity.
  - unfold anmf_count. rewrite Hfile, riff_chunks_hdr, Hwalk by exact Hrs.
    cbn [filter fst]. change (FourCCVP8X =? FourCCANMF) with false.
    rewrite !filter_app. cbn [filter fst]. change (FourCCANIM =? FourCCANMF) with false.
    rewrite filter_app, filter_anmf_frames, filter_app.
    rewrite !filter_anmf_optl by discriminate. rewrite !app_nil_r. cbn [app].
    unfold len. rewrite map_length. reflexivity.
Qed.

Theorem views_agree_anim :
  forall fx bs,
    RiffGrammar.wf bs = true -> g_is_anim bs = true -> len bs <= MaxMetadataSize ->
    g_canvas_area bs < MaxImageArea -> anmf_count bs <= MaxFrames ->
    exists r d,
      parse fx bs = Ok r /\ D.parse true bs = Ok d /\
      Forall2 frame_agrees (pFrames r) (D.d_frames d) /\ (0 < length (pFrames r))%nat /\
      fCanvasW (pFeat r) = D.ft_w (D.d_feat d) /\ fCanvasH (pFeat r) = D.ft_h (D.d_feat d) /\
      fWidth (pFeat r) = D.ft_w (D.d_feat d) /\ fHeight (pFeat r) = D.ft_h (D.d_feat d) /\
      fHasAnim (pFeat r) = true /\ D.ft_anim (D.d_feat d) = true /\
      fLoopCount (pFeat r) = D.d_loop d.
Proof.
  intros fx file Hg Han Hlen Harea Hcount.
  destruct (g_anim_decompose file Hg Han Hlen) as
    (flags & cw & ch & icc & b0 & b1 & b2 & b3 & b4 & b5 & fs & exif & xmp & -> & Hf64 & Hland & Hanimt & Hficc &
     Hcwr & Hchr & Hfs & Hne & Hcicc & Hcexif & Hcxmp & Hsize & Htailb & Earea & Ecnt).
  rewrite Earea in Harea. rewrite Ecnt in Hcount.
  destruct (views_agree_anim_shape fx flags cw ch icc b0 b1 b2 b3 b4 b5 fs exif xmp
              Hf64 Hland Hanimt Hficc Hcwr Hchr Harea Hfs Hne Hcount Hcicc Hcexif Hcxmp Hsize Htailb)
    as (r & d & Ep & Ed & Hagree & Hlenf & Hrest').
  exists r, d.
  split; [exact Ep|]. split; [exact Ed|]. split; [exact Hagree|].
  split; [rewrite Hlenf; destruct fs; [contradiction|cbn; lia]|exact Hrest'].
Qed.

(** ** Both layouts together *)
Theorem views_agree_two_parsers : forall fx bs,
  RiffGrammar.wf bs = true -> len bs <= MaxMetadataSize ->
  g_canvas_area bs < MaxImageArea -> anmf_count bs <= MaxFrames ->
  exists r d,
    parse fx bs = Ok r /\ D.parse true bs = Ok d /\
    Forall2 frame_agrees (pFrames r) (D.d_frames d) /\ (0 < length (pFrames r))%nat /\
    fCanvasW (pFeat r) = D.ft_w (D.d_feat d) /\ fCanvasH (pFeat r) = D.ft_h (D.d_feat d) /\
    fHasAnim (pFeat r) = D.ft_anim (D.d_feat d) /\
    (fHasAnim (pFeat r) = true -> fLoopCount (pFeat r) = D.d_loop d).
Proof.
  intros fx bs Hg Hlen Harea Hcount. destruct (g_is_anim bs) eqn:Ea.
  - destruct (views_agree_anim fx bs Hg Ea Hlen Harea Hcount) as
      (r & d & Ep & Ed & Hf & Hn & Hcw & Hch & _ & _ & Han & Dan & Hlp).
    exists r, d. repeat split; try assumption; try congruence.
  - destruct (views_agree_still fx bs Hg Ea Hlen) as
      (r & d & Ep & Ed & Hf & Hn & Hcw & Hch & _ & _ & Han & Dan & _).
    exists r, d. repeat split; try assumption; try lia; try congruence.
Qed.

(** ** Canvas area at or above MaxImageArea: both parsers reject
    (container.Parser.parseVP8X always did; mux.Demuxer.parseExtended since commit 07b7141).
    Only animations can get there: a still's canvas equals its 14-bit bitstream
    dimensions, so its area is at most 2^28. *)
Theorem big_canvas_both_reject :
  forall fx bs,
    RiffGrammar.wf bs = true -> g_is_anim bs = true -> len bs <= MaxMetadataSize ->
    MaxImageArea <= g_canvas_area bs ->
    parse fx bs = Err EInvalidImage /\ D.parse true bs = Err D.E_vp8x.
Proof.
  intros fx file Hg Han Hlen Hbig.
  destruct (g_anim_decompose file Hg Han Hlen) as
    (flags & cw & ch & icc & b0 & b1 & b2 & b3 & b4 & b5 & fs & exif & xmp & -> & Hf64 & Hland & _ & _ &
     Hcwr & Hchr & _ & _ & _ & _ & _ & Hsize & _ & Earea & _).
  rewrite Earea in Hbig. unfold parse, anim_file, anim_body in *. split.
  - rewrite parse_ex_vp8x by (assumption || (unfold MaxChunkPayload; exact Hsize)). rewrite Hland.
    destruct (Z.geb_spec (cw * ch) MaxImageArea); [reflexivity|lia].
  - rewrite d_parse_vp8x, d_parse_extended_chunk by (assumption || lia).
    change D.MaxImageArea with MaxImageArea. destruct (Z.geb_spec (cw * ch) MaxImageArea); [reflexivity|lia].
Qed.
