(** C17, codec layer, VP8 (lossy): the boolean entropy decoder of RFC 6386 ([Vp8.Vp8Bool])
    on a byte string [l] and on an extension [l ++ ext].  The decoder appends zero bytes
    once the data is exhausted, so it is NOT prefix-monotone ([bool_past_end_differs]); but
    [read_bool] records in [bd_past] whether the 8-bit window that decides the bit reached
    beyond the data ([bd_lim < bd_pos]), and as long as it did not, the two decoders return
    the same bits and stay related ([read_bool_sim], [read_bool_lift]).
    [Vp8Spec.decode_yuv] turns a past-end read into E_TRUNC and appended bytes only extend
    a frame's last token partition: this is the arithmetic core of C17 for VP8 frames. *)
From Coq Require Import List ZArith Lia Bool.
From Coq Require Import ZifyBool ZifyNat.
From Webp Require Import Base.Bytes Vp8.Vp8Bool.
From Webp Require Vp8.Vp8Spec.
From Webp Require Import Base.ListFacts.
Import ListNotations.
Open Scope Z_scope.

Definition zlen (l : list Z) : Z := Z.of_nat (length l).

(** number of bits of the 16-bit window that lie beyond the data; [t] = pos + 16 - 8*len *)
Definition kof (t : Z) : Z := if t <=? 0 then 0 else if 16 <=? t then 16 else t.

(** [2 ^ x] behind a name, so that [lia] treats powers with a variable exponent as atoms *)
Definition p2 (x : Z) : Z := 2 ^ x.

(** "the low [k] bits of [v] are zero", behind a name for the same reason (a [mod] by a
    non-numeral makes [lia]'s div/mod pre-processing split cases) *)
Definition lowz (v k : Z) : Prop := v mod 2 ^ k = 0.

Lemma kof_spec t : kof t = Z.max 0 (Z.min 16 t).
Proof. unfold kof. destruct (Z.leb_spec t 0); [lia|]. destruct (Z.leb_spec 16 t); lia. Qed.

Lemma p2_pos k : 0 <= k -> 0 < p2 k.
Proof. intros Hk. apply Z.pow_pos_nonneg; [reflexivity|exact Hk]. Qed.

Lemma p2_succ k : 0 <= k -> p2 (k + 1) = 2 * p2 k.
Proof. intros Hk. unfold p2. rewrite Z.add_1_r. apply Z.pow_succ_r. exact Hk. Qed.

Lemma lowz_divide v k : 0 <= k -> lowz v k <-> (p2 k | v).
Proof. intros Hk. apply Z.mod_divide. pose proof (p2_pos k Hk). unfold p2 in *. lia. Qed.

Lemma lowz_0 v : lowz v 0.
Proof. apply Z.mod_1_r. Qed.

Lemma lowz_p2 j k : 0 <= k <= j -> lowz (p2 j) k.
Proof.
  intros H. apply lowz_divide; [lia|]. exists (p2 (j - k)). unfold p2.
  rewrite <- Z.pow_add_r by lia. f_equal. lia.
Qed.

Lemma lowz_mul_r s u k : 0 <= k -> lowz u k -> lowz (s * u) k.
Proof. intros Hk. rewrite !lowz_divide by exact Hk. apply Z.divide_mul_r. Qed.

Lemma lowz_sub v u k : 0 <= k -> lowz v k -> lowz u k -> lowz (v - u) k.
Proof. intros Hk. rewrite !lowz_divide by exact Hk. apply Z.divide_sub_r. Qed.

Lemma lowz_weaken v j k : 0 <= k <= j -> lowz v j -> lowz v k.
Proof.
  intros H. pose proof (lowz_p2 j k H) as Hp. rewrite !lowz_divide in * by lia.
  apply Z.divide_trans. exact Hp.
Qed.

(** two multiples of [2^k] are equal or at least [2^k] apart *)
Lemma lowz_gap v u k : 0 <= k -> lowz v k -> lowz u k -> v < u -> v + p2 k <= u.
Proof.
  intros Hk Hv Hu Hlt. pose proof (lowz_sub u v k Hk Hu Hv) as Hd. rewrite lowz_divide in Hd by exact Hk.
  apply Z.divide_pos_le in Hd; lia.
Qed.

Lemma lowz_same v v' k : 0 <= k -> lowz v k -> lowz v' k -> v <= v' < v + p2 k -> v' = v.
Proof.
  intros Hk Hv Hv' Hd. destruct (Z.eq_dec v' v) as [E|E]; [exact E|].
  pose proof (lowz_gap v v' k Hk Hv Hv' ltac:(lia)). lia.
Qed.

Lemma lowz_small v k : lowz v k -> 0 <= v < p2 k -> v = 0.
Proof. unfold lowz, p2. intros H Hv. rewrite Z.mod_small in H by exact Hv. exact H. Qed.

Lemma lowz_dbl a v : 0 <= a < 16 -> lowz v a -> lowz (v * 2 mod 65536) (a + 1).
Proof.
  intros Ha H. rewrite Z.mod_eq, (Z.mul_comm 65536) by lia. apply lowz_sub; [lia| |].
  - rewrite lowz_divide in * by lia. rewrite p2_succ, (Z.mul_comm 2) by lia.
    apply Z.mul_divide_mono_r. exact H.
  - apply lowz_mul_r; [lia|]. apply (lowz_p2 16). lia.
Qed.

(** the shifted [v] is a multiple of [2^(a+1)] below [2^16], so adding less than [2^(a+1)]
    to it does not wrap *)
Lemma dbl_window a v v' : 0 <= a < 16 -> lowz v a -> v <= v' < v + p2 a ->
  lowz (v * 2 mod 65536) (a + 1) /\
  v * 2 mod 65536 <= v' * 2 mod 65536 < v * 2 mod 65536 + p2 (a + 1).
Proof.
  intros Ha Hm Hd. pose proof (lowz_dbl a v Ha Hm) as Hw. split; [exact Hw|].
  pose proof (Z.mod_pos_bound (v * 2) 65536 eq_refl) as Hr.
  pose proof (lowz_gap _ 65536 (a + 1) ltac:(lia) Hw (lowz_p2 16 (a + 1) ltac:(lia)) (proj2 Hr)) as Hg.
  rewrite p2_succ in * by lia.
  assert (E : v' * 2 mod 65536 = v * 2 mod 65536 + (v' - v) * 2).
  { replace (v' * 2) with (v * 2 + (v' - v) * 2) by ring.
    rewrite <- Z.add_mod_idemp_l by lia. apply Z.mod_small. lia. }
  lia.
Qed.

Lemma window_shift t v v' : 0 <= v < 65536 -> lowz v (kof t) -> v <= v' < v + p2 (kof t) ->
  lowz (v * 2 mod 65536) (kof (t + 1)) /\
  v * 2 mod 65536 <= v' * 2 mod 65536 < v * 2 mod 65536 + p2 (kof (t + 1)).
Proof.
  rewrite !kof_spec. intros Hv Hk Hd.
  destruct (Z.lt_ge_cases t 0) as [Ht|Ht]; [|destruct (Z.lt_ge_cases t 16) as [Ht'|Ht']].
  - (* no window bit beyond the data, before and after *)
    replace (Z.max 0 (Z.min 16 t)) with 0 in * by lia. replace (Z.max 0 (Z.min 16 (t + 1))) with 0 by lia.
    change (p2 0) with 1 in *. replace v' with v by lia. split; [apply lowz_0|lia].
  - replace (Z.max 0 (Z.min 16 t)) with t in * by lia. replace (Z.max 0 (Z.min 16 (t + 1))) with (t + 1) by lia.
    apply dbl_window; [lia|exact Hk|exact Hd].
  - (* the whole window lies beyond the data *)
    replace (Z.max 0 (Z.min 16 t)) with 16 in * by lia. replace (Z.max 0 (Z.min 16 (t + 1))) with 16 by lia.
    change (p2 16) with 65536 in *.
    assert (v = 0) by (apply (lowz_small v 16); [exact Hk|change (p2 16) with 65536; lia]). subst v.
    pose proof (Z.mod_pos_bound (v' * 2) 65536 eq_refl). split; [reflexivity|change (0 * 2 mod 65536) with 0; lia].
Qed.

Lemma shift_byte (w : Z) (r : list Z) :
  match r with [] => (w, 0, []) | b :: r0 => (w + b, 0, r0) end = (w + hd 0 r, 0, tl r).
Proof. destruct r; [rewrite Z.add_0_r|]; reflexivity. Qed.

Lemma bd_init_fields m :
  bd_init m = mkBdec (256 * nth 0 m 0 + nth 1 m 0) 255 0 (skipn 2 m) 0 (8 * (Z.of_nat (length m) - 1)) false.
Proof. destruct m as [|a [|b r]]; cbn [bd_init nth skipn length]; f_equal; lia. Qed.

Lemma normalize_range : forall fuel v range c r pos v1 rg c1 r1 p1,
  1 <= range <= 255 -> 128 <= range * 2 ^ Z.of_nat fuel ->
  bd_normalize fuel v range c r pos = (v1, rg, c1, r1, p1) -> 128 <= rg <= 255.
Proof.
  induction fuel as [|fuel IH]; intros v range c r pos v1 rg c1 r1 p1 Hr Hp H; cbn [bd_normalize] in H.
  - injection H as _ <- _ _ _. cbn in Hp. lia.
  - destruct (Z.ltb_spec range 128).
    + destruct (bd_shift1 v c r) as [[w cw] rw].
      assert (Hr2 : 1 <= range * 2 <= 255) by lia.
      assert (Hp2 : 128 <= range * 2 * 2 ^ Z.of_nat fuel).
      { rewrite Nat2Z.inj_succ, Z.pow_succ_r in Hp by lia.
        replace (range * 2 * 2 ^ Z.of_nat fuel) with (range * (2 * 2 ^ Z.of_nat fuel)) by ring. exact Hp. }
      apply (IH _ _ _ _ _ _ _ _ _ _ Hr2 Hp2 H).
    + injection H as _ <- _ _ _. lia.
Qed.

Section Sim.
  Variables (l ext : list Z).
  Hypothesis Hl : bytes_ok l.
  Hypothesis Hext : bytes_ok ext.
  Let n := zlen l.

  (** The moving parts of the two states at bit position [pos]: both values end in the [c]
      zeros shifted in since the last byte; [v] has zeros where its window reaches beyond [l]
      ([kof] bits), and [v'] differs from [v] in those bits only. *)
  Definition crel (v c : Z) (r : list Z) (v' : Z) (r' : list Z) (pos : Z) : Prop :=
    0 <= pos /\ c = pos mod 8 /\
    r = skipn (Z.to_nat (2 + pos / 8)) l /\ r' = skipn (Z.to_nat (2 + pos / 8)) (l ++ ext) /\
    0 <= v < 65536 /\ 0 <= v' < 65536 /\
    lowz v c /\ lowz v' c /\
    lowz v (kof (pos + 16 - 8 * n)) /\ v <= v' < v + p2 (kof (pos + 16 - 8 * n)).

  Lemma shift_sim v c r v' r' pos :
    crel v c r v' r' pos ->
    exists v1 c1 r1 v1' r1',
      bd_shift1 v c r = (v1, c1, r1) /\ bd_shift1 v' c r' = (v1', c1, r1') /\ crel v1 c1 r1 v1' r1' (pos + 1).
  Proof.
    intros (Hp & Hc & Hr & Hr' & Hv & Hv' & Hm & Hm' & Hk & Hd).
    unfold bd_shift1, crel. replace (pos + 1 + 16 - 8 * n) with (pos + 16 - 8 * n + 1) by ring.
    set (t := pos + 16 - 8 * n) in *.
    assert (Hc7 : 0 <= c < 8) by (rewrite Hc; apply Z.mod_pos_bound; reflexivity).
    destruct (window_shift t v v' Hv Hk Hd) as [Hk1 Hd1].
    assert (Hc16 : 0 <= c < 16) by (clear - Hc7; lia).
    pose proof (lowz_dbl c v Hc16 Hm) as Hm1. pose proof (lowz_dbl c v' Hc16 Hm') as Hm1'.
    pose proof (Z.mod_pos_bound (v * 2) 65536 eq_refl) as Hw.
    pose proof (Z.mod_pos_bound (v' * 2) 65536 eq_refl) as Hw'.
    set (w := v * 2 mod 65536) in *. set (w' := v' * 2 mod 65536) in *.
    destruct (Z.eqb_spec (c + 1) 8) as [Ec|Ec].
    - (* a byte is appended: the one at index [ci] of the data, 0 beyond the data *)
      set (ci := Z.to_nat (2 + pos / 8)) in *.
      assert (Hci : Z.to_nat (2 + (pos + 1) / 8) = S ci) by (subst ci; lia).
      rewrite !shift_byte, Hci. subst r r'. rewrite !hd_skipn, !skipn_tail.
      set (b := nth ci l 0). set (b' := nth ci (l ++ ext) 0).
      assert (Hb : is_byte b) by (apply Forall_nth_default; [exact Hl|unfold is_byte; lia]).
      assert (Hb' : is_byte b').
      { apply Forall_nth_default; [apply bytes_ok_app; split; assumption|unfold is_byte; lia]. }
      unfold is_byte in Hb, Hb'. rewrite Ec in Hm1, Hm1'.
      (* [w] and [w'] are multiples of 2^8 below 2^16 *)
      assert (H8 : 0 <= 8 <= 16) by (clear; lia).
      pose proof (lowz_gap w 65536 8 (proj1 H8) Hm1 (lowz_p2 16 8 H8) (proj2 Hw)) as Hg.
      pose proof (lowz_gap w' 65536 8 (proj1 H8) Hm1' (lowz_p2 16 8 H8) (proj2 Hw')) as Hg'.
      change (p2 8) with 256 in Hg, Hg'.
      exists (w + b), 0, (skipn (S ci) l), (w' + b'), (skipn (S ci) (l ++ ext)).
      split; [reflexivity|]. split; [reflexivity|].
      split; [lia|]. split; [lia|]. split; [reflexivity|]. split; [reflexivity|].
      split; [lia|]. split; [lia|]. split; [apply lowz_0|]. split; [apply lowz_0|].
      (* which byte: inside l, the first beyond l, or later *)
      assert (Ht : t + 1 = 8 * (Z.of_nat ci - n + 1)) by (subst t ci; lia).
      rewrite kof_spec in Hk1, Hd1 |- *. unfold n, zlen in Ht.
      destruct (lt_eq_lt_dec ci (length l)) as [[Hin|Heq]|Hout].
      + (* inside: no window bit beyond the data, the same byte on both sides *)
        replace (Z.max 0 (Z.min 16 (t + 1))) with 0 in * by lia. change (p2 0) with 1 in *.
        assert (b' = b) by (apply app_nth1; exact Hin).
        split; [apply lowz_0|lia].
      + replace (Z.max 0 (Z.min 16 (t + 1))) with 8 in * by lia.
        assert (Eb : b = 0) by (apply nth_overflow; lia).
        assert (w' = w) by (apply (lowz_same w w' 8); (assumption || lia)).
        change (p2 8) with 256. rewrite Eb, Z.add_0_r. split; [exact Hm1|lia].
      + (* the whole window lies beyond the data *)
        replace (Z.max 0 (Z.min 16 (t + 1))) with 16 in * by lia.
        assert (Eb : b = 0) by (apply nth_overflow; lia).
        assert (Ew : w = 0) by (apply (lowz_small w 16); [exact Hk1|exact Hw]).
        rewrite Eb, Ew. change (p2 16) with 65536. split; [reflexivity|lia].
    - exists w, (c + 1), r, w', r'. split; [reflexivity|]. split; [reflexivity|].
      replace ((pos + 1) / 8) with (pos / 8) by lia.
      split; [lia|]. split; [lia|]. split; [exact Hr|]. split; [exact Hr'|].
      split; [exact Hw|]. split; [exact Hw'|]. split; [exact Hm1|]. split; [exact Hm1'|].
      split; [exact Hk1|exact Hd1].
  Qed.

  Lemma normalize_sim : forall fuel v range c r v' r' pos v1 rg c1 r1 p1,
    crel v c r v' r' pos ->
    bd_normalize fuel v range c r pos = (v1, rg, c1, r1, p1) ->
    exists v1' r1', bd_normalize fuel v' range c r' pos = (v1', rg, c1, r1', p1) /\ crel v1 c1 r1 v1' r1' p1.
  Proof.
    induction fuel as [|fuel IH]; intros v range c r v' r' pos v1 rg c1 r1 p1 Hrel H; cbn [bd_normalize] in *.
    - injection H as <- <- <- <- <-. eauto.
    - destruct (range <? 128).
      + destruct (shift_sim _ _ _ _ _ _ Hrel) as (w & cw & rw & w' & rw' & E1 & E2 & Hrel1).
        rewrite E1 in H. rewrite E2. apply (IH _ _ _ _ _ _ _ _ _ _ _ _ Hrel1 H).
      + injection H as <- <- <- <- <-. eauto.
  Qed.

  (** the decision byte is inside the data: at most 8 window bits lie beyond *)
  Lemma crel_sub s v c r v' r' pos :
    crel v c r v' r' pos -> pos + 16 - 8 * n <= 8 -> lowz s 8 -> 0 <= s <= v ->
    crel (v - s) c r (v' - s) r' pos.
  Proof.
    intros (Hp & Hc & Hr & Hr' & Hv & Hv' & Hm & Hm' & Hk & Hd) Ht Hs Hle.
    assert (Hc7 : 0 <= c < 8) by (rewrite Hc; apply Z.mod_pos_bound; reflexivity).
    pose proof (kof_spec (pos + 16 - 8 * n)) as Ek.
    assert (Hsc : lowz s c) by (apply (lowz_weaken s 8); [lia|exact Hs]).
    assert (Hsk : lowz s (kof (pos + 16 - 8 * n))) by (apply (lowz_weaken s 8); [lia|exact Hs]).
    unfold crel. split; [exact Hp|]. split; [exact Hc|]. split; [exact Hr|]. split; [exact Hr'|].
    split; [lia|]. split; [lia|].
    split; [apply lowz_sub; (assumption || lia)|]. split; [apply lowz_sub; (assumption || lia)|].
    split; [apply lowz_sub; (assumption || lia)|lia].
  Qed.

  Lemma same_decision s v v' k : 0 <= k -> lowz s k -> lowz v k -> v <= v' < v + p2 k ->
    (s <=? v) = (s <=? v').
  Proof.
    intros Hk Hs Hv Hd. destruct (Z.leb_spec s v) as [H|H]; destruct (Z.leb_spec s v') as [H'|H']; try reflexivity; [lia|].
    pose proof (lowz_gap v s k Hk Hv Hs H). lia.
  Qed.

  Definition rel (d d' : bdec) : Prop :=
    bd_range d = bd_range d' /\ bd_count d = bd_count d' /\ bd_pos d = bd_pos d' /\
    bd_lim d = 8 * (n - 1) /\ bd_lim d <= bd_lim d' /\ 128 <= bd_range d <= 255 /\
    crel (bd_value d) (bd_count d) (bd_rest d) (bd_value d') (bd_rest d') (bd_pos d).

  Lemma normalize_rel d d' v v' rg past past' :
    rel d d' -> crel v (bd_count d) (bd_rest d) v' (bd_rest d') (bd_pos d) -> 1 <= rg <= 255 ->
    exists v1 rg1 c1 r1 p1 v1' r1',
      bd_normalize 8 v rg (bd_count d) (bd_rest d) (bd_pos d) = (v1, rg1, c1, r1, p1) /\
      bd_normalize 8 v' rg (bd_count d) (bd_rest d') (bd_pos d) = (v1', rg1, c1, r1', p1) /\
      rel (mkBdec v1 rg1 c1 r1 p1 (bd_lim d) past) (mkBdec v1' rg1 c1 r1' p1 (bd_lim d') past').
  Proof.
    intros (_ & _ & _ & Hlim & Hlim' & _ & _) Hc Hrg.
    destruct (bd_normalize 8 v rg (bd_count d) (bd_rest d) (bd_pos d)) as [[[[v1 rg1] c1] r1] p1] eqn:En.
    destruct (normalize_sim _ _ _ _ _ _ _ _ _ _ _ _ _ Hc En) as (v1' & r1' & En' & Hc1).
    assert (Hp1 : 128 <= rg * 2 ^ Z.of_nat 8) by (change (2 ^ Z.of_nat 8) with 256; lia).
    pose proof (normalize_range _ _ _ _ _ _ _ _ _ _ _ Hrg Hp1 En) as Hrg1.
    exists v1, rg1, c1, r1, p1, v1', r1'. split; [reflexivity|]. split; [exact En'|].
    unfold rel. cbn [bd_range bd_count bd_pos bd_lim bd_value bd_rest]. auto 10.
  Qed.

  (** one bool decoded from a window inside the data *)
  Lemma read_bool_sim prob d d' :
    rel d d' -> bd_pos d <= bd_lim d -> 0 <= prob <= 255 ->
    let '(b, d1) := read_bool prob d in
    let '(b', d1') := read_bool prob d' in
    b = b' /\ rel d1 d1' /\ bd_past d1 = bd_past d /\ bd_past d1' = bd_past d'.
  Proof.
    intros Hrel Hin Hprob. pose proof Hrel as (Hrg & Hct & Hps & Hlim & Hlim' & Hrb & Hc).
    unfold read_bool. rewrite <- Hrg, <- Hct, <- Hps.
    set (split := bd_split (bd_range d) prob).
    assert (Hsp : 1 <= split <= bd_range d - 1) by (subst split; unfold bd_split; clear - Hrb Hprob; nia).
    assert (Ht : bd_pos d + 16 - 8 * n <= 8) by lia.
    assert (Hs8 : lowz (split * 256) 8) by (apply lowz_mul_r; [lia|apply (lowz_p2 8); lia]).
    (* the threshold is a multiple of 2^8, the values differ below bit 8: same decision *)
    pose proof Hc as (_ & _ & _ & _ & _ & _ & _ & _ & Hk & Hd).
    assert (Hk8 : 0 <= kof (bd_pos d + 16 - 8 * n) <= 8) by (rewrite kof_spec; lia).
    rewrite <- (same_decision (split * 256) _ _ _ (proj1 Hk8) (lowz_weaken _ 8 _ Hk8 Hs8) Hk Hd).
    replace (bd_lim d <? bd_pos d) with false by lia. replace (bd_lim d' <? bd_pos d) with false by lia.
    rewrite !orb_false_r.
    destruct (Z.leb_spec (split * 256) (bd_value d)) as [Hle|Hgt].
    - destruct (normalize_rel d d' _ _ (bd_range d - split) (bd_past d) (bd_past d') Hrel
                  (crel_sub _ _ _ _ _ _ _ Hc Ht Hs8 ltac:(lia)) ltac:(lia))
        as (v1 & rg1 & c1 & r1 & p1 & v1' & r1' & E & E' & Hr1).
      rewrite E, E'. auto.
    - destruct (normalize_rel d d' _ _ split (bd_past d) (bd_past d') Hrel Hc ltac:(lia))
        as (v1 & rg1 & c1 & r1 & p1 & v1' & r1' & E & E' & Hr1).
      rewrite E, E'. auto.
  Qed.

  Lemma init_rel : rel (bd_init l) (bd_init (l ++ ext)).
  Proof.
    assert (Hle : bytes_ok (l ++ ext)) by (apply bytes_ok_app; split; assumption).
    assert (Hz : is_byte 0) by (unfold is_byte; lia).
    rewrite (bd_init_fields l), (bd_init_fields (l ++ ext)).
    pose proof (Forall_nth_default _ l 0 0 Hl Hz) as A0. pose proof (Forall_nth_default _ l 1 0 Hl Hz) as A1.
    pose proof (Forall_nth_default _ (l ++ ext) 0 0 Hle Hz) as B0. pose proof (Forall_nth_default _ (l ++ ext) 1 0 Hle Hz) as B1.
    unfold is_byte in *.
    unfold rel, crel. cbn [bd_range bd_count bd_pos bd_lim bd_value bd_rest].
    change (0 mod 8) with 0. change (0 / 8) with 0. change (Z.to_nat (2 + 0)) with 2%nat.
    unfold n, zlen. rewrite app_length.
    split; [reflexivity|]. split; [reflexivity|]. split; [reflexivity|]. split; [reflexivity|].
    split; [lia|]. split; [lia|].
    split; [lia|]. split; [reflexivity|]. split; [reflexivity|]. split; [reflexivity|].
    split; [lia|]. split; [lia|]. split; [apply lowz_0|]. split; [apply lowz_0|].
    destruct l as [|a [|b r]]; cbn [length nth app] in *.
    - (* no data: the whole window is beyond it *)
      change (kof (0 + 16 - 8 * Z.of_nat 0)) with 16. change (p2 16) with 65536. split; [reflexivity|lia].
    - change (kof (0 + 16 - 8 * Z.of_nat 1)) with 8. change (p2 8) with 256.
      split; [|lia]. rewrite Z.add_0_r, Z.mul_comm. apply lowz_mul_r; [lia|]. apply (lowz_p2 8). lia.
    - rewrite kof_spec. replace (Z.max 0 (Z.min 16 (0 + 16 - 8 * Z.of_nat (S (S (length r)))))) with 0 by lia.
      split; [apply lowz_0|change (p2 0) with 1; lia].
  Qed.

  Lemma read_bool_past prob d : bd_past (snd (read_bool prob d)) = bd_past d || (bd_lim d <? bd_pos d).
  Proof.
    unfold read_bool. destruct (_ <=? bd_value d);
      match goal with |- context [bd_normalize ?f ?v ?rg ?c ?r ?p] => destruct (bd_normalize f v rg c r p) as [[[[? ?] ?] ?] ?] end;
      reflexivity.
  Qed.

  Lemma read_bool_past_mono prob d : bd_past d = true -> bd_past (snd (read_bool prob d)) = true.
  Proof. intros H. rewrite read_bool_past, H. reflexivity. Qed.

  (** a bool read that leaves the flag clear was read inside the data *)
  Lemma read_bool_lift prob d d' b d1 :
    rel d d' -> 0 <= prob <= 255 -> read_bool prob d = (b, d1) -> bd_past d1 = false ->
    exists d1', read_bool prob d' = (b, d1') /\ rel d1 d1' /\ bd_past d1' = bd_past d'.
  Proof.
    intros Hrel Hp E Hpast.
    pose proof (read_bool_past prob d) as Hf. rewrite E in Hf. cbn [snd] in Hf.
    rewrite Hpast in Hf. symmetry in Hf. apply orb_false_iff in Hf. destruct Hf as [_ Hin].
    pose proof (read_bool_sim prob d d' Hrel ltac:(lia) Hp) as Hs. rewrite E in Hs.
    destruct (read_bool prob d') as [b' d1'] eqn:E'. destruct Hs as (-> & Hr1 & _ & Hq).
    exists d1'. auto.
  Qed.
End Sim.

(** after the single byte 0x00 the 9th literal bit comes from the implicit zero bytes;
    appending 0xFF changes it; the flag is set in that run *)
Theorem bool_past_end_differs :
  exists l ext k, fst (read_lit k (bd_init l)) <> fst (read_lit k (bd_init (l ++ ext))) /\
                  bd_past (snd (read_lit k (bd_init l))) = true.
Proof. exists [0], [255], 12%nat. vm_compute. split; [discriminate|reflexivity]. Qed.

(** The frame level: a frame that decodes still decodes, to the same picture, when bytes are
    appended ([Riff.PrefixVp8Frame.vp8_frame_prefix_monotone]). *)
Definition vp8_frame_prefix_full_statement : Prop :=
  forall d ext r, bytes_ok d -> bytes_ok ext ->
    Vp8Spec.decode_yuv d = Base.Res.Ok r -> Vp8Spec.decode_yuv (d ++ ext) = Base.Res.Ok r.
