(** Joining the two independent RIFF specifications: [Riff.RiffGrammar.wf] (tags
    as byte lists, written from the container specification) and
    [Riff.ParserSpec.riff_wf] (tags as uint32): the two walkers compute the same
    chunk list, and on stills the two layouts accept the same lists.  With the
    writer round trip this gives [writer_output_wf]: what the encoder's container
    writer emits is accepted by the grammar. *)
From Coq Require Import List ZArith Lia Bool.
From Coq Require Import ZifyBool ZifyNat.
From Webp Require Import Base.Res Base.Bytes Riff.ParserModel Riff.ParserLemmas Riff.ParserSpec
     Riff.WriterModel Riff.WriterProofs Riff.MetadataProofs Riff.ParserProofs Riff.WriterTheorems
     Riff.ParserSpecProofs.
From Webp Require Riff.RiffGrammar.
Import ListNotations.
Open Scope Z_scope.

Module G := RiffGrammar.

Definition conv (c : Z * list Z) : G.gchunk := (le32 (fst c), snd c).

Lemma tag_consts :
  le32 FourCCRIFF = G.T_RIFF /\ le32 FourCCWEBP = G.T_WEBP /\ le32 FourCCVP8 = G.T_VP8 /\
  le32 FourCCVP8L = G.T_VP8L /\ le32 FourCCVP8X = G.T_VP8X /\ le32 FourCCALPH = G.T_ALPH /\
  le32 FourCCANIM = G.T_ANIM /\ le32 FourCCANMF = G.T_ANMF /\ le32 FourCCICCP = G.T_ICCP /\
  le32 FourCCEXIF = G.T_EXIF /\ le32 FourCCXMP = G.T_XMP.
Proof. repeat split; reflexivity. Qed.

Lemma bytes_eqb_eq a b : G.bytes_eqb a b = true <-> a = b.
Proof.
  revert b. induction a as [|x a IH]; intros [|y b]; cbn; split; intros H; try discriminate; auto.
  - apply andb_true_iff in H. destruct H as [H1 H2]. apply Z.eqb_eq in H1. apply IH in H2. congruence.
  - injection H as -> ->. rewrite Z.eqb_refl. cbn. apply IH. reflexivity.
Qed.

Lemma bytes_eqb_refl a : G.bytes_eqb a a = true.
Proof. apply bytes_eqb_eq. reflexivity. Qed.

(** [le32] is injective on uint32 values, so comparing tags = comparing FourCCs. *)
Lemma le32_inj a b : 0 <= a < 4294967296 -> 0 <= b < 4294967296 -> le32 a = le32 b -> a = b.
Proof.
  intros Ha Hb H. rewrite <- (rd32_le32_id a Ha), <- (rd32_le32_id b Hb). rewrite H. reflexivity.
Qed.

Lemma tag_eqb id c : 0 <= id < 4294967296 -> 0 <= c < 4294967296 ->
  G.bytes_eqb (le32 id) (le32 c) = (id =? c).
Proof.
  intros Hi Hc. destruct (Z.eqb_spec id c) as [->|Hne].
  - apply bytes_eqb_refl.
  - destruct (G.bytes_eqb (le32 id) (le32 c)) eqn:E; [|reflexivity].
    apply bytes_eqb_eq in E. apply le32_inj in E; [contradiction|assumption|assumption].
Qed.

Lemma glen_len {A} (l : list A) : G.glen l = len l.
Proof. reflexivity. Qed.

Lemma chunks_eq_walk : forall fuel buf,
  bytes_ok buf -> G.chunks fuel buf = option_map (map conv) (walk fuel buf).
Proof.
  induction fuel as [|fuel IH]; intros buf Hb.
  - destruct buf; reflexivity.
  - destruct buf as [|a0 [|a1 [|a2 [|a3 [|s0 [|s1 [|s2 [|s3 body]]]]]]]]; try reflexivity.
    cbn [G.chunks walk]. rewrite glen_len.
    remember (rd32 [s0; s1; s2; s3]) as sz eqn:Hsz.
    assert (Hbb : bytes_ok body /\ 0 <= sz < 4294967296 /\ le32 (rd32 [a0; a1; a2; a3]) = [a0; a1; a2; a3]).
    { subst sz. rewrite !bytes_ok_cons in Hb. destruct Hb as (A0 & A1 & A2 & A3 & S0 & S1 & S2 & S3 & Hb).
      split; [assumption|]. split; [apply rd32_bound; assumption|]. apply le32_rd32; assumption. }
    destruct Hbb as (Hbody & Hszr & Htag).
    destruct (Z.ltb_spec (len body) sz) as [Hlt|Hge].
    { destruct (Z.leb_spec (sz + sz mod 2) (len body)); [lia|reflexivity]. }
    destruct (Z.eqb_spec (sz mod 2) 0) as [He|Ho].
    + rewrite He, Z.add_0_r. destruct (Z.leb_spec sz (len body)); [|lia].
      rewrite (IH _ (bytes_ok_skipn _ _ Hbody)).
      destruct (walk fuel (skipn (Z.to_nat sz) body)); cbn [option_map map conv fst snd]; [|reflexivity].
      f_equal. f_equal. unfold conv. cbn [fst snd]. rewrite Htag. reflexivity.
    + replace (sz mod 2) with 1 by lia.
      destruct (skipn (Z.to_nat sz) body) as [|pad after'] eqn:Es.
      * assert (len body = sz).
        { apply (f_equal (@length Z)) in Es. rewrite skipn_length in Es. cbn in Es. unfold len in *. lia. }
        destruct (Z.leb_spec (sz + 1) (len body)); [lia|reflexivity].
      * assert (sz + 1 <= len body).
        { apply (f_equal (@length Z)) in Es. rewrite skipn_length in Es. cbn [length] in Es. unfold len in *. lia. }
        destruct (Z.leb_spec (sz + 1) (len body)); [|lia].
        destruct (pad =? 0); [|reflexivity].
        replace (Z.to_nat (sz + 1)) with (S (Z.to_nat sz)) by lia.
        rewrite (skipn_S_of _ _ _ _ Es).
        assert (Hb' : bytes_ok after').
        { pose proof (bytes_ok_skipn (Z.to_nat sz) _ Hbody) as Hk. rewrite Es in Hk.
          unfold bytes_ok in *. inversion Hk; assumption. }
        rewrite (IH _ Hb').
        destruct (walk fuel after'); cbn [option_map map conv fst snd]; [|reflexivity].
        f_equal. f_equal. unfold conv. cbn [fst snd]. rewrite Htag. reflexivity.
Qed.

Lemma chunks_of_walk n body cs :
  bytes_ok body -> walk (S n) body = Some cs -> n = length body ->
  G.chunks n body = Some (map conv cs).
Proof.
  intros Hb Hw ->. rewrite chunks_eq_walk by exact Hb.
  pose proof (walk_count _ _ _ Hb Hw) as Hc.
  rewrite (walk_any_fuel _ (length body) _ _ Hb Hw ltac:(lia)). reflexivity.
Qed.

Lemma walk_of_chunks n body gcs :
  bytes_ok body -> G.chunks n body = Some gcs ->
  exists cs, gcs = map conv cs /\ walk (S n) body = Some cs.
Proof.
  intros Hb H. rewrite chunks_eq_walk in H by exact Hb.
  destruct (walk n body) as [cs|] eqn:E; [|discriminate]. injection H as <-.
  exists cs. split; [reflexivity|]. apply (walk_fuel_mono n); [exact E|lia].
Qed.

(** ** Bitstream headers: the two specifications read the same fields *)
Lemma g_vp8_header_short bs : len bs < 10 -> G.vp8_header bs = None.
Proof.
  intros H. do 10 (destruct bs as [|? bs]; [reflexivity|]). rewrite !len_cons in H. pose proof (len_nonneg bs). lia.
Qed.

Lemma g_vp8l_header_short bs : len bs < 5 -> G.vp8l_header bs = None.
Proof.
  intros H. do 5 (destruct bs as [|? bs]; [reflexivity|]). rewrite !len_cons in H. pose proof (len_nonneg bs). lia.
Qed.

Lemma vp8_header_bridge bs w h :
  bytes_ok bs -> (parse_vp8_header bs = Ok (w, h) <-> G.vp8_header bs = Some (w, h)).
Proof.
  intros Hb. destruct (Z.lt_ge_cases (len bs) 10) as [Hs|Hl].
  { rewrite parse_vp8_header_short, g_vp8_header_short by exact Hs. split; discriminate. }
  destruct (len_ge_10 bs Hl) as (b0 & b1 & b2 & b3 & b4 & b5 & b6 & b7 & b8 & b9 & tl & ->).
  rewrite parse_vp8_header_bytes. unfold G.vp8_header.
  rewrite !bytes_ok_cons in Hb. destruct Hb as (B0 & B1 & B2 & B3 & B4 & B5 & _). unfold is_byte in *.
  fold (rd16 [b6; b7]) (rd16 [b8; b9]).
  pose proof (Z.mod_pos_bound (rd16 [b6; b7]) 16384 ltac:(lia)) as Hwr.
  pose proof (Z.mod_pos_bound (rd16 [b8; b9]) 16384 ltac:(lia)) as Hhr.
  set (w' := rd16 [b6; b7] mod 16384) in *. set (h' := rd16 [b8; b9] mod 16384) in *.
  destruct (Z.eqb_spec ((b0 + 256 * b1 + 65536 * b2) mod 2) 0) as [Ek|Ek];
  destruct (Z.eqb_spec (b0 mod 2) 0) as [Ek'|Ek']; try lia; cbn [negb andb];
    [|split; discriminate].
  destruct (Z.eqb_spec (65536 * b3 + 256 * b4 + b5) 10289450) as [Es|Es]; cbn [negb].
  - assert (b3 = 157 /\ b4 = 1 /\ b5 = 42) as (-> & -> & ->) by lia. cbn [Z.eqb Pos.eqb andb].
    destruct (Z.eqb_spec w' 0), (Z.leb_spec 1 w'); try lia; destruct (Z.eqb_spec h' 0), (Z.leb_spec 1 h'); try lia;
      cbn [orb andb]; split; intros Hq; try discriminate; congruence.
  - split; [discriminate|].
    destruct (Z.eqb_spec b3 157), (Z.eqb_spec b4 1), (Z.eqb_spec b5 42); cbn [andb]; try discriminate. lia.
Qed.

Lemma vp8l_header_bridge bs w h a :
  bytes_ok bs -> (parse_vp8l_header bs = Ok (w, h, a) <-> G.vp8l_header bs = Some (w, h, a)).
Proof.
  intros Hb. destruct (Z.lt_ge_cases (len bs) 5) as [Hs|Hl].
  { rewrite parse_vp8l_header_short, g_vp8l_header_short by exact Hs. split; discriminate. }
  destruct (len_ge_5 bs Hl) as (b0 & b1 & b2 & b3 & b4 & tl & ->).
  rewrite parse_vp8l_header_bytes. unfold G.vp8l_header, VP8LMagicByte. cbv zeta.
  rewrite !bytes_ok_cons in Hb. destruct Hb as (_ & B1 & B2 & B3 & B4 & _).
  pose proof (rd32_bound b1 b2 b3 b4 [] B1 B2 B3 B4) as Hr.
  unfold rd32 in *. remember (b1 + 256 * b2 + 65536 * b3 + 16777216 * b4) as bits.
  destruct (b0 =? 47); cbn [negb andb]; [|split; discriminate].
  destruct (Z.eqb_spec ((bits / 536870912) mod 8) 0) as [Ev|Ev];
  destruct (Z.eqb_spec (bits / 536870912) 0) as [Ev'|Ev']; try lia; cbn [negb];
    [|split; discriminate].
  assert (Hwn : (bits mod 16384 + 1 =? 0) = false) by lia.
  assert (Hhn : ((bits / 16384) mod 16384 + 1 =? 0) = false) by lia.
  rewrite Hwn, Hhn. cbn [orb]. split; intros Hq; congruence.
Qed.

Lemma image_dims_bridge id bs w h a :
  bytes_ok bs -> image_dims id bs = Some (w, h, a) ->
  (id = FourCCVP8L /\ G.vp8l_header bs = Some (w, h, a)) \/
  (id = FourCCVP8 /\ a = false /\ G.vp8_header bs = Some (w, h)).
Proof.
  intros Hb Hd. destruct (image_dims_inv _ _ _ _ _ Hd) as [(-> & E)|(-> & -> & E)]; [left|right];
    repeat split; [apply vp8l_header_bridge|apply vp8_header_bridge]; assumption.
Qed.

Lemma forallb_bytes bs : bytes_ok bs <-> forallb (fun b => (0 <=? b) && (b <? 256)) bs = true.
Proof.
  unfold bytes_ok, is_byte. rewrite forallb_forall, Forall_forall.
  split; intros H x Hx; specialize (H x Hx); lia.
Qed.

(** The layout part of [RiffGrammar.wf], as a function of the chunk list. *)
Definition g_layout (gcs : list G.gchunk) : bool :=
  match gcs with
  | (t, p) :: rest =>
    if G.bytes_eqb t G.T_VP8X then G.ext_ok p rest
    else if G.bytes_eqb t G.T_VP8 then
      match rest, G.vp8_header p with [], Some _ => true | _, _ => false end
    else if G.bytes_eqb t G.T_VP8L then
      match rest, G.vp8l_header p with [], Some _ => true | _, _ => false end
    else false
  | _ => false
  end.

Lemma g_wf_unfold r0 r1 r2 r3 s0 s1 s2 s3 w0 w1 w2 w3 body :
  G.wf (r0 :: r1 :: r2 :: r3 :: s0 :: s1 :: s2 :: s3 :: w0 :: w1 :: w2 :: w3 :: body) =
  G.bytes_eqb [r0; r1; r2; r3] G.T_RIFF && G.bytes_eqb [w0; w1; w2; w3] G.T_WEBP &&
  (rd32 [s0; s1; s2; s3] =? 4 + G.glen body) &&
  forallb (fun b => (0 <=? b) && (b <? 256))
          (r0 :: r1 :: r2 :: r3 :: s0 :: s1 :: s2 :: s3 :: w0 :: w1 :: w2 :: w3 :: body) &&
  match G.chunks (length body) body with Some gcs => g_layout gcs | None => false end.
Proof.
  unfold G.wf, g_layout. destruct (G.chunks (length body) body) as [[|[t p] rest]|]; reflexivity.
Qed.

Lemma optl_conv id o : map conv (optl id o) = match o with Some d => [(le32 id, d)] | None => [] end.
Proof. destruct o; reflexivity. Qed.

(** [tag_cmp]: compare two tag constants; [gsimp]: run the grammar on a chunk list with constant tags. *)
Ltac tag_cmp :=
  repeat match goal with
         | |- context [G.bytes_eqb ?a ?b] =>
           is_const a; is_const b;
           let v := eval vm_compute in (G.bytes_eqb a b) in change (G.bytes_eqb a b) with v
         end.
Ltac gsimp :=
  repeat (progress (cbn [app G.take_opt G.image_data is_some orb andb Bool.eqb negb]; cbv beta iota; tag_cmp)).

(** still layout (ParserSpec) => layout (RiffGrammar) *)
Lemma layout_bridge cs :
  Forall (fun c => bytes_ok (snd c)) cs -> still_layout_ok cs = true -> g_layout (map conv cs) = true.
Proof.
  intros Hby H.
  destruct tag_consts as (_ & _ & TV8 & TV8L & TX & TA & _ & _ & TI & TE & TM).
  destruct (still_layout_inv _ H) as
    [(id & bs & -> & Hdims)|
     (flags & w0 & w1 & w2 & h0 & h1 & h2 & icc & alph & id & bs & exif & xmp & w & h & a &
      -> & Hd & Hl & F5 & F3 & F2 & F4 & Halph & Hw & Hh)].
  - destruct (image_dims id bs) as [[[w h] a]|] eqn:Ed; [|discriminate].
    assert (Hbs : bytes_ok bs) by (inversion Hby; assumption).
    cbn [map conv fst snd g_layout].
    destruct (image_dims_bridge _ _ _ _ _ Hbs Ed) as [(-> & Hh)|(-> & _ & Hh)].
    + rewrite TV8L. change (G.bytes_eqb G.T_VP8L G.T_VP8X) with false.
      change (G.bytes_eqb G.T_VP8L G.T_VP8) with false. change (G.bytes_eqb G.T_VP8L G.T_VP8L) with true.
      cbv iota. rewrite Hh. reflexivity.
    + rewrite TV8. change (G.bytes_eqb G.T_VP8 G.T_VP8X) with false.
      change (G.bytes_eqb G.T_VP8 G.T_VP8) with true. cbv iota. rewrite Hh. reflexivity.
  - (* extended *)
    assert (Hbp : bytes_ok [flags; 0; 0; 0; w0; w1; w2; h0; h1; h2]) by (inversion Hby; assumption).
    assert (Hbs : bytes_ok bs).
    { rewrite Forall_forall in Hby. apply (Hby (id, bs)). right.
      apply in_or_app; right. apply in_or_app; right. left. reflexivity. }
    assert (Bf : 0 <= flags < 256) by (apply bytes_ok_cons in Hbp; apply Hbp).
    destruct (flag_bits_bridge flags Bf) as (G5 & G4 & G3 & G2 & G1 & G0 & _).
    rewrite Hl in G0. change (0 =? 0) with true in G0. symmetry in G0. rewrite !andb_true_iff in G0.
    destruct G0 as ((Gm & G64) & Gan).
    destruct (image_dims_range _ _ _ _ _ Hd) as [Hwr Hhr].
    cbn [map conv fst snd g_layout]. rewrite TX, bytes_eqb_refl.
    rewrite !map_app. cbn [map]. rewrite !map_app, !optl_conv. unfold conv. cbn [fst snd].
    unfold G.ext_ok. rewrite Gm, G64. change (0 =? 0) with true. cbn [andb].
    rewrite Hw, Hh. destruct (Z.leb_spec (w * h) 4294967295); [|nia]. cbn [andb].
    rewrite <- G5, <- G4, <- G3, <- G2, F5, F4, F3, F2.
    assert (Gan' : negb ((flags / 2) mod 2 =? 0) = false) by (rewrite Gan; reflexivity).
    rewrite Gan'.
    destruct (image_dims_bridge _ _ _ _ _ Hbs Hd) as [(-> & Hhd)|(-> & -> & Hhd)].
    + (* VP8L: no ALPH *)
      destruct alph as [al|]; [specialize (Halph eq_refl); discriminate|].
      rewrite TI, TE, TM, TV8L.
      (* each optional chunk present or absent: the chunk list is then explicit and both sides compute *)
      destruct icc, exif, xmp; gsimp; rewrite Hhd; gsimp; rewrite !Z.eqb_refl; gsimp; destruct a; reflexivity.
    + rewrite TI, TE, TM, TV8, TA. rewrite orb_false_r.
      destruct icc, alph, exif, xmp; gsimp; rewrite Hhd; gsimp; rewrite !Z.eqb_refl; gsimp; reflexivity.
Qed.

Theorem riff_wf_grammar file : bytes_ok file -> riff_wf file = true -> G.wf file = true.
Proof.
  intros Hb Hwf. unfold riff_wf in Hwf. apply andb_true_iff in Hwf. destruct Hwf as [_ Hwf].
  destruct (riff_chunks file) as [cs|] eqn:Erc; [|discriminate].
  destruct (riff_chunks_inv _ _ Hb Erc) as (body & Hfile & Hwalk & Hbody & Hrs).
  pose proof (proj1 (forallb_bytes file) Hb) as Hfa.
  pose proof (len_nonneg body) as Hl0.
  destruct tag_consts as (TR & TW & _).
  subst file. clear Erc Hb TR TW.
  change (le32 FourCCRIFF) with [82; 73; 70; 70] in Hfa |- *.
  change (le32 FourCCWEBP) with [87; 69; 66; 80] in Hfa |- *.
  unfold le32 in Hfa |- *. cbn [app] in Hfa |- *.
  rewrite g_wf_unfold. rewrite Hfa.
  change (G.bytes_eqb [82; 73; 70; 70] [82; 73; 70; 70]) with true.
  change (G.bytes_eqb [87; 69; 66; 80] [87; 69; 66; 80]) with true.
  rewrite rd32_le32' by lia. change (G.glen body) with (len body). rewrite Z.eqb_refl. cbn [andb].
  rewrite (chunks_of_walk _ _ _ Hbody Hwalk eq_refl).
  apply layout_bridge; [|exact Hwf].
  eapply Forall_impl; [|exact (proj1 (walk_facts _ _ _ Hbody Hwalk))]. intros c Hc. apply Hc.
Qed.

Lemma bytes_ok_le32 v : bytes_ok (le32 v). Proof. apply le32_bytes. Qed.

Lemma bytes_ok_pad n : bytes_ok (pad n).
Proof. unfold pad. destruct (n mod 2 =? 0); [constructor|]. constructor; [unfold is_byte; lia|constructor]. Qed.

Lemma bytes_ok_chunk id d : bytes_ok d -> bytes_ok (chunk id d).
Proof.
  intros H. unfold chunk. rewrite !bytes_ok_app. repeat split; try apply le32_bytes; [exact H|apply bytes_ok_pad].
Qed.

Lemma bytes_ok_opt_chunk id d : bytes_ok d -> bytes_ok (opt_chunk id d).
Proof. intros H. unfold opt_chunk. destruct (len d >? 0); [apply bytes_ok_chunk; exact H|constructor]. Qed.

Lemma write_riff_bytes_ok fourcc bs alpha w h icc exif xmp file :
  bytes_ok bs -> bytes_ok alpha -> bytes_ok icc -> bytes_ok exif -> bytes_ok xmp ->
  len bs < 4294967296 - 21 ->
  write_riff fourcc bs alpha w h icc exif xmp = Ok file -> bytes_ok file.
Proof.
  intros Hbs Hal Hic Hex Hxm Hl. unfold write_riff.
  destruct ((len alpha >? 0) || (len icc >? 0) || (len exif >? 0) || (len xmp >? 0)).
  - unfold write_riff_extended. destruct (_ >? _); [discriminate|]. intros Hf.
    assert (E : file = le32 FourCCRIFF ++ le32 (riff_size_extended bs alpha icc exif xmp) ++ le32 FourCCWEBP ++
                vp8x_chunk (vp8x_flags fourcc bs alpha icc exif xmp) w h ++ opt_chunk FourCCICCP icc ++
                opt_chunk FourCCALPH alpha ++ chunk fourcc bs ++ opt_chunk FourCCEXIF exif ++ opt_chunk FourCCXMP xmp)
      by congruence.
    rewrite E. unfold vp8x_chunk. rewrite !bytes_ok_app.
    repeat split; try apply le32_bytes; try apply le24_bytes;
      try (apply bytes_ok_opt_chunk; assumption); apply bytes_ok_chunk; assumption.
  - rewrite write_simple_eq by exact Hl. intros Hf.
    assert (E : file = simple_file fourcc bs) by congruence. rewrite E. unfold simple_file.
    rewrite !bytes_ok_app. repeat split; try apply le32_bytes. apply bytes_ok_chunk; assumption.
Qed.

(** What [write_riff] emits, for inputs within its size guard, is accepted by
    [RiffGrammar.wf]. *)
Theorem writer_output_wf : forall fourcc bs alpha w h icc exif xmp a,
  writer_inputs_ok fourcc bs alpha w h icc exif xmp a ->
  bytes_ok bs -> bytes_ok alpha -> bytes_ok icc -> bytes_ok exif -> bytes_ok xmp ->
  exists file, write_riff fourcc bs alpha w h icc exif xmp = Ok file /\ G.wf file = true.
Proof.
  intros fourcc bs alpha w h icc exif xmp a Hin Hbs Hal Hic Hex Hxm.
  destruct (metadata_roundtrip _ _ _ _ _ _ _ _ _ Hin) as (file & Hw & _ & _ & _ & _ & _ & Hwf & _).
  exists file. split; [exact Hw|]. apply riff_wf_grammar; [|exact Hwf].
  apply (write_riff_bytes_ok _ _ _ _ _ _ _ _ _ Hbs Hal Hic Hex Hxm (sizes_ok_simple _ _ _ _ _ (wi_sizes _ _ _ _ _ _ _ _ _ Hin)) Hw).
Qed.

(** ** RiffGrammar.wf (still) => ParserSpec.riff_wf *)
Definition ids_ok (cs : list (Z * list Z)) : Prop :=
  Forall (fun c => 0 <= fst c < 4294967296 /\ bytes_ok (snd c)) cs.

Lemma walk_ids_ok cs fuel buf : bytes_ok buf -> walk fuel buf = Some cs -> ids_ok cs.
Proof.
  intros Hb H. eapply Forall_impl; [|exact (proj1 (walk_facts _ _ _ Hb H))]. intros c (Hc1 & Hc2 & _). auto.
Qed.

Lemma g_take_opt_conv c cs :
  0 <= c < 4294967296 -> ids_ok cs ->
  G.take_opt (le32 c) (map conv cs) =
  (is_some (fst (take_opt c cs)), map conv (snd (take_opt c cs))).
Proof.
  intros Hc Hids. destruct cs as [|[i d] cs']; [reflexivity|].
  inversion Hids as [|? ? [Hi _] _]; subst. cbn [map conv fst snd G.take_opt take_opt] in *.
  rewrite tag_eqb by assumption. destruct (i =? c); reflexivity.
Qed.

Lemma g_image_data_conv cs1 w h alpha gcs3 :
  ids_ok cs1 -> G.image_data (map conv cs1) = Some (w, h, alpha, gcs3) ->
  exists alph id bs cs3 a,
    take_opt FourCCALPH cs1 = (alph, (id, bs) :: cs3) /\ gcs3 = map conv cs3 /\
    image_dims id bs = Some (w, h, a) /\ alpha = (is_some alph || a) /\
    (is_some alph = true -> id = FourCCVP8).
Proof.
  intros Hids H. destruct tag_consts as (_ & _ & TV8 & TV8L & _ & TA & _).
  destruct fourcc_ranges as (_ & _ & RA & _ & _ & RV8 & RV8L & _).
  destruct cs1 as [|[t p] rest]; [discriminate H|].
  inversion Hids as [|? ? [Ht Hp] Hrest]; subst. cbn [fst snd] in Ht, Hp. cbn [map conv fst snd G.image_data] in H.
  rewrite <- TV8L, <- TV8, <- TA in H. rewrite !tag_eqb in H by assumption.
  destruct (Z.eqb_spec t FourCCVP8L) as [->|N1].
  { destruct (G.vp8l_header p) as [[[w' h'] a']|] eqn:Eh; [|discriminate H]. injection H as -> -> -> <-.
    exists None, FourCCVP8L, p, rest, alpha. cbn [take_opt].
    change (FourCCVP8L =? FourCCALPH) with false.
    split; [reflexivity|]. split; [reflexivity|]. split.
    - apply image_dims_vp8l, vp8l_header_bridge; assumption.
    - split; [reflexivity|]. cbn. discriminate. }
  destruct (Z.eqb_spec t FourCCVP8) as [->|N2].
  { destruct (G.vp8_header p) as [[w' h']|] eqn:Eh; [|discriminate H]. injection H as -> -> <- <-.
    exists None, FourCCVP8, p, rest, false. cbn [take_opt].
    change (FourCCVP8 =? FourCCALPH) with false.
    split; [reflexivity|]. split; [reflexivity|]. split.
    - apply image_dims_vp8, vp8_header_bridge; assumption.
    - split; [reflexivity|]. cbn. discriminate. }
  destruct (Z.eqb_spec t FourCCALPH) as [->|N3]; [|discriminate H].
  destruct rest as [|[t2 p2] rest2]; [discriminate H|].
  inversion Hrest as [|? ? [Ht2 Hp2] _]; subst. cbn [fst snd] in Ht2, Hp2. cbn [map conv fst snd] in H.
  rewrite tag_eqb in H by assumption.
  destruct (Z.eqb_spec t2 FourCCVP8) as [->|]; [|discriminate H].
  destruct (G.vp8_header p2) as [[w' h']|] eqn:Eh; [|discriminate H]. injection H as -> -> <- <-.
  exists (Some p), FourCCVP8, p2, rest2, false. cbn [take_opt]. rewrite Z.eqb_refl.
  split; [reflexivity|]. split; [reflexivity|]. split.
  - apply image_dims_vp8, vp8_header_bridge; assumption.
  - split; reflexivity.
Qed.

Lemma ids_ok_take_opt c cs : ids_ok cs -> ids_ok (snd (take_opt c cs)).
Proof.
  intros H. destruct cs as [|[i d] cs']; [exact H|]. cbn [take_opt].
  destruct (i =? c); cbn [snd]; [inversion H; assumption|exact H].
Qed.

Lemma map_conv_nil cs : map conv cs = [] -> cs = [].
Proof. destruct cs; [reflexivity|discriminate]. Qed.

Definition cs_is_anim (cs : list (Z * list Z)) : bool :=
  match cs with
  | (x, flags :: _) :: _ => (x =? FourCCVP8X) && negb ((flags / 2) mod 2 =? 0)
  | _ => false
  end.

Lemma g_ext_ok_payload p gcs :
  G.ext_ok p gcs = true ->
  exists flags w0 w1 w2 h0 h1 h2,
    p = [flags; 0; 0; 0; w0; w1; w2; h0; h1; h2] /\ flags mod 2 = 0 /\ flags / 64 = 0.
Proof.
  intros H.
  destruct p as [|flags [|r1 [|r2 [|r3 [|w0 [|w1 [|w2 [|h0 [|h1 [|h2 [|? ?]]]]]]]]]]]; try discriminate H.
  unfold G.ext_ok in H. rewrite !andb_true_iff, !Z.eqb_eq in H.
  destruct H as ((((((Hm & H64) & -> ) & ->) & ->) & _) & _). exists flags, w0, w1, w2, h0, h1, h2. auto.
Qed.

Lemma layout_bridge_rev cs :
  ids_ok cs -> g_layout (map conv cs) = true -> cs_is_anim cs = false -> still_layout_ok cs = true.
Proof.
  intros Hids H Hna.
  destruct tag_consts as (_ & _ & TV8 & TV8L & TX & _ & _ & _ & TI & TE & TM).
  destruct fourcc_ranges as (RX & RI & _ & RE & RM & RV8 & RV8L & _).
  destruct cs as [|[x p] rest]; [discriminate H|].
  inversion Hids as [|? ? [Hx Hp] Hrest]; subst. cbn [fst snd] in Hx, Hp.
  cbn [map conv fst snd g_layout] in H.
  rewrite <- TX, <- TV8, <- TV8L in H. rewrite !tag_eqb in H by assumption.
  destruct (Z.eqb_spec x FourCCVP8X) as [->|NX].
  2:{ (* simple layouts *)
    destruct (Z.eqb_spec x FourCCVP8) as [->|N8].
    - destruct (map conv rest) eqn:Er; [|discriminate H]. apply map_conv_nil in Er. subst rest.
      destruct (G.vp8_header p) as [[w h]|] eqn:Eh; [|discriminate H].
      rewrite still_layout_single, (image_dims_vp8 p w h) by (apply vp8_header_bridge; assumption). reflexivity.
    - destruct (Z.eqb_spec x FourCCVP8L) as [->|]; [|discriminate H].
      destruct (map conv rest) eqn:Er; [|discriminate H]. apply map_conv_nil in Er. subst rest.
      destruct (G.vp8l_header p) as [[[w h] a]|] eqn:Eh; [|discriminate H].
      rewrite still_layout_single, (image_dims_vp8l p w h a) by (apply vp8l_header_bridge; assumption). reflexivity. }
  (* extended *)
  destruct (g_ext_ok_payload _ _ H) as (flags & w0 & w1 & w2 & h0 & h1 & h2 & -> & Hm & H64).
  unfold G.ext_ok in H. cbv zeta in H.
  cbn [cs_is_anim] in Hna. rewrite Z.eqb_refl in Hna. cbn [andb] in Hna.
  rewrite <- TI, <- TE, <- TM in H.
  rewrite (g_take_opt_conv FourCCICCP rest RI Hrest) in H.
  destruct (take_opt FourCCICCP rest) as [icc rest1] eqn:E1. cbn [fst snd] in H.
  pose proof (ids_ok_take_opt FourCCICCP rest Hrest) as Hr1. rewrite E1 in Hr1. cbn [snd] in Hr1.
  rewrite Hna in H.
  rewrite !andb_true_iff in H.
  destruct H as (_ & (Hicc & Hstill)).
  destruct (G.image_data (map conv rest1)) as [[[[w h] alpha] gcs3]|] eqn:Eim; [|discriminate Hstill].
  destruct (g_image_data_conv _ _ _ _ _ Hr1 Eim) as (alph & id & bs & cs3 & a & E2 & -> & Hd & -> & Halph).
  assert (Hr3' : ids_ok cs3).
  { pose proof (ids_ok_take_opt FourCCALPH rest1 Hr1) as Hq. rewrite E2 in Hq. cbn [snd] in Hq.
    inversion Hq; assumption. }
  rewrite (g_take_opt_conv FourCCEXIF cs3 RE Hr3') in Hstill.
  destruct (take_opt FourCCEXIF cs3) as [exif cs4] eqn:E3. cbn [fst snd] in Hstill.
  pose proof (ids_ok_take_opt FourCCEXIF cs3 Hr3') as Hr4. rewrite E3 in Hr4. cbn [snd] in Hr4.
  rewrite (g_take_opt_conv FourCCXMP cs4 RM Hr4) in Hstill.
  destruct (take_opt FourCCXMP cs4) as [xmp cs5] eqn:E4. cbn [fst snd] in Hstill.
  rewrite !andb_true_iff in Hstill.
  destruct Hstill as (((Hw & Hh) & Halpha) & ((Hexif & Hxmp) & Hend)).
  destruct (map conv cs5) eqn:E5; [|discriminate Hend]. apply map_conv_nil in E5. subst cs5.
  apply Z.eqb_eq in Hw, Hh. apply eqb_prop in Hicc, Halpha, Hexif, Hxmp.
  assert (Bf : 0 <= flags < 256) by (apply bytes_ok_cons in Hp; apply Hp).
  destruct (flag_bits_bridge flags Bf) as (G5 & G4 & G3 & G2 & G1 & G0 & _).
  apply negb_false_iff in Hna.
  rewrite Hm, H64 in G0. rewrite Hna in G0. cbn [Z.eqb andb] in G0.
  (* rest is not empty: it contains the image chunk *)
  destruct rest as [|c2 rest2].
  { cbn in E1. injection E1 as <- <-. cbn in E2. discriminate. }
  unfold still_layout_ok. rewrite E1, E2, E3, E4, Hd.
  rewrite Z.eqb_refl, G0, G5, G4, G3, G2. cbn [Z.eqb andb].
  rewrite <- Hicc, <- Halpha, <- Hexif, <- Hxmp. rewrite !eqb_reflx.
  rewrite Hw, Hh, !Z.eqb_refl. cbn [andb].
  destruct (is_some alph) eqn:Eal; cbn [negb orb]; [|reflexivity].
  rewrite (Halph eq_refl). reflexivity.
Qed.

Definition g_is_anim (bs : list Z) : bool :=
  match bs with
  | _ :: _ :: _ :: _ :: _ :: _ :: _ :: _ :: _ :: _ :: _ :: _ ::
    t0 :: t1 :: t2 :: t3 :: _ :: _ :: _ :: _ :: flags :: _ =>
    G.bytes_eqb [t0; t1; t2; t3] G.T_VP8X && negb ((flags / 2) mod 2 =? 0)
  | _ => false
  end.

(** The animation bit of a file whose first chunk is [chunk x p]: byte 20, which is
    the first payload byte if there is one. *)
Lemma g_is_anim_body a b c x p rest :
  0 <= x < 4294967296 ->
  g_is_anim (le32 a ++ le32 b ++ le32 c ++ chunk x p ++ rest) =
  match (p ++ pad (len p)) ++ rest with
  | flags :: _ => (x =? FourCCVP8X) && negb ((flags / 2) mod 2 =? 0)
  | [] => false
  end.
Proof.
  intros Hx. destruct fourcc_ranges as (RX & _).
  unfold chunk, le32. cbn [app]. destruct ((p ++ pad (len p)) ++ rest); cbn [g_is_anim]; [reflexivity|].
  change [x mod 256; (x / 256) mod 256; (x / 65536) mod 256; (x / 16777216) mod 256] with (le32 x).
  change G.T_VP8X with (le32 FourCCVP8X). rewrite tag_eqb by assumption. reflexivity.
Qed.

(** What [RiffGrammar.wf] says of a file, in the vocabulary of ParserSpec. *)
Lemma g_wf_inv file :
  G.wf file = true ->
  exists body cs,
    file = le32 FourCCRIFF ++ le32 (4 + len body) ++ le32 FourCCWEBP ++ body /\ bytes_ok file /\ bytes_ok body /\
    4 + len body < 4294967296 /\ walk (S (length body)) body = Some cs /\ ids_ok cs /\
    g_layout (map conv cs) = true.
Proof.
  intros Hg.
  destruct file as [|r0 [|r1 [|r2 [|r3 [|s0 [|s1 [|s2 [|s3 [|w0 [|w1 [|w2 [|w3 body]]]]]]]]]]]]; try discriminate Hg.
  rewrite g_wf_unfold in Hg. rewrite !andb_true_iff in Hg.
  destruct Hg as ((((HR & HW) & Hsz) & Hfa) & Hlay).
  apply bytes_eqb_eq in HR, HW. injection HR as -> -> -> ->. injection HW as -> -> -> ->.
  apply Z.eqb_eq in Hsz. change (G.glen body) with (len body) in Hsz.
  apply forallb_bytes in Hfa. pose proof Hfa as Hq. rewrite !bytes_ok_cons in Hq.
  destruct Hq as (_ & _ & _ & _ & B0 & B1 & B2 & B3 & _ & _ & _ & _ & Hbody).
  destruct (G.chunks (length body) body) as [gcs|] eqn:Ech; [|discriminate].
  destruct (walk_of_chunks _ _ _ Hbody Ech) as (cs & -> & Hwalk).
  pose proof (rd32_bound s0 s1 s2 s3 [] B0 B1 B2 B3) as Hr.
  exists body, cs. rewrite <- Hsz, (le32_rd32 s0 s1 s2 s3 B0 B1 B2 B3).
  repeat (split; [reflexivity || assumption || lia|]). split; [exact (walk_ids_ok _ _ _ Hbody Hwalk)|exact Hlay].
Qed.

(** A [RiffGrammar.wf] file whose animation flag is clear is a well-formed still for ParserSpec. *)
Theorem grammar_still_riff_wf file :
  G.wf file = true -> g_is_anim file = false -> riff_wf file = true /\ bytes_ok file.
Proof.
  intros Hg Hna.
  destruct (g_wf_inv file Hg) as (body & cs & Hfile & Hb & Hbody & Hrs & Hwalk & Hids & Hlay).
  split; [|exact Hb].
  assert (Hnac : cs_is_anim cs = false).
  { destruct cs as [|[x [|flags ptl]] rest]; try reflexivity.
    destruct (walk_cons_inv _ _ _ _ _ Hbody Hwalk) as (rest' & fu & Eb & _ & _ & _ & Hx & _).
    rewrite Hfile, Eb, g_is_anim_body in Hna by exact Hx. exact Hna. }
  unfold riff_wf. rewrite Hfile at 2. rewrite riff_chunks_hdr, Hwalk by exact Hrs.
  rewrite (layout_bridge_rev cs Hids Hlay Hnac), andb_true_r.
  pose proof (proj1 (proj2 (proj2 (walk_facts _ _ _ Hbody Hwalk)))). rewrite Hfile, !len_app, !len_le32. apply Z.eqb_eq. lia.
Qed.
