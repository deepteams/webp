(** C15 — the statements about [write_riff] (Encode's container writer, both
    layouts) assembled from MetadataProofs / ParserProofs, and the output
    selection of AnimEncoder.Close. *)
From Coq Require Import List ZArith Lia Bool.
From Coq Require Import ZifyBool ZifyNat.
From Webp Require Import Base.Res Base.Bytes Riff.ParserModel Riff.ParserLemmas Riff.ParserSpec
     Riff.WriterModel Riff.WriterProofs Riff.FeaturesModel Riff.MetadataProofs Riff.ParserProofs.
Import ListNotations.
Open Scope Z_scope.

(** 2^32 - 21: the payloads for which writeRIFFSimple's uint32 sizes (20 header bytes,
    payload, padding byte) do not wrap *)
Lemma riff_chunks_simple fourcc bs :
  image_fourcc fourcc -> len bs < 4294967296 - 21 ->
  riff_chunks (simple_file fourcc bs) = Some [(fourcc, bs)].
Proof.
  intros Hf Hl. pose proof (len_nonneg bs) as H0. unfold simple_file. apply riff_chunks_form.
  - rewrite len_chunk. unfold padded_chunk_size, ChunkHeaderSize. lia.
  - rewrite <- (app_nil_r (chunk fourcc bs)) at 2.
    apply walk_chunk_some; [exact (image_fourcc_range _ Hf)|lia|]. destruct (length (chunk fourcc bs)); reflexivity.
Qed.

Lemma still_layout_single id bs : still_layout_ok [(id, bs)] = is_some (image_dims id bs).
Proof.
  unfold still_layout_ok.
  (* the layout check looks at the first payload's length up to 10, the VP8X payload size *)
  do 11 (try (destruct bs as [|? bs]; [reflexivity|])). reflexivity.
Qed.

Lemma simple_file_wf fourcc bs w h a :
  image_fourcc fourcc -> len bs < 4294967296 - 21 -> header_declares fourcc bs w h a ->
  riff_wf (simple_file fourcc bs) = true.
Proof.
  intros Hf Hl Hd. unfold riff_wf. rewrite (riff_chunks_simple _ _ Hf Hl).
  rewrite still_layout_single. unfold header_declares in Hd. rewrite Hd. cbn [is_some].
  rewrite andb_true_r. unfold simple_file. rewrite !len_app, !len_le32, len_chunk.
  unfold padded_chunk_size, ChunkHeaderSize. pose proof (len_nonneg bs).
  destruct (Z.eqb_spec ((4 + (4 + (4 + (8 + len bs + len bs mod 2)))) mod 2) 0); [reflexivity|lia].
Qed.

(** What Encode guarantees when it calls writeRIFF. *)
Record writer_inputs_ok (fourcc : Z) (bs alpha : list Z) (w h : Z) (icc exif xmp : list Z) (a : bool) : Prop := {
  wi_fourcc : image_fourcc fourcc;
  wi_header : header_declares fourcc bs w h a;          (* the bitstream is for a w x h picture *)
  wi_alph : len alpha > 0 -> fourcc = FourCCVP8;        (* ALPH only beside a lossy image *)
  wi_sizes : sizes_ok bs alpha icc exif xmp               (* the writer's own size guard *)
}.

Definition is_extended (alpha icc exif xmp : list Z) : bool :=
  (len alpha >? 0) || (len icc >? 0) || (len exif >? 0) || (len xmp >? 0).

Definition metadata_roundtrip_statement : Prop :=
  forall fourcc bs alpha w h icc exif xmp a,
    writer_inputs_ok fourcc bs alpha w h icc exif xmp a ->
    exists file,
      write_riff fourcc bs alpha w h icc exif xmp = Ok file /\
      (* read back by chunk id, byte for byte; an empty blob is absent *)
      spec_get_chunk file FourCCICCP = opt_blob icc /\
      spec_get_chunk file FourCCEXIF = opt_blob exif /\
      spec_get_chunk file FourCCXMP = opt_blob xmp /\
      spec_get_chunk file FourCCALPH = opt_blob alpha /\
      spec_get_chunk file fourcc = Some bs /\
      (* RIFF well-formedness: sizes, padding, order, flags <-> chunks, canvas = image *)
      riff_wf file = true /\ len file mod 2 = 0 /\
      (* the parser model (either variant) returns the picture parts and announces exactly the blobs *)
      (len icc <= MaxMetadataSize -> forall fx, exists r,
         parse_ex fx file = Ok (r, KStill) /\
         pFrames r = [expected_frame fourcc bs alpha w h a] /\
         fWidth (pFeat r) = w /\ fHeight (pFeat r) = h /\
         fHasAlpha (pFeat r) = ((len alpha >? 0) || a) /\
         fHasICCP (pFeat r) = (len icc >? 0) /\ fHasEXIF (pFeat r) = (len exif >? 0) /\
         fHasXMP (pFeat r) = (len xmp >? 0) /\
         pChunks r = expected_chunks icc /\
         fFormat (pFeat r) = (if is_extended alpha icc exif xmp then FormatVP8X
                              else if fourcc =? FourCCVP8L then FormatVP8L else FormatVP8)).

Lemma not_extended_empty alpha icc exif xmp :
  is_extended alpha icc exif xmp = false ->
  (len alpha >? 0) = false /\ (len icc >? 0) = false /\ (len exif >? 0) = false /\ (len xmp >? 0) = false.
Proof.
  unfold is_extended. destruct (len alpha >? 0), (len icc >? 0), (len exif >? 0), (len xmp >? 0);
    cbn; intros; try discriminate; auto.
Qed.

Lemma sizes_ok_simple bs alpha icc exif xmp :
  sizes_ok bs alpha icc exif xmp -> len bs < 4294967296 - 21.
Proof.
  unfold sizes_ok, riff_size_extended, padded_chunk_size, ChunkHeaderSize, VP8XChunkSize.
  pose proof (opt_size_bounds icc). pose proof (opt_size_bounds alpha).
  pose proof (opt_size_bounds exif). pose proof (opt_size_bounds xmp). pose proof (len_nonneg bs). lia.
Qed.

Theorem metadata_roundtrip : metadata_roundtrip_statement.
Proof.
  intros fourcc bs alpha w h icc exif xmp a [Hf Hd Halph Hs].
  unfold write_riff. fold (is_extended alpha icc exif xmp).
  destruct (is_extended alpha icc exif xmp) eqn:Eext.
  - destruct (proj1 (proj1 (riff_size_guard_complete fourcc bs alpha w h icc exif xmp)) Hs) as [file Hw].
    exists file. split; [exact Hw|].
    destruct (metadata_roundtrip_extended _ _ _ _ _ _ _ _ _ Hf Hs Hw) as (H1 & H2 & H3 & H4 & H5).
    destruct (header_declares_range _ _ _ _ _ Hf Hd) as [Hwr Hhr].
    repeat (split; [assumption|]).
    split; [apply (written_file_wf _ _ _ _ _ _ _ _ a _ Hf Hs Hd); (lia || assumption)|].
    split; [apply (write_extended_length _ _ _ _ _ _ _ _ _ Hw)|].
    intros Hicc fx. eexists. split; [apply (parse_written_extended fx _ _ _ _ _ _ _ _ a _ Hf Hs Hd Halph Hicc Hw)|].
    cbn [pFrames pFeat pChunks expected_features fWidth fHeight fHasAlpha fHasICCP fHasEXIF fHasXMP fFormat].
    repeat split; reflexivity.
  - destruct (not_extended_empty _ _ _ _ Eext) as (Ea & Ei & Ee & Ex).
    pose proof (sizes_ok_simple _ _ _ _ _ Hs) as Hl.
    exists (simple_file fourcc bs). split; [apply write_simple_eq; exact Hl|].
    unfold spec_get_chunk. rewrite (riff_chunks_simple _ _ Hf Hl). unfold opt_blob. rewrite Ea, Ei, Ee, Ex.
    cbn [find_chunk]. rewrite Z.eqb_refl.
    assert (Hne : (fourcc =? FourCCICCP) = false /\ (fourcc =? FourCCEXIF) = false /\
                  (fourcc =? FourCCXMP) = false /\ (fourcc =? FourCCALPH) = false)
      by (destruct Hf as [->| ->]; repeat split; reflexivity).
    destruct Hne as (-> & -> & -> & ->).
    repeat (split; [reflexivity|]).
    split; [apply (simple_file_wf _ _ w h a Hf Hl Hd)|].
    split.
    { pose proof (simple_file_wf _ _ w h a Hf Hl Hd) as Hwf. unfold riff_wf in Hwf.
      destruct (Z.eqb_spec (len (simple_file fourcc bs) mod 2) 0); [assumption|discriminate]. }
    intros _ fx. eexists. split; [apply (parse_written_simple fx _ _ w h a Hf Hl Hd)|].
    cbn [pFrames pFeat pChunks simple_features fWidth fHeight fHasAlpha fHasICCP fHasEXIF fHasXMP fFormat].
    unfold expected_frame, expected_chunks, opt_blob. rewrite Ea, Ei.
    repeat split; reflexivity.
Qed.

(** Two encodings of the same picture parts that differ only in the metadata:
    the image and alpha chunks hold the same bytes, the parser hands the codecs
    the same frame, and therefore Decode returns the same image for every codec. *)
Definition metadata_irrelevant_statement : Prop :=
  forall fourcc bs alpha w h a icc1 exif1 xmp1 icc2 exif2 xmp2,
    writer_inputs_ok fourcc bs alpha w h icc1 exif1 xmp1 a ->
    writer_inputs_ok fourcc bs alpha w h icc2 exif2 xmp2 a ->
    len icc1 <= MaxMetadataSize -> len icc2 <= MaxMetadataSize ->
    exists f1 f2,
      write_riff fourcc bs alpha w h icc1 exif1 xmp1 = Ok f1 /\
      write_riff fourcc bs alpha w h icc2 exif2 xmp2 = Ok f2 /\
      spec_get_chunk f1 fourcc = spec_get_chunk f2 fourcc /\
      spec_get_chunk f1 FourCCALPH = spec_get_chunk f2 FourCCALPH /\
      (forall fx, exists r1 r2,
         parse_ex fx f1 = Ok (r1, KStill) /\ parse_ex fx f2 = Ok (r2, KStill) /\
         pFrames r1 = pFrames r2 /\
         fWidth (pFeat r1) = fWidth (pFeat r2) /\ fHeight (pFeat r1) = fHeight (pFeat r2) /\
         fHasAlpha (pFeat r1) = fHasAlpha (pFeat r2)) /\
      (forall (Pix : Type) (ld ll : list Z -> Res (Z * Z * Pix)) (ad : list Z -> Z -> Z -> Res Pix) fx,
         decode_bytes ld ll ad fx f1 = decode_bytes ld ll ad fx f2).

Theorem metadata_irrelevant : metadata_irrelevant_statement.
Proof.
  intros fourcc bs alpha w h a icc1 exif1 xmp1 icc2 exif2 xmp2 H1 H2 Hc1 Hc2.
  destruct (metadata_roundtrip _ _ _ _ _ _ _ _ _ H1) as (f1 & Hw1 & _ & _ & _ & Ha1 & Hi1 & _ & _ & Hp1).
  destruct (metadata_roundtrip _ _ _ _ _ _ _ _ _ H2) as (f2 & Hw2 & _ & _ & _ & Ha2 & Hi2 & _ & _ & Hp2).
  exists f1, f2. split; [exact Hw1|]. split; [exact Hw2|].
  split; [congruence|]. split; [congruence|]. split.
  - intros fx. destruct (Hp1 Hc1 fx) as (r1 & P1 & F1 & W1 & Hh1 & A1 & _).
    destruct (Hp2 Hc2 fx) as (r2 & P2 & F2 & W2 & Hh2 & A2 & _).
    exists r1, r2. repeat split; congruence.
  - intros Pix ld ll ad fx. unfold decode_bytes, parse.
    destruct (Hp1 Hc1 fx) as (r1 & P1 & F1 & _). destruct (Hp2 Hc2 fx) as (r2 & P2 & F2 & _).
    rewrite P1, P2. cbn [bind fst]. rewrite F1, F2. reflexivity.
Qed.

(** The hypotheses are satisfiable: a 1x1 VP8 header with a 3-byte ICC and a 1-byte XMP blob. *)
Example writer_inputs_satisfiable :
  writer_inputs_ok FourCCVP8 [0; 0; 0; 157; 1; 42; 1; 0; 1; 0] [] 1 1 [1; 2; 3] [] [86] false.
Proof.
  constructor.
  - left. reflexivity.
  - vm_compute. reflexivity.
  - intros H. reflexivity.
  - vm_compute. discriminate.
Qed.

(** Repaired code: when any metadata was set, the muxer's file (which carries it)
    is what gets written, whatever the single-frame candidate looks like. *)
Theorem anim_close_keeps_metadata : forall frameCount hasPrev animData simple,
  anim_close true frameCount hasPrev true animData simple = animData.
Proof.
  intros. unfold anim_close. cbn [andb negb]. rewrite andb_false_r. reflexivity.
Qed.

(** Without metadata the optimisation may replace the file, but only by the
    non-empty, strictly smaller still candidate. *)
Theorem anim_close_choice : forall fx frameCount hasPrev hasMeta animData simple out,
  anim_close fx frameCount hasPrev hasMeta animData simple = out ->
  out = animData \/ (simple = Some out /\ 0 < len out < len animData /\ frameCount = 1 /\ hasPrev = true).
Proof.
  intros fx fc hp hm ad simple out <-. unfold anim_close.
  destruct (Z.eqb_spec fc 1); cbn [andb]; [|auto].
  destruct hp; cbn [andb]; [|auto].
  destruct (negb (fx && hm)); [|auto].
  destruct simple as [s|]; [|auto].
  destruct (Z.gtb_spec (len s) 0); cbn [andb]; [|auto].
  destruct (Z.ltb_spec (len s) (len ad)); [|auto]. right. repeat split; auto; lia.
Qed.

(** Pinned code: with EXIF set on the encoder and one frame, the still candidate
    (which SimpleEncodeFunc builds without any metadata) replaces the muxer's
    file, and the EXIF blob is gone.  Witness: muxer-style file = VP8X + VP8L + EXIF
    (30-byte blob), still candidate = the 26-byte simple file of the same bitstream. *)
Definition wit_anim_bs : list Z := [47; 0; 0; 0; 0].
Definition wit_anim_exif : list Z := repeat 69 30.
Definition wit_anim_with_meta : list Z :=
  match write_riff FourCCVP8L wit_anim_bs [] 1 1 [] wit_anim_exif [] with Ok f => f | _ => [] end.
Definition wit_anim_simple : list Z :=
  match write_riff FourCCVP8L wit_anim_bs [] 1 1 [] [] [] with Ok f => f | _ => [] end.

Theorem anim_single_frame_drops_metadata :
  spec_get_chunk wit_anim_with_meta FourCCEXIF = Some wit_anim_exif /\
  let out := pinned_anim_close 1 true true wit_anim_with_meta (Some wit_anim_simple) in
  out = wit_anim_simple /\ spec_get_chunk out FourCCEXIF = None /\
  anim_close true 1 true true wit_anim_with_meta (Some wit_anim_simple) = wit_anim_with_meta.
Proof. vm_compute. repeat split; reflexivity. Qed.

(** Streaming fast path (no metadata) or buffered writeRIFF: the same function of
    the bitstream and the blobs as [write_riff] with no ALPH payload. *)
Theorem encode_lossless_container_eq bs w h icc exif xmp :
  len bs < 4294967296 - 21 ->
  encode_lossless_container bs w h icc exif xmp = write_riff FourCCVP8L bs [] w h icc exif xmp.
Proof.
  intros Hl. unfold encode_lossless_container.
  destruct ((len icc >? 0) || (len exif >? 0) || (len xmp >? 0)) eqn:E; [reflexivity|].
  unfold write_riff. change (len (@nil Z) >? 0) with false. cbn [orb]. rewrite E.
  apply streaming_eq_buffered. exact Hl.
Qed.

(** For a file written by [write_riff]: if the Decode glue attaches a separately
    decoded alpha plane to the picture (the only way a lossy picture can have a
    non-opaque pixel), then GetFeatures reports HasAlpha.  For VP8L the flag is the
    header's alpha bit, which is a property of the lossless encoder (evaluated by
    harness/c16 on encoder outputs). *)
Theorem alpha_flag_sound_lossy :
  forall (Pix : Type) (ld ll : list Z -> Res (Z * Z * Pix)) (ad : list Z -> Z -> Z -> Res Pix)
         fourcc bs alpha w h icc exif xmp a fx file img,
    writer_inputs_ok fourcc bs alpha w h icc exif xmp a -> len icc <= MaxMetadataSize ->
    write_riff fourcc bs alpha w h icc exif xmp = Ok file ->
    decode_bytes ld ll ad fx file = Ok img -> iAlpha img <> None ->
    exists g, get_features fx file = Ok g /\ gHasAlpha g = true.
Proof.
  intros Pix ld ll ad fourcc bs alpha w h icc exif xmp a fx file img Hin Hicc Hw Hd Hal.
  destruct (metadata_roundtrip _ _ _ _ _ _ _ _ _ Hin) as (file' & Hw' & _ & _ & _ & _ & _ & _ & _ & Hp).
  rewrite Hw in Hw'. injection Hw' as <-.
  destruct (Hp Hicc fx) as (r & P & F & _ & _ & A & _).
  unfold get_features, decode_bytes, parse in *. rewrite P in *. cbn [bind fst] in *.
  eexists. split; [reflexivity|]. unfold features_of. cbn [gHasAlpha]. rewrite A.
  rewrite F in Hd. unfold decode_frame, expected_frame in Hd.
  destruct (fourcc =? FourCCVP8L); cbn [frLossless frPayload frAlpha] in Hd.
  - destruct (ll bs) as [[[w' h'] px]|e|]; cbn [bind] in Hd; try discriminate.
    injection Hd as <-. cbn [iAlpha] in Hal. congruence.
  - unfold decode_lossy, opt_blob, alpha_len in Hd.
    destruct (ld bs) as [[[w' h'] px]|e|]; cbn [bind] in Hd; try discriminate.
    destruct (len alpha >? 0) eqn:E; [reflexivity|].
    change (0 >? 0) with false in Hd. injection Hd as <-. cbn [iAlpha] in Hal. congruence.
Qed.
