(** C05 over the demuxer model: the repaired [parse] never panics and never runs
    out of fuel, on any byte string; what it returns lies inside the input and
    respects the caps; [frame] / [get_chunk] are total for any index / id.  The
    pinned [parse] (fx = false) panics on a 16-byte witness. *)
From Coq Require Import List ZArith Lia Bool ZifyBool ZifyNat.
From Webp Require Import Base.Res Base.Bytes Riff.DemuxModel.
Import ListNotations.
Open Scope Z_scope.

(** [len] is [DemuxModel.len] here; [ParserLemmas] has the same two facts for the parser model's [len]. *)
Lemma len_nonneg {A} (l : list A) : 0 <= len l.
Proof. unfold len. lia. Qed.

Lemma len_app {A} (a b : list A) : len (a ++ b) = len a + len b.
Proof. unfold len. rewrite app_length. lia. Qed.

(** [s] occurs in [l] as a contiguous block *)
Definition infix (s l : list Z) : Prop := exists pre post, l = pre ++ s ++ post.

Lemma infix_refl l : infix l l.
Proof. exists [], []. rewrite app_nil_r. reflexivity. Qed.

Lemma infix_trans a b c : infix a b -> infix b c -> infix a c.
Proof.
  intros [p1 [q1 H1]] [p2 [q2 H2]]. subst. exists (p2 ++ p1), (q1 ++ q2).
  rewrite <- !app_assoc. reflexivity.
Qed.

Lemma infix_len s l : infix s l -> len s <= len l.
Proof. intros [p [q H]]. subst. rewrite !len_app. pose proof (len_nonneg p). pose proof (len_nonneg q). lia. Qed.

Lemma slice_no_err {A} (l : list A) lo hi e : slice l lo hi <> Err e.
Proof. unfold slice. destruct (_ && _); discriminate. Qed.

Lemma slice_infix l lo hi s : slice l lo hi = Ok s -> infix s l.
Proof.
  intros H. apply slice_inv in H. destruct H as (_ & _ & _ & ->).
  exists (firstn (Z.to_nat lo) l), (skipn (Z.to_nat (hi - lo)) (skipn (Z.to_nat lo) l)).
  rewrite firstn_skipn, firstn_skipn. reflexivity.
Qed.

Lemma u32at_spec d lo : bytes_ok d -> 0 <= lo -> lo + 4 <= len d ->
  exists v, u32at d lo = Ok v /\ 0 <= v < 4294967296.
Proof.
  intros Hd H1 H2. unfold u32at.
  destruct (slice_in_range d lo (lo + 4) (len d) eq_refl) as [s [Hs Hl]]; try lia. fold (len s) in Hl.
  rewrite Hs. cbn [bind]. pose proof (slice_Forall _ _ _ _ _ Hd Hs) as Hb.
  unfold len in Hl.
  destruct s as [|a [|b [|c [|e [|? ?]]]]]; cbn [length] in Hl; try lia.
  eexists. split; [reflexivity|]. rewrite !bytes_ok_cons in Hb. destruct Hb as (Ha & Hb & Hc & He & _).
  apply rd32_bound; assumption.
Qed.

Lemma read_chunk_header_spec d : bytes_ok d ->
  match read_chunk_header d with
  | Ok (id, sz) => 8 <= len d /\ 0 <= sz <= MaxChunkPayload /\ 0 <= id < 4294967296
  | Err e => e <> E_fuel
  | Panic => False
  end.
Proof.
  intros Hd. unfold read_chunk_header, ChunkHeaderSize.
  destruct (Z.ltb_spec (len d) 8) as [Hlt|Hge]; [discriminate|].
  destruct (u32at_spec d 0 Hd) as [id [Hid Rid]]; try lia.
  destruct (u32at_spec d 4 Hd) as [sz [Hsz Rsz]]; try lia.
  rewrite Hid, Hsz. cbn [bind].
  destruct (Z.gtb_spec sz MaxChunkPayload); [discriminate|]. lia.
Qed.

Lemma read_chunk_spec d : bytes_ok d ->
  match read_chunk d with
  | Ok (c, n) => 8 + c_size c <= n /\ n <= len d /\ 0 <= c_size c /\
                 bytes_ok (c_data c) /\ infix (c_data c) d /\ len (c_data c) = c_size c
  | Err e => e <> E_fuel
  | Panic => False
  end.
Proof.
  intros Hd. unfold read_chunk. pose proof (read_chunk_header_spec d Hd) as Hh.
  destruct (read_chunk_header d) as [[id sz]|e|]; cbn [bind]; [|exact Hh|exact Hh].
  destruct Hh as (H8 & Hsz & _). unfold ChunkHeaderSize.
  destruct (Z.gtb_spec (8 + sz) (len d)) as [Hgt|Hle]; [discriminate|].
  destruct (slice_in_range d 8 (8 + sz) (len d) eq_refl) as [s [Hs Hl]]; try lia. fold (len s) in Hl.
  rewrite Hs. cbn [bind c_size c_data].
  repeat split; try lia.
  - destruct (negb (sz mod 2 =? 0) && (8 + sz <? len d)); lia.
  - destruct (negb (sz mod 2 =? 0) && (8 + sz <? len d)) eqn:E; lia.
  - eapply slice_Forall; eauto.
  - eapply slice_infix; eauto.
Qed.

Definition oin (o : option (list Z)) (top : list Z) : Prop :=
  match o with Some x => infix x top /\ bytes_ok x | None => True end.

Lemma oin_trans o a b : oin o a -> infix a b -> oin o b.
Proof. destruct o; cbn; [|auto]. intros [H1 H2] H. split; [eapply infix_trans; eauto|auto]. Qed.

(** the buffer after [n] consumed bytes *)
Lemma rest_spec top p n : bytes_ok p -> infix p top -> 0 <= n <= len p ->
  exists rest, slice p n (len p) = Ok rest /\ bytes_ok rest /\ infix rest top /\ len rest = len p - n.
Proof.
  intros Hb Hin Hn. destruct (slice_in_range p n (len p) (len p) eq_refl) as [rest [Hr Hrl]]; try lia. fold (len rest) in Hrl.
  exists rest. split; [exact Hr|]. split; [exact (slice_Forall _ _ _ _ _ Hb Hr)|]. split; [|exact Hrl].
  exact (infix_trans _ _ _ (slice_infix _ _ _ _ Hr) Hin).
Qed.

(** The loops: out of fuel is excluded once the fuel exceeds the buffer length, because
    every iteration that goes on consumes at least the 8 header bytes. *)
Lemma anmf_loop_spec top fuel : forall fp img alpha,
  bytes_ok fp -> infix fp top -> oin img top -> oin alpha top ->
  match anmf_loop fuel fp img alpha with
  | Ok (i, a) => oin i top /\ oin a top
  | Err e => (length fp < fuel)%nat -> e <> E_fuel
  | Panic => False
  end.
Proof.
  induction fuel as [|f IH]; intros fp img alpha Hb Hin Hi Ha; cbn [anmf_loop].
  - intros H. lia.
  - unfold ChunkHeaderSize.
    destruct (Z.ltb_spec (len fp) 8); [auto|].
    pose proof (read_chunk_header_spec fp Hb) as Hh.
    destruct (read_chunk_header fp) as [[id sz]|e|]; [|auto|exact Hh].
    destruct Hh as (_ & Hsz & _).
    destruct (Z.gtb_spec (8 + sz) (len fp)); [auto|].
    destruct (slice_in_range fp 8 (8 + sz) (len fp) eq_refl) as [sub [Hs Hl]]; try lia. fold (len sub) in Hl.
    rewrite Hs. cbn [bind].
    assert (Hsub : oin (Some sub) top).
    { split; [eapply infix_trans; [eapply slice_infix; eauto|auto]|eapply slice_Forall; eauto]. }
    set (img' := if is_image_id id then Some sub else img).
    set (alpha' := if id =? FCC_ALPH then Some sub else alpha).
    assert (Hi' : oin img' top) by (unfold img'; destruct (is_image_id id); auto).
    assert (Ha' : oin alpha' top) by (unfold alpha'; destruct (id =? FCC_ALPH); auto).
    set (adv := if negb (sz mod 2 =? 0) && (8 + sz <? len fp) then 8 + sz + 1 else 8 + sz).
    assert (Hadv : 8 <= adv <= len fp).
    { unfold adv. destruct (negb (sz mod 2 =? 0) && (8 + sz <? len fp)) eqn:E; lia. }
    destruct (Z.leb_spec adv 0); [auto|].
    destruct (rest_spec top fp adv Hb Hin ltac:(lia)) as (rest & -> & Hrb & Hri & Hrl). cbn [bind].
    specialize (IH rest img' alpha' Hrb Hri Hi' Ha').
    destruct (anmf_loop f rest img' alpha') as [[i a]|e|]; auto.
    intros Hf. apply IH. unfold len in *. lia.
Qed.

Lemma frame_data_has_alpha_spec d : exists b, frame_data_has_alpha d = Ok b.
Proof.
  unfold frame_data_has_alpha. destruct (Z.ltb_spec (len d) 5); [eauto|].
  unfold len in *.
  destruct d as [|b0 [|b1 [|b2 [|b3 [|b4 tl]]]]]; cbn [length] in *; try lia.
  destruct (b0 =? VP8LMagicByte); eauto.
Qed.

Definition fi_in (top : list Z) (fi : frame_info) : Prop :=
  oin (fi_data fi) top /\ oin (fi_alpha fi) top /\ 0 <= fi_ox fi /\ 0 <= fi_oy fi.

(** invariant of the demuxer state: everything it holds lies inside the input *)
Definition dwf (top : list Z) (d : dstate) : Prop :=
  Forall (fi_in top) (d_frames d) /\ len (d_frames d) <= maxFrames /\
  oin (d_icc d) top /\ oin (d_exif d) top /\ oin (d_xmp d) top /\
  olen (d_icc d) <= maxMetadataSize /\ olen (d_exif d) <= maxMetadataSize /\ olen (d_xmp d) <= maxMetadataSize /\
  Forall (fun c => infix (c_data c) top) (d_chunks d).

Lemma infix_tail a l top : infix (a :: l) top -> infix l top.
Proof. intros [p [q H]]. exists (p ++ [a]), q. rewrite <- app_assoc. exact H. Qed.

Lemma parse_anmf_spec top d data :
  bytes_ok data -> infix data top -> dwf top d ->
  match parse_anmf d data with
  | Ok d' => dwf top d' /\ len (d_frames d') = len (d_frames d) + 1
  | Err e => e <> E_fuel
  | Panic => False
  end.
Proof.
  intros Hb Hin Hd. unfold parse_anmf, ANMFChunkSize.
  destruct (Z.ltb_spec (len data) 16) as [|H]; [discriminate|].
  unfold len in H.
  destruct data as [|x0 [|x1 [|x2 [|y0 [|y1 [|y2 [|w0 [|w1 [|w2 [|h0 [|h1 [|h2 [|t0 [|t1 [|t2 [|fl fp]]]]]]]]]]]]]]]];
    cbn [length] in H; try lia.
  rewrite !bytes_ok_cons in Hb. unfold is_byte in Hb.
  destruct Hb as (X0 & X1 & X2 & Y0 & Y1 & Y2 & _ & _ & _ & _ & _ & _ & _ & _ & _ & _ & Hb).
  repeat (apply infix_tail in Hin).
  match goal with |- context [if ?c then Err E_anmf else _] => destruct c eqn:Eoff end; [discriminate|].
  match goal with |- context [if ?c then Err E_anmf else _] => destruct c eqn:Earea end; [discriminate|].
  pose proof (anmf_loop_spec top (S (length fp)) fp None None Hb Hin I I) as Hl.
  destruct (anmf_loop (S (length fp)) fp None None) as [[img alpha]|e|]; cbn [bind].
  2:{ apply Hl. lia. }
  2:{ exact Hl. }
  destruct Hl as [Hi Ha].
  set (hasA := if 0 <? olen alpha then Ok true else
               match img with Some i => if 0 <? len i then frame_data_has_alpha i else Ok false | None => Ok false end).
  assert (HhA : exists b, hasA = Ok b).
  { unfold hasA. destruct (0 <? olen alpha); [eauto|].
    destruct img as [i|]; [|eauto]. destruct (0 <? len i); [|eauto]. apply frame_data_has_alpha_spec. }
  destruct HhA as [b Hb']. rewrite Hb'. cbn [bind].
  destruct (Z.geb_spec (len (d_frames d)) maxFrames); [discriminate|].
  destruct Hd as (Hf & Hn & Hm).
  split.
  - unfold dwf, set_frames; cbn [d_frames d_icc d_exif d_xmp d_chunks].
    split; [|split; [|exact Hm]].
    + apply Forall_app. split; [exact Hf|]. constructor; [|constructor].
      unfold fi_in; cbn [fi_data fi_alpha fi_ox fi_oy]. repeat split; auto; lia.
    + rewrite len_app. unfold len at 2. cbn [length]. lia.
  - unfold set_frames; cbn [d_frames]. rewrite len_app. unfold len at 2. cbn [length]. lia.
Qed.

Lemma single_loop_spec top fuel : forall p img alpha,
  bytes_ok p -> infix p top -> oin img top -> oin alpha top ->
  match single_loop fuel p img alpha with
  | Ok (i, a) => oin i top /\ oin a top
  | Err e => (length p < fuel)%nat -> e <> E_fuel
  | Panic => False
  end.
Proof.
  induction fuel as [|f IH]; intros p img alpha Hb Hin Hi Ha; cbn [single_loop].
  - intros H. lia.
  - unfold ChunkHeaderSize.
    destruct (Z.ltb_spec (len p) 8); [auto|].
    pose proof (read_chunk_spec p Hb) as Hc.
    destruct (read_chunk p) as [[c n]|e|]; [|auto|exact Hc].
    destruct Hc as (Hn1 & Hn2 & Hsz & Hcb & Hci & _).
    assert (Hc' : oin (Some (c_data c)) top) by (split; [eapply infix_trans; eauto|auto]).
    set (alpha' := if c_id c =? FCC_ALPH then Some (c_data c) else alpha).
    set (img' := if is_image_id (c_id c) then Some (c_data c) else img).
    assert (Hi' : oin img' top) by (unfold img'; destruct (is_image_id (c_id c)); auto).
    assert (Ha' : oin alpha' top) by (unfold alpha'; destruct (c_id c =? FCC_ALPH); auto).
    destruct img' as [i|] eqn:Ei; [auto|].
    destruct (rest_spec top p n Hb Hin ltac:(lia)) as (rest & -> & Hrb & Hri & Hrl). cbn [bind].
    specialize (IH rest None alpha' Hrb Hri I Ha').
    destruct (single_loop f rest None alpha') as [[i a]|e|]; auto.
    intros Hf. apply IH. unfold len in *. lia.
Qed.

Lemma parse_single_ext_spec top d payload :
  bytes_ok payload -> infix payload top -> dwf top d ->
  match parse_single_ext d payload with
  | Ok d' => dwf top d' /\ len (d_frames d') = 1
  | Err e => e <> E_fuel
  | Panic => False
  end.
Proof.
  intros Hb Hin Hd. unfold parse_single_ext.
  pose proof (single_loop_spec top (S (length payload)) payload None None Hb Hin I I) as Hl.
  destruct (single_loop (S (length payload)) payload None None) as [[img alpha]|e|]; cbn [bind].
  2:{ apply Hl. lia. }
  2:{ exact Hl. }
  destruct Hl as [Hi Ha]. destruct img as [i|]; [|discriminate].
  set (hasA := if 0 <? olen alpha then Ok true else frame_data_has_alpha i).
  assert (HhA : exists b, hasA = Ok b).
  { unfold hasA. destruct (0 <? olen alpha); [eauto|]. apply frame_data_has_alpha_spec. }
  destruct HhA as [b Hb']. rewrite Hb'. cbn [bind].
  destruct Hd as (Hf & Hn & Hm).
  split; [|reflexivity].
  unfold dwf, set_frames; cbn [d_frames d_icc d_exif d_xmp d_chunks].
  split; [|split; [|exact Hm]].
  - constructor; [|constructor]. unfold fi_in; cbn [fi_data fi_alpha fi_ox fi_oy].
    split; [exact Hi|]. split; [exact Ha|]. lia.
  - unfold len, maxFrames. cbn [length]. lia.
Qed.

Lemma parse_anim_spec top d data : dwf top d ->
  match parse_anim d data with
  | Ok d' => dwf top d' /\ d_frames d' = d_frames d
  | Err e => e <> E_fuel
  | Panic => False
  end.
Proof.
  intros Hd. unfold parse_anim, ANIMChunkSize.
  destruct (Z.ltb_spec (len data) 6) as [|H]; [discriminate|].
  unfold len in H.
  destruct data as [|b0 [|b1 [|b2 [|b3 [|b4 [|b5 tl]]]]]]; cbn [length] in H; try lia.
  split; [|reflexivity]. exact Hd.
Qed.

(** the switch of parseExtended: never panics, keeps the invariant *)
Lemma ext_dispatch_spec top d c rest :
  bytes_ok rest -> infix rest top -> bytes_ok (c_data c) -> infix (c_data c) top -> dwf top d ->
  match ext_dispatch d c rest with
  | Ok d' => dwf top d'
  | Err e => e <> E_fuel
  | Panic => False
  end.
Proof.
  intros Hb Hin Hcb Hci Hd. unfold ext_dispatch.
  destruct Hd as (Hf & Hn & Hi & He & Hx & Hil & Hel & Hxl & Hc).
  assert (Hd : dwf top d) by (unfold dwf; auto 10).
  destruct (c_id c =? FCC_ICCP).
  { destruct (Z.gtb_spec (len (c_data c)) maxMetadataSize); [discriminate|].
    unfold dwf, set_icc; cbn [d_frames d_icc d_exif d_xmp d_chunks oin olen]. auto 12. }
  destruct (c_id c =? FCC_EXIF).
  { destruct (Z.gtb_spec (len (c_data c)) maxMetadataSize); [discriminate|].
    unfold dwf, set_exif; cbn [d_frames d_icc d_exif d_xmp d_chunks oin olen]. auto 12. }
  destruct (c_id c =? FCC_XMP).
  { destruct (Z.gtb_spec (len (c_data c)) maxMetadataSize); [discriminate|].
    unfold dwf, set_xmp; cbn [d_frames d_icc d_exif d_xmp d_chunks oin olen]. auto 12. }
  destruct (c_id c =? FCC_ANIM).
  { pose proof (parse_anim_spec top d (c_data c) Hd) as H.
    destruct (parse_anim d (c_data c)); auto. tauto. }
  destruct (c_id c =? FCC_ANMF).
  { pose proof (parse_anmf_spec top d (c_data c) Hcb Hci Hd) as H.
    destruct (parse_anmf d (c_data c)); auto. tauto. }
  destruct ((c_id c =? FCC_VP8) || (c_id c =? FCC_VP8L) || (c_id c =? FCC_ALPH)); [|exact Hd].
  destruct (negb (ft_anim (d_feat d)) && (len (d_frames d) =? 0)); [|exact Hd].
  pose proof (parse_single_ext_spec top d rest Hb Hin Hd) as H.
  destruct (parse_single_ext d rest); auto. tauto.
Qed.

Lemma dwf_add_chunk top d c : infix (c_data c) top -> dwf top d -> dwf top (add_chunk d c).
Proof.
  intros Hc (Hf & Hn & Hi & He & Hx & Hil & Hel & Hxl & Hcs).
  unfold dwf, add_chunk; cbn [d_frames d_icc d_exif d_xmp d_chunks].
  repeat split; auto. apply Forall_app. split; auto.
Qed.

Lemma ext_loop_spec top fuel : forall rest d,
  bytes_ok rest -> infix rest top -> dwf top d ->
  match ext_loop fuel rest d with
  | Ok d' => dwf top d'
  | Err e => (length rest < fuel)%nat -> e <> E_fuel
  | Panic => False
  end.
Proof.
  induction fuel as [|f IH]; intros rest d Hb Hin Hd; cbn [ext_loop].
  - intros H. lia.
  - unfold ChunkHeaderSize.
    destruct (Z.ltb_spec (len rest) 8); [auto|].
    pose proof (read_chunk_spec rest Hb) as Hc.
    destruct (read_chunk rest) as [[c n]|e|]; [|auto|exact Hc].
    destruct Hc as (Hn1 & Hn2 & Hsz & Hcb & Hci & _).
    assert (Hci' : infix (c_data c) top) by (eapply infix_trans; eauto).
    pose proof (ext_dispatch_spec top (add_chunk d c) c rest Hb Hin Hcb Hci' (dwf_add_chunk _ _ _ Hci' Hd)) as Hdis.
    destruct (ext_dispatch (add_chunk d c) c rest) as [d2|e|]; cbn [bind]; [|auto|exact Hdis].
    destruct (rest_spec top rest n Hb Hin ltac:(lia)) as (rest' & -> & Hrb & Hri & Hrl). cbn [bind].
    specialize (IH rest' d2 Hrb Hri Hdis).
    destruct (ext_loop f rest' d2); auto.
    intros Hf. apply IH. unfold len in *. lia.
Qed.

Definition dwf0 (top : list Z) : dstate -> Prop := dwf top.

Lemma parse_extended_spec top payload :
  bytes_ok payload -> infix payload top ->
  match parse_extended payload with
  | Ok d => dwf top d /\ 1 <= len (d_frames d)
  | Err e => e <> E_fuel
  | Panic => False
  end.
Proof.
  intros Hb Hin. unfold parse_extended.
  pose proof (read_chunk_spec payload Hb) as Hc.
  destruct (read_chunk payload) as [[c n]|e|]; cbn [bind]; [|exact Hc|exact Hc].
  destruct Hc as (Hn1 & Hn2 & Hsz & Hcb & Hci & Hlen).
  unfold VP8XChunkSize.
  destruct (Z.ltb_spec (c_size c) 10); [discriminate|].
  unfold len in Hlen.
  destruct (c_data c) as [|fl [|r1 [|r2 [|r3 [|w0 [|w1 [|w2 [|h0 [|h1 [|h2 tl]]]]]]]]]] eqn:Edata;
    cbn [length] in Hlen; try lia.
  match goal with |- context [if ?c then Err E_vp8x else _] => destruct c end; [discriminate|].
  destruct (rest_spec top payload n Hb Hin ltac:(lia)) as (rest & -> & Hrb & Hri & Hrl). cbn [bind].
  match goal with |- context [ext_loop ?fu rest ?d0] =>
    assert (Hd0 : dwf top d0);
    [|pose proof (ext_loop_spec top fu rest d0 Hrb Hri Hd0) as Hl;
      destruct (ext_loop fu rest d0) as [d'|e|] eqn:El] end; cbn [bind].
  - unfold dwf; cbn [d_frames d_icc d_exif d_xmp d_chunks oin olen].
    repeat split; auto; try (unfold len, maxFrames, maxMetadataSize; cbn [length]; lia).
    constructor; [|constructor]. rewrite Edata. eapply infix_trans; eauto.
  - destruct (Z.eqb_spec (len (d_frames d')) 0); [discriminate|].
    split; [exact Hl|]. pose proof (len_nonneg (d_frames d')). lia.
  - apply Hl. lia.
  - exact Hl.
Qed.

Lemma parse_vp8_dims_spec d :
  match parse_vp8_dims d with Ok _ => True | Err e => e <> E_fuel | Panic => False end.
Proof.
  unfold parse_vp8_dims. destruct (Z.ltb_spec (len d) 10) as [|H]; [discriminate|].
  unfold len in H.
  destruct d as [|b0 [|b1 [|b2 [|b3 [|b4 [|b5 [|b6 [|b7 [|b8 [|b9 tl]]]]]]]]]]; cbn [length] in H; try lia.
  destruct (negb (b3 =? 157) || negb (b4 =? 1) || negb (b5 =? 42)); [discriminate|exact I].
Qed.

Lemma parse_vp8l_dims_spec d :
  match parse_vp8l_dims d with Ok _ => True | Err e => e <> E_fuel | Panic => False end.
Proof.
  unfold parse_vp8l_dims. destruct (Z.ltb_spec (len d) 5) as [|H]; [discriminate|].
  unfold len in H.
  destruct d as [|b0 [|b1 [|b2 [|b3 [|b4 tl]]]]]; cbn [length] in H; try lia.
  destruct (negb (b0 =? VP8LMagicByte)); [discriminate|exact I].
Qed.

Lemma simple_dwf top c : infix (c_data c) top -> bytes_ok (c_data c) ->
  forall ft fi, fi_data fi = Some (c_data c) -> fi_alpha fi = None -> fi_ox fi = 0 -> fi_oy fi = 0 ->
  dwf top (mkd [c] ft [fi] None None None 0 0).
Proof.
  intros Hi Hb ft fi H1 H2 H3 H4. unfold dwf; cbn [d_frames d_icc d_exif d_xmp d_chunks oin olen].
  repeat split; auto; try (unfold len, maxFrames, maxMetadataSize; cbn [length]; lia).
  constructor; [|constructor]. unfold fi_in. rewrite H1, H2, H3, H4. cbn. repeat split; auto; lia.
Qed.

Lemma parse_simple_vp8_spec top payload : bytes_ok payload -> infix payload top ->
  match parse_simple_vp8 payload with
  | Ok d => dwf top d /\ 1 <= len (d_frames d)
  | Err e => e <> E_fuel
  | Panic => False
  end.
Proof.
  intros Hb Hin. unfold parse_simple_vp8.
  pose proof (read_chunk_spec payload Hb) as Hc.
  destruct (read_chunk payload) as [[c n]|e|]; cbn [bind]; [|exact Hc|exact Hc].
  destruct Hc as (_ & _ & _ & Hcb & Hci & _).
  pose proof (parse_vp8_dims_spec (c_data c)) as Hp.
  destruct (parse_vp8_dims (c_data c)) as [[w h]|e|]; cbn [bind]; [|exact Hp|exact Hp].
  split; [|unfold len; cbn; lia].
  apply simple_dwf; auto. eapply infix_trans; eauto.
Qed.

Lemma parse_simple_vp8l_spec top payload : bytes_ok payload -> infix payload top ->
  match parse_simple_vp8l payload with
  | Ok d => dwf top d /\ 1 <= len (d_frames d)
  | Err e => e <> E_fuel
  | Panic => False
  end.
Proof.
  intros Hb Hin. unfold parse_simple_vp8l.
  pose proof (read_chunk_spec payload Hb) as Hc.
  destruct (read_chunk payload) as [[c n]|e|]; cbn [bind]; [|exact Hc|exact Hc].
  destruct Hc as (_ & _ & _ & Hcb & Hci & _).
  pose proof (parse_vp8l_dims_spec (c_data c)) as Hp.
  destruct (parse_vp8l_dims (c_data c)) as [[[w h] a]|e|]; cbn [bind]; [|exact Hp|exact Hp].
  split; [|unfold len; cbn; lia].
  apply simple_dwf; auto. eapply infix_trans; eauto.
Qed.

(** C05_demux_total_and_well_formed *)
Theorem parse_spec bs : bytes_ok bs ->
  match parse true bs with
  | Ok d => dwf bs d /\ 1 <= len (d_frames d)
  | Err e => e <> E_fuel
  | Panic => False
  end.
Proof.
  intros Hb. unfold parse, RIFFHeaderSize.
  destruct (Z.ltb_spec (len bs) 12); [discriminate|].
  destruct (u32at_spec bs 0 Hb) as [t1 [Ht1 _]]; try lia. rewrite Ht1. cbn [bind].
  destruct (negb (t1 =? FCC_RIFF)); [discriminate|].
  destruct (u32at_spec bs 4 Hb) as [fs [Hfs Rfs]]; try lia. rewrite Hfs. cbn [bind].
  destruct (u32at_spec bs 8 Hb) as [t2 [Ht2 _]]; try lia. rewrite Ht2. cbn [bind].
  destruct (negb (t2 =? FCC_WEBP)); [discriminate|].
  set (total := if fs + 8 >? len bs then len bs else fs + 8).
  assert (Htot : total <= len bs) by (unfold total; destruct (Z.gtb_spec (fs + 8) (len bs)); lia).
  destruct (Z.gtb_spec total maxint); [discriminate|].
  cbn [andb]. destruct (Z.ltb_spec total 12); [discriminate|].
  destruct (slice_in_range bs 12 total (len bs) eq_refl) as [payload [Hp Hpl]]; try lia. fold (len payload) in Hpl.
  rewrite Hp. cbn [bind].
  pose proof (slice_Forall _ _ _ _ _ Hb Hp) as Hpb. pose proof (slice_infix _ _ _ _ Hp) as Hpi.
  unfold ChunkHeaderSize. destruct (Z.ltb_spec (len payload) 8); [discriminate|].
  destruct (u32at_spec payload 0 Hpb) as [ft [Hft _]]; try lia. rewrite Hft. cbn [bind].
  destruct (ft =? FCC_VP8X); [apply parse_extended_spec; auto|].
  destruct (ft =? FCC_VP8); [apply parse_simple_vp8_spec; auto|].
  destruct (ft =? FCC_VP8L); [apply parse_simple_vp8l_spec; auto|].
  discriminate.
Qed.

Corollary demux_total bs : bytes_ok bs -> parse true bs <> Panic.
Proof. intros H E. pose proof (parse_spec bs H) as P. rewrite E in P. exact P. Qed.

Corollary demux_fuel_sufficient bs : bytes_ok bs -> parse true bs <> Err E_fuel.
Proof. intros H E. pose proof (parse_spec bs H) as P. rewrite E in P. apply P. reflexivity. Qed.

(** the pinned code agrees with the patched code whenever it does not panic *)
Lemma parse_pinned_agrees bs : parse false bs <> Panic -> parse false bs = parse true bs.
Proof.
  unfold parse. intros H.
  destruct (len bs <? RIFFHeaderSize); [reflexivity|].
  destruct (u32at bs 0) as [t1|e|]; cbn [bind] in *; try reflexivity.
  destruct (negb (t1 =? FCC_RIFF)); [reflexivity|].
  destruct (u32at bs 4) as [fs|e|]; cbn [bind] in *; try reflexivity.
  destruct (u32at bs 8) as [t2|e|]; cbn [bind] in *; try reflexivity.
  destruct (negb (t2 =? FCC_WEBP)); [reflexivity|].
  set (total := if fs + 8 >? len bs then len bs else fs + 8) in *.
  destruct (total >? maxint); [reflexivity|]. cbn [andb] in *.
  destruct (Z.ltb_spec total RIFFHeaderSize) as [Hlt|Hge]; [|reflexivity].
  exfalso. apply H. unfold slice, RIFFHeaderSize in *.
  destruct (Z.leb_spec 12 total); [lia|]. cbn. reflexivity.
Qed.

Definition demux_witness : list Z := [82;73;70;70; 2;0;0;0; 87;69;66;80; 86;80;56;32].

Lemma demux_panics_refuted : bytes_ok demux_witness /\ parse false demux_witness = Panic.
Proof. split; [repeat constructor; unfold is_byte; lia|vm_compute; reflexivity]. Qed.

(** Frame(i) and GetChunk(id): total for every index and id *)
Lemma frame_total d i : frame d i <> Panic.
Proof.
  unfold frame. destruct (Z.ltb_spec i 0); cbn [orb]; [discriminate|].
  destruct (Z.geb_spec i (len (d_frames d))); [discriminate|].
  destruct (index_ok (d_frames d) i) as [a Ha]; [unfold len in *; lia|]. rewrite Ha. discriminate.
Qed.

Lemma frame_ok_iff d i : (exists fi, frame d i = Ok fi) <-> 0 <= i < len (d_frames d).
Proof.
  unfold frame. split.
  - intros [fi H]. destruct (Z.ltb_spec i 0); cbn [orb] in H; [discriminate|].
    destruct (Z.geb_spec i (len (d_frames d))); [discriminate|]. lia.
  - intros H. destruct (Z.ltb_spec i 0); [lia|]. cbn [orb].
    destruct (Z.geb_spec i (len (d_frames d))); [lia|].
    apply index_ok. unfold len in *. lia.
Qed.

Lemma get_chunk_total d id : get_chunk d id <> Panic.
Proof.
  unfold get_chunk.
  destruct (id =? FCC_ICCP); [destruct (d_icc d); discriminate|].
  destruct (id =? FCC_EXIF); [destruct (d_exif d); discriminate|].
  destruct (id =? FCC_XMP); [destruct (d_xmp d); discriminate|].
  destruct (find _ _); discriminate.
Qed.

(** what GetChunk returns lies inside the input *)
Lemma get_chunk_in_bounds top d id x : dwf top d -> get_chunk d id = Ok x -> infix x top.
Proof.
  intros (Hf & Hn & Hi & He & Hx & _ & _ & _ & Hc). unfold get_chunk.
  destruct (id =? FCC_ICCP). { destruct (d_icc d); [|discriminate]. intros [= <-]. apply Hi. }
  destruct (id =? FCC_EXIF). { destruct (d_exif d); [|discriminate]. intros [= <-]. apply He. }
  destruct (id =? FCC_XMP). { destruct (d_xmp d); [|discriminate]. intros [= <-]. apply Hx. }
  destruct (find (fun c => c_id c =? id) (d_chunks d)) as [c|] eqn:E; [|discriminate].
  intros [= <-]. apply find_some in E. rewrite Forall_forall in Hc. apply Hc, E.
Qed.

(** [parse_spec]'s [Ok] case is inhabited: a minimal lossy file *)
Example parse_nontrivial :
  exists d, parse true ([82;73;70;70; 24;0;0;0; 87;69;66;80; 86;80;56;32; 11;0;0;0; 0;0;0;157;1;42;4;0;4;0;7;0]) = Ok d
            /\ len (d_frames d) = 1.
Proof. eexists. split; [vm_compute; reflexivity|reflexivity]. Qed.
