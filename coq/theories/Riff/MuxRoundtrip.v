(** C14, extended (VP8X) layouts of the current code: Assemble writes [riff_file] around
    [vp8x_chunk m :: mux_chunks m]; the demuxer's loop over it is [demux_chunks].
    Last, two facts about ReadChunkHeader and the chunk switch cited by C05 and C14. *)
From Coq Require Import List ZArith Lia Bool ZifyBool ZifyNat.
From Webp Require Import Base.Res Base.Bytes Riff.ChunkBytes Riff.RiffGrammar Riff.DemuxModel Riff.DemuxTotal
  Riff.MuxModel Riff.MuxView Riff.MuxProofs.
Import ListNotations.
Open Scope Z_scope.

Definition enc := write_data_chunk.

Definition chunk_of (c : Z * list Z) : chunk := mkchunk (fst c) (len (snd c)) (snd c).

Lemma chunk_ok_read c : chunk_ok c -> 0 <= fst c < 4294967296 /\ len (snd c) <= MaxChunkPayload.
Proof. intros (H & _ & Hl). unfold MaxChunkPayload. split; [exact H|lia]. Qed.

Lemma ext_loop_genc f c rest d : chunk_ok c -> (0 < f)%nat ->
  ext_loop f (genc c ++ rest) d =
    bind (ext_dispatch (add_chunk d (chunk_of c)) (chunk_of c) (genc c ++ rest))
         (fun d2 => ext_loop (pred f) rest d2).
Proof.
  intros Hc Hf. destruct f as [|f]; [lia|]. destruct (chunk_ok_read c Hc) as [Hid Hp].
  cbn [ext_loop pred]. pose proof (len_nonneg rest). pose proof (len_nonneg (snd c)).
  rewrite read_chunk_genc by assumption. rewrite (len_app (genc c)), len_genc. unfold ChunkHeaderSize.
  destruct (Z.ltb_spec (8 + len (snd c) + len (snd c) mod 2 + len rest) 8); [lia|].
  fold (chunk_of c). destruct (ext_dispatch _ _ _) as [d2|e|]; cbn [bind]; try reflexivity.
  rewrite <- len_genc, <- len_app, slice_suffix. reflexivity.
Qed.

Lemma anmf_loop_genc f c rest img alpha : chunk_ok c -> (0 < f)%nat ->
  anmf_loop f (genc c ++ rest) img alpha =
    anmf_loop (pred f) rest (if is_image_id (fst c) then Some (snd c) else img)
              (if fst c =? FCC_ALPH then Some (snd c) else alpha).
Proof.
  intros Hc Hf. destruct f as [|f]; [lia|]. destruct (chunk_ok_read c Hc) as [Hid Hp].
  destruct c as [id p]. cbn [fst snd] in *. cbn [anmf_loop pred].
  pose proof (len_nonneg rest). pose proof (len_nonneg p).
  assert (Hlen : len (genc (id, p) ++ rest) = 8 + len p + len p mod 2 + len rest) by (rewrite len_app, len_genc; reflexivity).
  rewrite Hlen. unfold ChunkHeaderSize.
  destruct (Z.ltb_spec (8 + len p + len p mod 2 + len rest) 8); [lia|].
  rewrite genc_shape. cbn [fst snd]. rewrite read_chunk_header_written by lia.
  destruct (Z.gtb_spec (8 + len p) (8 + len p + len p mod 2 + len rest)); [lia|].
  rewrite (slice_app_mid (le32 id ++ le32 (len p)) p (pad_bytes (len p) ++ rest)) by reflexivity.
  cbn [bind].
  (* the loop advances past the padding byte: [adv] is the length of the chunk *)
  replace (if negb (len p mod 2 =? 0) && (8 + len p <? 8 + len p + len p mod 2 + len rest)
           then 8 + len p + 1 else 8 + len p) with (len (genc (id, p))).
  2:{ rewrite len_genc. cbn [snd]. destruct (Z.eqb_spec (len p mod 2) 0); cbn [negb andb]; [lia|].
      destruct (Z.ltb_spec (8 + len p) (8 + len p + len p mod 2 + len rest)); lia. }
  destruct (Z.leb_spec (len (genc (id, p))) 0); [rewrite len_genc in *; cbn [snd] in *; lia|].
  rewrite <- (genc_shape (id, p)), <- Hlen, slice_suffix. reflexivity.
Qed.

Lemma single_loop_genc f c rest alpha : chunk_ok c -> (0 < f)%nat ->
  single_loop f (genc c ++ rest) None alpha =
    if is_image_id (fst c) then Ok (Some (snd c), if fst c =? FCC_ALPH then Some (snd c) else alpha)
    else single_loop (pred f) rest None (if fst c =? FCC_ALPH then Some (snd c) else alpha).
Proof.
  intros Hc Hf. destruct f as [|f]; [lia|]. destruct (chunk_ok_read c Hc) as [Hid Hp].
  cbn [single_loop pred]. pose proof (len_nonneg rest). pose proof (len_nonneg (snd c)).
  rewrite read_chunk_genc by assumption. rewrite (len_app (genc c)), len_genc. unfold ChunkHeaderSize.
  destruct (Z.ltb_spec (8 + len (snd c) + len (snd c) mod 2 + len rest) 8); [lia|].
  cbn [c_id c_data]. destruct (is_image_id (fst c)); [reflexivity|].
  rewrite <- len_genc, <- len_app, slice_suffix. reflexivity.
Qed.

(** one ext_dispatch per chunk, each seeing the bytes from its own chunk on
    (parseSingleExtendedFrame re-reads them) *)
Fixpoint demux_chunks (cs : list (Z * list Z)) (d : dstate) : Res dstate :=
  match cs with
  | [] => Ok d
  | c :: tl =>
    d2 <- ext_dispatch (add_chunk d (chunk_of c)) (chunk_of c) (flat_map genc cs) ;; demux_chunks tl d2
  end.

Lemma ext_loop_nil f d : ext_loop (S f) [] d = Ok d.
Proof. reflexivity. Qed.

Lemma ext_loop_gencs cs : Forall chunk_ok cs -> forall f d, (length cs < f)%nat ->
  ext_loop f (flat_map genc cs) d = demux_chunks cs d.
Proof.
  induction 1 as [|c cs Hc _ IH]; intros f d Hf; [destruct f; [lia|apply ext_loop_nil]|].
  cbn [flat_map demux_chunks length] in *. rewrite ext_loop_genc by (auto; lia).
  destruct (ext_dispatch _ _ _) as [d2|e|]; cbn [bind]; try reflexivity. apply IH. lia.
Qed.

Definition sub_pick (acc : option (list Z) * option (list Z)) (c : Z * list Z) :=
  (if is_image_id (fst c) then Some (snd c) else fst acc, if fst c =? FCC_ALPH then Some (snd c) else snd acc).

Lemma anmf_loop_gencs cs : Forall chunk_ok cs -> forall f img alpha, (length cs < f)%nat ->
  anmf_loop f (flat_map genc cs) img alpha = Ok (fold_left sub_pick cs (img, alpha)).
Proof.
  induction 1 as [|c cs Hc _ IH]; intros f img alpha Hf; [destruct f; [lia|reflexivity]|].
  cbn [flat_map fold_left length] in *. rewrite anmf_loop_genc by (auto; lia). apply IH. lia.
Qed.

Definition obytes_ok (o : option (list Z)) : Prop := match o with Some x => bytes_ok x | None => True end.

Record vfacts (data : list Z) (a : option (list Z)) (b : list Z) (w h : Z) (isl abit : bool) : Prop := {
  vf_parts : frame_parts data = Some (a, b);
  vf_split : split_alpha data = (a, b);
  vf_dims : frame_dims data = (w, h);
  vf_b : bfacts b w h isl abit;
  vf_bb : bytes_ok b;
  vf_ab : obytes_ok a;
  vf_len : len b + olen a <= len data;
  vf_lossy_alpha : a <> None -> isl = false;
  vf_len8 : a <> None -> 8 + olen a + len b <= len data /\ firstn 4 data = T_ALPH }.

Lemma frame_parts_plain data b : frame_parts data = Some (None, b) -> b = data.
Proof.
  unfold frame_parts. destruct (bytes_eqb (firstn 4 data) T_ALPH); [|congruence].
  destruct (skipn 4 data) as [|s0 [|s1 [|s2 [|s3 body]]]]; try discriminate. destruct (_ <=? _); discriminate.
Qed.

(** the documented ALPH-prefix convention is what splitAlphaAndBitstream computes *)
Lemma split_alpha_parts data x b : bytes_ok data -> frame_parts data = Some (Some x, b) ->
  split_alpha data = (Some x, b) /\ firstn 4 data = T_ALPH /\ 8 + len x + len b <= len data /\
  bytes_ok x /\ bytes_ok b.
Proof.
  intros Hb Ep. unfold frame_parts in Ep.
  destruct (bytes_eqb (firstn 4 data) T_ALPH) eqn:Etag; [|discriminate].
  destruct data as [|a0 [|a1 [|a2 [|a3 rest]]]]; try (cbn in Etag; discriminate).
  cbn [firstn bytes_eqb T_ALPH] in Etag.
  rewrite !andb_true_iff in Etag. destruct Etag as (E0 & E1 & E2 & E3 & _).
  apply Z.eqb_eq in E0, E1, E2, E3. subst a0 a1 a2 a3. cbn [skipn] in Ep.
  destruct rest as [|s0 [|s1 [|s2 [|s3 body]]]]; try discriminate.
  repeat (apply bytes_ok_cons in Hb; let Hx := fresh "Hx" in destruct Hb as [Hx Hb]).
  pose proof (rd32_bound s0 s1 s2 s3 [] ltac:(assumption) ltac:(assumption) ltac:(assumption) ltac:(assumption)) as Hn0.
  set (n := rd32 [s0; s1; s2; s3]) in *.
  destruct (Z.leb_spec (n + n mod 2) (glen body)) as [Hn|]; [|discriminate].
  injection Ep as <- <-. unfold glen in Hn. fold (len body) in Hn. pose proof (len_nonneg body).
  assert (Hlb : len (skipn (Z.to_nat (n + n mod 2)) body) = len body - (n + n mod 2)).
  { unfold len in *. rewrite skipn_length. lia. }
  assert (Hlx : len (firstn (Z.to_nat n) body) = n) by (unfold len in *; rewrite firstn_length; lia).
  split; [|split; [reflexivity|split; [rewrite !len_cons; lia|split; [apply bytes_ok_firstn|apply bytes_ok_skipn]; exact Hb]]].
  unfold split_alpha, ChunkHeaderSize. rewrite !len_cons.
  destruct (Z.ltb_spec (1 + (1 + (1 + (1 + (1 + (1 + (1 + (1 + len body)))))))) 8); [lia|].
  change (rd32 [65; 76; 80; 72] =? FCC_ALPH) with true. cbv iota. fold n.
  destruct (Z.leb_spec (8 + n) (1 + (1 + (1 + (1 + (1 + (1 + (1 + (1 + len body))))))))); [|lia].
  f_equal. f_equal. f_equal.
  destruct (Z.eqb_spec (n mod 2) 0); cbn [negb andb]; [lia|].
  destruct (Z.ltb_spec (8 + n) (1 + (1 + (1 + (1 + (1 + (1 + (1 + (1 + len body))))))))); lia.
Qed.

Lemma valid_frame_facts data : bytes_ok data -> valid_frame data = true ->
  exists a b w h isl abit, vfacts data a b w h isl abit.
Proof.
  intros Hb Hv. unfold valid_frame in Hv.
  destruct (frame_parts data) as [[[x|] b]|] eqn:Ep; [| |discriminate].
  - destruct (split_alpha_parts data x b Hb Ep) as (Hs & Ht & Hl & Hx & Hbb).
    destruct (vp8_header b) as [[w h]|] eqn:Eh; [|discriminate].
    pose proof (vp8_bits_facts b w h Hbb Eh) as Hbf.
    exists (Some x), b, w, h, false, false. constructor; auto; cbn [olen]; try lia.
    rewrite frame_dims_eq, Hs. apply (bf_dims _ _ _ _ _ Hbf).
  - pose proof (frame_parts_plain _ _ Ep). subst b.
    destruct (bits_facts data Hb Hv) as (w & h & isl & abit & Hbf).
    pose proof (split_alpha_plain _ _ _ _ _ Hbf) as Hs.
    exists None, data, w, h, isl, abit. constructor; auto; cbn [olen]; try lia; try contradiction.
    + rewrite frame_dims_eq, Hs. apply (bf_dims _ _ _ _ _ Hbf).
    + exact I.
Qed.

(** [sz]: what assembleExtended adds to the RIFF size for the chunks [cs] *)
Record written_as (bs : list Z) (sz : Z) (cs : list (Z * list Z)) : Prop := {
  wr_bytes : bs = flat_map genc cs;
  wr_size : sz = len bs;
  wr_ok : Forall chunk_ok cs }.

Lemma written_nil : written_as [] 0 [].
Proof. constructor; [reflexivity|reflexivity|constructor]. Qed.

Lemma written_app b1 s1 c1 b2 s2 c2 :
  written_as b1 s1 c1 -> written_as b2 s2 c2 -> written_as (b1 ++ b2) (s1 + s2) (c1 ++ c2).
Proof.
  intros [-> -> H1] [-> -> H2].
  constructor; [symmetry; apply flat_map_app|symmetry; apply len_app|apply Forall_app; auto].
Qed.

Definition img_list (a : option (list Z)) (b : list Z) : list (Z * list Z) :=
  (match a with Some x => [(FCC_ALPH, x)] | None => [] end) ++ [(detect_type b, b)].

Lemma img_written a b : olen a + len b < 1073741824 -> obytes_ok a -> bytes_ok b ->
  written_as ((match a with Some x => write_data_chunk FCC_ALPH x | None => [] end) ++
              write_data_chunk (detect_type b) b) (sub_chunks_size a b) (img_list a b).
Proof.
  intros Hl Ha Hb. pose proof (len_nonneg b). pose proof (detect_type_range b) as Hr.
  assert (0 <= olen a) by (destruct a; cbn; [apply len_nonneg|lia]).
  constructor; [|symmetry; apply sub_chunks_size_correct; lia|]; unfold img_list; destruct a as [x|]; cbn [olen] in *.
  - rewrite !write_data_chunk_eq by lia. cbn [app flat_map]. rewrite app_nil_r. reflexivity.
  - rewrite write_data_chunk_eq by lia. cbn [app flat_map]. rewrite app_nil_r. reflexivity.
  - repeat constructor; cbn [fst snd]; auto; unfold FCC_ALPH; lia.
  - repeat constructor; cbn [fst snd]; auto; lia.
Qed.

Lemma len_img_list a b : 0 <= len (flat_map genc (img_list a b)) <= olen a + len b + 18.
Proof.
  pose proof (len_nonneg (flat_map genc (img_list a b))). split; [assumption|].
  unfold img_list. destruct a as [x|]; cbn [app flat_map olen]; rewrite !len_app, !len_genc, len_nil; cbn [snd]; lia.
Qed.

Definition anmf_flag (fo : fopts) : Z :=
  (if o_dispose fo =? 1 then 1 else 0) + (if o_blend fo =? 1 then 2 else 0).

Definition anmf_hdr (fo : fopts) (w h : Z) : list Z :=
  le24 (Z.quot (o_ox fo) 2) ++ le24 (Z.quot (o_oy fo) 2) ++ le24 (w - 1) ++ le24 (h - 1) ++
  le24 (o_dur fo) ++ [anmf_flag fo].

Lemma bytes_ok_anmf_hdr fo w h : bytes_ok (anmf_hdr fo w h).
Proof.
  unfold anmf_hdr. repeat (apply bytes_ok_app; split); auto using le24_bytes.
  constructor; [|constructor]. unfold is_byte, anmf_flag.
  destruct (o_dispose fo =? 1), (o_blend fo =? 1); lia.
Qed.

Definition anmf_payload (fo : fopts) (a : option (list Z)) (b : list Z) (w h : Z) : list Z :=
  anmf_hdr fo w h ++ flat_map genc (img_list a b).

Lemma len_anmf_payload fo a b w h : len (anmf_payload fo a b w h) = 16 + len (flat_map genc (img_list a b)).
Proof. unfold anmf_payload. rewrite len_app. reflexivity. Qed.

Definition frame_chunks (anim : bool) (f : mframe) : list (Z * list Z) :=
  let '(a, b) := split_alpha (f_data f) in
  let '(w, h) := frame_dims (f_data f) in
  if anim then [(FCC_ANMF, anmf_payload (f_opts f) a b w h)] else img_list a b.

(** 1073741824 = 2^30: [blob_okb]'s bound; 33554432 = 2 * MaxPositionOff: offsets whose half fits putLE24 *)
Record aframe_ok (f : mframe) : Prop := {
  af_bytes : bytes_ok (f_data f);
  af_len : len (f_data f) < 1073741824;
  af_valid : valid_frame (f_data f) = true;
  af_ox : 0 <= o_ox (f_opts f) < 33554432;
  af_oy : 0 <= o_oy (f_opts f) < 33554432;
  af_dur : 0 <= o_dur (f_opts f) <= maxDuration }.

Lemma frame_written anim f : aframe_ok f ->
  written_as (write_frame repaired anim f) (frame_riff_size repaired anim f) (frame_chunks anim f).
Proof.
  intros [Hb Hl Hv _ _ _]. pose proof (anmf_size_correct f Hl) as [Esz _]. destruct f as [data fo]. cbn [f_data f_opts] in *.
  destruct (valid_frame_facts data Hb Hv) as (a & b & w & h & isl & abit & [_ Hs Hd Hbf Hbb Hab Hlen _ _]).
  destruct (img_written a b ltac:(lia) Hab Hbb) as [Ei Es Hok]. pose proof (len_img_list a b) as Hli.
  unfold write_frame, frame_riff_size, frame_chunks in *. cbn [f_data f_opts fx_alpha repaired] in *.
  destruct anim; [|rewrite Hs, Hd; constructor; assumption].
  rewrite <- Esz. clear Esz. unfold write_anmf. cbn [f_data f_opts]. rewrite Hs, Hd.
  pose proof (bf_w _ _ _ _ _ Hbf). pose proof (bf_h _ _ _ _ _ Hbf).
  replace ((w >? 0) && (h >? 0)) with true by lia.
  assert (Hp : u32 (ANMFChunkSize + sub_chunks_size a b) = len (anmf_payload fo a b w h)).
  { rewrite len_anmf_payload, Es, Ei. unfold u32, ANMFChunkSize. apply Z.mod_small. lia. }
  rewrite Hp, pad_bytes_negb.
  constructor; [|reflexivity|].
  - cbn [flat_map]. rewrite genc_shape, app_nil_r. cbn [fst snd]. cbv iota. f_equal. f_equal.
    unfold anmf_payload, anmf_hdr. rewrite <- Ei, <- !app_assoc. reflexivity.
  - constructor; [|constructor]. split; [unfold FCC_ANMF; cbn [fst]; lia|]. cbn [snd]. split.
    + apply bytes_ok_app. split; [apply bytes_ok_anmf_hdr|apply bytes_ok_gencs, Hok].
    + rewrite len_anmf_payload. lia.
Qed.

Lemma frames_written anim fs : Forall aframe_ok fs ->
  exists sz, (forall acc, fold_left (fun acc f => acc + frame_riff_size repaired anim f) fs acc = acc + sz) /\
    written_as (flat_map (write_frame repaired anim) fs) sz (flat_map (frame_chunks anim) fs).
Proof.
  induction 1 as [|f fs Hf _ (sz & Hfold & IH)]; cbn [fold_left flat_map].
  - exists 0. split; [intros acc; lia|apply written_nil].
  - eexists. split; [intros acc; rewrite Hfold, <- Z.add_assoc; reflexivity|].
    apply written_app; [apply frame_written, Hf|exact IH].
Qed.

Definition ometa_ok (o : option (list Z)) : Prop :=
  match o with Some p => bytes_ok p /\ len p <= maxMetadataSize | None => True end.

Lemma ometa_write_enc id o : ometa_write id o = match o with Some p => enc id p | None => [] end.
Proof. reflexivity. Qed.

Definition optl (id : Z) (o : option (list Z)) : list (Z * list Z) :=
  match o with Some p => [(id, p)] | None => [] end.

Lemma ometa_written id o : 0 <= id < 4294967296 -> ometa_ok o ->
  written_as (ometa_write id o) (ometa_size o) (optl id o).
Proof.
  intros Hid Ho. destruct o as [p|]; [|apply written_nil]. destruct Ho as [Hb Hp].
  unfold maxMetadataSize in Hp. constructor; cbn [ometa_write ometa_size optl flat_map]; rewrite ?app_nil_r.
  - apply write_data_chunk_eq. lia.
  - symmetry. apply chunk_total_correct. lia.
  - repeat constructor; cbn [fst snd]; auto; lia.
Qed.

Definition mframe_ok (f : mframe) : Prop :=
  bytes_ok (f_data f) /\ len (f_data f) < 1073741824 /\ valid_frame (f_data f) = true /\
  0 <= o_dur (f_opts f) <= maxDuration.

Record mok (m : mstate) : Prop := {
  mk_frames : Forall mframe_ok (m_frames m);
  mk_icc : ometa_ok (m_icc m);
  mk_exif : ometa_ok (m_exif m);
  mk_xmp : ometa_ok (m_xmp m);
  mk_bg : 0 <= m_bg m < 4294967296;
  mk_loop : 0 <= m_loop m < 65536;
  mk_n : len (m_frames m) <= MaxFrames }.

Lemma fold_left_inv {A B} (P : A -> Prop) (f : A -> B -> A) l a :
  P a -> (forall a x, P a -> P (f a x)) -> P (fold_left f l a).
Proof. intros Ha Hf. revert a Ha. induction l as [|x l IH]; intros a Ha; cbn [fold_left]; auto. Qed.

Lemma canvas_size_pos m : 1 <= fst (canvas_size m) /\ 1 <= snd (canvas_size m).
Proof.
  unfold canvas_size.
  destruct ((m_cw m >? 0) && (m_ch m >? 0)) eqn:E; [cbn [fst snd]; lia|].
  destruct (m_frames m) as [|f fs]; [cbn; lia|].
  (* the running maxima start at 0 and never decrease *)
  destruct (fold_left _ (f :: fs) (0, 0)) as [mw mh] eqn:Ef.
  assert (H : 0 <= fst (mw, mh) /\ 0 <= snd (mw, mh)).
  { rewrite <- Ef. apply (fold_left_inv (fun acc => 0 <= fst acc /\ 0 <= snd acc)); [cbn; lia|].
    intros acc x [H1 H2]. destruct (frame_dims (f_data x)) as [fw fh]. cbn [fst snd].
    split; [destruct (_ >? fst acc) eqn:Ec|destruct (_ >? snd acc) eqn:Ec]; lia. }
  cbn [fst snd] in H. destruct (mw =? 0) eqn:E1, (mh =? 0) eqn:E2; cbn [fst snd]; lia.
Qed.

Lemma wrap64_small z : - 2^63 <= z < 2^63 -> wrap64 z = z.
Proof. intros H. unfold wrap64. change (2^63) with 9223372036854775808 in *. change (2^64) with 18446744073709551616. lia. Qed.

Definition fits (cw ch : Z) (f : mframe) : Prop :=
  o_ox (f_opts f) + fst (frame_dims (f_data f)) <= cw /\ o_oy (f_opts f) + snd (frame_dims (f_data f)) <= ch.

(** validate's per-frame test, current code; no int64 wrap can occur at these sizes *)
Lemma validate_frame_facts anim cw ch f : mframe_ok f -> validate_frame repaired anim cw ch f = true ->
  aframe_ok f /\ fits cw ch f /\ (anim = false -> o_ox (f_opts f) = 0 /\ o_oy (f_opts f) = 0).
Proof.
  intros (Hb & Hl & Hv & Hdur) Efa. unfold validate_frame, fits in *. cbn [fx_validate repaired] in Efa.
  destruct f as [data fo]. cbn [f_data f_opts] in *.
  destruct (valid_frame_facts data Hb Hv) as (a & b & w & h & isl & abit & Hvf).
  rewrite (vf_dims _ _ _ _ _ _ _ Hvf) in *. cbn [fst snd].
  pose proof (bf_w _ _ _ _ _ (vf_b _ _ _ _ _ _ _ Hvf)). pose proof (bf_h _ _ _ _ _ (vf_b _ _ _ _ _ _ _ Hvf)).
  apply andb_true_iff in Efa. destruct Efa as [Epre Efit].
  apply andb_true_iff in Epre. destruct Epre as [Er Es].
  apply negb_true_iff in Er. rewrite !orb_false_iff in Er. destruct Er as [[[R1 R2] R3] R4].
  unfold MaxPositionOff in *.
  assert (0 <= o_ox fo) by lia. assert (0 <= o_oy fo) by lia.
  rewrite Z.quot_div_nonneg in R3, R4 by lia.
  assert (Hox : o_ox fo < 33554432) by lia. assert (Hoy : o_oy fo < 33554432) by lia.
  replace ((w =? 0) || (h =? 0)) with false in Efit by lia.
  rewrite !wrap64_small in Efit by (change (2^63) with 9223372036854775808; lia).
  destruct (_ || _) in Efit; [discriminate Efit|]. destruct (_ || _) eqn:Ec in Efit; [discriminate Efit|]. clear Efit.
  split; [constructor; cbn [f_data f_opts]; auto; lia|]. split; [lia|].
  intros ->. cbn [orb] in Es. lia.
Qed.

(** validate's guards in order: frame count, metadata sizes, canvas limits, frames *)
Lemma validate_facts m : mok m -> validate repaired m = Ok tt ->
  m_frames m <> [] /\
  fst (canvas_size m) <= MaxCanvasSize /\ snd (canvas_size m) <= MaxCanvasSize /\
  fst (canvas_size m) * snd (canvas_size m) < MaxImageArea /\
  (is_animated m = false -> exists f, m_frames m = [f] /\ o_ox (f_opts f) = 0 /\ o_oy (f_opts f) = 0 /\ o_dur (f_opts f) = 0) /\
  Forall (fun f => aframe_ok f /\ fits (fst (canvas_size m)) (snd (canvas_size m)) f) (m_frames m).
Proof.
  intros Hm. unfold validate. cbn [fx_validate repaired andb].
  destruct (Z.eqb_spec (len (m_frames m)) 0) as [|Hne]; [discriminate|].
  destruct (if is_animated m then _ else _) eqn:Ecnt; [discriminate|].
  destruct (_ || _ || _); [discriminate|].
  destruct (canvas_size m) as [cw ch] eqn:Ecs. cbn [fst snd].
  destruct (_ || _ || _) eqn:Elim; [discriminate|].
  destruct (forallb _ (m_frames m)) eqn:Efa; [|discriminate]. intros _.
  rewrite !orb_false_iff in Elim. destruct Elim as [[E1 E2] E3].
  assert (Hfs : Forall (fun f => aframe_ok f /\ fits cw ch f /\
                 (is_animated m = false -> o_ox (f_opts f) = 0 /\ o_oy (f_opts f) = 0)) (m_frames m)).
  { apply Forall_forall. intros f Hin. rewrite forallb_forall in Efa.
    pose proof (mk_frames m Hm) as Hf. rewrite Forall_forall in Hf.
    exact (validate_frame_facts _ cw ch f (Hf f Hin) (Efa f Hin)). }
  split; [intros E; rewrite E in Hne; apply Hne; reflexivity|].
  split; [lia|]. split; [lia|]. split; [lia|]. split.
  - intros Ha. rewrite Ha in Ecnt. apply negb_false_iff in Ecnt. apply Z.eqb_eq in Ecnt.
    unfold len in Ecnt. destruct (m_frames m) as [|f [|g tl]] eqn:Ef; cbn [length] in Ecnt; try lia.
    exists f. split; [reflexivity|]. inversion Hfs as [|? ? (Haf & _ & Hz) _]; subst.
    destruct (Hz Ha) as [-> ->]. split; [reflexivity|]. split; [reflexivity|].
    unfold is_animated in Ha. rewrite Ef in Ha. apply orb_false_iff in Ha. destruct Ha as [_ Ha].
    cbn [existsb] in Ha. rewrite orb_false_r in Ha. pose proof (af_dur f Haf). lia.
  - eapply Forall_impl; [|exact Hfs]. intros f (H1 & H2 & _). auto.
Qed.

Definition vp8x_payload (flags cw ch : Z) : list Z := [flags; 0; 0; 0] ++ le24 (cw - 1) ++ le24 (ch - 1).

Definition vp8x_chunk (m : mstate) : Z * list Z :=
  (FCC_VP8X, vp8x_payload (vp8x_flags m) (fst (canvas_size m)) (snd (canvas_size m))).

Definition anim_chunk (m : mstate) : Z * list Z := (FCC_ANIM, le32 (m_bg m) ++ le16 (m_loop m)).

Definition mux_chunks (m : mstate) : list (Z * list Z) :=
  optl FCC_ICCP (m_icc m) ++ (if is_animated m then [anim_chunk m] else []) ++
  flat_map (frame_chunks (is_animated m)) (m_frames m) ++
  optl FCC_EXIF (m_exif m) ++ optl FCC_XMP (m_xmp m).

Lemma assemble_shape m bs : mok m -> needs_vp8x repaired m = true -> assemble repaired m = Ok bs ->
  validate repaired m = Ok tt /\
  bs = riff_file (flat_map genc (vp8x_chunk m :: mux_chunks m)) /\
  4 + len (flat_map genc (vp8x_chunk m :: mux_chunks m)) < 4294967296 /\
  Forall chunk_ok (vp8x_chunk m :: mux_chunks m).
Proof.
  intros Hm Hx Hasm. unfold assemble in Hasm.
  destruct (validate repaired m) as [[]|e|] eqn:Hval; cbn [bind] in Hasm; try discriminate.
  rewrite Hx in Hasm. split; [reflexivity|].
  destruct (validate_facts m Hm Hval) as (_ & _ & _ & _ & _ & Hfs).
  apply Forall_and_inv in Hfs. destruct Hfs as [Hfs _].
  destruct (frames_written (is_animated m) _ Hfs) as (szf & Hfold & Wf).
  assert (Wa : written_as (if is_animated m then le32 FCC_ANIM ++ le32 ANIMChunkSize ++ le32 (m_bg m) ++ le16 (m_loop m) else [])
                          (if is_animated m then ChunkHeaderSize + ANIMChunkSize else 0)
                          (if is_animated m then [anim_chunk m] else [])).
  { destruct (is_animated m); [|apply written_nil]. constructor; [reflexivity|reflexivity|].
    constructor; [|constructor]. unfold anim_chunk. split; [unfold FCC_ANIM; cbn [fst]; lia|]. cbn [snd].
    split; [apply bytes_ok_app; split; [apply le32_bytes|apply le16_bytes]|reflexivity]. }
  pose proof (ometa_written FCC_ICCP _ ltac:(unfold FCC_ICCP; lia) (mk_icc m Hm)) as Wi.
  pose proof (ometa_written FCC_EXIF _ ltac:(unfold FCC_EXIF; lia) (mk_exif m Hm)) as We.
  pose proof (ometa_written FCC_XMP _ ltac:(unfold FCC_XMP; lia) (mk_xmp m Hm)) as Wx.
  (* the five pieces in the order Assemble writes them *)
  pose proof (written_app _ _ _ _ _ _ Wi (written_app _ _ _ _ _ _ Wa (written_app _ _ _ _ _ _ Wf
               (written_app _ _ _ _ _ _ We Wx)))) as [Eb Es Hok].
  clear Wi Wa Wf We Wx.
  fold (mux_chunks m) in Eb, Hok.
  unfold assemble_extended in Hasm. cbv zeta in Hasm. unfold vp8x_chunk.
  destruct (canvas_size m) as [cw ch]. cbn [fst snd]. rewrite Hfold, Eb in Hasm. rewrite Eb in Es.
  assert (Hokx : chunk_ok (FCC_VP8X, vp8x_payload (vp8x_flags m) cw ch)).
  { pose proof (vp8x_flags_range m). split; [unfold FCC_VP8X; cbn [fst]; lia|]. cbn [snd]. split; [|reflexivity].
    unfold vp8x_payload. repeat (apply bytes_ok_app; split); auto using le24_bytes.
    repeat constructor; unfold is_byte; lia. }
  set (R := flat_map genc (mux_chunks m)) in *.
  unfold riff_file. cbn [flat_map]. fold R. rewrite (len_app (genc _) R), len_genc. cbn [snd].
  change (len (vp8x_payload (vp8x_flags m) cw ch)) with 10.
  unfold ChunkHeaderSize, VP8XChunkSize in *.
  match type of Hasm with (if ?n >? _ then _ else _) = _ => replace n with (4 + (8 + 10 + 10 mod 2 + len R)) in Hasm by lia end.
  destruct (Z.gtb_spec (4 + (8 + 10 + 10 mod 2 + len R)) 4294967295); [discriminate|].
  injection Hasm as <-. split; [reflexivity|]. split; [lia|]. constructor; assumption.
Qed.

Definition d0_of (flags cw ch : Z) : dstate :=
  let bit k := negb ((flags / k) mod 2 =? 0) in
  mkd [mkchunk FCC_VP8X 10 (vp8x_payload flags cw ch)]
      (mkfeat cw ch (bit 16) (bit 2) (bit 32) (bit 8) (bit 4) 3) [] None None None 0 0.

(** the chunk loop has fuel to spare: one unit per byte, eight bytes per chunk *)
Lemma parse_written flags cw ch cs :
  1 <= cw <= 16777216 -> 1 <= ch <= 16777216 -> cw * ch < MaxImageArea ->
  Forall chunk_ok cs -> 4 + len (flat_map genc ((FCC_VP8X, vp8x_payload flags cw ch) :: cs)) < 4294967296 ->
  parse true (riff_file (flat_map genc ((FCC_VP8X, vp8x_payload flags cw ch) :: cs))) =
    bind (demux_chunks cs (d0_of flags cw ch))
         (fun d' => if len (d_frames d') =? 0 then Err E_noimage else Ok d').
Proof.
  intros Hw Hh Harea Hok Hlt. set (x := (FCC_VP8X, vp8x_payload flags cw ch)).
  assert (Hx : 0 <= fst x < 4294967296 /\ len (snd x) <= MaxChunkPayload) by (vm_compute; repeat split; congruence).
  cbn [flat_map] in *. pose proof (len_nonneg (flat_map genc cs)). pose proof (flat_map_genc_len cs) as Hfuel.
  pose proof (len_nonneg (snd x)). pose proof Hlt as Hlt'. rewrite (len_app (genc x)), len_genc in Hlt'.
  rewrite parse_riff_file by (rewrite ?(len_app (genc x)), ?len_genc; lia).
  rewrite genc_shape at 1. rewrite u32at_le32_head by apply Hx. cbn [bind fst x]. rewrite Z.eqb_refl.
  unfold parse_extended. rewrite read_chunk_genc by apply Hx. cbn [bind c_size c_data snd x].
  change (len (vp8x_payload flags cw ch)) with 10. change (10 <? VP8XChunkSize) with false. cbv iota.
  rewrite slice_suffix. cbn [bind].
  unfold vp8x_payload at 1. unfold le24 at 1 2. cbn [app].
  rewrite !le24_sum by lia.
  replace (cw - 1 + 1) with cw by lia. replace (ch - 1 + 1) with ch by lia.
  destruct (Z.geb_spec (cw * ch) MaxImageArea); [lia|].
  rewrite ext_loop_gencs by (auto; unfold len in Hfuel; lia). reflexivity.
Qed.

Definition meta_id (id : Z) : Prop := id = FCC_ICCP \/ id = FCC_EXIF \/ id = FCC_XMP.

Definition set_meta (id : Z) (d : dstate) (p : list Z) : dstate :=
  if id =? FCC_ICCP then set_icc d p else if id =? FCC_EXIF then set_exif d p else set_xmp d p.

Lemma ext_dispatch_meta d id n p rest : meta_id id ->
  ext_dispatch d (mkchunk id n p) rest =
    if len p >? maxMetadataSize then Err E_meta else Ok (set_meta id d p).
Proof. intros [->|[->| ->]]; reflexivity. Qed.

Lemma ext_dispatch_anim d n bg loop rest : 0 <= bg < 4294967296 -> 0 <= loop < 65536 ->
  ext_dispatch d (mkchunk FCC_ANIM n (le32 bg ++ le16 loop)) rest =
    Ok (mkd (d_chunks d) (d_feat d) (d_frames d) (d_icc d) (d_exif d) (d_xmp d) bg loop).
Proof.
  intros Hbg Hl. change (ext_dispatch d (mkchunk FCC_ANIM n (le32 bg ++ le16 loop)) rest)
    with (parse_anim d (le32 bg ++ le16 loop)).
  unfold parse_anim. change (len (le32 bg ++ le16 loop) <? ANIMChunkSize) with false.
  unfold le32, le16. cbn [app]. f_equal. f_equal; [exact (rd32_le32 bg [] Hbg)|exact (rd16_le16 loop [] Hl)].
Qed.

Lemma ext_dispatch_anmf d n p rest : ext_dispatch d (mkchunk FCC_ANMF n p) rest = parse_anmf d p.
Proof. reflexivity. Qed.

Lemma ext_dispatch_image d id n p rest :
  (id = FCC_VP8 \/ id = FCC_VP8L \/ id = FCC_ALPH) ->
  ext_dispatch d (mkchunk id n p) rest =
    if negb (ft_anim (d_feat d)) && (len (d_frames d) =? 0) then parse_single_ext d rest else Ok d.
Proof. intros [->|[->| ->]]; reflexivity. Qed.

Definition with_meta (id : Z) (o : option (list Z)) (d : dstate) : dstate :=
  match o with Some p => set_meta id (add_chunk d (mkchunk id (len p) p)) p | None => d end.

Lemma demux_meta id o cs d : meta_id id -> ometa_ok o ->
  demux_chunks (optl id o ++ cs) d = demux_chunks cs (with_meta id o d).
Proof.
  intros Hid Ho. destruct o as [p|]; [|reflexivity]. destruct Ho as [_ Hp].
  cbn [optl app demux_chunks]. unfold chunk_of. cbn [fst snd]. rewrite ext_dispatch_meta by exact Hid.
  replace (len p >? maxMetadataSize) with false by lia. reflexivity.
Qed.

Lemma d_frames_with_meta id o d : d_frames (with_meta id o d) = d_frames d.
Proof. destruct o; [unfold with_meta, set_meta; destruct (id =? FCC_ICCP), (id =? FCC_EXIF)|]; reflexivity. Qed.

Lemma view_with_tail_meta d oe ox :
  view_of_demux (with_meta FCC_XMP ox (with_meta FCC_EXIF oe d)) =
    match all_some (map vframe_of_fi (d_frames d)) with
    | Some fs => Some (mkview fs (ft_w (d_feat d)) (ft_h (d_feat d)) (ft_anim (d_feat d)) (d_loop d) (d_bg d) (d_icc d)
                         (match oe with Some p => Some p | None => d_exif d end)
                         (match ox with Some p => Some p | None => d_xmp d end))
    | None => None
    end.
Proof. destruct oe, ox; reflexivity. Qed.

Definition with_anim (m : mstate) (d : dstate) : dstate :=
  mkd (d_chunks d ++ [chunk_of (anim_chunk m)]) (d_feat d) (d_frames d) (d_icc d) (d_exif d) (d_xmp d) (m_bg m) (m_loop m).

Lemma demux_anim m cs d : mok m -> demux_chunks (anim_chunk m :: cs) d = demux_chunks cs (with_anim m d).
Proof.
  intros Hm. cbn [demux_chunks]. unfold anim_chunk at 1 2, chunk_of at 1 2. cbn [fst snd].
  rewrite ext_dispatch_anim by apply Hm. reflexivity.
Qed.

Lemma detect_type_image b : is_image_id (detect_type b) = true /\ (detect_type b =? FCC_ALPH) = false /\
  (detect_type b = FCC_VP8 \/ detect_type b = FCC_VP8L \/ detect_type b = FCC_ALPH).
Proof. unfold detect_type. destruct b as [|b0 tl]; [|destruct (b0 =? VP8LMagicByte)]; repeat split; auto. Qed.

(** the demuxer's per-frame HasAlpha, not part of the view; [MuxWf.alpha_of] (ALPH chunk
    present) differs from it on an empty ALPH payload only *)
Definition has_a (a : option (list Z)) (isl abit : bool) : bool := (0 <? olen a) || (isl && abit).

Definition fi_of (fo : fopts) (a : option (list Z)) (b : list Z) (w h : Z) (key hasA : bool) : frame_info :=
  mkfi (Some b) a w h (2 * (o_ox fo / 2)) (2 * (o_oy fo / 2)) (o_dur fo) key hasA
       (if o_blend fo =? 1 then 1 else 0) (if o_dispose fo =? 1 then 1 else 0).

Lemma parse_anmf_written d fo a b w h isl abit :
  bfacts b w h isl abit -> Forall chunk_ok (img_list a b) ->
  0 <= o_ox fo < 33554432 -> 0 <= o_oy fo < 33554432 -> 0 <= o_dur fo <= maxDuration ->
  len (d_frames d) < maxFrames ->
  parse_anmf d (anmf_payload fo a b w h) =
    Ok (DemuxModel.set_frames d (d_frames d ++ [fi_of fo a b w h (len (d_frames d) =? 0) (has_a a isl abit)])).
Proof.
  intros Hbf Hok Hox Hoy Hdur Hn.
  pose proof (bf_w _ _ _ _ _ Hbf) as Hw. pose proof (bf_h _ _ _ _ _ Hbf) as Hh.
  destruct (detect_type_image b) as (Himg & Hna & _). pose proof (flat_map_genc_len (img_list a b)) as Hfuel.
  unfold parse_anmf, ANMFChunkSize. rewrite len_anmf_payload. pose proof (len_nonneg (flat_map genc (img_list a b))).
  destruct (Z.ltb_spec (16 + len (flat_map genc (img_list a b))) 16); [lia|].
  unfold anmf_payload, anmf_hdr, le24. cbn [app].
  rewrite (Z.quot_div_nonneg (o_ox fo) 2) by lia. rewrite (Z.quot_div_nonneg (o_oy fo) 2) by lia.
  rewrite !le24_sum by (unfold maxDuration in *; lia).
  replace ((o_ox fo / 2 * 2 <? 0) || (o_oy fo / 2 * 2 <? 0)) with false by lia.
  replace (w - 1 + 1) with w by lia. replace (h - 1 + 1) with h by lia.
  assert (Harea : w * h < MaxImageArea).
  { unfold MaxImageArea. assert (w * h <= 16384 * 16384) by (apply Z.mul_le_mono_nonneg; lia). lia. }
  destruct (Z.geb_spec (w * h) MaxImageArea); [lia|].
  rewrite anmf_loop_gencs by (auto; unfold len in Hfuel; lia). cbn [bind].
  assert (Hpick : fold_left sub_pick (img_list a b) (None, None) = (Some b, a)).
  { unfold img_list, sub_pick. destruct a; cbn [app fold_left fst snd]; rewrite Himg, Hna; reflexivity. }
  rewrite Hpick.
  assert (HhA : (if 0 <? olen a then Ok true
                 else if 0 <? len b then frame_data_has_alpha b else Ok false) = Ok (has_a a isl abit)).
  { unfold has_a. destruct (0 <? olen a); [reflexivity|]. cbn [orb].
    pose proof (bf_len _ _ _ _ _ Hbf). replace (0 <? len b) with true by lia.
    apply (bf_fha _ _ _ _ _ Hbf). }
  rewrite HhA. cbn [bind].
  destruct (Z.geb_spec (len (d_frames d)) maxFrames); [lia|].
  unfold fi_of, anmf_flag.
  replace (o_ox fo / 2 * 2) with (2 * (o_ox fo / 2)) by lia.
  replace (o_oy fo / 2 * 2) with (2 * (o_oy fo / 2)) by lia.
  destruct (o_dispose fo =? 1), (o_blend fo =? 1); reflexivity.
Qed.

Lemma parse_single_ext_written d a b w h isl abit cs :
  bfacts b w h isl abit -> Forall chunk_ok (img_list a b) ->
  parse_single_ext d (flat_map genc (img_list a b ++ cs)) =
    Ok (DemuxModel.set_frames d [mkfi (Some b) a (ft_w (d_feat d)) (ft_h (d_feat d)) 0 0 0 true (has_a a isl abit) 0 0]).
Proof.
  intros Hbf Hok. destruct (detect_type_image b) as (Himg & Hna & _).
  rewrite flat_map_app. set (tail := flat_map genc cs). unfold parse_single_ext.
  assert (Hsl : forall f, single_loop (S (S f)) (flat_map genc (img_list a b) ++ tail) None None = Ok (Some b, a)).
  { intros f. unfold img_list in *. destruct a as [x|]; cbn [app flat_map] in *; rewrite <- ?app_assoc.
    - inversion Hok as [|? ? Hx Hok']; subst. inversion Hok' as [|? ? Hb' _]; subst.
      rewrite single_loop_genc by (auto; lia). cbn [fst snd pred]. change (is_image_id FCC_ALPH) with false.
      change (FCC_ALPH =? FCC_ALPH) with true. cbv iota.
      rewrite single_loop_genc by (auto; lia). cbn [fst snd]. rewrite Himg, Hna. reflexivity.
    - inversion Hok as [|? ? Hb' _]; subst.
      rewrite single_loop_genc by (auto; lia). cbn [fst snd]. rewrite Himg, Hna. reflexivity. }
  (* fuel: the bytes hold at least one 8-byte header *)
  assert (Hfuel : exists f, length (flat_map genc (img_list a b) ++ tail) = S f).
  { pose proof (flat_map_genc_len (img_list a b)). unfold len in *. rewrite app_length.
    assert (0 < length (img_list a b))%nat by (unfold img_list; rewrite app_length; cbn; lia).
    destruct (length (flat_map genc (img_list a b))); [lia|]. eexists. reflexivity. }
  destruct Hfuel as [f ->]. rewrite Hsl. cbn [bind].
  assert (HhA : (if 0 <? olen a then Ok true else frame_data_has_alpha b) = Ok (has_a a isl abit)).
  { unfold has_a. destruct (0 <? olen a); [reflexivity|]. cbn [orb]. apply (bf_fha _ _ _ _ _ Hbf). }
  rewrite HhA. reflexivity.
Qed.

Definition same_meta (d d' : dstate) : Prop :=
  d_feat d' = d_feat d /\ d_icc d' = d_icc d /\ d_exif d' = d_exif d /\ d_xmp d' = d_xmp d /\
  d_bg d' = d_bg d /\ d_loop d' = d_loop d.

Lemma same_meta_refl d : same_meta d d. Proof. repeat split. Qed.
Lemma same_meta_trans a b c : same_meta a b -> same_meta b c -> same_meta a c.
Proof. unfold same_meta. intuition congruence. Qed.

Lemma vframe_of_fi_of fo a b w h key hasA data :
  frame_parts data = Some (a, b) ->
  vframe_of_fi (fi_of fo a b w h key hasA) = Some (vframe_of true (mkmf data fo)).
Proof.
  intros Hp. unfold vframe_of_fi, fi_of, vframe_of. cbn [fi_data fi_alpha fi_ox fi_oy fi_dur fi_blend fi_dispose f_data f_opts].
  rewrite Hp. unfold even_down. cbn [andb].
  destruct (o_blend fo =? 1), (o_dispose fo =? 1); reflexivity.
Qed.

Lemma demux_anmfs fs : forall d cs,
  Forall aframe_ok fs -> len (d_frames d) + len fs <= maxFrames ->
  exists d' fis, demux_chunks (flat_map (frame_chunks true) fs ++ cs) d = demux_chunks cs d' /\
    same_meta d d' /\ d_frames d' = d_frames d ++ fis /\
    map vframe_of_fi fis = map (fun f => Some (vframe_of true f)) fs.
Proof.
  induction fs as [|f fs IH]; intros d cs Hok Hn.
  - exists d, []. rewrite app_nil_r. repeat split.
  - inversion Hok as [|? ? Hf Hfs]; subst. rewrite len_cons in Hn. pose proof (len_nonneg fs).
    destruct Hf as [Hb Hl Hv Hox Hoy Hdur]. destruct f as [data fo]. cbn [f_data f_opts] in *.
    destruct (valid_frame_facts data Hb Hv) as (a & b & w & h & isl & abit & [Hparts Hs Hd Hbf Hbb Hab Hlen _ _]).
    destruct (img_written a b ltac:(lia) Hab Hbb) as [_ _ Hoki].
    cbn [flat_map]. unfold frame_chunks at 1. cbn [f_data f_opts]. rewrite Hs, Hd. cbn [app demux_chunks].
    unfold chunk_of at 1 2. cbn [fst snd]. rewrite ext_dispatch_anmf.
    rewrite (parse_anmf_written _ fo a b w h isl abit) by (auto; cbn [add_chunk d_frames]; lia).
    cbn [bind].
    match goal with |- context [demux_chunks _ ?d1] =>
      destruct (IH d1 cs Hfs) as (d2 & fis & E2 & M2 & F2 & V2) end.
    { cbn [DemuxModel.set_frames add_chunk d_frames]. rewrite len_app, len_cons, len_nil. lia. }
    exists d2, (fi_of fo a b w h (len (d_frames d) =? 0) (has_a a isl abit) :: fis).
    split; [exact E2|]. split; [eapply same_meta_trans; [|exact M2]; repeat split|].
    split; [rewrite F2; cbn [DemuxModel.set_frames add_chunk d_frames]; rewrite <- app_assoc; reflexivity|].
    cbn [map]. rewrite V2, (vframe_of_fi_of _ _ _ _ _ _ _ data Hparts). reflexivity.
Qed.

(** the first image chunk makes parseSingleExtendedFrame read the picture; the second
    (after ALPH) finds the frame already there *)
Lemma demux_image d a b w h isl abit cs :
  bfacts b w h isl abit -> Forall chunk_ok (img_list a b) ->
  ft_anim (d_feat d) = false -> d_frames d = [] ->
  exists d', demux_chunks (img_list a b ++ cs) d = demux_chunks cs d' /\ same_meta d d' /\
    d_frames d' = [mkfi (Some b) a (ft_w (d_feat d)) (ft_h (d_feat d)) 0 0 0 true (has_a a isl abit) 0 0].
Proof.
  intros Hbf Hok Hanim Hfr. destruct (detect_type_image b) as (_ & _ & Hdt).
  pose proof (fun d' => parse_single_ext_written d' a b w h isl abit cs Hbf Hok) as Hps.
  unfold img_list in *. destruct a as [x|]; cbn [app demux_chunks] in *; unfold chunk_of; cbn [fst snd].
  - rewrite ext_dispatch_image by auto. cbn [add_chunk d_feat d_frames]. rewrite Hanim, Hfr.
    cbn [negb andb len length Z.of_nat Z.eqb]. rewrite Hps. cbn [bind].
    rewrite ext_dispatch_image by auto. cbn [add_chunk DemuxModel.set_frames d_feat d_frames ft_anim].
    rewrite Hanim. cbn [negb andb bind]. eexists. split; [reflexivity|]. split; [repeat split|reflexivity].
  - rewrite ext_dispatch_image by auto. cbn [add_chunk d_feat d_frames]. rewrite Hanim, Hfr.
    cbn [negb andb len length Z.of_nat Z.eqb]. rewrite Hps. cbn [bind].
    eexists. split; [reflexivity|]. split; [repeat split|reflexivity].
Qed.

Lemma all_some_map {A} (l : list A) ol : ol = map Some l -> all_some ol = Some l.
Proof. intros ->. induction l as [|x l IH]; cbn; [reflexivity|rewrite IH; reflexivity]. Qed.

Lemma extended_written m bs : mok m -> needs_vp8x repaired m = true -> assemble repaired m = Ok bs ->
  validate repaired m = Ok tt /\
  bytes_ok bs /\ rd32 (firstn 4 (skipn 4 bs)) + 8 = len bs /\
  parse true bs =
    bind (demux_chunks (mux_chunks m) (d0_of (vp8x_flags m) (fst (canvas_size m)) (snd (canvas_size m))))
         (fun d' => if len (d_frames d') =? 0 then Err E_noimage else Ok d').
Proof.
  intros Hm Hx Hasm. destruct (assemble_shape m bs Hm Hx Hasm) as (Hval & -> & Hlt & Hok).
  destruct (riff_file_facts _ (bytes_ok_gencs _ Hok) Hlt) as [Hb Hsz].
  destruct (validate_facts m Hm Hval) as (_ & Hcw & Hch & Harea & _ & _).
  pose proof (canvas_size_pos m) as [Hcw1 Hch1]. unfold MaxCanvasSize in *.
  repeat split; auto. inversion Hok; subst. apply parse_written; auto; lia.
Qed.

Theorem animated_roundtrip m bs :
  mok m -> is_animated m = true -> assemble repaired m = Ok bs ->
  bytes_ok bs /\ rd32 (firstn 4 (skipn 4 bs)) + 8 = len bs /\
  exists d, parse true bs = Ok d /\ view_of_demux d = Some (view_of_mux m).
Proof.
  intros Hm Hanim Hasm.
  assert (Hx : needs_vp8x repaired m = true) by (unfold needs_vp8x; rewrite Hanim; reflexivity).
  destruct (extended_written m bs Hm Hx Hasm) as (Hval & Hb & Hsz & ->). split; [exact Hb|]. split; [exact Hsz|].
  destruct (validate_facts m Hm Hval) as (Hne & _ & _ & _ & _ & Hfs).
  apply Forall_and_inv in Hfs. destruct Hfs as [Hfs _].
  unfold mux_chunks. rewrite Hanim. cbn [app].
  rewrite demux_meta, demux_anim by (unfold meta_id; auto; apply Hm).
  (* d2: the state after ICCP? and ANIM; d3: after the ANMF run; then EXIF? XMP? *)
  set (d2 := with_anim m (with_meta FCC_ICCP (m_icc m) _)).
  destruct (demux_anmfs (m_frames m) d2 (optl FCC_EXIF (m_exif m) ++ optl FCC_XMP (m_xmp m)) Hfs)
    as (d3 & fis & E3 & M3 & F3 & V3).
  { unfold d2. cbn [with_anim d_frames]. rewrite d_frames_with_meta. cbn [d0_of d_frames].
    pose proof (mk_n m Hm). unfold MaxFrames, maxFrames in *. rewrite len_nil. lia. }
  rewrite E3, demux_meta by (unfold meta_id; auto; apply Hm).
  rewrite <- (app_nil_r (optl FCC_XMP _)), demux_meta by (unfold meta_id; auto; apply Hm).
  cbn [demux_chunks bind]. rewrite !d_frames_with_meta, F3.
  assert (Hd2 : d_frames d2 = []) by (unfold d2; cbn [with_anim d_frames]; apply d_frames_with_meta).
  rewrite Hd2. cbn [app].
  destruct fis as [|fi fis]; [destruct (m_frames m); [contradiction|discriminate]|].
  rewrite len_cons. pose proof (len_nonneg fis). destruct (Z.eqb_spec (1 + len fis) 0); [lia|].
  eexists. split; [reflexivity|].
  rewrite view_with_tail_meta, F3, Hd2. cbn [app].
  rewrite (all_some_map (map (vframe_of true) (m_frames m))) by (rewrite V3, map_map; reflexivity).
  destruct M3 as (-> & -> & -> & -> & -> & ->).
  unfold view_of_mux. rewrite Hanim. destruct (canvas_size m) as [cw ch]. cbn [fst snd] in *.
  destruct (flags_derivation m) as (Fa & _). cbv zeta in Fa.
  unfold d2. cbn [with_anim d_feat d_loop d_bg d_icc d_exif d_xmp].
  destruct (m_icc m); cbn; rewrite Fa, Hanim; destruct (m_exif m), (m_xmp m); reflexivity.
Qed.

Theorem still_ext_roundtrip m bs :
  mok m -> is_animated m = false -> needs_vp8x repaired m = true -> assemble repaired m = Ok bs ->
  bytes_ok bs /\ rd32 (firstn 4 (skipn 4 bs)) + 8 = len bs /\
  exists d, parse true bs = Ok d /\ view_of_demux d = Some (view_of_mux m).
Proof.
  intros Hm Hanim Hx Hasm.
  destruct (extended_written m bs Hm Hx Hasm) as (Hval & Hb & Hsz & ->). split; [exact Hb|]. split; [exact Hsz|].
  destruct (validate_facts m Hm Hval) as (_ & _ & _ & _ & Hone & Hfs).
  destruct (Hone Hanim) as (f & Hf & Hox & Hoy & Hd0). rewrite Hf in Hfs.
  inversion Hfs as [|? ? ([Hbd Hl Hv _ _ _] & _) _]; subst.
  destruct f as [data fo]. cbn [f_data f_opts] in *.
  destruct (valid_frame_facts data Hbd Hv) as (a & b & w & h & isl & abit & [Hparts Hs Hd Hbf Hbb Hab Hlen _ _]).
  destruct (img_written a b ltac:(lia) Hab Hbb) as [_ _ Hoki].
  unfold mux_chunks. rewrite Hanim, Hf. cbn [app flat_map]. unfold frame_chunks. cbn [f_data]. rewrite Hs, Hd, app_nil_r.
  rewrite demux_meta by (unfold meta_id; auto; apply Hm).
  destruct (flags_derivation m) as (Fa & _). cbv zeta in Fa.
  set (d1 := with_meta FCC_ICCP (m_icc m) _).
  assert (Hd1 : d_frames d1 = [] /\ ft_anim (d_feat d1) = false).
  { unfold d1. rewrite d_frames_with_meta. split; [reflexivity|]. destruct (m_icc m); cbn; rewrite Fa; exact Hanim. }
  destruct (demux_image d1 a b w h isl abit (optl FCC_EXIF (m_exif m) ++ optl FCC_XMP (m_xmp m)) Hbf Hoki
              (proj2 Hd1) (proj1 Hd1)) as (d2 & E2 & M2 & F2).
  rewrite E2, demux_meta by (unfold meta_id; auto; apply Hm).
  rewrite <- (app_nil_r (optl FCC_XMP _)), demux_meta by (unfold meta_id; auto; apply Hm).
  cbn [demux_chunks bind]. rewrite !d_frames_with_meta, F2.
  change (len [_] =? 0) with false. cbv iota.
  eexists. split; [reflexivity|].
  rewrite view_with_tail_meta, F2. destruct M2 as (-> & -> & -> & -> & -> & ->).
  unfold view_of_mux. rewrite Hanim, Hf. destruct (canvas_size m) as [cw ch]. cbn [fst snd] in *.
  cbn [map vframe_of_fi fi_data fi_alpha fi_ox fi_oy fi_dur fi_blend fi_dispose all_some].
  unfold vframe_of. cbn [f_data f_opts]. rewrite Hparts, Hox, Hoy, Hd0.
  unfold d1. destruct (m_icc m); cbn; rewrite Fa, Hanim; destruct (m_exif m), (m_xmp m); reflexivity.
Qed.

Lemma bytes_okb_ok d : bytes_okb d = true -> bytes_ok d.
Proof.
  unfold bytes_okb, bytes_ok. rewrite forallb_forall, Forall_forall. intros H x Hx.
  specialize (H x Hx). unfold is_byte. lia.
Qed.

Lemma oblob_ok_meta o : oblob_okb o = true -> ometa_ok o.
Proof.
  destruct o as [p|]; cbn; [|auto]. intros H. apply andb_true_iff in H. destruct H as [H1 H2].
  split; [apply bytes_okb_ok; exact H1|unfold maxMetadataSize; lia].
Qed.

Lemma clamp_duration_range d : 0 <= clamp_duration d <= maxDuration.
Proof. unfold clamp_duration, maxDuration. destruct (d <? 0) eqn:E1; [lia|]. destruct (d >? 16777215) eqn:E2; lia. Qed.

Lemma upd_nth_ok fs : forall i g, Forall mframe_ok fs ->
  (forall f, mframe_ok f -> mframe_ok (mkmf (f_data f) (g (f_opts f)))) -> Forall mframe_ok (upd_nth fs i g).
Proof.
  induction fs as [|f fs IH]; intros i g H Hg; cbn [upd_nth]; [constructor|].
  inversion H; subst. destruct i; constructor; auto.
Qed.

Lemma upd_nth_length fs : forall i g, length (upd_nth fs i g) = length fs.
Proof. induction fs as [|f fs IH]; intros [|i] g; cbn; auto. Qed.

Lemma run_invariant (P : mstate -> Prop) (Q : op -> Prop) :
  P minit -> (forall m o, Q o -> P m -> P (fst (step m o))) -> forall ops, Forall Q ops -> P (run ops).
Proof.
  intros H0 Hstep ops. unfold run. revert H0. generalize minit.
  induction ops as [|o ops IH]; intros m Hm H; cbn [fold_left]; [exact Hm|].
  inversion H; subst. apply IH; auto.
Qed.

(** MuxModel.MaxFrames = DemuxModel.maxFrames, both tied to the source *)
Lemma step_frames_bounded m o : len (m_frames m) <= MaxFrames -> len (m_frames (fst (step m o))) <= MaxFrames.
Proof.
  intros H. destruct o; cbn [step]; try exact H.
  - destruct (len data =? 0); [exact H|].
    destruct (Z.geb_spec (len (m_frames m)) MaxFrames); [exact H|]. cbn [fst MuxModel.set_frames m_frames].
    rewrite len_app. unfold len at 2. cbn [length]. lia.
  - cbn [fst]. unfold upd_frame. destruct ((0 <=? i) && (i <? len (m_frames m))); [|exact H].
    cbn [MuxModel.set_frames m_frames]. unfold len. rewrite upd_nth_length. exact H.
  - cbn [fst]. unfold upd_frame. destruct ((0 <=? i) && (i <? len (m_frames m))); [|exact H].
    cbn [MuxModel.set_frames m_frames]. unfold len. rewrite upd_nth_length. exact H.
  - destruct (olen d >? maxMetadataSize); [exact H|].
    destruct (id =? FCC_ICCP); [exact H|]. destruct (id =? FCC_EXIF); [exact H|]. destruct (id =? FCC_XMP); exact H.
Qed.

Lemma step_mok m o : op_ok o -> mok m -> mok (fst (step m o)).
Proof.
  intros Ho Hm. pose proof (step_frames_bounded m o (mk_n m Hm)) as Hn'. revert Hn'.
  destruct Hm as [Hf Hi He Hx Hbg Hlp Hn]. unfold op_ok in Ho. destruct o; cbn [step op_okb] in *; intros Hn'.
  - (* AddFrame *)
    destruct (len data =? 0); [constructor; auto|].
    destruct (Z.geb_spec (len (m_frames m)) MaxFrames); [constructor; auto|]. cbn [fst] in *.
    rewrite !andb_true_iff in Ho. destruct Ho as [[Hb Hv] _].
    unfold blob_okb in Hb. apply andb_true_iff in Hb. destruct Hb as [Hb1 Hb2].
    constructor; cbn [MuxModel.set_frames m_frames m_icc m_exif m_xmp m_bg m_loop] in *; auto.
    apply Forall_app. split; [exact Hf|]. constructor; [|constructor].
    unfold mframe_ok. cbn [f_data f_opts o_dur].
    split; [apply bytes_okb_ok; exact Hb1|]. split; [lia|]. split; [exact Hv|apply clamp_duration_range].
  - (* SetFrameDisposeMode *)
    cbn [fst] in *. unfold upd_frame in *. destruct ((0 <=? i) && (i <? len (m_frames m))); [|constructor; auto].
    constructor; cbn [MuxModel.set_frames m_frames m_icc m_exif m_xmp m_bg m_loop] in *; auto.
    apply upd_nth_ok; auto.
  - (* SetFrameDuration *)
    cbn [fst] in *. unfold upd_frame in *. destruct ((0 <=? i) && (i <? len (m_frames m))); [|constructor; auto].
    constructor; cbn [MuxModel.set_frames m_frames m_icc m_exif m_xmp m_bg m_loop] in *; auto.
    apply upd_nth_ok; auto. intros f (A & B & C & D). unfold mframe_ok. cbn [f_data f_opts o_dur].
    repeat split; auto; apply clamp_duration_range.
  - cbn [fst]. constructor; cbn; auto using oblob_ok_meta.
  - cbn [fst]. constructor; cbn; auto using oblob_ok_meta.
  - cbn [fst]. constructor; cbn; auto using oblob_ok_meta.
  - (* AddChunk *)
    rewrite !andb_true_iff in Ho. destruct Ho as [_ Ho]. apply oblob_ok_meta in Ho.
    destruct (olen d >? maxMetadataSize); [constructor; auto|].
    destruct (id =? FCC_ICCP); [constructor; cbn; auto|].
    destruct (id =? FCC_EXIF); [constructor; cbn; auto|].
    destruct (id =? FCC_XMP); constructor; cbn; auto.
  - (* SetLoopCount *)
    cbn [fst]. constructor; cbn [m_frames m_icc m_exif m_xmp m_bg m_loop]; auto.
    unfold maxLoopCount. destruct (n <? 0) eqn:E1; [lia|]. destruct (n >? 65535) eqn:E2; lia.
  - cbn [fst]. constructor; cbn [m_frames m_icc m_exif m_xmp m_bg m_loop]; auto. lia.
  - cbn [fst]. constructor; cbn [m_frames m_icc m_exif m_xmp m_bg m_loop]; auto.
  - cbn [fst]. constructor; auto.
Qed.

(** Assemble inside a history reads the state and never changes it *)
Lemma step_assemble_call m : fst (step m AssembleCall) = m.
Proof. reflexivity. Qed.

Lemma run_ignores_assemble_calls ops :
  run ops = run (filter (fun o => match o with AssembleCall => false | _ => true end) ops).
Proof.
  unfold run. generalize minit. induction ops as [|o ops IH]; intros m; [reflexivity|].
  cbn [fold_left filter]. destruct o; cbn [fold_left]; try apply IH.
Qed.

Lemma frames_bounded ops : len (m_frames (run ops)) <= maxFrames.
Proof.
  change maxFrames with MaxFrames.
  apply (run_invariant (fun m => len (m_frames m) <= MaxFrames) (fun _ => True)).
  - unfold len, MaxFrames. cbn. lia.
  - intros m o _. apply step_frames_bounded.
  - apply Forall_forall. auto.
Qed.

Lemma run_mok ops : Forall op_ok ops -> mok (run ops).
Proof.
  apply (run_invariant mok op_ok); [|exact step_mok].
  constructor; cbn; auto; try lia. unfold len, MaxFrames. cbn. lia.
Qed.

Lemma validate_no_panic fx m : validate fx m <> Panic.
Proof.
  unfold validate. destruct (len (m_frames m) =? 0); [discriminate|].
  destruct (if is_animated m then _ else _); [discriminate|].
  destruct (_ || _ || _); [discriminate|]. destruct (canvas_size m) as [cw ch].
  destruct (fx_validate fx && _); [discriminate|]. destruct (forallb _ _); discriminate.
Qed.

Lemma assemble_no_panic m : assemble repaired m <> Panic.
Proof.
  unfold assemble. pose proof (validate_no_panic repaired m) as Hv.
  destruct (validate repaired m) as [[]|e|] eqn:Ev; [|discriminate|contradiction]. cbn [bind].
  destruct (needs_vp8x repaired m).
  - unfold assemble_extended. destruct (canvas_size m). destruct (_ >? _); discriminate.
  - (* assembleSimple indexes frames[0]; validate has refused an empty list *)
    unfold assemble_simple. destruct (m_frames m) eqn:Ef; [|discriminate].
    unfold validate in Ev. rewrite Ef in Ev. discriminate Ev.
Qed.

(** C14, extended layouts, EVERY history satisfying the hypotheses: if Assemble writes a VP8X
    file, its bytes are in range, the RIFF size field covers it exactly and the demuxer returns
    the view of what was put in.  Assemble never panics. *)
Theorem extended_roundtrip ops :
  Forall op_ok ops ->
  let m := run ops in
  match assemble repaired m with
  | Err _ => True
  | Panic => False
  | Ok bs =>
    needs_vp8x repaired m = true ->
    bytes_ok bs /\ rd32 (firstn 4 (skipn 4 bs)) + 8 = len bs /\
    match parse true bs with
    | Ok d => view_of_demux d = Some (view_of_mux m)
    | _ => False
    end
  end.
Proof.
  intros Hops m. pose proof (run_mok ops Hops) as Hm. fold m in Hm.
  destruct (assemble repaired m) as [bs|e|] eqn:Ha; [|exact I|exact (assemble_no_panic m Ha)].
  intros Hx.
  assert (H : bytes_ok bs /\ rd32 (firstn 4 (skipn 4 bs)) + 8 = len bs /\
              exists d, parse true bs = Ok d /\ view_of_demux d = Some (view_of_mux m)).
  { destruct (is_animated m) eqn:Han; [apply animated_roundtrip|apply still_ext_roundtrip]; assumption. }
  destruct H as (H1 & H2 & d & H3 & H4). rewrite H3. auto.
Qed.

(** The chunk switch refuses metadata above maxMetadataSize.  Only AddChunk checks the limit
    when a blob is set, but the current validate holds all three to it, and [op_okb] bounds
    metadata by it.  (Replayed on the Go code by harness/c14; a witness would be a 100 MB list.) *)
Lemma meta_too_large_demux_rejects d id n p rest :
  (id = FCC_ICCP \/ id = FCC_EXIF \/ id = FCC_XMP) -> len p > maxMetadataSize ->
  ext_dispatch d (mkchunk id n p) rest = Err E_meta.
Proof.
  intros Hid Hp. rewrite ext_dispatch_meta by exact Hid.
  replace (len p >? maxMetadataSize) with true by lia. reflexivity.
Qed.

(** The MaxChunkPayload guard is what keeps chunkTotalSize's uint32 arithmetic from wrapping.
    (ReadChunk itself adds in 64-bit int, modelled without wrap; routing it through the uint32
    helper or admitting MaxChunkPayload+1 is caught by the correspondence at the boundary.) *)
Lemma chunk_guard_no_u32_wrap d id sz : bytes_ok d -> read_chunk_header d = Ok (id, sz) ->
  chunk_total sz = 8 + sz + sz mod 2 /\ 8 + sz + sz mod 2 < 4294967296 /\ 0 <= sz.
Proof.
  intros Hb H. pose proof (read_chunk_header_spec d Hb) as Hs. rewrite H in Hs.
  destruct Hs as (_ & Hsz & _). rewrite chunk_total_small by exact Hsz. unfold MaxChunkPayload in Hsz. lia.
Qed.

Example chunk_guard_boundary :
  read_chunk_header ([65;66;67;68] ++ le32 4294967286) = Ok (1145258561, 4294967286) /\
  read_chunk_header ([65;66;67;68] ++ le32 4294967287) = Err E_big /\
  chunk_total 4294967287 = 0.
Proof. vm_compute. repeat split; reflexivity. Qed.
