(** C14: the files the current muxer writes in the extended (VP8X) layouts are well
    formed according to the independent container grammar [RiffGrammar.wf]: the grammar
    tiles the file into [vp8x_chunk m :: mux_chunks m] and accepts that sequence.  With
    MuxRoundtrip and the simple layout of MuxProofs this gives [roundtrip_current], the
    round trip with well-formedness for every history outside the still-canvas class. *)
From Coq Require Import List ZArith Lia Bool ZifyBool ZifyNat.
From Webp Require Import Base.Res Base.Bytes Riff.ChunkBytes Riff.RiffGrammar Riff.DemuxModel Riff.DemuxTotal
  Riff.MuxModel Riff.MuxView Riff.MuxProofs Riff.MuxRoundtrip.
Import ListNotations.
Open Scope Z_scope.

(** whether a picture carries alpha, as hasAlpha and the grammar have it: an ALPH chunk is
    present or the VP8L header says so (compare [MuxRoundtrip.has_a]) *)
Definition alpha_of (a : option (list Z)) (isl abit : bool) : bool := is_some a || (isl && abit).

Lemma image_data_written a b w h isl abit rest :
  bfacts b w h isl abit -> (a <> None -> isl = false) ->
  image_data (map gchunk_of (img_list a b ++ rest)) = Some (w, h, alpha_of a isl abit, map gchunk_of rest).
Proof.
  intros Hbf Hla. pose proof (bf_type _ _ _ _ _ Hbf) as Ht. pose proof (bf_hdr _ _ _ _ _ Hbf) as Hh.
  unfold img_list, alpha_of. destruct a as [x|]; cbn [app map gchunk_of fst snd image_data is_some orb]; rewrite Ht.
  - rewrite (Hla ltac:(discriminate)) in *. destruct Hh as (Hv & _ & _).
    change (bytes_eqb (le32 FCC_ALPH) T_VP8L) with false. change (bytes_eqb (le32 FCC_ALPH) T_VP8) with false.
    change (bytes_eqb (le32 FCC_ALPH) T_ALPH) with true. change (bytes_eqb (le32 FCC_VP8) T_VP8) with true.
    cbv iota. rewrite Hv. reflexivity.
  - destruct isl.
    + destruct Hh as (Hv & _). change (bytes_eqb (le32 FCC_VP8L) T_VP8L) with true. cbv iota. rewrite Hv. reflexivity.
    + destruct Hh as (Hv & _ & ->). change (bytes_eqb (le32 FCC_VP8) T_VP8L) with false.
      change (bytes_eqb (le32 FCC_VP8) T_VP8) with true. cbv iota. rewrite Hv. reflexivity.
Qed.

Lemma anmf_ok_written fo a b w h isl abit cw ch :
  bfacts b w h isl abit -> (a <> None -> isl = false) -> Forall chunk_ok (img_list a b) ->
  0 <= o_ox fo < 33554432 -> 0 <= o_oy fo < 33554432 -> 0 <= o_dur fo <= maxDuration ->
  o_ox fo + w <= cw -> o_oy fo + h <= ch ->
  anmf_ok cw ch (anmf_payload fo a b w h) = Some (alpha_of a isl abit).
Proof.
  intros Hbf Hla Hok Hox Hoy Hdur Hfx Hfy.
  pose proof (bf_w _ _ _ _ _ Hbf) as Hw. pose proof (bf_h _ _ _ _ _ Hbf) as Hh.
  pose proof (flat_map_genc_len (img_list a b)) as Hfuel.
  unfold anmf_ok, anmf_payload, anmf_hdr, le24. cbn [app].
  rewrite (Z.quot_div_nonneg (o_ox fo) 2) by lia. rewrite (Z.quot_div_nonneg (o_oy fo) 2) by lia.
  rewrite !rd24_le24_bytes by lia.
  assert (Hfl : (anmf_flag fo / 4 =? 0) = true).
  { unfold anmf_flag. destruct (o_dispose fo =? 1), (o_blend fo =? 1); reflexivity. }
  rewrite Hfl. cbn [negb].
  rewrite (chunks_written _ Hok) by (unfold len in Hfuel; lia).
  rewrite <- (app_nil_r (img_list a b)), (image_data_written a b w h isl abit [] Hbf Hla). cbn [map].
  replace (w =? 1 + (w - 1)) with true by lia. replace (h =? 1 + (h - 1)) with true by lia.
  replace (2 * (o_ox fo / 2) + (1 + (w - 1)) <=? cw) with true by lia.
  replace (2 * (o_oy fo / 2) + (1 + (h - 1)) <=? ch) with true by lia.
  reflexivity.
Qed.

(** hasAlpha's per-frame test: the body of the [existsb] in [MuxModel.has_alpha], copied
    verbatim because the model has no name for it *)
Definition hap (data : list Z) : bool :=
  ((len data >=? 12) && (rd32 (firstn 4 data) =? FCC_ALPH))
  || ((len data >=? 5) &&
      match data with
      | b0 :: _ => (b0 =? VP8LMagicByte) &&
                   match parse_vp8l_dims data with Ok (_, _, a) => a | _ => false end
      | [] => false
      end).

Lemma has_alpha_hap m : has_alpha m = existsb (fun f => hap (f_data f)) (m_frames m).
Proof. reflexivity. Qed.

Lemma hap_facts data a b w h isl abit : vfacts data a b w h isl abit -> hap data = alpha_of a isl abit.
Proof.
  intros [Hparts Hsplit _ Hbf Hbb Hab Hlen Hla Hl8]. unfold hap, alpha_of.
  pose proof (bf_len _ _ _ _ _ Hbf) as H5. pose proof (len_nonneg b).
  destruct a as [x|].
  - destruct (Hl8 ltac:(discriminate)) as [H8 Ht]. cbn [olen] in *. pose proof (len_nonneg x).
    rewrite Ht. change (rd32 T_ALPH =? FCC_ALPH) with true.
    replace (len data >=? 12) with true by lia. reflexivity.
  - pose proof (frame_parts_plain _ _ Hparts). subst b. cbn [is_some orb].
    assert (Hna : (rd32 (firstn 4 data) =? FCC_ALPH) = false).
    { destruct data as [|x0 [|x1 [|x2 [|x3 tl]]]]; try (unfold len in H5; cbn in H5; lia).
      cbn [firstn]. apply Z.eqb_neq. eapply (bf_notalph _ _ _ _ _ Hbf). reflexivity. }
    rewrite Hna, andb_false_r. cbn [orb].
    replace (len data >=? 5) with true by lia. cbn [andb].
    pose proof (bf_type _ _ _ _ _ Hbf) as Ht. pose proof (bf_hdr _ _ _ _ _ Hbf) as Hh.
    destruct data as [|b0 tl]; [unfold len in H5; cbn in H5; lia|].
    unfold detect_type in Ht. destruct (b0 =? VP8LMagicByte) eqn:E0.
    + destruct isl; [|discriminate]. destruct Hh as (_ & Hp). rewrite Hp. reflexivity.
    + destruct isl; [discriminate|]. reflexivity.
Qed.

Lemma anmf_frame cw ch f : aframe_ok f -> fits cw ch f ->
  exists p, frame_chunks true f = [(FCC_ANMF, p)] /\ anmf_ok cw ch p = Some (hap (f_data f)).
Proof.
  intros [Hb Hl Hv Hox Hoy Hdur] [Hfx Hfy]. destruct f as [data fo]. cbn [f_data f_opts] in *.
  destruct (valid_frame_facts data Hb Hv) as (a & b & w & h & isl & abit & Hvf).
  pose proof Hvf as [_ Hsplit Hd Hbf Hbb Hab Hlen Hla _].
  destruct (img_written a b ltac:(lia) Hab Hbb) as [_ _ Hok].
  rewrite Hd in Hfx, Hfy. cbn [fst snd] in *.
  unfold frame_chunks. cbn [f_data f_opts]. rewrite Hsplit, Hd. eexists. split; [reflexivity|].
  rewrite (hap_facts _ _ _ _ _ _ _ Hvf). apply anmf_ok_written; auto.
Qed.

Definition not_anmf_head (cs : list (Z * list Z)) : Prop :=
  match cs with (id, _) :: _ => bytes_eqb (le32 id) T_ANMF = false | [] => True end.

Lemma anmf_run_written cw ch fs rest :
  Forall (fun f => aframe_ok f /\ fits cw ch f) fs -> not_anmf_head rest ->
  RiffGrammar.anmf_run cw ch (map gchunk_of (flat_map (frame_chunks true) fs ++ rest)) =
    Some (existsb (fun f => hap (f_data f)) fs, length fs, map gchunk_of rest).
Proof.
  intros H Hrest. induction H as [|f fs [Hf Hfit] _ IH]; cbn [flat_map app existsb length].
  - destruct rest as [|[id p] tl]; [reflexivity|]. cbn [map gchunk_of fst snd RiffGrammar.anmf_run].
    change (bytes_eqb (le32 id) T_ANMF = false) in Hrest. rewrite Hrest. reflexivity.
  - destruct (anmf_frame cw ch f Hf Hfit) as (p & E & Hok). rewrite E.
    cbn [app map gchunk_of fst snd RiffGrammar.anmf_run].
    change (bytes_eqb (le32 FCC_ANMF) T_ANMF) with true. cbv iota. rewrite Hok, IH. reflexivity.
Qed.

Lemma take_opt_optl id o rest :
  match rest with (id', _) :: _ => bytes_eqb (le32 id') (le32 id) = false | [] => True end ->
  take_opt (le32 id) (map gchunk_of (optl id o ++ rest)) = (is_some o, map gchunk_of rest).
Proof.
  intros Hr. destruct o as [p|]; cbn [optl app map gchunk_of fst snd take_opt is_some].
  - rewrite bytes_eqb_refl. reflexivity.
  - destruct rest as [|[id' p'] tl]; [reflexivity|]. cbn [map gchunk_of fst snd take_opt]. rewrite Hr. reflexivity.
Qed.

Lemma tail_take oe ox :
  take_opt T_EXIF (map gchunk_of (optl FCC_EXIF oe ++ optl FCC_XMP ox)) = (is_some oe, map gchunk_of (optl FCC_XMP ox)) /\
  take_opt T_XMP (map gchunk_of (optl FCC_XMP ox)) = (is_some ox, []).
Proof.
  split.
  - change T_EXIF with (le32 FCC_EXIF). apply take_opt_optl. destruct ox; [reflexivity|exact I].
  - change T_XMP with (le32 FCC_XMP). rewrite <- (app_nil_r (optl FCC_XMP ox)). apply (take_opt_optl FCC_XMP ox []). exact I.
Qed.

Lemma ext_ok_anim m cw ch :
  is_animated m = true -> m_frames m <> [] ->
  1 <= cw <= 16777216 -> 1 <= ch <= 16777216 -> cw * ch < MaxImageArea ->
  Forall (fun f => aframe_ok f /\ fits cw ch f) (m_frames m) ->
  ext_ok (vp8x_payload (vp8x_flags m) cw ch) (map gchunk_of (mux_chunks m)) = true.
Proof.
  intros Hanim Hne Hcw Hch Harea Hfs. unfold MaxImageArea in Harea.
  unfold mux_chunks, ext_ok, vp8x_payload, le24. rewrite Hanim. cbn [app].
  rewrite !rd24_le24_bytes by lia.
  replace (1 + (cw - 1)) with cw by lia. replace (1 + (ch - 1)) with ch by lia.
  replace (cw * ch <=? 4294967295) with true by lia.
  destruct (flags_derivation m) as (Fa & Fi & Fe & Fx & Fal & F0 & F64). cbv zeta in *.
  rewrite F0, F64, Fi, Fa, Fe, Fx, Fal, Hanim.
  cbn [Z.eqb andb].
  change T_ICCP with (le32 FCC_ICCP). rewrite take_opt_optl by reflexivity. rewrite Bool.eqb_reflx.
  cbn [andb map gchunk_of anim_chunk fst snd].
  change (bytes_eqb (le32 FCC_ANIM) T_ANIM) with true. change (glen (le32 (m_bg m) ++ le16 (m_loop m)) =? 6) with true.
  cbn [andb].
  rewrite (anmf_run_written cw ch (m_frames m) _ Hfs) by (destruct (m_exif m), (m_xmp m); cbn; auto).
  destruct (tail_take (m_exif m) (m_xmp m)) as [T1 T2]. rewrite T1, T2.
  rewrite has_alpha_hap, !Bool.eqb_reflx. cbn [andb].
  destruct (m_frames m); [contradiction|reflexivity].
Qed.

Theorem animated_wf m bs :
  mok m -> is_animated m = true -> assemble repaired m = Ok bs -> wf bs = true.
Proof.
  intros Hm Hanim Hasm.
  assert (Hx : needs_vp8x repaired m = true) by (unfold needs_vp8x; rewrite Hanim; reflexivity).
  destruct (assemble_shape m bs Hm Hx Hasm) as (Hval & -> & Hlt & Hok).
  destruct (validate_facts m Hm Hval) as (Hne & Hcw & Hch & Harea & _ & Hfs).
  pose proof (canvas_size_pos m) as [Hcw1 Hch1]. unfold MaxCanvasSize in *.
  rewrite wf_riff_file by assumption. apply ext_ok_anim; auto; lia.
Qed.

Lemma ext_ok_still m data fo a b w h isl abit :
  is_animated m = false -> m_frames m = [mkmf data fo] -> vfacts data a b w h isl abit ->
  w * h < MaxImageArea ->
  ext_ok (vp8x_payload (vp8x_flags m) w h) (map gchunk_of (mux_chunks m)) = true.
Proof.
  intros Hanim Hf Hvf Harea. unfold MaxImageArea in Harea.
  pose proof Hvf as [_ Hsplit Hd Hbf Hbb Hab Hlen Hla _].
  pose proof (bf_w _ _ _ _ _ Hbf) as Hw. pose proof (bf_h _ _ _ _ _ Hbf) as Hh. pose proof (bf_type _ _ _ _ _ Hbf) as Ht.
  unfold mux_chunks, ext_ok, vp8x_payload, le24. rewrite Hanim, Hf. cbn [app flat_map].
  unfold frame_chunks. cbn [f_data]. rewrite Hsplit, Hd, app_nil_r.
  rewrite !rd24_le24_bytes by lia.
  replace (1 + (w - 1)) with w by lia. replace (1 + (h - 1)) with h by lia.
  replace (w * h <=? 4294967295) with true by lia.
  destruct (flags_derivation m) as (Fa & Fi & Fe & Fx & Fal & F0 & F64). cbv zeta in *.
  rewrite F0, F64, Fi, Fa, Fe, Fx, Fal, Hanim.
  cbn [Z.eqb andb].
  change T_ICCP with (le32 FCC_ICCP). rewrite take_opt_optl.
  2:{ unfold img_list. destruct a; cbn [app]; [reflexivity|]. rewrite Ht. destruct isl; reflexivity. }
  rewrite Bool.eqb_reflx. cbn [andb].
  rewrite (image_data_written a b w h isl abit _ Hbf Hla), !Z.eqb_refl.
  destruct (tail_take (m_exif m) (m_xmp m)) as [T1 T2]. rewrite T1, T2.
  rewrite has_alpha_hap, Hf. cbn [existsb f_data]. rewrite orb_false_r, (hap_facts _ _ _ _ _ _ _ Hvf).
  rewrite !Bool.eqb_reflx. reflexivity.
Qed.

(** A still picture written in the extended layout is well formed when its canvas is the
    picture (no SetCanvasSize, or the picture's own size: the case excluded here is the
    known finding "still-canvas"). *)
Theorem still_ext_wf m bs :
  mok m -> is_animated m = false -> needs_vp8x repaired m = true ->
  (forall f, m_frames m = [f] -> canvas_size m = frame_dims (f_data f)) ->
  assemble repaired m = Ok bs -> wf bs = true.
Proof.
  intros Hm Hanim Hx Hcanvas Hasm.
  destruct (assemble_shape m bs Hm Hx Hasm) as (Hval & -> & Hlt & Hok).
  destruct (validate_facts m Hm Hval) as (_ & _ & _ & Harea & Hone & Hfs).
  destruct (Hone Hanim) as (f & Hf & _). specialize (Hcanvas f Hf). rewrite Hf in Hfs.
  inversion Hfs as [|? ? ([Hb Hl Hv _ _ _] & _) _]; subst.
  destruct f as [data fo]. cbn [f_data f_opts] in *.
  destruct (valid_frame_facts data Hb Hv) as (a & b & w & h & isl & abit & Hvf).
  rewrite (vf_dims _ _ _ _ _ _ _ Hvf) in Hcanvas.
  rewrite wf_riff_file by assumption. unfold vp8x_chunk. rewrite Hcanvas in *. cbn [fst snd] in *.
  eapply ext_ok_still; eauto.
Qed.

Definition still_canvas_ok (m : mstate) : Prop :=
  is_animated m = true \/ forall f, m_frames m = [f] -> canvas_size m = frame_dims (f_data f).

Lemma simple_roundtrip_view m bs :
  mok m -> needs_vp8x repaired m = false -> still_canvas_ok m -> assemble repaired m = Ok bs ->
  wf bs = true /\ match parse true bs with Ok d => view_of_demux d = Some (view_of_mux m) | _ => False end.
Proof.
  intros Hm Hx Hsc Hasm.
  destruct (proj1 (needs_vp8x_iff repaired m) Hx) as (Hanim & Hicc & Hexif & Hxmp & Hac).
  specialize (Hac eq_refl).
  assert (Hval : validate repaired m = Ok tt).
  { unfold assemble in Hasm. destruct (validate repaired m) as [[]|e|]; cbn [bind] in Hasm; try discriminate. reflexivity. }
  destruct (validate_facts m Hm Hval) as (_ & _ & _ & _ & Hone & Hfs).
  destruct (Hone Hanim) as (f & Hf & Hox & Hoy & Hd0). rewrite Hf in Hfs.
  destruct Hsc as [Hc|Hc]; [congruence|]. specialize (Hc f Hf).
  inversion Hfs as [|? ? ([Hb Hl Hv _ _ _] & _) _]; subst.
  destruct f as [data fo]. cbn [f_data f_opts] in *.
  destruct (valid_frame_facts data Hb Hv) as (a & b & w & h & isl & abit & [Hparts Hsplit _ Hbf Hbb Hab Hlen Hla _]).
  (* no ALPH prefix, or VP8X would have been needed *)
  unfold has_alpha_chunk in Hac. rewrite Hf in Hac. cbn [existsb f_data] in Hac. rewrite Hsplit in Hac.
  cbn [fst] in Hac. rewrite orb_false_r in Hac. destruct a as [x|]; [discriminate|].
  pose proof (frame_parts_plain _ _ Hparts). subst b.
  assert (Hhdr : (is_some' (vp8_header data) || is_some' (vp8l_header data)) = true).
  { pose proof (bf_hdr _ _ _ _ _ Hbf) as Hh. destruct isl; destruct Hh as (Hh & _); rewrite Hh; cbn; auto using orb_true_r. }
  destruct (simple_layout_roundtrip repaired true data fo m Hf Hx Hval Hb ltac:(lia) Hparts Hhdr)
    as (bs' & Ha' & Hwf & Hp).
  assert (bs' = bs) by congruence. subst bs'. split; [exact Hwf|].
  destruct (parse true bs) as [d|e|]; try contradiction.
  destruct Hp as ((ha & Hfrs) & P1 & P2 & P3 & P4 & P5 & P6 & P7).
  unfold view_of_demux, view_of_mux. rewrite Hfrs, Hanim, Hf, Hc.
  cbn [map vframe_of_fi fi_data fi_alpha fi_ox fi_oy fi_dur fi_blend fi_dispose all_some].
  unfold vframe_of. cbn [f_data f_opts]. rewrite Hparts, Hox, Hoy, Hd0.
  rewrite P1, P2, P3, P4, P5, P6, Hicc, Hexif, Hxmp.
  destruct (frame_dims data) as [fw fh]. injection P7 as -> ->. reflexivity.
Qed.

(** C14 for the current code: for every history of Muxer calls satisfying the hypotheses
    whose final state is not in the still-canvas class, Assemble returns an error or a
    well-formed container that demuxes to exactly the view of what was put in; it never
    panics. *)
Theorem roundtrip_current ops :
  Forall op_ok ops ->
  let m := run ops in
  still_canvas_ok m ->
  match assemble repaired m with
  | Err _ => True
  | Panic => False
  | Ok bs =>
    wf bs = true /\
    match parse true bs with
    | Ok d => view_of_demux d = Some (view_of_mux m)
    | _ => False
    end
  end.
Proof.
  intros Hops m Hsc. pose proof (run_mok ops Hops) as Hm. fold m in Hm.
  destruct (assemble repaired m) as [bs|e|] eqn:Ha; [|exact I|exact (assemble_no_panic m Ha)].
  destruct (needs_vp8x repaired m) eqn:Hx.
  - destruct (is_animated m) eqn:Han.
    + split; [eapply animated_wf; eauto|].
      destruct (animated_roundtrip m bs Hm Han Ha) as (_ & _ & d & H3 & H4). rewrite H3. exact H4.
    + split.
      * eapply still_ext_wf; eauto. destruct Hsc as [Hc|Hc]; [congruence|exact Hc].
      * destruct (still_ext_roundtrip m bs Hm Han Hx Ha) as (_ & _ & d & H3 & H4). rewrite H3. exact H4.
  - apply simple_roundtrip_view; auto.
Qed.
