(** Specification => implementation: every byte file that the specification
    walker judges a well-formed still ([riff_wf]) is accepted by the parser
    model (both variants) as a still, and the parser's frame holds exactly the
    image / ALPH payloads the walker finds, with the size the VP8X canvas and the
    bitstream header declare. *)
From Coq Require Import List ZArith Lia Bool.
From Coq Require Import ZifyBool ZifyNat.
From Webp Require Import Base.Res Base.Bytes Riff.ParserModel Riff.ParserLemmas Riff.ParserSpec
     Riff.WriterModel Riff.WriterProofs Riff.FeaturesModel Riff.MetadataProofs Riff.ParserProofs
     Riff.WriterTheorems Riff.FeaturesProofs.
Import ListNotations.
Open Scope Z_scope.

Lemma skipn_S_of {A} : forall n (l : list A) p tl, skipn n l = p :: tl -> skipn (S n) l = tl.
Proof.
  induction n as [|n IH]; intros l p tl H.
  - cbn in H. subst l. reflexivity.
  - destruct l as [|x l]; [discriminate|]. cbn [skipn] in *. apply (IH _ _ _ H).
Qed.

Lemma walk_cons_inv : forall fuel buf id d cs,
  bytes_ok buf -> walk fuel buf = Some ((id, d) :: cs) ->
  exists rest fuel', buf = chunk id d ++ rest /\ walk fuel' rest = Some cs /\ bytes_ok rest /\
                     bytes_ok d /\ 0 <= id < 4294967296 /\ len d < 4294967296.
Proof.
  intros fuel buf id d cs Hb H.
  destruct buf as [|a0 buf]; [destruct fuel; cbn in H; discriminate|].
  destruct fuel as [|fuel]; [cbn in H; discriminate|].
  destruct buf as [|a1 [|a2 [|a3 [|s0 [|s1 [|s2 [|s3 rest0]]]]]]]; try (cbn in H; discriminate).
  cbn [walk] in H.
  remember (rd32 [s0; s1; s2; s3]) as size eqn:Hsize.
  remember (rd32 [a0; a1; a2; a3]) as idv eqn:Hidv.
  assert (Hbr : bytes_ok rest0 /\ 0 <= size < 4294967296 /\ 0 <= idv < 4294967296 /\
                le32 idv = [a0; a1; a2; a3] /\ le32 size = [s0; s1; s2; s3]).
  { subst size idv. rewrite !bytes_ok_cons in Hb. destruct Hb as (A0 & A1 & A2 & A3 & S0 & S1 & S2 & S3 & Hb).
    split; [assumption|]. split; [apply rd32_bound; assumption|].
    split; [apply rd32_bound; assumption|]. split; apply le32_rd32; assumption. }
  destruct Hbr as (Hbr & Hsz & Hid & Hle_id & Hle_sz).
  destruct (Z.leb_spec (size + size mod 2) (len rest0)) as [Hfit|]; [|discriminate].
  destruct (if size mod 2 =? 0 then true
            else match skipn (Z.to_nat size) rest0 with p :: _ => p =? 0 | [] => false end) eqn:Epad;
    [|discriminate].
  destruct (walk fuel (skipn (Z.to_nat (size + size mod 2)) rest0)) as [cs'|] eqn:Ew; [|discriminate].
  injection H as <- <- <-.
  exists (skipn (Z.to_nat (size + size mod 2)) rest0), fuel.
  assert (Hlend : len (firstn (Z.to_nat size) rest0) = size) by (apply len_firstn; lia).
  split.
  - unfold chunk. rewrite Hlend, Hle_id, Hle_sz. cbn [app]. do 8 f_equal.
    rewrite <- app_assoc. rewrite <- (firstn_skipn (Z.to_nat size) rest0) at 1. f_equal.
    unfold pad. destruct (Z.eqb_spec (size mod 2) 0) as [E|E].
    + rewrite E, Z.add_0_r. reflexivity.
    + replace (size mod 2) with 1 in * by lia.
      replace (Z.to_nat (size + 1)) with (S (Z.to_nat size)) by lia.
      destruct (skipn (Z.to_nat size) rest0) as [|p tl] eqn:Es.
      * discriminate.
      * apply Z.eqb_eq in Epad. subst p. cbn [app]. f_equal.
        symmetry. apply (skipn_S_of _ _ _ _ Es).
  - split; [exact Ew|]. split; [apply bytes_ok_skipn; exact Hbr|].
    split; [apply bytes_ok_firstn; exact Hbr|]. split; [exact Hid|]. lia.
Qed.

Lemma walk_nil_inv : forall fuel buf, walk fuel buf = Some [] -> buf = [].
Proof.
  intros fuel buf H. destruct buf as [|a0 buf]; [reflexivity|exfalso].
  destruct fuel as [|fuel]; [cbn in H; discriminate|].
  destruct buf as [|a1 [|a2 [|a3 [|s0 [|s1 [|s2 [|s3 rest0]]]]]]]; try (cbn in H; discriminate).
  cbn [walk] in H.
  destruct (_ <=? _); [|discriminate].
  match type of H with (if ?c then _ else _) = _ => destruct c; [|discriminate] end.
  destruct (walk fuel _); discriminate.
Qed.

Definition optl (id : Z) (o : option (list Z)) : list (Z * list Z) :=
  match o with Some d => [(id, d)] | None => [] end.
Definition optc (id : Z) (o : option (list Z)) : list Z :=
  match o with Some d => chunk id d | None => [] end.

Lemma take_opt_spec id cs o tl : take_opt id cs = (o, tl) -> cs = optl id o ++ tl.
Proof.
  unfold take_opt. destruct cs as [|[i d] cs'].
  - intros [= <- <-]. reflexivity.
  - destruct (Z.eqb_spec i id) as [->|]; intros [= <- <-]; reflexivity.
Qed.

Lemma walk_optl_inv fuel buf id o cs :
  bytes_ok buf -> walk fuel buf = Some (optl id o ++ cs) ->
  exists rest fuel', buf = optc id o ++ rest /\ walk fuel' rest = Some cs /\ bytes_ok rest /\
                     match o with Some d => bytes_ok d /\ len d < 4294967296 | None => True end.
Proof.
  intros Hb H. destruct o as [d|]; cbn [optl optc app] in *.
  - destruct (walk_cons_inv _ _ _ _ _ Hb H) as (rest & fuel' & E & Hw & Hr & Hd & _ & Hl).
    exists rest, fuel'. auto.
  - exists buf, fuel. auto.
Qed.

Lemma walk_optc_some fuel id o rest cs :
  0 <= id < 4294967296 -> (forall d, o = Some d -> len d < 4294967296) ->
  walk fuel rest = Some cs -> walk (S fuel) (optc id o ++ rest) = Some (optl id o ++ cs).
Proof.
  intros Hid Hd H. destruct o as [d|]; cbn [optc optl app].
  - apply walk_chunk_some; auto.
  - apply (walk_fuel_mono fuel); [exact H|lia].
Qed.

(** What a successful walk says of the chunk list and of the fuel, by induction on the list. *)
Lemma walk_facts : forall cs fuel buf,
  bytes_ok buf -> walk fuel buf = Some cs ->
  Forall (fun c => 0 <= fst c < 4294967296 /\ bytes_ok (snd c) /\ len (snd c) <= len buf) cs /\
  (8 * length cs <= length buf)%nat /\ len buf mod 2 = 0 /\
  forall fuel', (length cs <= fuel')%nat -> walk fuel' buf = Some cs.
Proof.
  induction cs as [|[id d] cs IH]; intros fuel buf Hb H.
  - apply walk_nil_inv in H. subst buf. split; [constructor|]. split; [cbn; lia|]. split; [reflexivity|].
    intros [|f] _; reflexivity.
  - destruct (walk_cons_inv _ _ _ _ _ Hb H) as (rest & f' & -> & Hw & Hr & Hd & Hid & Hl).
    destruct (IH _ _ Hr Hw) as (Hall & Hcnt & Hev & Hfu).
    assert (Hlen : len (chunk id d ++ rest) = 8 + len d + len d mod 2 + len rest).
    { rewrite len_app, len_chunk. unfold padded_chunk_size, ChunkHeaderSize. lia. }
    pose proof (len_nonneg d). pose proof (len_nonneg rest).
    split.
    { constructor; [cbn [fst snd]; repeat split; try assumption; lia|].
      eapply Forall_impl; [|exact Hall]. intros c (Hc1 & Hc2 & Hc3). split; [exact Hc1|]. split; [exact Hc2|lia]. }
    split; [unfold len in *; cbn [length]; lia|]. split; [lia|].
    intros [|fu] Hfu'; cbn [length] in Hfu'; [lia|]. apply walk_chunk_some; [assumption|lia|apply Hfu; lia].
Qed.

Lemma walk_payload_len cs fuel buf :
  bytes_ok buf -> walk fuel buf = Some cs -> Forall (fun c => len (snd c) <= len buf) cs.
Proof.
  intros Hb H. eapply Forall_impl; [|exact (proj1 (walk_facts _ _ _ Hb H))]. intros c Hc. apply Hc.
Qed.

Lemma walk_count fuel buf cs : bytes_ok buf -> walk fuel buf = Some cs -> (8 * length cs <= length buf)%nat.
Proof. intros Hb H. apply (walk_facts _ _ _ Hb H). Qed.

Lemma walk_any_fuel fuel fuel' buf cs :
  bytes_ok buf -> walk fuel buf = Some cs -> (length cs <= fuel')%nat -> walk fuel' buf = Some cs.
Proof. intros Hb H. apply (walk_facts _ _ _ Hb H). Qed.

Lemma riff_chunks_inv file cs :
  bytes_ok file -> riff_chunks file = Some cs ->
  exists body, file = le32 FourCCRIFF ++ le32 (4 + len body) ++ le32 FourCCWEBP ++ body /\
               walk (S (length body)) body = Some cs /\ bytes_ok body /\ 4 + len body < 4294967296.
Proof.
  intros Hb H.
  destruct file as [|r0 [|r1 [|r2 [|r3 [|s0 [|s1 [|s2 [|s3 [|w0 [|w1 [|w2 [|w3 body]]]]]]]]]]]];
    try discriminate.
  cbn [riff_chunks] in H.
  destruct (Z.eqb_spec (rd32 [r0; r1; r2; r3]) FourCCRIFF) as [ER|]; cbn [andb] in H; [|discriminate].
  destruct (Z.eqb_spec (rd32 [w0; w1; w2; w3]) FourCCWEBP) as [EW|]; cbn [andb] in H; [|discriminate].
  destruct (Z.eqb_spec (rd32 [s0; s1; s2; s3]) (len (r0 :: r1 :: r2 :: r3 :: s0 :: s1 :: s2 :: s3 :: w0 :: w1 :: w2 :: w3 :: body) - 8))
    as [ES|]; [|discriminate].
  rewrite !len_cons in ES.
  assert (Hbb : bytes_ok body /\ le32 (rd32 [r0; r1; r2; r3]) = [r0; r1; r2; r3] /\
                le32 (rd32 [s0; s1; s2; s3]) = [s0; s1; s2; s3] /\ le32 (rd32 [w0; w1; w2; w3]) = [w0; w1; w2; w3] /\
                0 <= rd32 [s0; s1; s2; s3] < 4294967296).
  { rewrite !bytes_ok_cons in Hb. destruct Hb as (R0 & R1 & R2 & R3 & S0 & S1 & S2 & S3 & W0 & W1 & W2 & W3 & Hb).
    split; [assumption|]. repeat split; try (apply le32_rd32; assumption); apply rd32_bound; assumption. }
  destruct Hbb as (Hbody & L1 & L2 & L3 & Hr).
  exists body. split.
  - rewrite <- ER, <- EW. replace (4 + len body) with (rd32 [s0; s1; s2; s3]) by lia.
    rewrite L1, L2, L3. reflexivity.
  - split; [exact H|]. split; [exact Hbody|]. lia.
Qed.

Lemma riff_chunks_hdr body :
  4 + len body < 4294967296 ->
  riff_chunks (le32 FourCCRIFF ++ le32 (4 + len body) ++ le32 FourCCWEBP ++ body) = walk (S (length body)) body.
Proof.
  intros Hs. pose proof (len_nonneg body). unfold le32. cbn [app riff_chunks].
  change (rd32 [FourCCRIFF mod 256; (FourCCRIFF / 256) mod 256; (FourCCRIFF / 65536) mod 256;
                (FourCCRIFF / 16777216) mod 256] =? FourCCRIFF) with true.
  change (rd32 [FourCCWEBP mod 256; (FourCCWEBP / 256) mod 256; (FourCCWEBP / 65536) mod 256;
                (FourCCWEBP / 16777216) mod 256] =? FourCCWEBP) with true.
  rewrite rd32_le32' by lia. rewrite !len_cons.
  destruct (Z.eqb_spec (4 + len body) (1 + (1 + (1 + (1 + (1 + (1 + (1 + (1 + (1 + (1 + (1 + (1 + len body))))))))))) - 8));
    [reflexivity|lia].
Qed.

Lemma still_layout_inv cs :
  still_layout_ok cs = true ->
  (exists id bs, cs = [(id, bs)] /\ is_some (image_dims id bs) = true) \/
  (exists flags w0 w1 w2 h0 h1 h2 icc alph id bs exif xmp w h a,
     cs = (FourCCVP8X, [flags; 0; 0; 0; w0; w1; w2; h0; h1; h2])
          :: optl FourCCICCP icc ++ optl FourCCALPH alph ++ (id, bs)
          :: optl FourCCEXIF exif ++ optl FourCCXMP xmp /\
     image_dims id bs = Some (w, h, a) /\ Z.land flags 195 = 0 /\
     Z.testbit flags 5 = is_some icc /\ Z.testbit flags 3 = is_some exif /\ Z.testbit flags 2 = is_some xmp /\
     Z.testbit flags 4 = (is_some alph || a) /\ (is_some alph = true -> id = FourCCVP8) /\
     1 + rd24 [w0; w1; w2] = w /\ 1 + rd24 [h0; h1; h2] = h).
Proof.
  intros H. destruct cs as [|[x p] rest]; [discriminate|].
  destruct rest as [|c2 rest2].
  { left. rewrite still_layout_single in H. eauto. }
  right. unfold still_layout_ok in H.
  destruct p as [|flags [|r1 [|r2 [|r3 [|w0 [|w1 [|w2 [|h0 [|h1 [|h2 [|? ?]]]]]]]]]]]; try discriminate.
  destruct (take_opt FourCCICCP (c2 :: rest2)) as [icc rest1] eqn:E1.
  destruct (take_opt FourCCALPH rest1) as [alph rest2'] eqn:E2.
  destruct rest2' as [|[id bs] rest3]; [discriminate|].
  destruct (take_opt FourCCEXIF rest3) as [exif rest4] eqn:E3.
  destruct (take_opt FourCCXMP rest4) as [xmp rest5] eqn:E4.
  destruct rest5; [|discriminate].
  destruct (image_dims id bs) as [[[w h] a]|] eqn:Ed; [|discriminate].
  rewrite !andb_true_iff in H.
  destruct H as (((((((((((Hx & Hr1) & Hr2) & Hr3) & Hl) & H5) & H3) & H2) & H4) & Hal) & Hw) & Hh).
  apply Z.eqb_eq in Hx, Hr1, Hr2, Hr3, Hl, Hw, Hh. apply eqb_prop in H5, H3, H2, H4. subst x r1 r2 r3.
  apply take_opt_spec in E1, E2, E3, E4. rewrite app_nil_r in E4. subst rest4 rest3 rest1. rewrite E1.
  exists flags, w0, w1, w2, h0, h1, h2, icc, alph, id, bs, exif, xmp, w, h, a.
  split; [reflexivity|]. repeat (split; [assumption|]). split; [|split; assumption].
  intros Ha. rewrite Ha in Hal. cbn [negb orb] in Hal. apply Z.eqb_eq in Hal. exact Hal.
Qed.

(** ** The VP8X flag byte: testbit / land (ParserSpec, ParserModel) vs div / mod (RiffGrammar) *)
Lemma flag_bits_bridge f : 0 <= f < 256 ->
  Z.testbit f 5 = negb ((f / 32) mod 2 =? 0) /\ Z.testbit f 4 = negb ((f / 16) mod 2 =? 0) /\
  Z.testbit f 3 = negb ((f / 8) mod 2 =? 0) /\ Z.testbit f 2 = negb ((f / 4) mod 2 =? 0) /\
  Z.testbit f 1 = negb ((f / 2) mod 2 =? 0) /\
  (Z.land f 195 =? 0) = ((f mod 2 =? 0) && (f / 64 =? 0) && ((f / 2) mod 2 =? 0)) /\
  (f mod 2 = 0 -> f / 64 = 0 -> Z.land f 4294967233 = 0).
Proof.
  intros Hr.
  assert (Hall : forallb (fun n => let v := Z.of_nat n in
      Bool.eqb (Z.testbit v 5) (negb ((v / 32) mod 2 =? 0)) && Bool.eqb (Z.testbit v 4) (negb ((v / 16) mod 2 =? 0)) &&
      Bool.eqb (Z.testbit v 3) (negb ((v / 8) mod 2 =? 0)) && Bool.eqb (Z.testbit v 2) (negb ((v / 4) mod 2 =? 0)) &&
      Bool.eqb (Z.testbit v 1) (negb ((v / 2) mod 2 =? 0)) &&
      Bool.eqb (Z.land v 195 =? 0) ((v mod 2 =? 0) && (v / 64 =? 0) && ((v / 2) mod 2 =? 0)) &&
      implb ((v mod 2 =? 0) && (v / 64 =? 0)) (Z.land v 4294967233 =? 0))
    (seq 0 256) = true) by (vm_compute; reflexivity).
  rewrite forallb_forall in Hall. specialize (Hall (Z.to_nat f) ltac:(apply in_seq; lia)).
  cbv zeta in Hall. rewrite Z2Nat.id in Hall by lia.
  rewrite !andb_true_iff in Hall. destruct Hall as ((((((H5 & H4) & H3) & H2) & H1) & H0) & Hl).
  apply eqb_prop in H5, H4, H3, H2, H1, H0. repeat (split; [assumption|]).
  intros Hm H64. rewrite Hm, H64 in Hl. apply Z.eqb_eq. exact Hl.
Qed.

Lemma flags_byte_facts f :
  0 <= f < 256 -> Z.land f 195 = 0 ->
  0 <= f < 64 /\ Z.land f 4294967233 = 0 /\ Z.testbit f 1 = false.
Proof.
  intros Hr Hl. destruct (flag_bits_bridge f Hr) as (_ & _ & _ & _ & G1 & G0 & Gl).
  rewrite Hl in G0. symmetry in G0. rewrite !andb_true_iff, !Z.eqb_eq in G0. destruct G0 as ((Hm & H64) & Han).
  split; [lia|]. split; [auto|]. rewrite G1, Han. reflexivity.
Qed.

Lemma image_dims_fourcc id bs w h a : image_dims id bs = Some (w, h, a) -> image_fourcc id.
Proof. intros H. destruct (image_dims_inv _ _ _ _ _ H) as [(-> & _)|(-> & _)]; [right|left]; reflexivity. Qed.

Lemma len_optc_le id o : forall x, o = Some x -> len x <= len (optc id o).
Proof.
  intros x ->. cbn [optc]. rewrite len_chunk. unfold padded_chunk_size, ChunkHeaderSize.
  pose proof (len_nonneg x). lia.
Qed.

Lemma still_body_parts p icc alph id bs tl :
  let body := chunk FourCCVP8X p ++ optc FourCCICCP icc ++ optc FourCCALPH alph ++ chunk id bs ++ tl in
  len bs <= len body /\ (forall x, icc = Some x -> len x <= len body) /\
  (forall x, alph = Some x -> len x <= len body) /\ len tl <= len body.
Proof.
  intros body.
  assert (H : len body = len (chunk FourCCVP8X p) + len (optc FourCCICCP icc) + len (optc FourCCALPH alph) +
                         len (chunk id bs) + len tl) by (subst body; rewrite !len_app; lia).
  pose proof (len_nonneg (chunk FourCCVP8X p)). pose proof (len_nonneg (optc FourCCICCP icc)).
  pose proof (len_nonneg (optc FourCCALPH alph)). pose proof (len_nonneg tl). pose proof (len_nonneg bs).
  rewrite (len_chunk id bs) in H. unfold padded_chunk_size, ChunkHeaderSize in H.
  split; [lia|]. split; [intros x E; pose proof (len_optc_le FourCCICCP icc x E); lia|].
  split; [intros x E; pose proof (len_optc_le FourCCALPH alph x E); lia|lia].
Qed.

Lemma riff_wf_inv file :
  bytes_ok file -> riff_wf file = true ->
  exists cs body,
    riff_chunks file = Some cs /\
    file = le32 FourCCRIFF ++ le32 (4 + len body) ++ le32 FourCCWEBP ++ body /\ 4 + len body < 4294967296 /\
    ((exists id bs w h a, cs = [(id, bs)] /\ body = chunk id bs /\ image_dims id bs = Some (w, h, a) /\ bytes_ok bs) \/
     (exists flags w h icc alph id bs exif xmp a tail fuel,
        cs = (FourCCVP8X, vp8x_payload flags w h)
             :: optl FourCCICCP icc ++ optl FourCCALPH alph ++ (id, bs) :: optl FourCCEXIF exif ++ optl FourCCXMP xmp /\
        body = chunk FourCCVP8X (vp8x_payload flags w h) ++ optc FourCCICCP icc ++ optc FourCCALPH alph ++
               chunk id bs ++ tail /\
        walk fuel tail = Some (optl FourCCEXIF exif ++ optl FourCCXMP xmp) /\ bytes_ok tail /\ bytes_ok bs /\
        image_dims id bs = Some (w, h, a) /\
        0 <= flags < 64 /\ Z.land flags 4294967233 = 0 /\ Z.testbit flags 1 = false /\
        Z.testbit flags 5 = is_some icc /\ Z.testbit flags 3 = is_some exif /\ Z.testbit flags 2 = is_some xmp /\
        Z.testbit flags 4 = (is_some alph || a) /\ (is_some alph = true -> id = FourCCVP8))).
Proof.
  intros Hb Hwf. unfold riff_wf in Hwf. apply andb_true_iff in Hwf. destruct Hwf as [_ Hwf].
  destruct (riff_chunks file) as [cs|] eqn:Erc; [|discriminate].
  destruct (riff_chunks_inv _ _ Hb Erc) as (body & Hfile & Hwalk & Hbody & Hrs).
  exists cs, body. split; [reflexivity|]. split; [exact Hfile|]. split; [exact Hrs|].
  destruct (still_layout_inv _ Hwf) as
    [(id & bs & -> & Hdims)|
     (flags & w0 & w1 & w2 & h0 & h1 & h2 & icc & alph & id & bs & exif & xmp & w & h & a &
      -> & Hd & Hl & F5 & F3 & F2 & F4 & Halph & <- & <-)].
  - left. destruct (walk_cons_inv _ _ _ _ _ Hbody Hwalk) as (rest & fuel' & Eb & Hw' & _ & Hbs & _).
    apply walk_nil_inv in Hw'. subst rest. rewrite app_nil_r in Eb.
    destruct (image_dims id bs) as [[[w h] a]|] eqn:Ed; [|discriminate].
    exists id, bs, w, h, a. auto.
  - right.
    destruct (walk_cons_inv _ _ _ _ _ Hbody Hwalk) as (rest1 & fu1 & Eb1 & Hw1 & Hr1 & Hpl & _ & _).
    destruct (walk_optl_inv _ _ _ _ _ Hr1 Hw1) as (rest2 & fu2 & -> & Hw2 & Hr2 & _).
    destruct (walk_optl_inv _ _ _ _ _ Hr2 Hw2) as (rest3 & fu3 & -> & Hw3 & Hr3 & _).
    destruct (walk_cons_inv _ _ _ _ _ Hr3 Hw3) as (tail & fu4 & -> & Hw4 & Hr4 & Hbsb & _ & _).
    destruct (vp8x_payload_of_bytes _ _ _ _ _ _ _ Hpl) as (Epay & _).
    assert (Bf : 0 <= flags < 256) by (apply bytes_ok_cons in Hpl; apply Hpl).
    destruct (flags_byte_facts flags Bf Hl) as (Hf64 & Hland & Hbit1).
    rewrite Epay in *.
    exists flags, (1 + rd24 [w0; w1; w2]), (1 + rd24 [h0; h1; h2]), icc, alph, id, bs, exif, xmp, a, tail, fu4.
    repeat (split; [assumption || reflexivity|]). exact Halph.
Qed.

Lemma parse_extended_still fx flags w h icc alph id bs a tl :
  0 <= flags < 64 -> Z.land flags 4294967233 = 0 -> Z.testbit flags 1 = false ->
  Z.testbit flags 5 = is_some icc -> Z.testbit flags 4 = (is_some alph || a) ->
  image_dims id bs = Some (w, h, a) -> (is_some alph = true -> id = FourCCVP8) ->
  let body := chunk FourCCVP8X (vp8x_payload flags w h) ++ optc FourCCICCP icc ++
              optc FourCCALPH alph ++ chunk id bs ++ tl in
  len body <= MaxMetadataSize ->
  let ft := mkFeatures w h (is_some alph || a) false (is_some icc) (Z.testbit flags 3) (Z.testbit flags 2)
                       FormatVP8X 1 4294967295 w h in
  parse_ex fx (le32 FourCCRIFF ++ le32 (4 + len body) ++ le32 FourCCWEBP ++ body) =
  Ok (mkParsed (set_dims (if is_some alph || a then set_alpha ft else ft) w h) [frame_of id bs alph w h a]
               (match icc with Some d => [mkChunk FourCCICCP d] | None => [] end), KStill).
Proof.
  intros Hf64 Hland Hbit1 F5 F4 Hd Halph body Hcap ft.
  destruct (image_dims_range _ _ _ _ _ Hd) as [Hwr Hhr].
  unfold MaxMetadataSize in Hcap.
  destruct (still_body_parts (vp8x_payload flags w h) icc alph id bs tl) as (Pbs & Picc & Palph & _). fold body in Pbs, Picc, Palph.
  subst body. rewrite parse_ex_vp8x by (unfold MaxChunkPayload; lia). rewrite Hland, Hbit1, F5, F4.
  destruct (Z.geb_spec (w * h) MaxImageArea) as [Hbig|_]; [unfold MaxImageArea in Hbig; nia|].
  change (negb (0 =? 0)) with false. cbv iota.
  apply (chunks_still_body fx ft icc alph id bs w h a tl); try assumption; try reflexivity.
  - intros d E. specialize (Picc d E). unfold MaxMetadataSize. lia.
  - unfold MaxChunkPayload. lia.
  - intros d E. specialize (Palph d E). unfold MaxChunkPayload. lia.
Qed.

Theorem wf_still_accepted :
  forall fx file,
    bytes_ok file -> len file <= MaxMetadataSize -> riff_wf file = true ->
    exists r f id w h a,
      parse_ex fx file = Ok (r, KStill) /\ pFrames r = [f] /\
      image_fourcc id /\ frLossless f = (id =? FourCCVP8L) /\
      spec_get_chunk file id = Some (frPayload f) /\
      (frLossless f = false -> frAlpha f = spec_get_chunk file FourCCALPH) /\
      image_dims id (frPayload f) = Some (w, h, a) /\
      fWidth (pFeat r) = w /\ fHeight (pFeat r) = h /\ fCanvasW (pFeat r) = w /\ fCanvasH (pFeat r) = h /\
      fHasAnim (pFeat r) = false.
Proof.
  intros fx file Hb Hlen Hwf.
  destruct (riff_wf_inv file Hb Hwf) as (cs & body & Erc & Hfile & Hrs & Hshape).
  assert (Hlb : len file = 12 + len body) by (rewrite Hfile, !len_app, !len_le32; lia).
  unfold spec_get_chunk. rewrite Erc.
  destruct Hshape as
    [(id & bs & w & h & a & -> & Eb & Ed & Hbs)|
     (flags & w & h & icc & alph & id & bs & exif & xmp & a & tl & fu & -> & Eb & _ & _ & _ & Hd & Hf64 & Hland &
      Hbit1 & F5 & F3 & F2 & F4 & Halph)].
  - pose proof (image_dims_fourcc _ _ _ _ _ Ed) as Hf.
    assert (Hsmall : len bs < 4294967296 - 21).
    { rewrite Eb, len_chunk in Hlb. unfold padded_chunk_size, ChunkHeaderSize, MaxMetadataSize in *.
      pose proof (len_nonneg bs). lia. }
    exists (mkParsed (simple_features id w h a) [expected_frame id bs [] w h a] []), (expected_frame id bs [] w h a), id, w, h, a.
    split; [rewrite Hfile, Eb; apply (parse_written_simple fx id bs w h a Hf Hsmall Ed)|].
    split; [reflexivity|]. split; [exact Hf|].
    unfold expected_frame, opt_blob. change (len (@nil Z) >? 0) with false. cbn [find_chunk]. rewrite Z.eqb_refl.
    destruct Hf as [->| ->]; cbn [pFeat simple_features fWidth fHeight fCanvasW fCanvasH fHasAnim];
      repeat split; try reflexivity; try exact Ed.
  - pose proof (image_dims_fourcc _ _ _ _ _ Hd) as Hf.
    pose proof (parse_extended_still fx flags w h icc alph id bs a tl Hf64 Hland Hbit1 F5 F4 Hd Halph) as Hp.
    cbv zeta in Hp. rewrite <- Eb, <- Hfile in Hp.
    eexists _, (frame_of id bs alph w h a), id, w, h, a.
    split; [apply Hp; unfold MaxMetadataSize in *; lia|].
    split; [reflexivity|]. split; [exact Hf|]. unfold frame_of.
    split; [destruct (id =? FourCCVP8L); reflexivity|].
    split.
    { destruct Hf as [->| ->]; destruct icc, alph; cbn; try reflexivity;
        try (specialize (Halph eq_refl); discriminate). }
    split.
    { destruct Hf as [->| ->]; [|cbn; intros; discriminate].
      intros _. destruct icc, alph, exif, xmp; reflexivity. }
    split; [destruct (id =? FourCCVP8L); exact Hd|].
    destruct (is_some alph || a); cbn; repeat split; reflexivity.
Qed.

(** The hypothesis is satisfiable, and not only by this package's output: a VP8X
    file whose ALPH chunk has an empty payload is well-formed for the walker. *)
Example wf_hypothesis_satisfiable :
  bytes_ok FeaturesProofs.wit_empty_alph /\ riff_wf FeaturesProofs.wit_empty_alph = true.
Proof. split; [|vm_compute; reflexivity]. unfold bytes_ok, is_byte. repeat constructor; lia. Qed.
