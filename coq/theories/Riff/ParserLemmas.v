(** Slice / chunk-header lemmas shared by the Parser, Prefix, Metadata and
    Features proofs: how [slice], [read_chunk_header] and [chunk_at] behave on
    [p ++ s] (a buffer and its prefix). *)
From Coq Require Import List ZArith Lia Bool.
From Coq Require Import ZifyBool ZifyNat.
From Webp Require Import Base.Res Base.Bytes Riff.ParserModel.
Import ListNotations.
Open Scope Z_scope.

Lemma len_app {A} (a b : list A) : len (a ++ b) = len a + len b.
Proof. unfold len. rewrite app_length. lia. Qed.

Lemma len_nonneg {A} (a : list A) : 0 <= len a.
Proof. unfold len. lia. Qed.

Lemma len_nil {A} : len (@nil A) = 0.
Proof. reflexivity. Qed.

Lemma len_cons {A} (x : A) l : len (x :: l) = 1 + len l.
Proof. unfold len. cbn [length]. lia. Qed.

Lemma len_skipn {A} (l : list A) n : 0 <= n <= len l -> len (skipn (Z.to_nat n) l) = len l - n.
Proof. unfold len. intros H. rewrite skipn_length. lia. Qed.

Lemma len_firstn {A} (l : list A) n : 0 <= n <= len l -> len (firstn (Z.to_nat n) l) = n.
Proof. unfold len. intros H. rewrite firstn_length. lia. Qed.

(** A slice that ends inside the prefix does not see the suffix. *)
Lemma slice_app {A} (p s : list A) lo hi :
  hi <= len p -> slice (p ++ s) lo hi = slice p lo hi.
Proof.
  intros Hhi. unfold slice. fold (len (p ++ s)). fold (len p). rewrite len_app.
  pose proof (len_nonneg s) as Hs.
  destruct (Z.leb_spec 0 lo) as [H0|H0]; cbn [andb]; [|reflexivity].
  destruct (Z.leb_spec lo hi) as [H1|H1]; cbn [andb]; [|reflexivity].
  destruct (Z.leb_spec hi (len p + len s)) as [H2|H2]; [|lia].
  destruct (Z.leb_spec hi (len p)) as [H3|H3]; [|lia].
  f_equal.
  rewrite skipn_app.
  replace (Z.to_nat lo - length p)%nat with 0%nat by (unfold len in *; lia).
  cbn [skipn]. rewrite firstn_app.
  replace (Z.to_nat (hi - lo) - length (skipn (Z.to_nat lo) p))%nat with 0%nat
    by (rewrite skipn_length; unfold len in *; lia).
  cbn [firstn]. apply app_nil_r.
Qed.

Lemma slice_to_end {A} (l : list A) t :
  0 <= t <= len l -> slice l t (len l) = Ok (skipn (Z.to_nat t) l).
Proof.
  intros H. unfold slice. fold (len l).
  destruct (Z.leb_spec 0 t); [|lia].
  destruct (Z.leb_spec t (len l)); [|lia].
  destruct (Z.leb_spec (len l) (len l)); [|lia]. cbn [andb]. f_equal.
  apply firstn_all2. rewrite skipn_length. unfold len. lia.
Qed.

Lemma skipn_app_le {A} (p s : list A) t :
  0 <= t <= len p -> skipn (Z.to_nat t) (p ++ s) = skipn (Z.to_nat t) p ++ s.
Proof.
  intros H. rewrite skipn_app.
  replace (Z.to_nat t - length p)%nat with 0%nat by (unfold len in *; lia). reflexivity.
Qed.

(** ** Chunk headers on a buffer and on its prefix *)
Lemma read_chunk_header_app p s :
  8 <= len p -> read_chunk_header (p ++ s) = read_chunk_header p.
Proof.
  intros H. unfold read_chunk_header, ChunkHeaderSize. rewrite len_app.
  pose proof (len_nonneg s).
  destruct (Z.ltb_spec (len p + len s) 8); [lia|].
  destruct (Z.ltb_spec (len p) 8); [lia|].
  rewrite !slice_app by lia. reflexivity.
Qed.

Lemma read_chunk_header_short p : len p < 8 -> read_chunk_header p = Err ETruncated.
Proof.
  intros H. unfold read_chunk_header, ChunkHeaderSize.
  destruct (Z.ltb_spec (len p) 8); [reflexivity|lia].
Qed.

Lemma chunk_at_ok_inv buf f sz tot pl :
  chunk_at buf = Ok (f, sz, tot, pl) ->
  read_chunk_header buf = Ok (f, sz) /\ 0 <= sz /\ tot = 8 + sz + sz mod 2 /\ tot <= len buf /\
  8 <= len buf /\ slice buf 8 (8 + sz) = Ok pl.
Proof.
  unfold chunk_at, ChunkHeaderSize.
  destruct (read_chunk_header buf) as [[f' sz']|e|] eqn:E; cbn [bind]; try discriminate.
  destruct (Z.gtb_spec (8 + (sz' + sz' mod 2)) (len buf)) as [Hg|Hg]; [discriminate|].
  destruct (slice buf 8 (8 + sz')) as [pl'|e|] eqn:Es; cbn [bind]; try discriminate.
  remember (8 + (sz' + sz' mod 2)) as tot' eqn:Htot.
  intros [= <- <- <- <-].
  pose proof (slice_inv _ _ _ _ Es) as (_ & Hle & _ & _).
  assert (8 <= len buf).
  { unfold read_chunk_header, ChunkHeaderSize in E. destruct (Z.ltb_spec (len buf) 8); [discriminate|lia]. }
  refine (conj eq_refl (conj _ (conj _ (conj _ (conj _ Es))))); lia.
Qed.

Lemma chunk_at_prefix p s f sz tot pl :
  chunk_at (p ++ s) = Ok (f, sz, tot, pl) ->
  (tot <= len p /\ chunk_at p = Ok (f, sz, tot, pl)) \/ (len p < tot /\ chunk_at p = Err ETruncated).
Proof.
  intros H. destruct (chunk_at_ok_inv _ _ _ _ _ H) as (Hh & Hsz & Htot & Hlen & H8 & Hpl).
  destruct (Z.lt_ge_cases (len p) tot) as [Hlt|Hge].
  - right. split; [exact Hlt|]. unfold chunk_at.
    destruct (Z.lt_ge_cases (len p) 8) as [Hs|Hs].
    + rewrite read_chunk_header_short by lia. reflexivity.
    + rewrite read_chunk_header_app in Hh by lia. rewrite Hh. cbn [bind]. unfold ChunkHeaderSize.
      destruct (Z.gtb_spec (8 + (sz + sz mod 2)) (len p)); [reflexivity|lia].
  - left. split; [lia|]. unfold chunk_at.
    rewrite read_chunk_header_app in Hh by lia. rewrite Hh. cbn [bind]. unfold ChunkHeaderSize.
    destruct (Z.gtb_spec (8 + (sz + sz mod 2)) (len p)); [lia|].
    rewrite slice_app in Hpl by lia. rewrite Hpl. cbn [bind].
    replace (8 + (sz + sz mod 2)) with tot by lia. reflexivity.
Qed.

Lemma chunk_at_short p : len p < 8 -> chunk_at p = Err ETruncated.
Proof. intros H. unfold chunk_at. rewrite read_chunk_header_short by exact H. reflexivity. Qed.

(** The buffer after a chunk, for a buffer and for its prefix. *)
Lemma rest_app (p s : list Z) tot :
  0 <= tot <= len p ->
  slice (p ++ s) tot (len (p ++ s)) = Ok (skipn (Z.to_nat tot) p ++ s) /\
  slice p tot (len p) = Ok (skipn (Z.to_nat tot) p).
Proof.
  intros H. split.
  - rewrite slice_to_end by (rewrite len_app; pose proof (len_nonneg s); lia).
    rewrite skipn_app_le by exact H. reflexivity.
  - apply slice_to_end. exact H.
Qed.

(** A slice that starts inside the prefix and ends in the suffix. *)
Lemma slice_app_span {A} (p s : list A) lo hi :
  0 <= lo <= len p -> len p <= hi <= len (p ++ s) ->
  slice (p ++ s) lo hi = Ok (skipn (Z.to_nat lo) p ++ firstn (Z.to_nat (hi - len p)) s).
Proof.
  intros Hlo Hhi. unfold slice. fold (len (p ++ s)).
  destruct (Z.leb_spec 0 lo); [|lia].
  destruct (Z.leb_spec lo hi); [|lia].
  destruct (Z.leb_spec hi (len (p ++ s))); [|lia]. cbn [andb]. f_equal.
  rewrite skipn_app_le by exact Hlo. rewrite firstn_app.
  rewrite firstn_all2 by (rewrite skipn_length; unfold len in *; lia).
  f_equal. f_equal. rewrite skipn_length. unfold len in *. lia.
Qed.

(** ** The bitstream header readers on explicit bytes *)
Lemma len_ge_10 {A} (d : list A) : 10 <= len d ->
  exists b0 b1 b2 b3 b4 b5 b6 b7 b8 b9 tl, d = b0 :: b1 :: b2 :: b3 :: b4 :: b5 :: b6 :: b7 :: b8 :: b9 :: tl.
Proof.
  intros H. do 10 (destruct d as [|? d]; [rewrite ?len_cons, len_nil in H; lia|]). eauto 12.
Qed.

Lemma len_ge_5 {A} (d : list A) : 5 <= len d -> exists b0 b1 b2 b3 b4 tl, d = b0 :: b1 :: b2 :: b3 :: b4 :: tl.
Proof.
  intros H. do 5 (destruct d as [|? d]; [rewrite ?len_cons, len_nil in H; lia|]). eauto 7.
Qed.

Lemma parse_vp8_header_short d : len d < 10 -> parse_vp8_header d = Err ETruncated.
Proof. intros H. unfold parse_vp8_header, VP8FrameHeaderSize. destruct (Z.ltb_spec (len d) 10); [reflexivity|lia]. Qed.

Lemma parse_vp8_header_bytes b0 b1 b2 b3 b4 b5 b6 b7 b8 b9 tl :
  parse_vp8_header (b0 :: b1 :: b2 :: b3 :: b4 :: b5 :: b6 :: b7 :: b8 :: b9 :: tl) =
  if negb ((b0 + 256 * b1 + 65536 * b2) mod 2 =? 0) then Err EOther else
  if negb (65536 * b3 + 256 * b4 + b5 =? 10289450) then Err EOther else
  if (rd16 [b6; b7] mod 16384 =? 0) || (rd16 [b8; b9] mod 16384 =? 0) then Err EInvalidImage
  else Ok (rd16 [b6; b7] mod 16384, rd16 [b8; b9] mod 16384).
Proof.
  unfold parse_vp8_header, VP8FrameHeaderSize. rewrite !len_cons. pose proof (len_nonneg tl).
  match goal with |- context [?n <? 10] => destruct (Z.ltb_spec n 10); [lia|] end.
  rewrite slice_ok by (cbn [length]; lia). reflexivity.
Qed.

Lemma parse_vp8l_header_short d : len d < 5 -> parse_vp8l_header d = Err ETruncated.
Proof. intros H. unfold parse_vp8l_header, VP8LFrameHeaderSize. destruct (Z.ltb_spec (len d) 5); [reflexivity|lia]. Qed.

Lemma parse_vp8l_header_bytes b0 b1 b2 b3 b4 tl :
  parse_vp8l_header (b0 :: b1 :: b2 :: b3 :: b4 :: tl) =
  let bits := rd32 [b1; b2; b3; b4] in
  if negb (b0 =? VP8LMagicByte) then Err EOther else
  if negb ((bits / 536870912) mod 8 =? 0) then Err EOther else
  if (bits mod 16384 + 1 =? 0) || ((bits / 16384) mod 16384 + 1 =? 0) then Err EInvalidImage
  else Ok (bits mod 16384 + 1, (bits / 16384) mod 16384 + 1, negb ((bits / 268435456) mod 2 =? 0)).
Proof.
  unfold parse_vp8l_header, VP8LFrameHeaderSize. rewrite !len_cons. pose proof (len_nonneg tl).
  match goal with |- context [?n <? 5] => destruct (Z.ltb_spec n 5); [lia|] end.
  rewrite slice_ok by (cbn [length]; lia). reflexivity.
Qed.

Lemma vp8_header_range d w h : parse_vp8_header d = Ok (w, h) -> 1 <= w < 16384 /\ 1 <= h < 16384.
Proof.
  destruct (Z.lt_ge_cases (len d) 10) as [Hs|Hl]; [rewrite parse_vp8_header_short by exact Hs; discriminate|].
  destruct (len_ge_10 d Hl) as (b0 & b1 & b2 & b3 & b4 & b5 & b6 & b7 & b8 & b9 & tl & ->).
  rewrite parse_vp8_header_bytes.
  destruct (negb _); [discriminate|]. destruct (negb _); [discriminate|].
  pose proof (Z.mod_pos_bound (rd16 [b6; b7]) 16384 ltac:(lia)). pose proof (Z.mod_pos_bound (rd16 [b8; b9]) 16384 ltac:(lia)).
  destruct (Z.eqb_spec (rd16 [b6; b7] mod 16384) 0); [discriminate|].
  destruct (Z.eqb_spec (rd16 [b8; b9] mod 16384) 0); [discriminate|]. cbn [orb]. intros E.
  replace w with (rd16 [b6; b7] mod 16384) by congruence. replace h with (rd16 [b8; b9] mod 16384) by congruence. lia.
Qed.

Lemma vp8l_header_range d w h a : parse_vp8l_header d = Ok (w, h, a) -> 1 <= w <= 16384 /\ 1 <= h <= 16384.
Proof.
  destruct (Z.lt_ge_cases (len d) 5) as [Hs|Hl]; [rewrite parse_vp8l_header_short by exact Hs; discriminate|].
  destruct (len_ge_5 d Hl) as (b0 & b1 & b2 & b3 & b4 & tl & ->).
  rewrite parse_vp8l_header_bytes. cbv zeta.
  destruct (negb _); [discriminate|]. destruct (negb _); [discriminate|]. destruct (_ || _); [discriminate|].
  pose proof (Z.mod_pos_bound (rd32 [b1; b2; b3; b4]) 16384 ltac:(lia)).
  pose proof (Z.mod_pos_bound (rd32 [b1; b2; b3; b4] / 16384) 16384 ltac:(lia)).
  intros E. replace w with (rd32 [b1; b2; b3; b4] mod 16384 + 1) by congruence.
  replace h with ((rd32 [b1; b2; b3; b4] / 16384) mod 16384 + 1) by congruence. lia.
Qed.
