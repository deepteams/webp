(** C15: what the RIFF writer of encode.go produces, read back by the specification walker. *)
From Coq Require Import List ZArith Lia Bool.
From Coq Require Import ZifyBool ZifyNat.
From Webp Require Import Base.Res Base.Bytes Riff.ParserModel Riff.ParserLemmas Riff.ParserSpec
     Riff.WriterModel Riff.WriterProofs Riff.FeaturesModel.
Import ListNotations.
Open Scope Z_scope.

(** [Encode] uses [len(blob) > 0]: an empty blob is "absent". *)
Definition opt_blob (d : list Z) : option (list Z) := if len d >? 0 then Some d else None.

Definition vp8x_payload (flags w h : Z) : list Z := le32 flags ++ le24 (w - 1) ++ le24 (h - 1).

Definition written_body (fourcc : Z) (bs alpha : list Z) (w h : Z) (icc exif xmp : list Z) : list Z :=
  vp8x_chunk (vp8x_flags fourcc bs alpha icc exif xmp) w h
  ++ opt_chunk FourCCICCP icc ++ opt_chunk FourCCALPH alpha ++ chunk fourcc bs
  ++ opt_chunk FourCCEXIF exif ++ opt_chunk FourCCXMP xmp.

Definition written_chunks (fourcc : Z) (bs alpha : list Z) (w h : Z) (icc exif xmp : list Z)
  : list (Z * list Z) :=
  (FourCCVP8X, vp8x_payload (vp8x_flags fourcc bs alpha icc exif xmp) w h)
  :: opt_entry FourCCICCP icc ++ opt_entry FourCCALPH alpha ++ (fourcc, bs)
  :: opt_entry FourCCEXIF exif ++ opt_entry FourCCXMP xmp.

(** what Encode guarantees: exactly the code's own size guard *)
Definition sizes_ok (bs alpha icc exif xmp : list Z) : Prop :=
  riff_size_extended bs alpha icc exif xmp <= 4294967295 - 8.

Lemma vp8x_chunk_is_chunk flags w h :
  vp8x_chunk flags w h = chunk FourCCVP8X (vp8x_payload flags w h).
Proof. reflexivity. Qed.

Lemma len_vp8x_chunk flags w h : len (vp8x_chunk flags w h) = 18.
Proof. reflexivity. Qed.

Lemma riff_size_is_body fourcc bs alpha w h icc exif xmp :
  riff_size_extended bs alpha icc exif xmp = 4 + len (written_body fourcc bs alpha w h icc exif xmp).
Proof.
  unfold riff_size_extended, written_body.
  rewrite !len_app, len_vp8x_chunk, !len_opt_chunk, len_chunk.
  unfold ChunkHeaderSize, VP8XChunkSize. lia.
Qed.

Lemma opt_size_bounds d : 0 <= opt_size d /\ (opt_size d) mod 2 = 0 /\ len d <= opt_size d.
Proof.
  unfold opt_size, padded_chunk_size, ChunkHeaderSize. pose proof (len_nonneg d).
  destruct (Z.gtb_spec (len d) 0); lia.
Qed.

Lemma riff_size_even bs alpha icc exif xmp : (riff_size_extended bs alpha icc exif xmp) mod 2 = 0.
Proof.
  unfold riff_size_extended, padded_chunk_size, ChunkHeaderSize, VP8XChunkSize.
  pose proof (opt_size_bounds icc). pose proof (opt_size_bounds alpha).
  pose proof (opt_size_bounds exif). pose proof (opt_size_bounds xmp). pose proof (len_nonneg bs). lia.
Qed.

(** The writer's own guard is exactly [sizes_ok]. *)
Theorem riff_size_guard_complete fourcc bs alpha w h icc exif xmp :
  (sizes_ok bs alpha icc exif xmp <->
   exists file, write_riff_extended fourcc bs alpha w h icc exif xmp = Ok file) /\
  (~ sizes_ok bs alpha icc exif xmp <->
   write_riff_extended fourcc bs alpha w h icc exif xmp = Err EWriteTooLarge).
Proof.
  unfold sizes_ok, write_riff_extended.
  destruct (Z.gtb_spec (riff_size_extended bs alpha icc exif xmp) (4294967295 - 8)); split; split;
    intros H'; try lia; try discriminate; eauto.
  - destruct H' as [? H']. discriminate.
Qed.

Lemma write_extended_eq fourcc bs alpha w h icc exif xmp :
  sizes_ok bs alpha icc exif xmp ->
  write_riff_extended fourcc bs alpha w h icc exif xmp =
  Ok (le32 FourCCRIFF ++ le32 (riff_size_extended bs alpha icc exif xmp) ++ le32 FourCCWEBP
      ++ written_body fourcc bs alpha w h icc exif xmp).
Proof.
  unfold sizes_ok, write_riff_extended. intros H.
  destruct (Z.gtb_spec (riff_size_extended bs alpha icc exif xmp) (4294967295 - 8)); [lia|]. reflexivity.
Qed.

(** writeRIFFExtended's buffer [make([]byte, 8+riffSize)] is exactly filled *)
Theorem write_extended_length fourcc bs alpha w h icc exif xmp file :
  write_riff_extended fourcc bs alpha w h icc exif xmp = Ok file ->
  len file = 8 + riff_size_extended bs alpha icc exif xmp /\ len file mod 2 = 0.
Proof.
  intros Hw.
  assert (Hs : sizes_ok bs alpha icc exif xmp).
  { apply (riff_size_guard_complete fourcc bs alpha w h icc exif xmp). eauto. }
  assert (Hf : file = le32 FourCCRIFF ++ le32 (riff_size_extended bs alpha icc exif xmp) ++ le32 FourCCWEBP
                      ++ written_body fourcc bs alpha w h icc exif xmp).
  { rewrite write_extended_eq in Hw by exact Hs. congruence. }
  subst file.
  rewrite !len_app, !len_le32. rewrite (riff_size_is_body fourcc bs alpha w h icc exif xmp).
  split; [lia|].
  pose proof (riff_size_even bs alpha icc exif xmp) as He.
  rewrite (riff_size_is_body fourcc bs alpha w h icc exif xmp) in He. lia.
Qed.

Lemma fourcc_ranges :
  0 <= FourCCVP8X < 4294967296 /\ 0 <= FourCCICCP < 4294967296 /\ 0 <= FourCCALPH < 4294967296 /\
  0 <= FourCCEXIF < 4294967296 /\ 0 <= FourCCXMP < 4294967296 /\ 0 <= FourCCVP8 < 4294967296 /\
  0 <= FourCCVP8L < 4294967296 /\ 0 <= FourCCRIFF < 4294967296 /\ 0 <= FourCCWEBP < 4294967296.
Proof. unfold FourCCVP8X, FourCCICCP, FourCCALPH, FourCCEXIF, FourCCXMP, FourCCVP8, FourCCVP8L, FourCCRIFF, FourCCWEBP. lia. Qed.

Lemma riff_chunks_form body cs : 4 + len body < 4294967296 ->
  walk (S (length body)) body = Some cs ->
  riff_chunks (le32 FourCCRIFF ++ le32 (4 + len body) ++ le32 FourCCWEBP ++ body) = Some cs.
Proof.
  intros Hlt Hw. pose proof (len_nonneg body).
  destruct fourcc_ranges as (_ & _ & _ & _ & _ & _ & _ & HR & HW).
  unfold le32. cbn [app riff_chunks].
  rewrite !rd32_le32' by (assumption || lia). rewrite !Z.eqb_refl. cbn [andb]. rewrite !len_cons.
  destruct (Z.eqb_spec (4 + len body)
              (1 + (1 + (1 + (1 + (1 + (1 + (1 + (1 + (1 + (1 + (1 + (1 + len body))))))))))) - 8)); [exact Hw|lia].
Qed.

Lemma sizes_ok_each bs alpha icc exif xmp :
  sizes_ok bs alpha icc exif xmp ->
  len bs < 4294967286 /\ len alpha < 4294967286 /\ len icc < 4294967286 /\
  len exif < 4294967286 /\ len xmp < 4294967286.
Proof.
  unfold sizes_ok, riff_size_extended, padded_chunk_size, ChunkHeaderSize, VP8XChunkSize.
  pose proof (opt_size_bounds icc). pose proof (opt_size_bounds alpha).
  pose proof (opt_size_bounds exif). pose proof (opt_size_bounds xmp). pose proof (len_nonneg bs). lia.
Qed.

Lemma walk_written_body fourcc bs alpha w h icc exif xmp :
  sizes_ok bs alpha icc exif xmp -> 0 <= fourcc < 4294967296 ->
  walk (S (length (written_body fourcc bs alpha w h icc exif xmp)))
       (written_body fourcc bs alpha w h icc exif xmp)
  = Some (written_chunks fourcc bs alpha w h icc exif xmp).
Proof.
  intros Hs Hf. destruct (sizes_ok_each _ _ _ _ _ Hs) as (Hbs & Hal & Hic & Hex & Hxm).
  destruct fourcc_ranges as (HX & HI & HA & HE & HM & _).
  (* at most six chunks: VP8X, ICCP?, ALPH?, the image, EXIF?, XMP? *)
  apply (walk_fuel_mono 6).
  - unfold written_body, written_chunks. rewrite vp8x_chunk_is_chunk.
    apply walk_chunk_some; [exact HX|reflexivity|].
    apply walk_opt_some; [exact HI|lia|].
    apply walk_opt_some; [exact HA|lia|].
    apply walk_chunk_some; [exact Hf|lia|].
    apply walk_opt_some; [exact HE|lia|].
    rewrite <- (app_nil_r (opt_chunk FourCCXMP xmp)). rewrite <- (app_nil_r (opt_entry FourCCXMP xmp)).
    apply walk_opt_some; [exact HM|lia|]. reflexivity.
  - assert (18 <= len (written_body fourcc bs alpha w h icc exif xmp)).
    { unfold written_body. rewrite len_app, len_vp8x_chunk.
      pose proof (len_nonneg (opt_chunk FourCCICCP icc ++ opt_chunk FourCCALPH alpha ++ chunk fourcc bs ++
                              opt_chunk FourCCEXIF exif ++ opt_chunk FourCCXMP xmp)). lia. }
    unfold len in *. lia.
Qed.

Lemma riff_chunks_written fourcc bs alpha w h icc exif xmp file :
  sizes_ok bs alpha icc exif xmp -> 0 <= fourcc < 4294967296 ->
  write_riff_extended fourcc bs alpha w h icc exif xmp = Ok file ->
  riff_chunks file = Some (written_chunks fourcc bs alpha w h icc exif xmp).
Proof.
  intros Hs Hf Hw. rewrite write_extended_eq in Hw by exact Hs. injection Hw as <-.
  pose proof (riff_size_is_body fourcc bs alpha w h icc exif xmp) as Hrs. unfold sizes_ok in Hs.
  rewrite Hrs. apply riff_chunks_form; [lia|apply walk_written_body; assumption].
Qed.

Definition image_fourcc (fourcc : Z) : Prop := fourcc = FourCCVP8 \/ fourcc = FourCCVP8L.

Lemma image_fourcc_range fourcc : image_fourcc fourcc -> 0 <= fourcc < 4294967296.
Proof. intros [->| ->]; [unfold FourCCVP8|unfold FourCCVP8L]; lia. Qed.

Theorem metadata_roundtrip_extended fourcc bs alpha w h icc exif xmp file :
  image_fourcc fourcc -> sizes_ok bs alpha icc exif xmp ->
  write_riff_extended fourcc bs alpha w h icc exif xmp = Ok file ->
  spec_get_chunk file FourCCICCP = opt_blob icc /\
  spec_get_chunk file FourCCEXIF = opt_blob exif /\
  spec_get_chunk file FourCCXMP = opt_blob xmp /\
  spec_get_chunk file FourCCALPH = opt_blob alpha /\
  spec_get_chunk file fourcc = Some bs.
Proof.
  intros Hf Hs Hw. unfold spec_get_chunk.
  rewrite (riff_chunks_written _ _ _ _ _ _ _ _ _ Hs (image_fourcc_range _ Hf) Hw).
  unfold written_chunks, opt_entry, opt_blob.
  destruct (len icc >? 0), (len alpha >? 0), (len exif >? 0), (len xmp >? 0), Hf as [->| ->];
    repeat split; reflexivity.
Qed.

(** The VP8X flags announce exactly the non-empty blobs and the alpha source; animation and
    reserved bits are clear (4294967233 = 2^32 - 1 - 62: all bits but 1 to 5). *)
Theorem flags_exact fourcc bs alpha icc exif xmp :
  let f := vp8x_flags fourcc bs alpha icc exif xmp in
  Z.testbit f 5 = (len icc >? 0) /\ Z.testbit f 3 = (len exif >? 0) /\ Z.testbit f 2 = (len xmp >? 0) /\
  Z.testbit f 4 = ((len alpha >? 0) || vp8l_alpha_bit fourcc bs) /\
  Z.testbit f 1 = false /\ Z.land f 4294967233 = 0 /\ 0 <= f < 64.
Proof.
  unfold vp8x_flags.
  destruct (len icc >? 0), (len exif >? 0), (len xmp >? 0), ((len alpha >? 0) || vp8l_alpha_bit fourcc bs);
    cbn; repeat split; lia.
Qed.

(** both read bit 28 (268435456) after the VP8L signature, the parser through [slice],
    unfolded here on five explicit bytes; 536870912 = 2^29 is the version field *)
Lemma vp8l_alpha_bit_of_header bs w h a :
  parse_vp8l_header bs = Ok (w, h, a) -> vp8l_alpha_bit FourCCVP8L bs = a.
Proof.
  unfold parse_vp8l_header, vp8l_alpha_bit, VP8LFrameHeaderSize.
  destruct (Z.ltb_spec (len bs) 5) as [|Hl]; [discriminate|].
  destruct (Z.geb_spec (len bs) 5); [|lia]. rewrite Z.eqb_refl. cbn [andb].
  destruct bs as [|b0 [|b1 [|b2 [|b3 [|b4 tl]]]]]; try (exfalso; unfold len in Hl; cbn [length] in Hl; lia).
  unfold slice. cbn [length].
  destruct (Z.leb_spec 5 (Z.of_nat (S (S (S (S (S (length tl)))))))); [|lia].
  cbn [Z.leb andb bind]. change (Z.to_nat (5 - 0)) with 5%nat. change (Z.to_nat 0) with 0%nat.
  cbn [skipn firstn].
  change ((0 <=? 0) && (0 <=? 5) && true) with true. cbn [bind].
  destruct (b0 =? VP8LMagicByte); cbn [negb andb]; [|discriminate].
  destruct (negb ((rd32 [b1; b2; b3; b4] / 536870912) mod 8 =? 0)); [discriminate|].
  destruct ((rd32 [b1; b2; b3; b4] mod 16384 + 1 =? 0) || ((rd32 [b1; b2; b3; b4] / 16384) mod 16384 + 1 =? 0));
    [discriminate|].
  intros [= _ _ <-]. reflexivity.
Qed.

Definition header_declares (fourcc : Z) (bs : list Z) (w h : Z) (a : bool) : Prop :=
  image_dims fourcc bs = Some (w, h, a).

Lemma header_declares_alpha fourcc bs w h a :
  image_fourcc fourcc -> header_declares fourcc bs w h a -> vp8l_alpha_bit fourcc bs = a.
Proof.
  unfold header_declares, image_dims. intros [->| ->].
  - change (FourCCVP8 =? FourCCVP8L) with false. change (FourCCVP8 =? FourCCVP8) with true.
    destruct (parse_vp8_header bs) as [[w' h']|e|]; try discriminate. intros [= _ _ <-]. reflexivity.
  - change (FourCCVP8L =? FourCCVP8L) with true.
    destruct (parse_vp8l_header bs) as [[[w' h'] a']|e|] eqn:E; try discriminate. intros [= -> -> ->].
    apply (vp8l_alpha_bit_of_header _ _ _ _ E).
Qed.

Definition head_not (id : Z) (cs : list (Z * list Z)) : Prop :=
  match cs with (i, _) :: _ => (i =? id) = false | [] => True end.

Lemma head_not_entry id id' d rest :
  (id' =? id) = false -> head_not id rest -> head_not id (opt_entry id' d ++ rest).
Proof. intros H Hr. unfold opt_entry. destruct (len d >? 0); [exact H|exact Hr]. Qed.

Lemma take_opt_entry id d rest : head_not id rest ->
  take_opt id (opt_entry id d ++ rest) = (opt_blob d, rest).
Proof.
  intros Hr. unfold opt_entry, opt_blob. destruct (len d >? 0); cbn [app take_opt].
  - rewrite Z.eqb_refl. reflexivity.
  - destruct rest as [|[i x] tl]; [reflexivity|]. cbn [take_opt]. unfold head_not in Hr. rewrite Hr. reflexivity.
Qed.

Lemma is_some_opt_blob d : is_some (opt_blob d) = (len d >? 0).
Proof. unfold opt_blob. destruct (len d >? 0); reflexivity. Qed.

Lemma still_layout_ext x flags r1 r2 r3 w0 w1 w2 h0 h1 h2 rest : rest <> [] ->
  still_layout_ok ((x, [flags; r1; r2; r3; w0; w1; w2; h0; h1; h2]) :: rest) =
    let '(icc, rest1) := take_opt FourCCICCP rest in
    let '(alph, rest2) := take_opt FourCCALPH rest1 in
    match rest2 with
    | (id, bs) :: rest3 =>
      let '(exif, rest4) := take_opt FourCCEXIF rest3 in
      let '(xmp, rest5) := take_opt FourCCXMP rest4 in
      match rest5, image_dims id bs with
      | [], Some (w, h, a) =>
        (x =? FourCCVP8X)
        && (r1 =? 0) && (r2 =? 0) && (r3 =? 0)
        && (Z.land flags 195 =? 0)
        && Bool.eqb (Z.testbit flags 5) (is_some icc)
        && Bool.eqb (Z.testbit flags 3) (is_some exif)
        && Bool.eqb (Z.testbit flags 2) (is_some xmp)
        && Bool.eqb (Z.testbit flags 4) (is_some alph || a)
        && (negb (is_some alph) || (id =? FourCCVP8))
        && (1 + rd24 [w0; w1; w2] =? w) && (1 + rd24 [h0; h1; h2] =? h)
      | _, _ => false
      end
    | [] => false
    end.
Proof. destruct rest; [contradiction|reflexivity]. Qed.

(** a table of 16 flag bytes; 195 = 0b11000011: reserved bits 0, 6, 7 and animation bit 1 *)
Lemma flags_layout (a i e x : bool) :
  let fl := 16 * b2z a + 32 * b2z i + 8 * b2z e + 4 * b2z x in
  le32 fl = [fl; 0; 0; 0] /\ Z.land fl 195 = 0 /\
  Z.testbit fl 5 = i /\ Z.testbit fl 3 = e /\ Z.testbit fl 2 = x /\ Z.testbit fl 4 = a.
Proof. destruct a, i, e, x; vm_compute; repeat split; reflexivity. Qed.

Theorem written_file_wf fourcc bs alpha w h icc exif xmp a file :
  image_fourcc fourcc -> sizes_ok bs alpha icc exif xmp ->
  header_declares fourcc bs w h a -> 1 <= w <= 16777216 -> 1 <= h <= 16777216 ->
  (len alpha > 0 -> fourcc = FourCCVP8) ->
  write_riff_extended fourcc bs alpha w h icc exif xmp = Ok file ->
  riff_wf file = true.
Proof.
  intros Hf Hs Hd Hw Hh Hal Hwr. unfold riff_wf.
  destruct (write_extended_length _ _ _ _ _ _ _ _ _ Hwr) as [_ He]. rewrite He. cbn [Z.eqb andb].
  rewrite (riff_chunks_written _ _ _ _ _ _ _ _ _ Hs (image_fourcc_range _ Hf) Hwr).
  pose proof (header_declares_alpha _ _ _ _ _ Hf Hd) as Hbit. unfold header_declares in Hd.
  unfold written_chunks, vp8x_payload, vp8x_flags. rewrite Hbit.
  destruct (flags_layout ((len alpha >? 0) || a) (len icc >? 0) (len exif >? 0) (len xmp >? 0))
    as (El & Fr & F5 & F3 & F2 & F4).
  cbv zeta in El, Fr, F5, F3, F2, F4. rewrite El. unfold le24. cbn [app].
  rewrite <- (app_nil_r (opt_entry FourCCXMP xmp)).
  assert (Hfa : (fourcc =? FourCCALPH) = false /\ (fourcc =? FourCCICCP) = false)
    by (destruct Hf as [->| ->]; split; reflexivity).
  rewrite still_layout_ext
    by (intros E; apply app_eq_nil in E; destruct E as [_ E]; apply app_eq_nil in E; destruct E as [_ E]; discriminate).
  rewrite take_opt_entry by (apply head_not_entry; [reflexivity|apply Hfa]).
  rewrite take_opt_entry by apply Hfa.
  rewrite take_opt_entry by (apply head_not_entry; [reflexivity|exact I]).
  rewrite take_opt_entry by exact I.
  rewrite Hd, F5, F3, F2, F4, Fr, !is_some_opt_blob, !rd24_le24', !Z.eqb_refl, !Bool.eqb_reflx by lia.
  replace (1 + (w - 1) =? w) with true by lia. replace (1 + (h - 1) =? h) with true by lia.
  cbn [andb]. rewrite !andb_true_r.
  destruct (Z.gtb_spec (len alpha) 0); [rewrite (Hal ltac:(lia))|]; reflexivity.
Qed.
