(** C14, first layer: a written chunk is [genc (id, p)], a file [riff_file] around a sequence
    of them; one lemma per reader for what it makes of those bytes; the simple layout. *)
From Coq Require Import List ZArith Lia Bool ZifyBool ZifyNat.
From Webp Require Import Base.Res Base.Bytes Riff.ChunkBytes Riff.RiffGrammar Riff.DemuxModel Riff.DemuxTotal
  Riff.MuxModel Riff.MuxView.
Import ListNotations.
Open Scope Z_scope.
(* [lia] on [mod] and [/] by numerals needs this *)
Ltac Zify.zify_post_hook ::= Z.div_mod_to_equations.

Lemma len_le32 v : len (le32 v) = 4. Proof. reflexivity. Qed.
Lemma len_cons {A} (a : A) l : len (a :: l) = 1 + len l.
Proof. unfold len. cbn [length]. lia. Qed.
Lemma len_nil {A} : len (@nil A) = 0. Proof. reflexivity. Qed.

Lemma slice_app_head {A} (s post : list A) : slice (s ++ post) 0 (len s) = Ok s.
Proof. exact (slice_app_mid [] s post _ _ eq_refl eq_refl). Qed.

Lemma slice_suffix {A} (pre post : list A) : slice (pre ++ post) (len pre) (len (pre ++ post)) = Ok post.
Proof. exact (slice_app_tail pre post). Qed.

Lemma u32at_le32 pre v rest o : o = len pre -> 0 <= v < 4294967296 ->
  u32at (pre ++ le32 v ++ rest) o = Ok v.
Proof.
  intros -> Hv. unfold u32at. rewrite (slice_app_mid pre (le32 v) rest) by reflexivity.
  cbn [bind]. f_equal. rewrite <- (app_nil_r (le32 v)). apply rd32_le32, Hv.
Qed.

Lemma u32at_le32_head v rest : 0 <= v < 4294967296 -> u32at (le32 v ++ rest) 0 = Ok v.
Proof. exact (u32at_le32 [] v rest 0 eq_refl). Qed.

Lemma read_chunk_header_written id sz rest :
  0 <= id < 4294967296 -> 0 <= sz <= MaxChunkPayload ->
  read_chunk_header (le32 id ++ le32 sz ++ rest) = Ok (id, sz).
Proof.
  intros Hid Hsz. unfold read_chunk_header, ChunkHeaderSize, MaxChunkPayload in *.
  rewrite !len_app, !len_le32. pose proof (len_nonneg rest).
  destruct (Z.ltb_spec (4 + (4 + len rest)) 8); [lia|].
  rewrite u32at_le32_head by lia. cbn [bind].
  rewrite (u32at_le32 (le32 id) sz rest 4) by (reflexivity || lia). cbn [bind].
  destruct (Z.gtb_spec sz 4294967286); [lia|]. reflexivity.
Qed.

Definition genc (c : Z * list Z) : list Z := chunk_bytes (le32 (fst c)) (snd c).

(** 2^31: a round bound above every payload that occurs (frames below 2^30 by [blob_okb],
    metadata at most maxMetadataSize) and below MaxChunkPayload, so no uint32 size wraps *)
Definition chunk_ok (c : Z * list Z) : Prop :=
  0 <= fst c < 4294967296 /\ bytes_ok (snd c) /\ len (snd c) < 2147483648.

Lemma len_genc c : len (genc c) = 8 + len (snd c) + len (snd c) mod 2.
Proof. pose proof (length_chunk_bytes (le32 (fst c)) (snd c)) as H. rewrite le32_length in H. exact H. Qed.

Lemma genc_shape c rest :
  genc c ++ rest = le32 (fst c) ++ le32 (len (snd c)) ++ snd c ++ pad_bytes (len (snd c)) ++ rest.
Proof. unfold genc, chunk_bytes. rewrite <- !app_assoc. reflexivity. Qed.

Lemma bytes_ok_genc c : chunk_ok c -> bytes_ok (genc c).
Proof. intros (_ & Hb & _). apply bytes_ok_chunk_bytes; [apply le32_bytes|exact Hb]. Qed.

Lemma bytes_ok_gencs cs : Forall chunk_ok cs -> bytes_ok (flat_map genc cs).
Proof.
  induction 1 as [|c cs Hc _ IH]; cbn [flat_map]; [constructor|].
  apply bytes_ok_app. split; [apply bytes_ok_genc, Hc|exact IH].
Qed.

(** 8 header bytes per chunk: fuel "one per byte" is enough *)
Lemma flat_map_genc_len cs : 8 * Z.of_nat (length cs) <= len (flat_map genc cs).
Proof.
  induction cs as [|c cs IH]; [unfold len; cbn; lia|].
  cbn [flat_map length]. rewrite len_app, len_genc. pose proof (len_nonneg (snd c)). lia.
Qed.

Lemma pad_bytes_negb n : (if negb (n mod 2 =? 0) then [0] else []) = pad_bytes n.
Proof. unfold pad_bytes. destruct (n mod 2 =? 0); reflexivity. Qed.

Lemma write_data_chunk_eq id p : len p < 4294967296 -> write_data_chunk id p = genc (id, p).
Proof.
  intros H. unfold write_data_chunk, u32. pose proof (len_nonneg p).
  rewrite Z.mod_small, pad_bytes_negb by lia. reflexivity.
Qed.

Lemma read_chunk_genc c rest : 0 <= fst c < 4294967296 -> len (snd c) <= MaxChunkPayload ->
  read_chunk (genc c ++ rest) = Ok (mkchunk (fst c) (len (snd c)) (snd c), len (genc c)).
Proof.
  destruct c as [id p]. cbn [fst snd]. intros Hid Hp.
  pose proof (len_nonneg p). pose proof (len_nonneg rest).
  unfold read_chunk. rewrite (len_app (genc (id, p))), len_genc, genc_shape. cbn [fst snd].
  rewrite read_chunk_header_written by lia. cbn [bind]. unfold ChunkHeaderSize.
  destruct (Z.gtb_spec (8 + len p) (8 + len p + len p mod 2 + len rest)); [lia|].
  rewrite (slice_app_mid (le32 id ++ le32 (len p)) p (pad_bytes (len p) ++ rest)) by reflexivity.
  cbn [bind]. f_equal. f_equal.
  destruct (Z.eqb_spec (len p mod 2) 0); cbn [negb andb]; [lia|].
  destruct (Z.ltb_spec (8 + len p) (8 + len p + len p mod 2 + len rest)); lia.
Qed.

Lemma read_chunk_write id p rest :
  0 <= id < 4294967296 -> len p <= MaxChunkPayload ->
  read_chunk (write_data_chunk id p ++ rest) =
    Ok (mkchunk id (len p) p, len (write_data_chunk id p)).
Proof.
  intros Hid Hp. rewrite write_data_chunk_eq by (unfold MaxChunkPayload in Hp; lia).
  apply (read_chunk_genc (id, p)); assumption.
Qed.

Lemma chunk_total_small p : 0 <= p <= MaxChunkPayload -> chunk_total p = 8 + p + p mod 2.
Proof.
  unfold MaxChunkPayload, chunk_total, u32, ChunkHeaderSize. intros H.
  destruct (Z.eqb_spec (p mod 2) 0); cbn [negb]; rewrite Z.mod_small; lia.
Qed.

(** chunkTotalSize is the number of bytes writeDataChunk writes *)
Lemma chunk_total_correct id p : len p < 2147483648 ->
  len (write_data_chunk id p) = chunk_total (u32 (len p)).
Proof.
  intros H. pose proof (len_nonneg p). rewrite write_data_chunk_eq, len_genc by lia. cbn [snd].
  unfold u32. rewrite (Z.mod_small (len p) 4294967296), chunk_total_small by (unfold MaxChunkPayload; lia).
  reflexivity.
Qed.

Lemma write_data_chunk_even id p : len p < 2147483648 -> len (write_data_chunk id p) mod 2 = 0.
Proof.
  intros H. pose proof (len_nonneg p). rewrite write_data_chunk_eq, len_genc by lia. cbn [snd]. lia.
Qed.

Lemma sub_chunks_size_correct alpha bits : olen alpha < 1073741824 -> len bits < 1073741824 ->
  len ((match alpha with Some a => write_data_chunk FCC_ALPH a | None => [] end) ++
       write_data_chunk (detect_type bits) bits) = sub_chunks_size alpha bits.
Proof.
  intros Ha Hb. pose proof (len_nonneg bits).
  rewrite len_app, (chunk_total_correct _ bits) by lia. unfold sub_chunks_size.
  destruct alpha as [a|]; cbn [olen] in Ha.
  - pose proof (len_nonneg a). rewrite (chunk_total_correct _ a) by lia. unfold u32.
    rewrite (Z.mod_small (len a) 4294967296), (Z.mod_small (len bits) 4294967296), !chunk_total_small
      by (unfold MaxChunkPayload; lia).
    symmetry. apply Z.mod_small. lia.
  - rewrite len_nil. unfold u32.
    rewrite (Z.mod_small (len bits) 4294967296), chunk_total_small by (unfold MaxChunkPayload; lia).
    symmetry. apply Z.mod_small. lia.
Qed.

Lemma split_alpha_len data : let '(a, b) := split_alpha data in olen a <= len data /\ len b <= len data.
Proof.
  unfold split_alpha, ChunkHeaderSize. pose proof (len_nonneg data).
  destruct (Z.ltb_spec (len data) 8); [cbn [olen]; lia|].
  destruct data as [|a0 [|a1 [|a2 [|a3 [|s0 [|s1 [|s2 [|s3 body]]]]]]]]; try (cbn [olen]; lia).
  destruct (rd32 [a0; a1; a2; a3] =? FCC_ALPH); [|cbn [olen]; lia].
  set (n := rd32 [s0; s1; s2; s3]).
  destruct (Z.leb_spec (8 + n) (len (a0 :: a1 :: a2 :: a3 :: s0 :: s1 :: s2 :: s3 :: body))); [|cbn [olen]; lia].
  cbn [olen]. unfold len in *. cbn [length] in *. rewrite firstn_length, skipn_length. lia.
Qed.

(** what assembleExtended adds to the RIFF size for a frame; even, so never a padding byte *)
Lemma anmf_size_correct f : len (f_data f) < 1073741824 ->
  len (write_anmf f) = frame_riff_size repaired true f /\
  len (write_anmf f) mod 2 = 0.
Proof.
  intros Hd. unfold write_anmf, frame_riff_size.
  pose proof (split_alpha_len (f_data f)) as Hs.
  destruct (split_alpha (f_data f)) as [alpha bits]. destruct Hs as [Ha Hb].
  destruct (frame_dims (f_data f)) as [fw fh].
  pose proof (sub_chunks_size_correct alpha bits ltac:(lia) ltac:(lia)) as Hsub. rewrite len_app in Hsub.
  set (wa := match alpha with Some a => write_data_chunk FCC_ALPH a | None => [] end) in *.
  set (wb := write_data_chunk (detect_type bits) bits) in *.
  (* both sub-chunks are even and below 2^30 + 9 bytes *)
  assert (Ht : (len wa + len wb) mod 2 = 0 /\ 0 <= len wa + len wb < 4294967296 - 100).
  { unfold wa, wb. pose proof (len_nonneg bits). rewrite (write_data_chunk_eq _ bits), len_genc by lia. cbn [snd].
    destruct alpha as [a|]; [|rewrite len_nil; lia]. cbn [olen] in Ha. pose proof (len_nonneg a).
    rewrite (write_data_chunk_eq _ a), len_genc by lia. cbn [snd]. lia. }
  rewrite <- Hsub. unfold ANMFChunkSize, ChunkHeaderSize, u32.
  rewrite (Z.mod_small (16 + (len wa + len wb)) 4294967296) by lia.
  replace (negb ((16 + (len wa + len wb)) mod 2 =? 0)) with false by lia.
  set (dims := if (fw >? 0) && (fh >? 0) then le24 (fw - 1) ++ le24 (fh - 1) else [0; 0; 0; 0; 0; 0]).
  assert (Hd6 : len dims = 6) by (unfold dims; destruct ((fw >? 0) && (fh >? 0)); reflexivity).
  rewrite !len_app, !len_le32, Hd6, len_cons, !len_nil.
  change (len (le24 (o_ox (f_opts f) ÷ 2))) with 3. change (len (le24 (o_oy (f_opts f) ÷ 2))) with 3.
  change (len (le24 (o_dur (f_opts f)))) with 3.
  split; lia.
Qed.

Lemma still_vs_animated_choice m :
  is_animated m = true <->
  (1 < len (m_frames m) \/ exists f, In f (m_frames m) /\ 0 < o_dur (f_opts f)).
Proof.
  unfold is_animated. rewrite orb_true_iff, existsb_exists. split.
  - intros [H|[f [Hf Hd]]]; [left; lia|right; exists f; split; [auto|lia]].
  - intros [H|[f [Hf Hd]]]; [left; lia|right; exists f; split; [auto|lia]].
Qed.

Lemma needs_vp8x_iff fx m :
  needs_vp8x fx m = false <->
  (is_animated m = false /\ m_icc m = None /\ m_exif m = None /\ m_xmp m = None /\
   (fx_alpha fx = true -> has_alpha_chunk m = false)).
Proof.
  assert (Hs : forall o : option (list Z), is_some o = false <-> o = None)
    by (intros [x|]; cbn; split; intros H; (discriminate H || reflexivity)).
  unfold needs_vp8x. rewrite !orb_false_iff, andb_false_iff, !Hs.
  destruct (fx_alpha fx), (has_alpha_chunk m); intuition congruence.
Qed.

Lemma flags_derivation m :
  let fl := vp8x_flags m in
  (negb ((fl / 2) mod 2 =? 0) = is_animated m) /\
  (negb ((fl / 32) mod 2 =? 0) = is_some (m_icc m)) /\
  (negb ((fl / 8) mod 2 =? 0) = is_some (m_exif m)) /\
  (negb ((fl / 4) mod 2 =? 0) = is_some (m_xmp m)) /\
  (negb ((fl / 16) mod 2 =? 0) = has_alpha m) /\
  fl mod 2 = 0 /\ fl / 64 = 0.
Proof.
  unfold vp8x_flags.
  destruct (is_animated m), (is_some (m_icc m)), (is_some (m_exif m)), (is_some (m_xmp m)), (has_alpha m);
    vm_compute; repeat split; reflexivity.
Qed.

Lemma vp8x_flags_range m : 0 <= vp8x_flags m < 256.
Proof.
  unfold vp8x_flags.
  destruct (is_animated m), (is_some (m_icc m)), (is_some (m_exif m)), (is_some (m_xmp m)), (has_alpha m); lia.
Qed.

Lemma bytes_eqb_refl a : bytes_eqb a a = true.
Proof. induction a as [|x a IH]; cbn; [reflexivity|]. rewrite Z.eqb_refl, IH. reflexivity. Qed.

Lemma le32_tag (a b c d : Z) : is_byte a -> is_byte b -> is_byte c -> is_byte d ->
  le32 (a + 256 * b + 65536 * c + 16777216 * d) = [a; b; c; d].
Proof. exact (le32_rd32 a b c d). Qed.

Definition gchunk_of (c : Z * list Z) : gchunk := (le32 (fst c), snd c).

Lemma chunks_genc f c rest : len (snd c) < 4294967296 -> (0 < f)%nat ->
  chunks f (genc c ++ rest) =
    match chunks (pred f) rest with Some cs => Some (gchunk_of c :: cs) | None => None end.
Proof.
  destruct c as [id p]. cbn [fst snd]. intros Hl Hf. destruct f as [|f]; [lia|].
  pose proof (len_nonneg p). pose proof (len_nonneg rest).
  rewrite genc_shape. cbn [fst snd pred]. unfold le32 at 1 2. cbn [app chunks].
  rewrite rd32_le32_bytes by lia.
  unfold glen. fold (len (p ++ pad_bytes (len p) ++ rest)).
  rewrite !len_app. fold (len (pad_bytes (len p))). rewrite (length_pad_bytes (len p) : len _ = _).
  destruct (Z.ltb_spec (len p + (len p mod 2 + len rest)) (len p)); [lia|].
  rewrite (firstn_app_len p), (skipn_app_len p). unfold pad_bytes, gchunk_of. cbn [fst snd].
  destruct (Z.eqb_spec (len p mod 2) 0); cbn [app]; [reflexivity|]. rewrite Z.eqb_refl. reflexivity.
Qed.

Lemma chunks_written cs : Forall chunk_ok cs -> forall f, (length cs <= f)%nat ->
  chunks f (flat_map genc cs) = Some (map gchunk_of cs).
Proof.
  induction 1 as [|c cs (_ & _ & Hl) _ IH]; intros f Hf; [destruct f; reflexivity|].
  cbn [flat_map length map] in *. rewrite chunks_genc, IH by lia. reflexivity.
Qed.

Lemma forallb_bytes l : bytes_ok l -> forallb (fun b => (0 <=? b) && (b <? 256)) l = true.
Proof.
  intros H. apply forallb_forall. intros x Hx. unfold bytes_ok in H. rewrite Forall_forall in H.
  specialize (H x Hx). unfold is_byte in H. lia.
Qed.

Definition riff_file (body : list Z) : list Z :=
  le32 FCC_RIFF ++ le32 (4 + len body) ++ le32 FCC_WEBP ++ body.

Lemma riff_file_facts body : bytes_ok body -> 4 + len body < 4294967296 ->
  bytes_ok (riff_file body) /\ rd32 (firstn 4 (skipn 4 (riff_file body))) + 8 = len (riff_file body).
Proof.
  intros Hb Hlt. pose proof (len_nonneg body). unfold riff_file. split.
  - repeat (apply bytes_ok_app; split; [apply le32_bytes|]). exact Hb.
  - change (firstn 4 (skipn 4 (le32 FCC_RIFF ++ le32 (4 + len body) ++ le32 FCC_WEBP ++ body)))
      with (le32 (4 + len body) ++ []).
    rewrite rd32_le32, !len_app, !len_le32 by lia. lia.
Qed.

(** the header checks pass; the layout dispatch sees exactly those chunks *)
Lemma wf_riff_file c cs : Forall chunk_ok (c :: cs) -> 4 + len (flat_map genc (c :: cs)) < 4294967296 ->
  wf (riff_file (flat_map genc (c :: cs))) =
    let t := le32 (fst c) in let p := snd c in let rest := map gchunk_of cs in
    if bytes_eqb t T_VP8X then ext_ok p rest
    else if bytes_eqb t T_VP8 then match rest, vp8_header p with [], Some _ => true | _, _ => false end
    else if bytes_eqb t T_VP8L then match rest, vp8l_header p with [], Some _ => true | _, _ => false end
    else false.
Proof.
  intros Hok Hlt. pose proof (proj1 (riff_file_facts _ (bytes_ok_gencs _ Hok) Hlt)) as Hb.
  apply forallb_bytes in Hb. pose proof (flat_map_genc_len (c :: cs)) as Hfuel.
  set (body := flat_map genc (c :: cs)) in *. pose proof (len_nonneg body).
  unfold riff_file in *. set (n := 4 + len body) in *.
  change (le32 FCC_RIFF ++ le32 n ++ le32 FCC_WEBP ++ body) with
    (82 :: 73 :: 70 :: 70 :: le32 n ++ 87 :: 69 :: 66 :: 80 :: body) in *.
  unfold le32 in Hb. unfold le32 at 1. cbn [app] in *. unfold wf. rewrite Hb.
  change (bytes_eqb [82; 73; 70; 70] T_RIFF) with true.
  change (bytes_eqb [87; 69; 66; 80] T_WEBP) with true.
  rewrite rd32_le32_bytes by lia. unfold glen. fold (len body). unfold n at 1. rewrite Z.eqb_refl.
  cbn [andb]. unfold body at 1 2.
  rewrite (chunks_written _ Hok) by (fold body; unfold len in *; lia).
  reflexivity.
Qed.

(** only the dispatch on the first tag is left, with or without the RIFF-size patch *)
Lemma parse_riff_file dfx body : 4 + len body < 4294967296 -> 8 <= len body ->
  parse dfx (riff_file body) =
    bind (u32at body 0) (fun firstTag =>
      if firstTag =? FCC_VP8X then parse_extended body
      else if firstTag =? FCC_VP8 then parse_simple_vp8 body
      else if firstTag =? FCC_VP8L then parse_simple_vp8l body
      else Err E_unknown).
Proof.
  intros Hlt H8. unfold riff_file. set (n := 4 + len body) in *.
  set (file := le32 FCC_RIFF ++ le32 n ++ le32 FCC_WEBP ++ body).
  assert (Hflen : len file = 12 + len body) by (unfold file; rewrite !len_app, !len_le32; lia).
  unfold parse. rewrite Hflen. unfold RIFFHeaderSize.
  destruct (Z.ltb_spec (12 + len body) 12); [lia|]. unfold file.
  rewrite u32at_le32_head by (unfold FCC_RIFF; lia). cbn [bind].
  rewrite (u32at_le32 (le32 FCC_RIFF) n _ 4) by (reflexivity || lia). cbn [bind].
  rewrite (app_assoc (le32 FCC_RIFF) (le32 n)).
  rewrite (u32at_le32 (le32 FCC_RIFF ++ le32 n) FCC_WEBP body 8) by (reflexivity || (unfold FCC_WEBP; lia)). cbn [bind].
  rewrite <- (app_assoc (le32 FCC_RIFF) (le32 n)).
  rewrite !Z.eqb_refl. cbn [negb].
  destruct (Z.gtb_spec (n + 8) (12 + len body)); [lia|].
  unfold maxint. destruct (Z.gtb_spec (n + 8) (2 ^ 63 - 1)); [lia|].
  replace (dfx && (n + 8 <? 12)) with false by (destruct dfx; cbn [andb]; lia).
  replace (le32 FCC_RIFF ++ le32 n ++ le32 FCC_WEBP ++ body)
    with ((le32 FCC_RIFF ++ le32 n ++ le32 FCC_WEBP) ++ body ++ []) by (rewrite app_nil_r, <- !app_assoc; reflexivity).
  rewrite (slice_app_mid _ body [] 12 (n + 8)) by (try reflexivity; unfold n, len; lia).
  cbn [bind]. unfold ChunkHeaderSize. destruct (Z.ltb_spec (len body) 8); [lia|]. reflexivity.
Qed.

(** verbatim the body of [MuxModel.frame_dims] after splitAlphaAndBitstream, which the model does not name *)
Definition dims_of_bits (bs : list Z) : Z * Z :=
  let vp8 :=
    if len bs >=? 10 then
      match parse_vp8_dims bs with Ok (w, h) => (w, h) | _ => (0, 0) end
    else (0, 0) in
  if len bs >=? 5 then
    match bs with
    | b0 :: _ =>
      if b0 =? VP8LMagicByte then
        match parse_vp8l_dims bs with Ok (w, h, _) => (w, h) | _ => vp8 end
      else vp8
    | [] => vp8
    end
  else vp8.

Lemma frame_dims_eq data : frame_dims data = dims_of_bits (snd (split_alpha data)).
Proof. reflexivity. Qed.

Record bfacts (b : list Z) (w h : Z) (isl abit : bool) : Prop := {
  bf_w : 1 <= w <= 16384; bf_h : 1 <= h <= 16384;
  bf_len : 5 <= len b;
  bf_dims : dims_of_bits b = (w, h);
  bf_type : detect_type b = if isl then FCC_VP8L else FCC_VP8;
  bf_hdr : if isl then vp8l_header b = Some (w, h, abit) /\ parse_vp8l_dims b = Ok (w, h, abit)
           else vp8_header b = Some (w, h) /\ parse_vp8_dims b = Ok (w, h) /\ abit = false;
  bf_fha : frame_data_has_alpha b = Ok (isl && abit);
  bf_notalph : forall x y z t tl, b = x :: y :: z :: t :: tl -> rd32 [x; y; z; t] <> FCC_ALPH }.

Lemma vp8l_bits_facts b w h a : bytes_ok b -> vp8l_header b = Some (w, h, a) -> bfacts b w h true a.
Proof.
  intros Hb Hh. unfold vp8l_header in Hh.
  destruct b as [|b0 [|b1 [|b2 [|b3 [|b4 tl]]]]]; try discriminate.
  destruct ((b0 =? 47) && ((b1 + 256 * b2 + 65536 * b3 + 16777216 * b4) / 536870912 =? 0)) eqn:E; [|discriminate].
  apply andb_true_iff in E. destruct E as [E1 E2]. apply Z.eqb_eq in E1. subst b0.
  set (bits := b1 + 256 * b2 + 65536 * b3 + 16777216 * b4) in *.
  assert (Hw : w = bits mod 16384 + 1 /\ h = bits / 16384 mod 16384 + 1 /\
               a = negb (bits / 268435456 mod 2 =? 0)) by (repeat split; congruence).
  destruct Hw as (-> & -> & ->). clear Hh.
  assert (H5 : 5 <= len (47 :: b1 :: b2 :: b3 :: b4 :: tl)) by (rewrite !len_cons; pose proof (len_nonneg tl); lia).
  assert (Hp : parse_vp8l_dims (47 :: b1 :: b2 :: b3 :: b4 :: tl) =
               Ok (bits mod 16384 + 1, bits / 16384 mod 16384 + 1, negb (bits / 268435456 mod 2 =? 0))).
  { unfold parse_vp8l_dims. destruct (Z.ltb_spec (len (47 :: b1 :: b2 :: b3 :: b4 :: tl)) 5); [lia|]. reflexivity. }
  constructor; [lia|lia|exact H5| | | | |].
  - unfold dims_of_bits. rewrite Hp. destruct (Z.geb_spec (len (47 :: b1 :: b2 :: b3 :: b4 :: tl)) 5); [|lia].
    reflexivity.
  - reflexivity.
  - split; [|exact Hp]. unfold vp8l_header. fold bits. rewrite E2. reflexivity.
  - unfold frame_data_has_alpha. destruct (Z.ltb_spec (len (47 :: b1 :: b2 :: b3 :: b4 :: tl)) 5); [lia|].
    reflexivity.
  - (* "ALPH" would need 47 = 65 *)
    intros x y z t tl' [= <- <- <- <- _]. unfold rd32, FCC_ALPH.
    apply bytes_ok_cons in Hb. destruct Hb as [_ Hb]. apply bytes_ok_cons in Hb. destruct Hb as [Hb1 Hb].
    apply bytes_ok_cons in Hb. destruct Hb as [Hb2 Hb]. apply bytes_ok_cons in Hb. destruct Hb as [Hb3 _].
    unfold is_byte in *. clear -Hb1 Hb2 Hb3. lia.
Qed.

Lemma vp8_bits_facts b w h : bytes_ok b -> vp8_header b = Some (w, h) -> bfacts b w h false false.
Proof.
  intros Hb Hh. unfold vp8_header in Hh.
  destruct b as [|t0 [|t1 [|t2 [|b3 [|b4 [|b5 [|b6 [|b7 [|b8 [|b9 tl]]]]]]]]]]; try discriminate.
  destruct (_ && _) eqn:E; [|discriminate].
  assert (Hw : w = (b6 + 256 * b7) mod 16384 /\ h = (b8 + 256 * b9) mod 16384) by (split; congruence).
  destruct Hw as (-> & ->). clear Hh.
  pose proof E as E'. rewrite !andb_true_iff in E'. destruct E' as (((((Ek & E3) & E4) & E5) & Ew) & Eh).
  apply Z.eqb_eq in E3, E4, E5. subst b3 b4 b5.
  set (d := t0 :: t1 :: t2 :: 157 :: 1 :: 42 :: b6 :: b7 :: b8 :: b9 :: tl) in *.
  assert (H10 : 10 <= len d) by (unfold d; rewrite !len_cons; pose proof (len_nonneg tl); lia).
  assert (Hp : parse_vp8_dims d = Ok ((b6 + 256 * b7) mod 16384, (b8 + 256 * b9) mod 16384)).
  { unfold parse_vp8_dims. destruct (Z.ltb_spec (len d) 10); [lia|]. reflexivity. }
  (* the key-frame bit makes the first byte even, so it is not the VP8L magic byte 47 *)
  assert (Ht0 : t0 =? VP8LMagicByte = false) by (unfold VP8LMagicByte; lia).
  constructor; [lia|lia|lia| | | | |].
  - unfold dims_of_bits. rewrite Hp.
    destruct (Z.geb_spec (len d) 10); [|lia]. destruct (Z.geb_spec (len d) 5); [|lia].
    unfold d at 1. rewrite Ht0. reflexivity.
  - unfold d, detect_type. rewrite Ht0. reflexivity.
  - split; [|split; [exact Hp|reflexivity]]. unfold d, vp8_header. rewrite E. reflexivity.
  - unfold frame_data_has_alpha. destruct (Z.ltb_spec (len d) 5); [lia|]. unfold d. rewrite Ht0. reflexivity.
  - (* "ALPH" would need the start code byte 157 = 72 *)
    intros x y z t tl' [= <- <- <- <- _]. unfold rd32, FCC_ALPH.
    apply bytes_ok_cons in Hb. destruct Hb as [Hb0 Hb]. apply bytes_ok_cons in Hb. destruct Hb as [Hb1 Hb].
    apply bytes_ok_cons in Hb. destruct Hb as [Hb2 _]. unfold is_byte in *. clear -Hb0 Hb1 Hb2. lia.
Qed.

Lemma bits_facts b : bytes_ok b -> (is_some' (vp8_header b) || is_some' (vp8l_header b)) = true ->
  exists w h isl abit, bfacts b w h isl abit.
Proof.
  intros Hb H. destruct (vp8l_header b) as [[[w h] a]|] eqn:El.
  - exists w, h, true, a. apply vp8l_bits_facts; auto.
  - rewrite orb_false_r in H. destruct (vp8_header b) as [[w h]|] eqn:Ev; [|discriminate].
    exists w, h, false, false. apply vp8_bits_facts; auto.
Qed.

Lemma split_alpha_plain b w h isl abit : bfacts b w h isl abit -> split_alpha b = (None, b).
Proof.
  intros Hbf. unfold split_alpha. destruct (len b <? ChunkHeaderSize); [reflexivity|].
  destruct b as [|a0 [|a1 [|a2 [|a3 [|s0 [|s1 [|s2 [|s3 body]]]]]]]]; try reflexivity.
  pose proof (bf_notalph _ _ _ _ _ Hbf a0 a1 a2 a3 _ eq_refl) as Hne.
  destruct (Z.eqb_spec (rd32 [a0; a1; a2; a3]) FCC_ALPH); [contradiction|reflexivity].
Qed.

Lemma detect_type_range b : 0 <= detect_type b < 4294967296.
Proof. unfold detect_type. destruct b as [|b0 tl]; [|destruct (b0 =? VP8LMagicByte)]; vm_compute; split; congruence. Qed.

(** Simple layout, any variant: one VP8 / VP8L frame needing no VP8X assembles to a
    well-formed file that demuxes back to that bitstream and its dimensions. *)
Theorem simple_layout_roundtrip fx dfx data fo m :
  m_frames m = [mkmf data fo] ->
  needs_vp8x fx m = false -> validate fx m = Ok tt ->
  bytes_ok data -> len data < 2147483648 ->
  frame_parts data = Some (None, data) ->
  (is_some' (vp8_header data) || is_some' (vp8l_header data)) = true ->
  exists bs, assemble fx m = Ok bs /\ wf bs = true /\
    match parse dfx bs with
    | Ok d =>
      (exists ha, d_frames d = [mkfi (Some data) None (fst (frame_dims data)) (snd (frame_dims data)) 0 0 0 true ha 0 0]) /\
      d_icc d = None /\ d_exif d = None /\ d_xmp d = None /\ d_loop d = 0 /\ d_bg d = 0 /\
      ft_anim (d_feat d) = false /\ (ft_w (d_feat d), ft_h (d_feat d)) = frame_dims data
    | _ => False
    end.
Proof.
  intros Hfr Hnv Hval Hb Hl _ Hhdr. pose proof (len_nonneg data) as H0.
  destruct (bits_facts data Hb Hhdr) as (w & h & isl & abit & Hbf).
  assert (Hd : frame_dims data = (w, h)).
  { rewrite frame_dims_eq, (split_alpha_plain _ _ _ _ _ Hbf). apply (bf_dims _ _ _ _ _ Hbf). }
  set (c := (detect_type data, data)).
  assert (Hc : Forall chunk_ok [c]).
  { constructor; [|constructor]. split; [apply detect_type_range|split; [exact Hb|exact Hl]]. }
  assert (Hlen : len (flat_map genc [c]) = 8 + len data + len data mod 2).
  { cbn [flat_map]. rewrite app_nil_r. apply len_genc. }
  (* assembleSimple writes the RIFF form around the one chunk *)
  assert (Hasm : assemble fx m = Ok (riff_file (flat_map genc [c]))).
  { unfold assemble. rewrite Hval, Hnv. cbn [bind]. unfold assemble_simple. rewrite Hfr. cbn [f_data].
    unfold riff_file. rewrite Hlen. unfold u32, ChunkHeaderSize. rewrite (Z.mod_small (len data)) by lia.
    replace (if negb (len data mod 2 =? 0) then (len data + 1) mod 4294967296 else len data)
      with (len data + len data mod 2).
    2:{ destruct (Z.eqb_spec (len data mod 2) 0); cbn [negb]; [|rewrite (Z.mod_small (len data + 1))]; lia. }
    rewrite (Z.mod_small (4 + 8 + (len data + len data mod 2)) 4294967296), pad_bytes_negb by lia.
    replace (4 + 8 + (len data + len data mod 2)) with (4 + (8 + len data + len data mod 2)) by lia.
    cbn [flat_map]. rewrite app_nil_r. reflexivity. }
  eexists. split; [exact Hasm|].
  pose proof (bf_type _ _ _ _ _ Hbf) as Ht. pose proof (bf_hdr _ _ _ _ _ Hbf) as Hh.
  split.
  - rewrite wf_riff_file by (auto; lia). unfold c. cbn [fst snd map]. rewrite Ht.
    destruct isl; destruct Hh as (Hh & _); cbv zeta.
    + change (bytes_eqb (le32 FCC_VP8L) T_VP8X) with false. change (bytes_eqb (le32 FCC_VP8L) T_VP8) with false.
      change (bytes_eqb (le32 FCC_VP8L) T_VP8L) with true. rewrite Hh. reflexivity.
    + change (bytes_eqb (le32 FCC_VP8) T_VP8X) with false. change (bytes_eqb (le32 FCC_VP8) T_VP8) with true.
      rewrite Hh. reflexivity.
  - rewrite parse_riff_file by lia. cbn [flat_map]. rewrite app_nil_r.
    pose proof (read_chunk_genc c [] (detect_type_range data) ltac:(unfold MaxChunkPayload, c; cbn [snd]; lia)) as Hrc.
    assert (Hft : u32at (genc c) 0 = Ok (detect_type data)).
    { rewrite <- (app_nil_r (genc c)), genc_shape. apply u32at_le32_head, detect_type_range. }
    rewrite app_nil_r in Hrc. unfold c in Hrc at 2 3 4. cbn [fst snd] in Hrc.
    rewrite Hft. cbn [bind]. rewrite Ht, Hd. cbn [fst snd].
    destruct isl.
    + destruct Hh as (_ & Hp).
      change (FCC_VP8L =? FCC_VP8X) with false. change (FCC_VP8L =? FCC_VP8) with false. rewrite Z.eqb_refl.
      unfold parse_simple_vp8l. rewrite Hrc. cbn [bind c_data]. rewrite Hp. cbn.
      repeat split. eexists. reflexivity.
    + destruct Hh as (_ & Hp & _).
      change (FCC_VP8 =? FCC_VP8X) with false. rewrite Z.eqb_refl.
      unfold parse_simple_vp8. rewrite Hrc. cbn [bind c_data]. rewrite Hp. cbn.
      repeat split. eexists. reflexivity.
Qed.
