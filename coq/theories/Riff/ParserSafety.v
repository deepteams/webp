(** The container parser model never reaches a [Panic] outcome on a byte string
    (every slice / index expression of parser.go is in range), and never runs out
    of fuel: for all inputs it returns [Ok] or one of the error classes. *)
From Coq Require Import List ZArith Lia Bool.
From Coq Require Import ZifyBool ZifyNat.
From Webp Require Import Base.Res Base.Bytes Riff.ParserModel Riff.ParserLemmas.
Import ListNotations.
Open Scope Z_scope.

Definition safe {A} (r : Res A) : Prop := r <> Panic /\ r <> Err EOutOfFuel.

Lemma safe_ok {A} (a : A) : safe (Ok a).
Proof. split; discriminate. Qed.
Lemma safe_err {A} e : e <> EOutOfFuel -> safe (@Err A e).
Proof. intros H. split; [discriminate|]. intros [= E]. auto. Qed.

Ltac err_is_safe := apply safe_err; unfold EOutOfFuel, ETruncated, EInvalidRIFF, EInvalidWebP, ETooLarge,
  EInvalidChunk, EInvalidVP8X, EInvalidFlags, EUnsupported, EInvalidImage, EOther; lia.

Lemma rd32_range b : bytes_ok b -> length b = 4%nat -> 0 <= rd32 b < 4294967296.
Proof.
  intros Hb Hl. destruct b as [|a [|b [|c [|d [|? ?]]]]]; try discriminate.
  rewrite !bytes_ok_cons in Hb. destruct Hb as (Ha & Hb & Hc & Hd & _). apply rd32_bound; assumption.
Qed.

(** ** read_chunk_header, chunk_at *)
Lemma read_chunk_header_cases buf :
  bytes_ok buf ->
  (exists f sz, read_chunk_header buf = Ok (f, sz) /\ 8 <= len buf /\ 0 <= sz <= MaxChunkPayload) \/
  (exists e, read_chunk_header buf = Err e /\ e <> EOutOfFuel).
Proof.
  intros Hb. unfold read_chunk_header, ChunkHeaderSize.
  destruct (Z.ltb_spec (len buf) 8) as [Hs|Hs].
  { right. eexists. split; [reflexivity|]. unfold ETruncated, EOutOfFuel. lia. }
  destruct (slice_in_range buf 0 4 (len buf) eq_refl ltac:(lia) ltac:(lia)) as (a & Ea & La).
  destruct (slice_in_range buf 4 8 (len buf) eq_refl ltac:(lia) ltac:(lia)) as (b & Eb & Lb).
  rewrite Ea, Eb. cbn [bind].
  pose proof (rd32_range b (slice_Forall _ _ _ _ _ Hb Eb) ltac:(lia)) as Hr.
  destruct (Z.gtb_spec (rd32 b) MaxChunkPayload).
  - right. eexists. split; [reflexivity|]. unfold ETooLarge, EOutOfFuel. lia.
  - left. do 2 eexists. split; [reflexivity|]. lia.
Qed.

Lemma chunk_at_cases buf :
  bytes_ok buf ->
  (exists f sz tot pl, chunk_at buf = Ok (f, sz, tot, pl) /\ bytes_ok pl /\ len pl = sz /\
                       0 <= sz /\ 8 <= tot <= len buf) \/
  (exists e, chunk_at buf = Err e /\ e <> EOutOfFuel).
Proof.
  intros Hb. unfold chunk_at, ChunkHeaderSize.
  destruct (read_chunk_header_cases buf Hb) as [(f & sz & -> & H8 & Hsz)|(e & -> & He)]; cbn [bind]; [|eauto].
  destruct (Z.gtb_spec (8 + (sz + sz mod 2)) (len buf)) as [Hg|Hg].
  { right. eexists. split; [reflexivity|]. unfold ETruncated, EOutOfFuel. lia. }
  destruct (slice_in_range buf 8 (8 + sz) (len buf) eq_refl ltac:(lia) ltac:(lia)) as (pl & Ep & Lp).
  rewrite Ep. cbn [bind]. left. do 4 eexists. split; [reflexivity|].
  split; [apply (slice_Forall _ _ _ _ _ Hb Ep)|]. split; [unfold len; lia|]. lia.
Qed.

Lemma rest_ok buf tot :
  bytes_ok buf -> 0 <= tot <= len buf ->
  exists rest, slice buf tot (len buf) = Ok rest /\ bytes_ok rest /\ len rest = len buf - tot.
Proof.
  intros Hb Ht. destruct (slice_in_range buf tot (len buf) (len buf) eq_refl ltac:(lia) ltac:(lia)) as (r & Er & Lr).
  exists r. split; [exact Er|]. split; [apply (slice_Forall _ _ _ _ _ Hb Er)|]. unfold len in *. lia.
Qed.

(** ** Bitstream headers *)
Lemma vp8_header_safe d : safe (parse_vp8_header d).
Proof.
  destruct (Z.lt_ge_cases (len d) 10) as [Hs|Hl]; [rewrite parse_vp8_header_short by exact Hs; err_is_safe|].
  destruct (len_ge_10 d Hl) as (b0 & b1 & b2 & b3 & b4 & b5 & b6 & b7 & b8 & b9 & tl & ->).
  rewrite parse_vp8_header_bytes.
  destruct (negb _); [err_is_safe|]. destruct (negb _); [err_is_safe|].
  destruct (_ || _); [err_is_safe|apply safe_ok].
Qed.

Lemma vp8l_header_safe d : safe (parse_vp8l_header d).
Proof.
  destruct (Z.lt_ge_cases (len d) 5) as [Hs|Hl]; [rewrite parse_vp8l_header_short by exact Hs; err_is_safe|].
  destruct (len_ge_5 d Hl) as (b0 & b1 & b2 & b3 & b4 & tl & ->).
  rewrite parse_vp8l_header_bytes. cbv zeta.
  destruct (negb _); [err_is_safe|]. destruct (negb _); [err_is_safe|].
  destruct (_ || _); [err_is_safe|apply safe_ok].
Qed.

Lemma safe_bind {A B} (r : Res A) (f : A -> Res B) :
  safe r -> (forall a, r = Ok a -> safe (f a)) -> safe (bind r f).
Proof.
  intros [Hp Hf] Hk. destruct r as [a|e|]; cbn [bind]; [apply Hk; reflexivity| |congruence].
  split; [discriminate|]. intros [= ->]. apply Hf. reflexivity.
Qed.

(** ** The chunk loops *)
Lemma frame_sub_safe : forall fuel frame alph buf,
  bytes_ok buf -> (length buf < fuel)%nat -> safe (parse_frame_sub fuel frame alph buf).
Proof.
  induction fuel as [|fuel IH]; intros frame alph buf Hb Hf; [lia|].
  cbn [parse_frame_sub]. unfold ChunkHeaderSize.
  assert (Hfin : safe (match alph with Some _ => Err EInvalidChunk | None => Ok frame end)).
  { destruct alph; [err_is_safe|apply safe_ok]. }
  destruct (len buf <? 8); [exact Hfin|].
  destruct (chunk_at_cases buf Hb) as [(f & sz & tot & pl & Ec & Hpl & Hlen & Hsz & Htot)|(e & Ec & He)];
    rewrite Ec; cbn [bind]; [|apply safe_err; exact He].
  destruct (f =? FourCCALPH).
  { destruct (rest_ok buf tot Hb ltac:(lia)) as (rest & Er & Hrb & Hrl). rewrite Er. cbn [bind].
    apply IH; [exact Hrb|]. unfold len in *. lia. }
  destruct (f =? FourCCVP8L).
  { destruct alph; [err_is_safe|]. apply safe_bind; [apply vp8l_header_safe|].
    intros [[w h] a] _. apply safe_ok. }
  destruct (f =? FourCCVP8); [apply safe_ok|exact Hfin].
Qed.

Lemma anmf_safe pl : bytes_ok pl -> safe (parse_anmf pl).
Proof.
  intros Hb. unfold parse_anmf, ANMFChunkSize.
  destruct (Z.ltb_spec (len pl) 16); [err_is_safe|].
  destruct (slice_in_range pl 0 16 (len pl) eq_refl ltac:(lia) ltac:(lia)) as (hd & Eh & Lh). rewrite Eh. cbn [bind].
  assert (Lh' : length hd = 16%nat) by lia. clear Lh.
  do 17 (destruct hd as [|? hd]; try discriminate). clear Lh'.
  destruct (_ || _); [err_is_safe|]. destruct (_ >=? _); [err_is_safe|].
  destruct (rest_ok pl 16 Hb ltac:(lia)) as (sub & Es & Hsb & _). rewrite Es. cbn [bind].
  apply frame_sub_safe; [exact Hsb|lia].
Qed.

Lemma ext_single_safe : forall fuel feat frames chunks alph buf,
  bytes_ok buf -> (length buf < fuel)%nat -> safe (parse_ext_single fuel feat frames chunks alph buf).
Proof.
  induction fuel as [|fuel IH]; intros feat frames chunks alph buf Hb Hf; [lia|].
  cbn [parse_ext_single]. unfold ChunkHeaderSize.
  destruct (len buf <? 8); [err_is_safe|].
  destruct (chunk_at_cases buf Hb) as [(f & sz & tot & pl & Ec & Hpl & Hlen & Hsz & Htot)|(e & Ec & He)];
    rewrite Ec; cbn [bind]; [|apply safe_err; exact He].
  destruct (f =? FourCCALPH).
  { destruct (rest_ok buf tot Hb ltac:(lia)) as (rest & Er & Hrb & Hrl). rewrite Er. cbn [bind].
    apply IH; [exact Hrb|]. unfold len in *. lia. }
  destruct (f =? FourCCVP8L).
  { destruct alph; [err_is_safe|]. apply safe_bind; [apply vp8l_header_safe|].
    intros [[w h] a] _. apply safe_ok. }
  destruct (f =? FourCCVP8); [|err_is_safe].
  apply safe_bind; [apply vp8_header_safe|]. intros [w h] _. apply safe_ok.
Qed.

Lemma add_meta_safe flag sz id pl cs : safe (add_meta flag sz id pl cs).
Proof. unfold add_meta. destruct flag; [|apply safe_ok]. destruct (sz >? MaxMetadataSize); [err_is_safe|apply safe_ok]. Qed.

Lemma vp8x_chunks_safe : forall fuel fx feat frames chunks a buf,
  bytes_ok buf -> (length buf < fuel)%nat -> safe (parse_vp8x_chunks fuel fx feat frames chunks a buf).
Proof.
  induction fuel as [|fuel IH]; intros fx feat frames chunks a buf Hb Hf; [lia|].
  cbn [parse_vp8x_chunks]. unfold ChunkHeaderSize.
  destruct (len buf <? 8).
  { destruct (fx && negb (fHasAnim feat) && (len frames =? 0)); [err_is_safe|apply safe_ok]. }
  destruct (chunk_at_cases buf Hb) as [(f & sz & tot & pl & Ec & Hpl & Hlen & Hsz & Htot)|(e & Ec & He)];
    rewrite Ec; cbn [bind]; [|apply safe_err; exact He].
  destruct (rest_ok buf tot Hb ltac:(lia)) as (rest & Er & Hrb & Hrl).
  assert (Hcont : forall feat' frames' chunks' a',
             safe (rest <- slice buf tot (len buf);; parse_vp8x_chunks fuel fx feat' frames' chunks' a' rest)).
  { intros. rewrite Er. cbn [bind]. apply IH; [exact Hrb|]. unfold len in *. lia. }
  destruct (f =? FourCCVP8X); [err_is_safe|].
  destruct (f =? FourCCANIM).
  { unfold ANIMChunkSize. destruct (Z.ltb_spec sz 6); [err_is_safe|].
    destruct (slice_in_range pl 0 4 (len pl) eq_refl ltac:(lia) ltac:(lia)) as (bg & Ebg & _).
    destruct (slice_in_range pl 4 6 (len pl) eq_refl ltac:(lia) ltac:(lia)) as (lc & Elc & _).
    rewrite Ebg, Elc. cbn [bind]. apply Hcont. }
  destruct (f =? FourCCANMF).
  { destruct (a =? 0); [err_is_safe|]. destruct (len frames >=? MaxFrames); [err_is_safe|].
    apply safe_bind; [apply anmf_safe; exact Hpl|]. intros fr _. apply Hcont. }
  destruct (is_image_fourcc f || (f =? FourCCALPH)).
  { destruct ((a >? 0) || fHasAnim feat); [err_is_safe|].
    apply safe_bind; [apply ext_single_safe; [exact Hb|lia]|]. intros r _. apply safe_ok. }
  destruct (f =? FourCCICCP).
  { apply safe_bind; [apply add_meta_safe|]. intros cs _. apply Hcont. }
  destruct (f =? FourCCEXIF).
  { apply safe_bind; [apply add_meta_safe|]. intros cs _. apply Hcont. }
  destruct (f =? FourCCXMP).
  { apply safe_bind; [apply add_meta_safe|]. intros cs _. apply Hcont. }
  destruct (len chunks >=? MaxChunks); [err_is_safe|].
  destruct (sz >? MaxMetadataSize); [err_is_safe|]. apply Hcont.
Qed.

Lemma single_image_safe fmt buf : bytes_ok buf -> safe (parse_single_image fmt buf).
Proof.
  intros Hb. unfold parse_single_image.
  destruct (chunk_at_cases buf Hb) as [(f & sz & tot & pl & Ec & Hpl & Hlen & Hsz & Htot)|(e & Ec & He)];
    rewrite Ec; cbn [bind]; [|apply safe_err; exact He].
  destruct (f =? FourCCVP8L).
  - apply safe_bind; [apply vp8l_header_safe|]. intros [[w h] a] _. apply safe_ok.
  - apply safe_bind; [apply vp8_header_safe|]. intros [w h] _. apply safe_ok.
Qed.

Lemma vp8x_safe fx buf : bytes_ok buf -> safe (parse_vp8x fx buf).
Proof.
  intros Hb. unfold parse_vp8x, ChunkHeaderSize, VP8XChunkSize.
  destruct (read_chunk_header_cases buf Hb) as [(f & sz & -> & H8 & Hsz)|(e & -> & He)]; cbn [bind];
    [|apply safe_err; exact He].
  destruct (Z.eqb_spec sz 10) as [->|E]; cbn [negb]; [|err_is_safe].
  change (10 mod 2) with 0. change (8 + (10 + 0)) with 18. change (8 + 10) with 18.
  destruct (Z.gtb_spec 18 (len buf)); [err_is_safe|].
  destruct (slice_in_range buf 8 18 (len buf) eq_refl ltac:(lia) ltac:(lia)) as (pl & Ep & Lp). rewrite Ep. cbn [bind].
  assert (Lp' : length pl = 10%nat) by lia. clear Lp.
  do 11 (destruct pl as [|? pl]; try discriminate). clear Lp'.
  destruct (negb _); [err_is_safe|]. destruct (_ >=? _); [err_is_safe|].
  destruct (rest_ok buf 18 Hb ltac:(lia)) as (rest & Er & Hrb & _). rewrite Er. cbn [bind].
  apply vp8x_chunks_safe; [exact Hrb|lia].
Qed.

Theorem parse_ex_safe : forall fx data, bytes_ok data -> safe (parse_ex fx data).
Proof.
  intros fx data Hb. unfold parse_ex, parse_riff_header, RIFFHeaderSize, ChunkHeaderSize.
  destruct (Z.ltb_spec (len data) 12) as [Hs|Hs]; [cbn [bind]; err_is_safe|].
  destruct (slice_in_range data 0 4 (len data) eq_refl ltac:(lia) ltac:(lia)) as (t & Et & _).
  destruct (slice_in_range data 4 8 (len data) eq_refl ltac:(lia) ltac:(lia)) as (s & Es & Ls).
  destruct (slice_in_range data 8 12 (len data) eq_refl ltac:(lia) ltac:(lia)) as (w & Ew & _).
  rewrite Et. cbn [bind]. destruct (negb _); cbn [bind]; [err_is_safe|].
  rewrite Es. cbn [bind].
  pose proof (rd32_range s (slice_Forall _ _ _ _ _ Hb Es) ltac:(lia)) as Hr.
  destruct (Z.ltb_spec (rd32 s) 8); cbn [bind]; [err_is_safe|].
  destruct (rd32 s >? MaxChunkPayload); cbn [bind]; [err_is_safe|].
  rewrite Ew. cbn [bind]. destruct (negb _); cbn [bind]; [err_is_safe|].
  set (hi := if rd32 s + 8 >? len data then len data else rd32 s + 8).
  assert (Hhi : 12 <= hi <= len data) by (subst hi; destruct (Z.gtb_spec (rd32 s + 8) (len data)); lia).
  destruct (slice_in_range data 12 hi (len data) eq_refl ltac:(lia) ltac:(lia)) as (buf & Eb & _). rewrite Eb. cbn [bind].
  pose proof (slice_Forall _ _ _ _ _ Hb Eb) as Hbb.
  destruct (Z.ltb_spec (len buf) 8); [err_is_safe|].
  destruct (slice_in_range buf 0 4 (len buf) eq_refl ltac:(lia) ltac:(lia)) as (t4 & Et4 & _). rewrite Et4. cbn [bind].
  destruct (rd32 t4 =? FourCCVP8X); [apply vp8x_safe; exact Hbb|].
  destruct (rd32 t4 =? FourCCVP8).
  { apply safe_bind; [apply single_image_safe; exact Hbb|]. intros r _. apply safe_ok. }
  destruct (rd32 t4 =? FourCCVP8L); [|err_is_safe].
  apply safe_bind; [apply single_image_safe; exact Hbb|]. intros r _. apply safe_ok.
Qed.
