(** C17, codec layer, VP8 (lossy), frame level: [Vp8.Vp8Spec.decode_yuv] on a byte string
    [d] and on [d ++ ext].  The one-bool simulation of [Riff.PrefixVp8Bool] is lifted through
    every reader of [Vp8Syntax] ([good f]: [f] never clears the past-end flag, and a run that
    ends with the flag clear is reproduced by every related decoder), then through the
    macroblock loops.  Appended bytes only extend the last token partition and [decode_yuv]
    rejects every run with a past-end read: [vp8_frame_prefix_monotone]. *)
From Coq Require Import List ZArith Lia Bool.
From Webp Require Import Base.Res Base.Bytes Vp8.Vp8Bool Vp8.Vp8Tables Vp8.Vp8Syntax Riff.PrefixVp8Bool.
From Webp Require Import Vp8.Vp8Kernels Vp8.Vp8Recon Vp8.Vp8Filter Vp8.Vp8Spec.
From Webp Require Import Base.ListFacts.
Import ListNotations.
Open Scope Z_scope.

Definition prob_ok (p : Z) : Prop := 0 <= p <= 255.

(** two decoder states: the same (partitions the appended bytes do not reach), or the RFC
    decoder over some [l] and over [l ++ ext] (the last token partition); the second one has
    not read beyond its data *)
Definition sim (d d' : bdec) : Prop :=
  bd_past d' = false /\
  (d = d' \/ exists l ext, bytes_ok l /\ bytes_ok ext /\ rel l ext d d').

Lemma sim_refl d : bd_past d = false -> sim d d.
Proof. intros H. split; [exact H|left; reflexivity]. Qed.

Lemma bd_init_clear m : bd_past (bd_init m) = false.
Proof. destruct m as [|a [|b r]]; reflexivity. Qed.

Lemma sim_init l ext : bytes_ok l -> bytes_ok ext -> sim (bd_init l) (bd_init (l ++ ext)).
Proof.
  intros Hl He. split; [apply bd_init_clear|]. right. exists l, ext.
  split; [exact Hl|]. split; [exact He|]. apply init_rel; assumption.
Qed.

Lemma clear_before_of_mono (b c : bool) : (b = true -> c = true) -> c = false -> b = false.
Proof. destruct b; [intros H E; rewrite H in E by reflexivity; discriminate|reflexivity]. Qed.

Section Comb.
  Definition mono {A} (f : bdec -> A * bdec) : Prop :=
    forall d, bd_past d = true -> bd_past (snd (f d)) = true.
  Definition lifts {A} (f : bdec -> A * bdec) : Prop :=
    forall d d' a d1, sim d d' -> f d = (a, d1) -> bd_past d1 = false ->
      exists d1', f d' = (a, d1') /\ sim d1 d1'.
  Definition good {A} (f : bdec -> A * bdec) : Prop := mono f /\ lifts f.
  (** every result of [f] satisfies [P] *)
  Definition yields {A} (P : A -> Prop) (f : bdec -> A * bdec) : Prop := forall d, P (fst (f d)).

  Lemma clear_before {A} (f : bdec -> A * bdec) d a d1 : good f -> f d = (a, d1) -> bd_past d1 = false -> bd_past d = false.
  Proof.
    intros [Hm _] E H. pose proof (Hm d) as M. rewrite E in M. exact (clear_before_of_mono _ _ M H).
  Qed.

  Lemma good_ret {A} (a : A) : good (fun d => (a, d)).
  Proof.
    split.
    - intros d H. exact H.
    - intros d d' a0 d1 Hs E Hp. injection E as <- <-. exists d'. split; [reflexivity|exact Hs].
  Qed.

  Lemma good_bindP {A B} (P : A -> Prop) (f : bdec -> A * bdec) (g : A -> bdec -> B * bdec) :
    good f -> yields P f -> (forall a, P a -> good (g a)) ->
    good (fun d => let '(a, d1) := f d in g a d1).
  Proof.
    intros [Hmf Hlf] HP Hg. split.
    - intros d H. pose proof (Hmf d H) as H1. pose proof (HP d) as Pa.
      destruct (f d) as [a d1]. cbn [fst snd] in *. apply (proj1 (Hg a Pa)). exact H1.
    - intros d d' r d2 Hs E Hp. pose proof (HP d) as Pa.
      destruct (f d) as [a d1] eqn:Ef. cbn [fst] in Pa.
      pose proof (clear_before (g a) d1 r d2 (Hg a Pa) E Hp) as Hp1.
      destruct (Hlf d d' a d1 Hs Ef Hp1) as (d1' & Ef' & Hs1). rewrite Ef'.
      apply (proj2 (Hg a Pa) d1 d1' r d2 Hs1 E Hp).
  Qed.

  Lemma good_bind {A B} (f : bdec -> A * bdec) (g : A -> bdec -> B * bdec) :
    good f -> (forall a, good (g a)) -> good (fun d => let '(a, d1) := f d in g a d1).
  Proof. intros Hf Hg. apply (good_bindP (fun _ => True)); [exact Hf|intros d; exact I|intros a _; apply Hg]. Qed.

  Lemma yields_bind {A B} (P : B -> Prop) (f : bdec -> A * bdec) (g : A -> bdec -> B * bdec) :
    (forall a, yields P (g a)) -> yields P (fun d => let '(a, d1) := f d in g a d1).
  Proof. intros Hg d. destruct (f d) as [a d1]. apply Hg. Qed.

  Lemma yields_bindQ {A B} (Q : A -> Prop) (P : B -> Prop) (f : bdec -> A * bdec) (g : A -> bdec -> B * bdec) :
    yields Q f -> (forall a, Q a -> yields P (g a)) -> yields P (fun d => let '(a, d1) := f d in g a d1).
  Proof. intros Hf Hg d. pose proof (Hf d) as Qa. destruct (f d) as [a d1]. apply Hg. exact Qa. Qed.

  Lemma yields_ret {A} (P : A -> Prop) (a : A) : P a -> yields P (fun d => (a, d)).
  Proof. intros H d. exact H. Qed.
End Comb.

Lemma good_read_bool p : prob_ok p -> good (read_bool p).
Proof.
  intros Hp. split.
  - intros d H. apply read_bool_past_mono. exact H.
  - intros d d' b d1 [Hq [->|(l & ext & Hl & He & Hrel)]] E Hp1.
    + exists d1. split; [exact E|]. apply sim_refl. exact Hp1.
    + destruct (read_bool_lift l ext Hl He p d d' b d1 Hrel Hp E Hp1) as (d1' & E' & Hr1 & Hq1).
      exists d1'. split; [exact E'|]. split; [congruence|]. right. exists l, ext. auto.
Qed.

Lemma prob_ok_128 : prob_ok 128. Proof. unfold prob_ok. lia. Qed.

Lemma good_read_flag : good read_flag.
Proof. apply good_read_bool. exact prob_ok_128. Qed.

Lemma good_read_literal : forall k acc, good (read_literal k acc).
Proof.
  induction k as [|k IH]; intros acc; cbn [read_literal].
  - apply good_ret.
  - apply (good_bind (read_bool 128) (fun b => read_literal k (2 * acc + (if b then 1 else 0)))).
    + apply good_read_bool. exact prob_ok_128.
    + intros b. apply IH.
Qed.

Lemma good_read_lit k : good (read_lit k).
Proof. apply good_read_literal. Qed.

Lemma good_read_signed k : good (read_signed k).
Proof.
  unfold read_signed.
  apply (good_bind (read_lit k) (fun m d1 => let '(s, d2) := read_flag d1 in ((if s then - m else m), d2))).
  - apply good_read_lit.
  - intros m. apply (good_bind read_flag (fun (s : bool) d2 => ((if s then - m else m), d2))).
    + apply good_read_flag.
    + intros s. apply good_ret.
Qed.

Lemma good_read_opt_signed k : good (read_opt_signed k).
Proof.
  unfold read_opt_signed.
  apply (good_bind read_flag (fun (f : bool) d1 => if f then read_signed k d1 else (0, d1))).
  - apply good_read_flag.
  - intros [|]; [apply good_read_signed|apply good_ret].
Qed.

Lemma nthZ_ok {A} (P : A -> Prop) (l : list A) (i : Z) (dflt : A) : Forall P l -> P dflt -> P (nthZ l i dflt).
Proof. apply Forall_nth_default. Qed.

Lemma prob_ok_0 : prob_ok 0. Proof. unfold prob_ok. lia. Qed.

Lemma good_read_tree {A} : forall (t : tree A) probs, Forall prob_ok probs -> good (read_tree t probs).
Proof.
  induction t as [a|i z IHz o IHo]; intros probs Hp; cbn [read_tree].
  - apply good_ret.
  - apply (good_bind (read_bool (nth i probs 0)) (fun (b : bool) d1 => if b then read_tree o probs d1 else read_tree z probs d1)).
    + apply good_read_bool. apply Forall_nth_default; [exact Hp|exact prob_ok_0].
    + intros [|]; [apply IHo|apply IHz]; exact Hp.
Qed.

(** bits decoded inside the data do not depend on what follows the data *)
Lemma good_init {A} (f : bdec -> A * bdec) l ext a d1 : good f -> bytes_ok l -> bytes_ok ext ->
  f (bd_init l) = (a, d1) -> bd_past d1 = false ->
  exists d1', f (bd_init (l ++ ext)) = (a, d1') /\ bd_past d1' = false.
Proof.
  intros [_ Hf] Hl He E Hp. destruct (Hf _ _ a d1 (sim_init l ext Hl He) E Hp) as (d1' & E' & Hq & _).
  exists d1'. split; [exact E'|exact Hq].
Qed.

Theorem bool_literal_prefix_stable : forall l ext k v d1,
  bytes_ok l -> bytes_ok ext ->
  read_lit k (bd_init l) = (v, d1) -> bd_past d1 = false ->
  exists d1', read_lit k (bd_init (l ++ ext)) = (v, d1') /\ bd_past d1' = false.
Proof. intros l ext k v d1. apply good_init. apply good_read_lit. Qed.

Theorem bool_tree_prefix_stable : forall (A : Type) (t : tree A) probs l ext a d1,
  bytes_ok l -> bytes_ok ext -> Forall (fun p => 0 <= p <= 255) probs ->
  read_tree t probs (bd_init l) = (a, d1) -> bd_past d1 = false ->
  exists d1', read_tree t probs (bd_init (l ++ ext)) = (a, d1') /\ bd_past d1' = false.
Proof. intros A t probs l ext a d1 Hl He Hpr. apply good_init; [apply good_read_tree; exact Hpr|exact Hl|exact He]. Qed.

Fixpoint tree_all {A} (P : A -> Prop) (t : tree A) : Prop :=
  match t with
  | Leaf a => P a
  | Node _ z o => tree_all P z /\ tree_all P o
  end.

Lemma yields_read_tree {A} (P : A -> Prop) : forall (t : tree A) probs, tree_all P t -> yields P (read_tree t probs).
Proof.
  induction t as [a|i z IHz o IHo]; intros probs H d; cbn [read_tree].
  - exact H.
  - destruct H as [Hz Ho]. destruct (read_bool (nth i probs 0) d) as [[|] d1]; [apply IHo|apply IHz]; assumption.
Qed.

(** a reader followed by a reader of a list, results consed: the step of [read_n] and [map_st] *)
Lemma good_cons {A} (f : bdec -> A * bdec) (g : bdec -> list A * bdec) : good f -> good g ->
  good (fun d => let '(a, d1) := f d in let '(l, d2) := g d1 in (a :: l, d2)).
Proof.
  intros Hf Hg. apply (good_bind f (fun a d1 => let '(l, d2) := g d1 in (a :: l, d2))); [exact Hf|].
  intros a. apply (good_bind g (fun l d2 => (a :: l, d2))); [exact Hg|]. intros l. apply good_ret.
Qed.

Lemma yields_cons {A} (P : A -> Prop) (f : bdec -> A * bdec) (g : bdec -> list A * bdec) :
  yields P f -> yields (Forall P) g ->
  yields (Forall P) (fun d => let '(a, d1) := f d in let '(l, d2) := g d1 in (a :: l, d2)).
Proof.
  intros Hf Hg d. pose proof (Hf d) as Pa. destruct (f d) as [a d1]. pose proof (Hg d1) as Pl.
  destruct (g d1) as [l d2]. constructor; assumption.
Qed.

Lemma good_read_n {A} (f : bdec -> A * bdec) : good f -> forall n, good (read_n n f).
Proof. intros Hf. induction n as [|n IH]; cbn [read_n]; [apply good_ret|apply good_cons; assumption]. Qed.

Lemma yields_read_n {A} (P : A -> Prop) (f : bdec -> A * bdec) : yields P f -> forall n, yields (Forall P) (read_n n f).
Proof.
  intros Hf. induction n as [|n IH]; cbn [read_n]; [intros d; constructor|apply yields_cons; assumption].
Qed.

Lemma good_map_st {A B} (f : A -> bdec -> B * bdec) : forall l, Forall (fun a => good (f a)) l -> good (map_st f l).
Proof.
  induction l as [|a l IH]; intros H; cbn [map_st]; [apply good_ret|].
  apply good_cons; [apply (Forall_inv H)|apply IH; apply (Forall_inv_tail H)].
Qed.

Lemma yields_map_st {A B} (P : B -> Prop) (f : A -> bdec -> B * bdec) :
  forall l, Forall (fun a => yields P (f a)) l -> yields (Forall P) (map_st f l).
Proof.
  induction l as [|a l IH]; intros H; cbn [map_st]; [intros d; constructor|].
  apply yields_cons; [apply (Forall_inv H)|apply IH; apply (Forall_inv_tail H)].
Qed.

Lemma Forall_combine {A B} (P : A * B -> Prop) (l1 : list A) : forall (l2 : list B),
  Forall (fun a => forall b, P (a, b)) l1 -> Forall P (combine l1 l2).
Proof.
  induction l1 as [|a l1 IH]; intros l2 H; cbn [combine]; [constructor|].
  destruct l2 as [|b l2]; [constructor|]. constructor; [apply (Forall_inv H)|apply IH; apply (Forall_inv_tail H)].
Qed.

Definition prob_okb (p : Z) : bool := (0 <=? p) && (p <=? 255).
Lemma prob_okb_ok p : prob_okb p = true -> prob_ok p.
Proof. unfold prob_okb, prob_ok. lia. Qed.

Definition probs1 := Forall prob_ok.
Definition probs2 := Forall probs1.
Definition probs3 := Forall probs2.
Definition probs4 := Forall probs3.

Lemma check_probs1 l : forallb prob_okb l = true -> probs1 l.
Proof. apply forallb_Forall. exact prob_okb_ok. Qed.
Lemma check_probs2 l : forallb (forallb prob_okb) l = true -> probs2 l.
Proof. apply forallb_Forall. exact check_probs1. Qed.
Lemma check_probs3 l : forallb (forallb (forallb prob_okb)) l = true -> probs3 l.
Proof. apply forallb_Forall. exact check_probs2. Qed.
Lemma check_probs4 l : forallb (forallb (forallb (forallb prob_okb))) l = true -> probs4 l.
Proof. apply forallb_Forall. exact check_probs3. Qed.

Lemma coeff_update_probs_ok : probs4 coeff_update_probs.
Proof. apply check_probs4. vm_compute. reflexivity. Qed.
Lemma coeff_probs0_ok : probs4 coeff_probs0.
Proof. apply check_probs4. vm_compute. reflexivity. Qed.
Lemma kf_bmode_probs_ok : probs3 kf_bmode_probs.
Proof. apply check_probs3. vm_compute. reflexivity. Qed.
Lemma kf_ymode_probs_ok : probs1 kf_ymode_probs.
Proof. apply check_probs1. vm_compute. reflexivity. Qed.
Lemma kf_uv_mode_probs_ok : probs1 kf_uv_mode_probs.
Proof. apply check_probs1. vm_compute. reflexivity. Qed.

Lemma read_literal_range : forall k acc d, 0 <= acc ->
  acc * 2 ^ Z.of_nat k <= fst (read_literal k acc d) < (acc + 1) * 2 ^ Z.of_nat k.
Proof.
  induction k as [|k IH]; intros acc d Ha; cbn [read_literal].
  - cbn [fst]. change (2 ^ Z.of_nat 0) with 1. lia.
  - destruct (read_bool 128 d) as [b d1].
    rewrite Nat2Z.inj_succ, Z.pow_succ_r by lia.
    assert (H2 : 0 < 2 ^ Z.of_nat k) by (apply Z.pow_pos_nonneg; lia).
    specialize (IH (2 * acc + (if b then 1 else 0)) d1 ltac:(destruct b; lia)).
    destruct b; nia.
Qed.

Lemma yields_read_lit8 : yields prob_ok (read_lit 8).
Proof.
  intros d. unfold read_lit. pose proof (read_literal_range 8 0 d ltac:(lia)) as H.
  change (2 ^ Z.of_nat 8) with 256 in H. unfold prob_ok. lia.
Qed.

Definition seg_ok (s : seg_hdr) : Prop := probs1 (sg_probs s).

Lemma probs_255 : probs1 [255; 255; 255].
Proof. apply check_probs1. reflexivity. Qed.

Definition seg_prob_reader (d : bdec) : Z * bdec :=
  let '(f, d1) := read_flag d in if f then read_lit 8 d1 else (255, d1).

Lemma good_seg_prob_reader : good seg_prob_reader.
Proof.
  apply (good_bind read_flag (fun (f : bool) d1 => if f then read_lit 8 d1 else (255, d1))).
  - apply good_read_flag.
  - intros [|]; [apply good_read_lit|apply good_ret].
Qed.

Lemma yields_seg_prob_reader : yields prob_ok seg_prob_reader.
Proof.
  intros d. unfold seg_prob_reader. destruct (read_flag d) as [[|] d1].
  - apply yields_read_lit8.
  - cbn [fst]. unfold prob_ok. lia.
Qed.

(** One step on [good f], [f] written with destructuring lets: a primitive reader; a reader
    whose lemma the caller has put into the context ([assumption]: what the [pose proof]s in
    front of [gauto] are for); a conditional, a pair or option in a variable; else a bind. *)
Ltac gstep :=
  first
  [ apply good_ret | apply good_read_flag | apply good_read_lit | apply good_read_opt_signed
  | apply good_read_signed | apply good_seg_prob_reader | assumption
  | apply good_read_n
  | match goal with
    | |- good (fun d => if ?c then _ else _) => destruct c
    | |- good (fun d => match ?p with pair _ _ => _ end) => is_var p; destruct p
    | |- good (fun d => match ?p with Some _ => _ | None => _ end) => is_var p; destruct p
    end
  | eapply good_bind; [|intro] ].

Ltac gauto := repeat gstep.

Lemma good_parse_seg_hdr abs : good (parse_seg_hdr abs).
Proof. unfold parse_seg_hdr. gauto. Qed.

Lemma yields_parse_seg_hdr abs : yields seg_ok (parse_seg_hdr abs).
Proof.
  unfold parse_seg_hdr. apply yields_bind; intros en. destruct (negb en); [apply yields_ret; exact probs_255|].
  apply yields_bind; intros um. apply yields_bind; intros ud. apply yields_bind; intros [[ab q] lf].
  apply (yields_bindQ probs1).
  - destruct um; [|apply yields_ret; exact probs_255]. apply yields_read_n. exact yields_seg_prob_reader.
  - intros pr Hpr. apply yields_ret. exact Hpr.
Qed.

Lemma good_parse_lf_hdr : good parse_lf_hdr.
Proof. unfold parse_lf_hdr. gauto. Qed.

Lemma good_parse_q_hdr : good parse_q_hdr.
Proof. unfold parse_q_hdr. gauto. Qed.

Definition updpair_ok (x : Z * Z) : Prop := prob_ok (fst x) /\ prob_ok (snd x).

Lemma good_upd_probs1 : forall l, Forall updpair_ok l -> good (upd_probs1 l).
Proof.
  induction l as [|[up old] l IH]; intros H; cbn [upd_probs1]; [apply good_ret|].
  pose proof (Forall_inv H) as [Hup _]. cbn [fst] in Hup. specialize (IH (Forall_inv_tail H)).
  eapply good_bind; [apply good_read_bool; exact Hup|intro]. gauto.
Qed.

Lemma yields_upd_probs1 : forall l, Forall updpair_ok l -> yields probs1 (upd_probs1 l).
Proof.
  induction l as [|[up old] l IH]; intros H d; cbn [upd_probs1]; [constructor|].
  pose proof (Forall_inv H) as [_ Hold]. cbn [snd] in Hold. specialize (IH (Forall_inv_tail H)).
  destruct (read_bool up d) as [f d1].
  assert (Hv : prob_ok (fst (if f then read_lit 8 d1 else (old, d1)))).
  { destruct f; [apply yields_read_lit8|exact Hold]. }
  destruct (if f then read_lit 8 d1 else (old, d1)) as [v d2]. pose proof (IH d2) as Hr.
  destruct (upd_probs1 l d2) as [r d3]. cbn [fst] in *. constructor; assumption.
Qed.

Lemma combine_updpair u o : probs1 u -> probs1 o -> Forall updpair_ok (combine u o).
Proof. apply Forall_combine2. intros a b Ha Hb. split; assumption. Qed.

Lemma map_st_combine_ok {A B} (P : A -> Prop) (R : B -> Prop) (f : A * A -> bdec -> B * bdec) :
  (forall u o, P u -> P o -> good (f (u, o)) /\ yields R (f (u, o))) ->
  forall us os, Forall P us -> Forall P os ->
    good (map_st f (combine us os)) /\ yields (Forall R) (map_st f (combine us os)).
Proof.
  intros Hf us os Hu Ho.
  assert (H : Forall (fun x => good (f x) /\ yields R (f x)) (combine us os)).
  { apply (Forall_combine2 P P); [exact Hf|exact Hu|exact Ho]. }
  split; [apply good_map_st|apply yields_map_st]; (eapply Forall_impl; [|exact H]); intros x Hx; apply Hx.
Qed.

Lemma upd_probs_ok : good upd_probs /\ yields probs4 upd_probs.
Proof.
  apply (map_st_combine_ok probs3 probs3); [|exact coeff_update_probs_ok|exact coeff_probs0_ok].
  intros u3 o3 Hu3 Ho3. apply (map_st_combine_ok probs2 probs2); [|exact Hu3|exact Ho3].
  intros u2 o2 Hu2 Ho2. apply (map_st_combine_ok probs1 probs1); [|exact Hu2|exact Ho2].
  intros u1 o1 Hu1 Ho1. pose proof (combine_updpair u1 o1 Hu1 Ho1).
  split; [apply good_upd_probs1|apply yields_upd_probs1]; assumption.
Qed.

Definition fixed_ok (x : bool * bool * seg_hdr * lf_hdr * Z * q_hdr) : Prop :=
  seg_ok (snd (fst (fst (fst x)))).

Lemma good_parse_fixed_hdr abs : good (parse_fixed_hdr abs).
Proof.
  unfold parse_fixed_hdr.
  pose proof (good_parse_seg_hdr abs). pose proof good_parse_lf_hdr. pose proof good_parse_q_hdr. gauto.
Qed.

Lemma yields_parse_fixed_hdr abs : yields fixed_ok (parse_fixed_hdr abs).
Proof.
  unfold parse_fixed_hdr. apply yields_bind; intros cs. apply yields_bind; intros ct.
  apply (yields_bindQ seg_ok); [apply yields_parse_seg_hdr|]. intros sg Hsg.
  apply yields_bind; intros lf. apply yields_bind; intros lp. apply yields_bind; intros q.
  apply yields_ret. exact Hsg.
Qed.

Definition hdr_ok (h : frame_hdr) : Prop :=
  seg_ok (fh_seg h) /\ prob_ok (fh_skip_prob h) /\ probs4 (fh_probs h).

Lemma good_parse_part1_hdr abs w h xs ys : good (parse_part1_hdr abs w h xs ys).
Proof.
  unfold parse_part1_hdr. pose proof (good_parse_fixed_hdr abs). pose proof (proj1 upd_probs_ok).
  eapply good_bind; [assumption|]. intros [[[[[cs ct] sg] lf] lp] q]. gauto.
Qed.

Lemma yields_parse_part1_hdr abs w h xs ys : yields hdr_ok (parse_part1_hdr abs w h xs ys).
Proof.
  unfold parse_part1_hdr.
  apply (yields_bindQ fixed_ok); [apply yields_parse_fixed_hdr|]. intros [[[[[cs ct] sg] lf] lp] q] Hsg.
  unfold fixed_ok in Hsg. cbn [fst snd] in Hsg.
  apply yields_bind; intros rf. apply (yields_bindQ probs4); [apply (proj2 upd_probs_ok)|]. intros pr Hpr.
  apply yields_bind; intros sk.
  apply (yields_bindQ prob_ok).
  - destruct sk; [apply yields_read_lit8|apply yields_ret; exact prob_ok_0].
  - intros skp Hskp. apply yields_ret. unfold hdr_ok. cbn [fh_seg fh_skip_prob fh_probs]. auto.
Qed.

Lemma nil_probs1 : probs1 []. Proof. constructor. Qed.
Lemma nil_probs2 : probs2 []. Proof. constructor. Qed.
Lemma nil_probs3 : probs3 []. Proof. constructor. Qed.

Lemma bmode_probs_ok a l : probs1 (nthZ (nthZ kf_bmode_probs a []) l []).
Proof. apply nthZ_ok; [|exact nil_probs1]. apply nthZ_ok; [exact kf_bmode_probs_ok|exact nil_probs2]. Qed.

Lemma good_bmode_row : forall above l, good (bmode_row above l).
Proof.
  induction above as [|a tl IH]; intros l; cbn [bmode_row]; [apply good_ret|].
  eapply good_bind; [apply good_read_tree; apply bmode_probs_ok|]. intros m. pose proof (IH m). gauto.
Qed.

Lemma good_bmode_rows : forall lefts above, good (bmode_rows above lefts).
Proof.
  induction lefts as [|l tl IH]; intros above; cbn [bmode_rows]; [apply good_ret|].
  eapply good_bind; [apply good_bmode_row|]. intros row. pose proof (IH row). gauto.
Qed.

Lemma good_parse_mb_hdr h above_b left_b : hdr_ok h -> good (parse_mb_hdr h above_b left_b).
Proof.
  intros (Hseg & Hskip & _). unfold parse_mb_hdr.
  pose proof (good_read_tree segment_tree _ Hseg).
  pose proof (good_read_bool _ Hskip).
  pose proof (good_read_tree kf_ymode_tree _ kf_ymode_probs_ok).
  pose proof (good_read_tree uv_mode_tree _ kf_uv_mode_probs_ok).
  pose proof (good_bmode_rows left_b above_b).
  gauto.
Qed.

Lemma good_read_extra : forall ps acc, probs1 ps -> good (read_extra ps acc).
Proof.
  induction ps as [|p tl IH]; intros acc H; cbn [read_extra]; [apply good_ret|].
  eapply good_bind; [apply good_read_bool; apply (Forall_inv H)|]. intros b. apply IH. apply (Forall_inv_tail H).
Qed.

Lemma value_tree_extra_ok : tree_all (fun be : Z * list Z => probs1 (snd be)) value_tree.
Proof. cbn. repeat split; apply check_probs1; reflexivity. Qed.

Lemma good_tokens tp : probs3 tp -> forall fuel n ctx noeob acc, good (fun d => tokens fuel tp n ctx noeob d acc).
Proof.
  intros Htp. induction fuel as [|fuel IH]; intros n ctx noeob acc; cbn [tokens]; [apply good_ret|].
  destruct (16 <=? n); [apply good_ret|].
  assert (Hp : probs1 (nthZ (nthZ tp (nthZ bands n 0) []) ctx [])).
  { apply nthZ_ok; [|exact nil_probs1]. apply nthZ_ok; [exact Htp|exact nil_probs2]. }
  set (p := nthZ (nthZ tp (nthZ bands n 0) []) ctx []) in *.
  pose proof (good_read_bool _ (Forall_nth_default prob_ok p 0 0 Hp prob_ok_0)) as G0.
  pose proof (good_read_bool _ (Forall_nth_default prob_ok p 1 0 Hp prob_ok_0)) as G1.
  eapply good_bind; [destruct noeob; [apply good_ret|exact G0]|]. intros more.
  destruct (negb more); [apply good_ret|].
  eapply good_bind; [exact G1|]. intros nz. destruct (negb nz); [apply IH|].
  eapply (good_bindP (fun be : Z * list Z => probs1 (snd be))).
  - apply good_read_tree. exact Hp.
  - apply yields_read_tree. exact value_tree_extra_ok.
  - intros [base extra] Hex. cbn [snd] in Hex.
    eapply good_bind; [apply good_read_extra; exact Hex|]. intros e.
    eapply good_bind; [apply good_read_flag|]. intros neg. apply IH.
Qed.

Lemma good_decode_block tp first ctx dqdc dqac : probs3 tp -> good (decode_block tp first ctx dqdc dqac).
Proof.
  intros Htp. unfold decode_block. pose proof (good_tokens tp Htp 17 first ctx false []). gauto.
Qed.

Lemma good_blk_row (f : Z -> bdec -> list Z * Z * bdec) first : (forall ctx, good (f ctx)) ->
  forall above l, good (blk_row f first above l).
Proof.
  intros Hf. induction above as [|a tl IH]; intros l; cbn [blk_row]; [apply good_ret|].
  eapply good_bind; [apply Hf|]. intros [c eob].
  pose proof (IH (if first <? eob then 1 else 0)). gauto.
Qed.

Lemma good_blk_rows (f : Z -> bdec -> list Z * Z * bdec) first : (forall ctx, good (f ctx)) ->
  forall lefts above, good (blk_rows f first above lefts).
Proof.
  intros Hf. induction lefts as [|l tl IH]; intros above; cbn [blk_rows]; [apply good_ret|].
  eapply good_bind; [apply good_blk_row; exact Hf|]. intros [[[cs ab] l'] any].
  pose proof (IH ab). gauto.
Qed.

Lemma good_parse_residuals probs q is4 above left : probs4 probs -> good (parse_residuals probs q is4 above left).
Proof.
  intros Hpr. unfold parse_residuals.
  assert (Htp : forall t, probs3 (nthZ probs t [])) by (intros t; apply nthZ_ok; [exact Hpr|exact nil_probs3]).
  eapply good_bind.
  - destruct is4; [apply good_ret|].
    pose proof (good_decode_block (nthZ probs 1 []) 0 (nz_y2 above + nz_y2 left) (dq_y2dc q) (dq_y2ac q) (Htp 1)). gauto.
  - intros [[[[[y2 a2] l2] any0] first] ytype].
    eapply good_bind; [apply good_blk_rows; intros ctx; apply good_decode_block; apply Htp|].
    intros [[[ys ay] ly] any1].
    eapply good_bind; [apply good_blk_rows; intros ctx; apply good_decode_block; apply Htp|].
    intros [[[us au] lu] any2].
    eapply good_bind; [apply good_blk_rows; intros ctx; apply good_decode_block; apply Htp|].
    intros [[[vs av] lv] any3]. apply good_ret.
Qed.


(** a row of macroblocks threads two decoders (first partition, token partition) *)
Lemma row_loop_good qk h : hdr_ok h -> forall cols left al d0 dt c o e0 et,
  row_loop qk h cols left al d0 dt = (c, o, e0, et) ->
  (bd_past d0 = true -> bd_past e0 = true) /\ (bd_past dt = true -> bd_past et = true) /\
  (forall d0' dt', sim d0 d0' -> sim dt dt' -> bd_past e0 = false -> bd_past et = false ->
     exists e0' et', row_loop qk h cols left al d0' dt' = (c, o, e0', et') /\ sim e0 e0' /\ sim et et').
Proof.
  intros Hh. induction cols as [|c rest IH]; intros left al d0 dt cs o e0 et E; cbn [row_loop] in *.
  - injection E as <- <- <- <-. split; [auto|]. split; [auto|]. intros d0' dt' S0 St _ _. exists d0', dt'. auto.
  - pose proof (good_parse_mb_hdr h (cc_b c) (lc_b left) Hh) as G0.
    destruct (parse_mb_hdr h (cc_b c) (lc_b left) d0) as [[[mh nba] nbl] d0a] eqn:E0.
    set (rd := fun dt => if mh_skip mh then (zero_res (negb (mh_is4 mh)), skip_ctx (mh_is4 mh) (cc_nz c), skip_ctx (mh_is4 mh) (lc_nz left), dt)
              else parse_residuals (fh_probs h) (seg_dq h (mh_seg mh)) (mh_is4 mh) (cc_nz c) (lc_nz left) dt).
    assert (G1 : good rd).
    { subst rd. destruct (mh_skip mh); [apply good_ret|apply good_parse_residuals; apply (proj2 (proj2 Hh))]. }
    change (if mh_skip mh then _ else _) with (rd dt) in E.
    destruct (rd dt) as [[[res na] nl] dta] eqn:E1.
    match type of E with context [row_loop qk h rest ?l ?a d0a dta] =>
      destruct (row_loop qk h rest l a d0a dta) as [[[cols' out] f0] ft] eqn:E2 end.
    injection E as <- <- <- <-. destruct (IH _ _ _ _ _ _ _ _ E2) as (M0 & M1 & L).
    split. { intros P. apply M0. pose proof (proj1 G0 d0 P) as Q. rewrite E0 in Q. exact Q. }
    split. { intros P. apply M1. pose proof (proj1 G1 dt P) as Q. rewrite E1 in Q. exact Q. }
    intros d0' dt' S0 St P0 Pt.
    destruct (proj2 G0 d0 d0' _ d0a S0 E0 (clear_before_of_mono _ _ M0 P0)) as (d0a' & E0' & S0a).
    destruct (proj2 G1 dt dt' _ dta St E1 (clear_before_of_mono _ _ M1 Pt)) as (dta' & E1' & Sta).
    rewrite E0'. change (if mh_skip mh then _ else _) with (rd dt'). rewrite E1'.
    destruct (L _ _ S0a Sta P0 Pt) as (f0' & ft' & E2' & Sf0 & Sft).
    rewrite E2'. exists f0', ft'. auto.
Qed.

Lemma set_nth_length {A} : forall (l : list A) n a, length (set_nth n a l) = length l.
Proof. induction l as [|x l IH]; intros [|n] a; cbn [set_nth length]; auto. Qed.

Lemma past_set_nth_new : forall ps pi dt, (pi < length ps)%nat -> bd_past dt = true -> existsb bd_past (set_nth pi dt ps) = true.
Proof.
  induction ps as [|x ps IH]; intros [|pi] dt Hlt Hp; cbn [length set_nth existsb] in *; try lia.
  - rewrite Hp. reflexivity.
  - apply orb_true_iff. right. apply IH; [lia|exact Hp].
Qed.

Lemma past_set_nth : forall ps pi dt dflt, (pi < length ps)%nat ->
  (bd_past (nth pi ps dflt) = true -> bd_past dt = true) -> existsb bd_past ps = true -> existsb bd_past (set_nth pi dt ps) = true.
Proof.
  induction ps as [|x ps IH]; intros [|pi] dt dflt Hlt Hm Ha; cbn [length set_nth existsb nth] in *; try lia.
  - apply orb_true_iff in Ha. destruct Ha as [Ha|Ha]; [rewrite (Hm Ha); reflexivity|rewrite Ha; apply orb_true_r].
  - apply orb_true_iff in Ha. apply orb_true_iff. destruct Ha as [Ha|Ha]; [left; exact Ha|right].
    apply (IH pi dt dflt); [lia|exact Hm|exact Ha].
Qed.

Lemma part_index_lt (mby : Z) (ps : list bdec) : 0 <= mby -> ps <> [] ->
  (Z.to_nat (mby mod Z.of_nat (length ps)) < length ps)%nat.
Proof. intros Hm Hne. destruct ps as [|x ps]; [contradiction|]. cbn [length]. lia. Qed.

Lemma forall2_set_nth {A} (R : A -> A -> Prop) : forall l1 l2 i a b, Forall2 R l1 l2 -> R a b ->
  Forall2 R (set_nth i a l1) (set_nth i b l2).
Proof.
  induction l1 as [|x l1 IH]; intros l2 i a b H Hab; inversion H as [|? y ? l2' Hxy Hr]; subst;
    destruct i as [|i]; cbn [set_nth]; constructor; auto.
Qed.

(** row [mby] is served by partition [mby mod length parts], hence [parts <> []] *)
Lemma rows_loop_good qk h : hdr_ok h -> forall nrows mby cols d0 parts outs e0 ps,
  0 <= mby -> parts <> [] -> rows_loop qk h nrows mby cols d0 parts = (outs, e0, ps) ->
  (bd_past d0 = true -> bd_past e0 = true) /\ (existsb bd_past parts = true -> existsb bd_past ps = true) /\
  (forall d0' parts', sim d0 d0' -> Forall2 sim parts parts' -> bd_past e0 = false -> existsb bd_past ps = false ->
     exists e0' ps', rows_loop qk h nrows mby cols d0' parts' = (outs, e0', ps') /\ sim e0 e0' /\ Forall2 sim ps ps').
Proof.
  intros Hh. induction nrows as [|n IH]; intros mby cols d0 parts outs e0 ps Hm Hne E; cbn [rows_loop] in *.
  - injection E as <- <- <-. split; [auto|]. split; [auto|]. intros d0' parts' S0 Sp _ _. exists d0', parts'. auto.
  - pose proof (part_index_lt mby parts Hm Hne) as Hlt.
    set (pi := Z.to_nat (mby mod Z.of_nat (length parts))) in *.
    destruct (row_loop qk h cols left0 None d0 (nth pi parts (bd_init []))) as [[[cols' out] d0a] dt] eqn:E1.
    destruct (row_loop_good qk h Hh _ _ _ _ _ _ _ _ _ E1) as (R0 & R1 & RL).
    assert (Hne' : set_nth pi dt parts <> []).
    { intros E0. apply (f_equal (@length bdec)) in E0. rewrite set_nth_length in E0. cbn in E0. lia. }
    destruct (rows_loop qk h n (mby + 1) cols' d0a (set_nth pi dt parts)) as [[outs1 f0] ps1] eqn:E2.
    injection E as <- <- <-.
    destruct (IH (mby + 1) _ _ _ _ _ _ ltac:(lia) Hne' E2) as (M0 & M1 & L).
    split; [auto|]. split.
    { intros Ha. apply M1. apply (past_set_nth parts pi dt (bd_init [])); assumption. }
    intros d0' parts' S0 Sp P0 Pp.
    assert (Pat : bd_past dt = false).
    { apply (clear_before_of_mono _ _ (fun P => M1 (past_set_nth_new parts pi dt Hlt P)) Pp). }
    destruct (RL d0' (nth pi parts' (bd_init [])) S0 (Forall2_nth sim _ _ _ (bd_init []) Sp pi Hlt)
                (clear_before_of_mono _ _ M0 P0) Pat) as (d0a' & dt' & E1' & S0a & St).
    rewrite <- (Forall2_length _ _ _ Sp). fold pi. rewrite E1'.
    destruct (L d0a' (set_nth pi dt' parts') S0a (forall2_set_nth sim _ _ pi _ _ Sp St) P0 Pp)
      as (f0' & ps1' & E2' & Sf & Sps).
    rewrite E2'. exists f0', ps1'. auto.
Qed.

Lemma parse_layout_app d ext ly : parse_layout d = Ok ly ->
  parse_layout (d ++ ext) =
    Ok (mkLayout (ly_w ly) (ly_h ly) (ly_xs ly) (ly_ys ly) (ly_version ly) (ly_part1 ly) (ly_rest ly ++ ext)) /\
  (bytes_ok d -> bytes_ok (ly_rest ly)).
Proof.
  intros E.
  destruct d as [|b0 [|b1 [|b2 [|s0 [|s1 [|s2 [|w0 [|w1 [|h0 [|h1 rest]]]]]]]]]]; try discriminate E.
  unfold parse_layout in *. cbn [app]. cbv beta iota zeta in *.
  set (psize := (b0 + 256 * b1 + 65536 * b2) / 32) in *.
  destruct (3 <? _); [discriminate E|]. destruct (negb (Z.odd _)); [discriminate E|].
  destruct (negb (Z.even _)); [discriminate E|]. destruct (negb (_ && _ && _)); [discriminate E|].
  destruct (_ || _); [discriminate E|].
  destruct (Z.ltb_spec (Z.of_nat (length rest)) psize) as [|Hge]; [discriminate E|].
  assert (Hps : (Z.to_nat psize <= length rest)%nat) by lia.
  assert (Hc : (Z.of_nat (length (rest ++ ext)) <? psize) = false) by (rewrite app_length; lia).
  rewrite Hc. injection E as <-. cbn [ly_w ly_h ly_xs ly_ys ly_version ly_part1 ly_rest]. split.
  - rewrite firstn_app_le, skipn_app_lt by exact Hps. reflexivity.
  - intros Hd. apply bytes_ok_skipn. apply (bytes_ok_skipn 10 _ Hd).
Qed.

Lemma split_parts_app ext : forall n sizes data ps, split_parts n sizes data = Ok ps ->
  exists init lst, ps = init ++ [lst] /\ split_parts n sizes (data ++ ext) = Ok (init ++ [lst ++ ext]) /\
                   (bytes_ok data -> bytes_ok lst).
Proof.
  induction n as [|n IH]; intros sizes data ps E; cbn [split_parts] in *.
  - injection E as <-. exists [], data. auto.
  - destruct (Z.ltb_spec (Z.of_nat (length data)) (rd24le sizes)) as [Hlt|Hge]; [discriminate|].
    apply bind_ok_inv in E. destruct E as (r & Er & E). injection E as <-.
    destruct (IH _ _ _ Er) as (init & lst & -> & E' & Hb).
    assert (Hsz : (Z.to_nat (rd24le sizes) <= length data)%nat) by lia.
    destruct (Z.ltb_spec (Z.of_nat (length (data ++ ext))) (rd24le sizes)) as [Hlt|_]; [rewrite app_length in Hlt; lia|].
    rewrite skipn_app_lt, firstn_app_le by exact Hsz. rewrite E'. cbn [bind].
    exists (firstn (Z.to_nat (rd24le sizes)) data :: init), lst. split; [reflexivity|]. split; [reflexivity|].
    intros Hd. apply Hb. apply bytes_ok_skipn. exact Hd.
Qed.

Lemma token_parts_app ext log2n rest ps : token_parts log2n rest = Ok ps ->
  exists init lst, ps = init ++ [lst] /\ token_parts log2n (rest ++ ext) = Ok (init ++ [lst ++ ext]) /\
                   (bytes_ok rest -> bytes_ok lst).
Proof.
  unfold token_parts. set (n := Z.to_nat (2 ^ log2n)). set (tbl := (3 * (n - 1))%nat).
  intros E. destruct (Nat.ltb_spec (length rest) tbl) as [Hlt|Hge]; [discriminate|].
  destruct (Nat.ltb_spec (length (rest ++ ext)) tbl) as [Hlt|_]; [rewrite app_length in Hlt; lia|].
  rewrite firstn_app_le, skipn_app_lt by exact Hge.
  destruct (split_parts_app ext _ _ _ _ E) as (init & lst & -> & E' & Hb).
  exists init, lst. split; [reflexivity|]. split; [exact E'|]. intros Hr. apply Hb. apply bytes_ok_skipn. exact Hr.
Qed.

Lemma sim_init_parts init lst ext : bytes_ok lst -> bytes_ok ext ->
  Forall2 sim (map bd_init (init ++ [lst])) (map bd_init (init ++ [lst ++ ext])).
Proof.
  intros Hl He. induction init as [|x init IH]; cbn [app map].
  - constructor; [|constructor]. apply sim_init; assumption.
  - constructor; [apply sim_refl; apply bd_init_clear|exact IH].
Qed.

Lemma past_sim ps ps' : Forall2 sim ps ps' -> existsb bd_past ps' = false.
Proof. induction 1 as [|x y l l' [Hxy _] _ IH]; cbn [existsb]; [reflexivity|]. rewrite Hxy. exact IH. Qed.

(** [qk]: the RFC's rules or the Go decoder's documented deviations ([Vp8Spec.quirks]) *)
Theorem vp8_decode_gen_prefix qk d ext r : bytes_ok d -> bytes_ok ext ->
  decode_gen qk d = Ok r -> dc_past_end r = false -> decode_gen qk (d ++ ext) = Ok r.
Proof.
  intros Hd He E Hp. unfold decode_gen in *.
  apply bind_ok_inv in E. destruct E as (ly & Ely & E).
  destruct (parse_layout_app d ext ly Ely) as [Ely' Hrest].
  rewrite Ely'. cbn [bind ly_w ly_h ly_xs ly_ys ly_part1 ly_rest].
  pose proof (yields_parse_part1_hdr (qk_seg_abs_default qk) (ly_w ly) (ly_h ly) (ly_xs ly) (ly_ys ly) (bd_init (ly_part1 ly))) as Hh.
  destruct (parse_part1_hdr (qk_seg_abs_default qk) (ly_w ly) (ly_h ly) (ly_xs ly) (ly_ys ly) (bd_init (ly_part1 ly))) as [h d0] eqn:Eh.
  cbn [fst] in Hh.
  apply bind_ok_inv in E. destruct E as (parts & Eparts & E).
  destruct (token_parts_app ext _ _ _ Eparts) as (init & lst & -> & Eparts' & Hb).
  rewrite Eparts'. cbn [bind].
  pose proof (Hb (Hrest Hd)) as Hlst.
  set (mbw := (fh_w h + 15) / 16) in *. set (mbh := (fh_h h + 15) / 16) in *.
  destruct (rows_loop qk h (Z.to_nat mbh) 0 (repeat col0 (Z.to_nat mbw)) d0 (map bd_init (init ++ [lst])))
    as [[rows e0] ps] eqn:Er.
  injection E as <-. cbn [dc_past_end] in Hp. apply orb_false_iff in Hp. destruct Hp as [P0 Pp].
  assert (Hne : map bd_init (init ++ [lst]) <> []) by (destruct init; discriminate).
  destruct (rows_loop_good qk h Hh _ 0 _ _ _ _ _ _ ltac:(lia) Hne Er) as (M0 & _ & L).
  destruct (L d0 _ (sim_refl d0 (clear_before_of_mono _ _ M0 P0)) (sim_init_parts init lst ext Hlst He) P0 Pp)
    as (e0' & ps' & Er' & [Pe0' _] & Sps).
  rewrite Er', Pe0', (past_sim ps ps' Sps), P0, Pp. reflexivity.
Qed.

Theorem vp8_frame_prefix_monotone : vp8_frame_prefix_full_statement.
Proof.
  intros d ext r Hd He E. unfold decode_yuv in *.
  apply bind_ok_inv in E. destruct E as (rr & Err & E).
  destruct (dc_past_end rr) eqn:Ep; [discriminate|].
  unfold decode in *. rewrite (vp8_decode_gen_prefix rfc_quirks d ext rr Hd He Err Ep). cbn [bind]. rewrite Ep. exact E.
Qed.

(** the same for the variant with the Go decoder's deviations from the RFC *)
Theorem vp8_decode_go_prefix d ext r : bytes_ok d -> bytes_ok ext ->
  decode_go d = Ok r -> dc_past_end r = false -> decode_go (d ++ ext) = Ok r.
Proof. apply vp8_decode_gen_prefix. Qed.

Theorem vp8_prefix_all_or_nothing : forall file n r,
  bytes_ok file -> decode_yuv (firstn n file) = Ok r -> decode_yuv file = Ok r.
Proof.
  intros file n r Hf E. rewrite <- (firstn_skipn n file).
  apply vp8_frame_prefix_monotone; [apply bytes_ok_firstn; exact Hf|apply bytes_ok_skipn; exact Hf|exact E].
Qed.
