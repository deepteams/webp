(** The parser model applied to what the writer model produces (C15 / C02
    container part): one unfolding equation per chunk loop, the parse of the simple
    and the extended layout.  [write_simple_eq] and [streaming_eq_buffered] are about
    the writer alone; the simple layout needs them. *)
From Coq Require Import List ZArith Lia Bool.
From Coq Require Import ZifyBool ZifyNat.
From Webp Require Import Base.Res Base.Bytes Base.ListFacts Riff.ParserModel Riff.ParserLemmas Riff.ParserSpec
     Riff.WriterModel Riff.WriterProofs Riff.FeaturesModel Riff.MetadataProofs.
Import ListNotations.
Open Scope Z_scope.

Lemma payload_of_chunk id d rest : slice (chunk id d ++ rest) 8 (8 + len d) = Ok d.
Proof.
  rewrite chunk_shape. change 8 with (len (le32 id ++ le32 (len d))). apply slice_mid.
Qed.

Lemma first_fourcc_of_chunk id d rest : slice (chunk id d ++ rest) 0 4 = Ok (le32 id).
Proof.
  unfold chunk. rewrite <- !app_assoc. change 4 with (len (le32 id)). apply slice_head.
Qed.

Lemma riff_hdr_slices a b c (body : list Z) :
  let file := le32 a ++ le32 b ++ le32 c ++ body in
  slice file 0 4 = Ok (le32 a) /\ slice file 4 8 = Ok (le32 b) /\ slice file 8 12 = Ok (le32 c) /\
  slice file 12 (len file) = Ok body /\ len file = 12 + len body.
Proof.
  intros file. subst file. split; [change 4 with (len (le32 a)); apply slice_head|].
  split; [change 4 with (len (le32 a)) at 1; change 8 with (len (le32 a) + len (le32 b)); apply slice_mid|].
  split.
  { rewrite (app_assoc (le32 a)). change 8 with (len (le32 a ++ le32 b)) at 1.
    change 12 with (len (le32 a ++ le32 b) + len (le32 c)). apply slice_mid. }
  split; [|rewrite !len_app, !len_le32; lia].
  rewrite (app_assoc (le32 b)), (app_assoc (le32 a)). change 12 with (len (le32 a ++ le32 b ++ le32 c)). apply slice_tail.
Qed.

Lemma riff_header_written rs body :
  8 <= rs <= MaxChunkPayload ->
  parse_riff_header (le32 FourCCRIFF ++ le32 rs ++ le32 FourCCWEBP ++ body) = Ok rs.
Proof.
  intros Hrs. unfold MaxChunkPayload in Hrs. destruct fourcc_ranges as (_ & _ & _ & _ & _ & _ & _ & HR & HW).
  destruct (riff_hdr_slices FourCCRIFF rs FourCCWEBP body) as (S0 & S4 & S8 & _ & Hl).
  unfold parse_riff_header, RIFFHeaderSize, ChunkHeaderSize, MaxChunkPayload.
  rewrite Hl, S0, S4, S8. pose proof (len_nonneg body). cbn [bind].
  destruct (Z.ltb_spec (12 + len body) 12); [lia|]. rewrite !rd32_le32_id by (assumption || lia).
  rewrite !Z.eqb_refl. cbn [negb].
  destruct (Z.ltb_spec rs 8); [lia|]. destruct (Z.gtb_spec rs 4294967286); [lia|]. reflexivity.
Qed.

Lemma body_of_written rs body :
  slice (le32 FourCCRIFF ++ le32 rs ++ le32 FourCCWEBP ++ body) 12
        (len (le32 FourCCRIFF ++ le32 rs ++ le32 FourCCWEBP ++ body)) = Ok body.
Proof. apply (riff_hdr_slices FourCCRIFF rs FourCCWEBP body). Qed.

Lemma parse_ex_written fx rs body id d rest :
  rs = 4 + len body -> 8 <= rs <= MaxChunkPayload -> body = chunk id d ++ rest ->
  0 <= id < 4294967296 ->
  parse_ex fx (le32 FourCCRIFF ++ le32 rs ++ le32 FourCCWEBP ++ body) =
  if id =? FourCCVP8X then parse_vp8x fx body
  else if id =? FourCCVP8 then r <- parse_single_image FormatVP8 body ;; Ok (r, KStill)
  else if id =? FourCCVP8L then r <- parse_single_image FormatVP8L body ;; Ok (r, KStill)
  else Err EUnsupported.
Proof.
  intros Hrs Hr Hb Hid. unfold parse_ex. rewrite riff_header_written by exact Hr. cbn [bind].
  unfold ChunkHeaderSize, RIFFHeaderSize.
  assert (Hlen : len (le32 FourCCRIFF ++ le32 rs ++ le32 FourCCWEBP ++ body) = rs + 8).
  { rewrite !len_app, !len_le32. lia. }
  destruct (Z.gtb_spec (rs + 8) (len (le32 FourCCRIFF ++ le32 rs ++ le32 FourCCWEBP ++ body))); [lia|].
  rewrite <- Hlen. rewrite body_of_written. cbn [bind].
  assert (8 <= len body).
  { rewrite Hb, len_app. pose proof (chunk_min_len id d). pose proof (len_nonneg rest). lia. }
  destruct (Z.ltb_spec (len body) 8); [lia|].
  rewrite Hb at 1. rewrite first_fourcc_of_chunk. cbn [bind]. rewrite rd32_le32_id by exact Hid.
  reflexivity.
Qed.

(** ** One iteration of each chunk loop on a written chunk *)
Lemma chunk_length_ge id d rest : (8 + length rest <= length (chunk id d ++ rest))%nat.
Proof. rewrite app_length. pose proof (chunk_min_len id d). unfold len in *. lia. Qed.

Lemma chunk_length_S id d rest : exists n, length (chunk id d ++ rest) = S n.
Proof. pose proof (chunk_length_ge id d rest). exists (pred (length (chunk id d ++ rest))). lia. Qed.

Lemma len_chunk_app_ge id d (rest : list Z) : 8 <= len (chunk id d ++ rest).
Proof. pose proof (chunk_length_ge id d rest). unfold len. lia. Qed.

Lemma chunks_step fuel fx feat frames cs a id d rest :
  0 <= id < 4294967296 -> len d <= MaxChunkPayload ->
  parse_vp8x_chunks (S fuel) fx feat frames cs a (chunk id d ++ rest) =
  let continue feat frames cs a := parse_vp8x_chunks fuel fx feat frames cs a rest in
  if id =? FourCCVP8X then Err EInvalidChunk
  else if id =? FourCCANIM then
    if len d <? ANIMChunkSize then Err EInvalidChunk else
    bg <- slice d 0 4 ;; lc <- slice d 4 6 ;;
    continue (set_anim feat (rd32 bg) (rd16 lc)) frames cs (a + 1)
  else if id =? FourCCANMF then
    if a =? 0 then Err EInvalidChunk else
    if len frames >=? MaxFrames then Err EInvalidChunk else
    fr <- parse_anmf d ;; continue feat (frames ++ [fr]) cs a
  else if is_image_fourcc id || (id =? FourCCALPH) then
    if (a >? 0) || fHasAnim feat then Err EInvalidChunk else
    r <- parse_ext_single (S (length (chunk id d ++ rest))) feat frames cs None (chunk id d ++ rest) ;;
    Ok (r, KStill)
  else if id =? FourCCICCP then
    cs' <- add_meta (fHasICCP feat) (len d) id d cs ;; continue feat frames cs' a
  else if id =? FourCCEXIF then
    cs' <- add_meta (fHasEXIF feat) (len d) id d cs ;; continue feat frames cs' a
  else if id =? FourCCXMP then
    cs' <- add_meta (fHasXMP feat) (len d) id d cs ;; continue feat frames cs' a
  else if len cs >=? MaxChunks then Err EInvalidChunk
  else if len d >? MaxMetadataSize then Err EInvalidChunk
  else continue feat frames (cs ++ [mkChunk id d]) a.
Proof.
  intros Hid Hd. cbn [parse_vp8x_chunks]. unfold ChunkHeaderSize.
  pose proof (len_chunk_app_ge id d rest).
  destruct (Z.ltb_spec (len (chunk id d ++ rest)) 8); [lia|].
  rewrite chunk_at_chunk by assumption. cbn [bind]. rewrite rest_after_chunk. reflexivity.
Qed.

Lemma chunks_end fuel fx feat frames cs a :
  parse_vp8x_chunks (S fuel) fx feat frames cs a [] =
  if fx && negb (fHasAnim feat) && (len frames =? 0) then Err ETruncated
  else Ok (mkParsed feat frames cs, KList).
Proof. reflexivity. Qed.

Lemma ext_single_step fuel feat frames cs alph id d rest :
  0 <= id < 4294967296 -> len d <= MaxChunkPayload ->
  parse_ext_single (S fuel) feat frames cs alph (chunk id d ++ rest) =
  if id =? FourCCALPH then parse_ext_single fuel (set_alpha feat) frames cs (Some d) rest
  else if id =? FourCCVP8L then
    if is_some alph then Err EInvalidChunk else
    '(w, h, alpha) <- parse_vp8l_header d ;;
    Ok (mkParsed (set_dims (if alpha then set_alpha feat else feat) w h)
                 (frames ++ [mkFrame 0 0 w h 0 false false alpha true d None]) cs)
  else if id =? FourCCVP8 then
    '(w, h) <- parse_vp8_header d ;;
    Ok (mkParsed (set_dims feat w h) (frames ++ [mkFrame 0 0 w h 0 false false (is_some alph) false d alph]) cs)
  else Err EInvalidChunk.
Proof.
  intros Hid Hd. cbn [parse_ext_single]. unfold ChunkHeaderSize.
  pose proof (len_chunk_app_ge id d rest).
  destruct (Z.ltb_spec (len (chunk id d ++ rest)) 8); [lia|].
  rewrite chunk_at_chunk by assumption. cbn [bind]. rewrite rest_after_chunk. reflexivity.
Qed.

Lemma frame_sub_step fuel frame alph id d rest :
  0 <= id < 4294967296 -> len d <= MaxChunkPayload ->
  parse_frame_sub (S fuel) frame alph (chunk id d ++ rest) =
  if id =? FourCCALPH then
    parse_frame_sub fuel
      (mkFrame (frX frame) (frY frame) (frW frame) (frH frame) (frDur frame) (frDisposeBG frame)
               (frBlendNone frame) true (frLossless frame) (frPayload frame) (frAlpha frame)) (Some d) rest
  else if id =? FourCCVP8L then
    match alph with
    | Some _ => Err EInvalidChunk
    | None =>
      '(_, _, alpha) <- parse_vp8l_header d ;;
      Ok (mkFrame (frX frame) (frY frame) (frW frame) (frH frame) (frDur frame) (frDisposeBG frame)
                  (frBlendNone frame) (if alpha then true else frHasAlpha frame) true d (frAlpha frame))
    end
  else if id =? FourCCVP8 then
    Ok (mkFrame (frX frame) (frY frame) (frW frame) (frH frame) (frDur frame) (frDisposeBG frame)
                (frBlendNone frame) (frHasAlpha frame) false d alph)
  else match alph with Some _ => Err EInvalidChunk | None => Ok frame end.
Proof.
  intros Hid Hd. cbn [parse_frame_sub]. unfold ChunkHeaderSize.
  pose proof (len_chunk_app_ge id d rest).
  destruct (Z.ltb_spec (len (chunk id d ++ rest)) 8); [lia|].
  rewrite chunk_at_chunk by assumption. cbn [bind]. rewrite rest_after_chunk. reflexivity.
Qed.

Lemma chunks_step_iccp fuel fx feat frames cs a d rest :
  fHasICCP feat = true -> len d <= MaxMetadataSize ->
  parse_vp8x_chunks (S fuel) fx feat frames cs a (chunk FourCCICCP d ++ rest) =
  parse_vp8x_chunks fuel fx feat frames (cs ++ [mkChunk FourCCICCP d]) a rest.
Proof.
  intros Hf Hd. rewrite chunks_step by (unfold FourCCICCP, MaxChunkPayload, MaxMetadataSize in *; lia).
  unfold add_meta. rewrite Hf. destruct (Z.gtb_spec (len d) MaxMetadataSize); [lia|reflexivity].
Qed.

Lemma chunks_step_image fuel fx feat frames cs id d rest :
  id = FourCCVP8 \/ id = FourCCVP8L \/ id = FourCCALPH -> len d <= MaxChunkPayload ->
  fHasAnim feat = false ->
  parse_vp8x_chunks (S fuel) fx feat frames cs 0 (chunk id d ++ rest) =
  (r <- parse_ext_single (S (length (chunk id d ++ rest))) feat frames cs None (chunk id d ++ rest) ;; Ok (r, KStill)).
Proof.
  intros Hid Hd Ha.
  rewrite chunks_step by (exact Hd || (destruct Hid as [->|[->| ->]]; [unfold FourCCVP8|unfold FourCCVP8L|unfold FourCCALPH]; lia)).
  rewrite Ha. destruct Hid as [->|[->| ->]]; reflexivity.
Qed.

(** ** The parse of the extended layout *)
Definition expected_frame (fourcc : Z) (bs alpha : list Z) (w h : Z) (a : bool) : FrameInfo :=
  if fourcc =? FourCCVP8L then mkFrame 0 0 w h 0 false false a true bs None
  else mkFrame 0 0 w h 0 false false (len alpha >? 0) false bs (opt_blob alpha).

Definition expected_chunks (icc : list Z) : list Chunk :=
  if len icc >? 0 then [mkChunk FourCCICCP icc] else [].

Definition expected_features (alpha : list Z) (w h : Z) (icc exif xmp : list Z) (a : bool) : Features :=
  mkFeatures w h ((len alpha >? 0) || a) false (len icc >? 0) (len exif >? 0) (len xmp >? 0)
             FormatVP8X 1 4294967295 w h.

Lemma image_dims_inv id bs w h a :
  image_dims id bs = Some (w, h, a) ->
  (id = FourCCVP8L /\ parse_vp8l_header bs = Ok (w, h, a)) \/
  (id = FourCCVP8 /\ a = false /\ parse_vp8_header bs = Ok (w, h)).
Proof.
  unfold image_dims. destruct (Z.eqb_spec id FourCCVP8L) as [->|].
  - destruct (parse_vp8l_header bs) as [[[w' h'] a']|e|]; try discriminate. intros [= -> -> ->]. auto.
  - destruct (Z.eqb_spec id FourCCVP8) as [->|]; [|discriminate].
    destruct (parse_vp8_header bs) as [[w' h']|e|]; try discriminate. intros [= -> -> <-]. auto.
Qed.

Lemma image_dims_vp8l bs w h a : parse_vp8l_header bs = Ok (w, h, a) -> image_dims FourCCVP8L bs = Some (w, h, a).
Proof. intros E. unfold image_dims. rewrite E. reflexivity. Qed.

Lemma image_dims_vp8 bs w h : parse_vp8_header bs = Ok (w, h) -> image_dims FourCCVP8 bs = Some (w, h, false).
Proof. intros E. unfold image_dims. rewrite E. reflexivity. Qed.

Lemma image_dims_range id bs w h a : image_dims id bs = Some (w, h, a) -> 1 <= w <= 16384 /\ 1 <= h <= 16384.
Proof.
  intros Hd. destruct (image_dims_inv _ _ _ _ _ Hd) as [(_ & E)|(_ & _ & E)];
    [apply vp8l_header_range in E|apply vp8_header_range in E]; lia.
Qed.

Lemma header_declares_range fourcc bs w h a :
  image_fourcc fourcc -> header_declares fourcc bs w h a -> 1 <= w <= 16384 /\ 1 <= h <= 16384.
Proof. intros _. apply image_dims_range. Qed.

Lemma vp8x_payload_explicit f w h :
  0 <= f < 64 ->
  vp8x_payload f w h =
  [f; 0; 0; 0; (w - 1) mod 256; ((w - 1) / 256) mod 256; ((w - 1) / 65536) mod 256;
   (h - 1) mod 256; ((h - 1) / 256) mod 256; ((h - 1) / 65536) mod 256].
Proof. intros Hr. unfold vp8x_payload. rewrite le32_byte by (unfold is_byte; lia). reflexivity. Qed.

Lemma vp8x_payload_of_bytes f w0 w1 w2 h0 h1 h2 :
  bytes_ok [f; 0; 0; 0; w0; w1; w2; h0; h1; h2] ->
  [f; 0; 0; 0; w0; w1; w2; h0; h1; h2] = vp8x_payload f (1 + rd24 [w0; w1; w2]) (1 + rd24 [h0; h1; h2]) /\
  1 <= 1 + rd24 [w0; w1; w2] <= 16777216 /\ 1 <= 1 + rd24 [h0; h1; h2] <= 16777216.
Proof.
  rewrite !bytes_ok_cons. intros (Bf & _ & _ & _ & W0 & W1 & W2 & H0 & H1 & H2 & _).
  pose proof (rd24_bound w0 w1 w2 [] W0 W1 W2). pose proof (rd24_bound h0 h1 h2 [] H0 H1 H2).
  split; [|lia]. unfold vp8x_payload.
  replace (1 + rd24 [w0; w1; w2] - 1) with (rd24 [w0; w1; w2]) by lia.
  replace (1 + rd24 [h0; h1; h2] - 1) with (rd24 [h0; h1; h2]) by lia.
  rewrite le32_byte, !le24_rd24 by assumption. reflexivity.
Qed.

Lemma parse_vp8x_chunk fx f w h rest :
  0 <= f < 64 -> 1 <= w <= 16777216 -> 1 <= h <= 16777216 ->
  parse_vp8x fx (chunk FourCCVP8X (vp8x_payload f w h) ++ rest) =
  if negb (Z.land f 4294967233 =? 0) then Err EInvalidFlags else
  if w * h >=? MaxImageArea then Err EInvalidImage else
  parse_vp8x_chunks (S (length rest)) fx
    (mkFeatures w h (Z.testbit f 4) (Z.testbit f 1) (Z.testbit f 5) (Z.testbit f 3) (Z.testbit f 2)
                FormatVP8X 1 4294967295 w h) [] [] 0 rest.
Proof.
  intros Hf Hw Hh. unfold parse_vp8x.
  destruct fourcc_ranges as (HX & _).
  assert (Hlen : len (vp8x_payload f w h) = 10) by reflexivity.
  rewrite read_header_chunk by (rewrite ?Hlen; unfold MaxChunkPayload; lia). cbn [bind].
  rewrite Hlen. unfold VP8XChunkSize, ChunkHeaderSize. change (negb (10 =? 10)) with false. cbv iota.
  change (10 mod 2) with 0. change (8 + (10 + 0)) with 18. change (8 + 10) with 18.
  assert (Hl18 : len (chunk FourCCVP8X (vp8x_payload f w h)) = 18) by reflexivity.
  pose proof (len_nonneg rest).
  destruct (Z.gtb_spec 18 (len (chunk FourCCVP8X (vp8x_payload f w h) ++ rest))) as [Hg|_];
    [rewrite len_app, Hl18 in Hg; lia|].
  change 18 with (8 + len (vp8x_payload f w h)) at 1. rewrite payload_of_chunk. cbn [bind].
  rewrite (vp8x_payload_explicit f w h Hf) at 1. cbv iota.
  rewrite !rd24_le24' by lia.
  replace (1 + (w - 1)) with w by lia. replace (1 + (h - 1)) with h by lia.
  rewrite <- Hl18 at 1. rewrite rest_after_chunk. reflexivity.
Qed.

Lemma parse_ex_vp8x fx f w h rest :
  0 <= f < 64 -> 1 <= w <= 16777216 -> 1 <= h <= 16777216 ->
  let body := chunk FourCCVP8X (vp8x_payload f w h) ++ rest in
  4 + len body <= MaxChunkPayload ->
  parse_ex fx (le32 FourCCRIFF ++ le32 (4 + len body) ++ le32 FourCCWEBP ++ body) =
  if negb (Z.land f 4294967233 =? 0) then Err EInvalidFlags else
  if w * h >=? MaxImageArea then Err EInvalidImage else
  parse_vp8x_chunks (S (length rest)) fx
    (mkFeatures w h (Z.testbit f 4) (Z.testbit f 1) (Z.testbit f 5) (Z.testbit f 3) (Z.testbit f 2)
                FormatVP8X 1 4294967295 w h) [] [] 0 rest.
Proof.
  intros Hf Hw Hh body Hs. destruct fourcc_ranges as (HX & _).
  rewrite (parse_ex_written fx _ body FourCCVP8X (vp8x_payload f w h) rest eq_refl); [|split; [|exact Hs]|reflexivity|exact HX].
  - apply parse_vp8x_chunk; assumption.
  - pose proof (len_chunk_app_ge FourCCVP8X (vp8x_payload f w h) rest). fold body in H. lia.
Qed.

Lemma chunks_fuel_mono : forall fuel fuel' fx feat frames chunks a buf r,
  parse_vp8x_chunks fuel fx feat frames chunks a buf = Ok r -> (fuel <= fuel')%nat ->
  parse_vp8x_chunks fuel' fx feat frames chunks a buf = Ok r.
Proof.
  induction fuel as [|fuel IH]; intros fuel' fx feat frames chunks a buf r H Hle; [discriminate|].
  destruct fuel' as [|fuel']; [lia|]. cbn [parse_vp8x_chunks] in *.
  destruct (len buf <? ChunkHeaderSize); [exact H|].
  destruct (chunk_at buf) as [[[[f sz] tot] pl]|e|]; cbn [bind] in *; try discriminate.
  assert (Hc : forall ft fr cs aa,
     (rest <- slice buf tot (len buf);; parse_vp8x_chunks fuel fx ft fr cs aa rest) = Ok r ->
     (rest <- slice buf tot (len buf);; parse_vp8x_chunks fuel' fx ft fr cs aa rest) = Ok r).
  { intros ft fr cs aa Hq. destruct (slice buf tot (len buf)); cbn [bind] in *; try discriminate.
    apply (IH fuel'); [exact Hq|lia]. }
  destruct (f =? FourCCVP8X); [exact H|].
  destruct (f =? FourCCANIM).
  { destruct (sz <? ANIMChunkSize); [exact H|].
    destruct (slice pl 0 4); cbn [bind] in *; try discriminate.
    destruct (slice pl 4 6); cbn [bind] in *; try discriminate. apply Hc. exact H. }
  destruct (f =? FourCCANMF).
  { destruct (a =? 0); [exact H|]. destruct (len frames >=? MaxFrames); [exact H|].
    destruct (parse_anmf pl); cbn [bind] in *; try discriminate. apply Hc. exact H. }
  destruct (is_image_fourcc f || (f =? FourCCALPH)); [exact H|].
  destruct (f =? FourCCICCP).
  { destruct (add_meta (fHasICCP feat) sz f pl chunks); cbn [bind] in *; try discriminate. apply Hc. exact H. }
  destruct (f =? FourCCEXIF).
  { destruct (add_meta (fHasEXIF feat) sz f pl chunks); cbn [bind] in *; try discriminate. apply Hc. exact H. }
  destruct (f =? FourCCXMP).
  { destruct (add_meta (fHasXMP feat) sz f pl chunks); cbn [bind] in *; try discriminate. apply Hc. exact H. }
  destruct (len chunks >=? MaxChunks); [exact H|]. destruct (sz >? MaxMetadataSize); [exact H|].
  apply Hc. exact H.
Qed.

(** The bytes of a chunk that may be absent ([ParserSpecProofs.optc], which the later
    files use, is this function). *)
Local Notation opt_bytes id o := (match o with Some d => chunk id d | None => [] end).

(** [alph]: the ALPH payload if that chunk is there; it may be empty, which [expected_frame] cannot say. *)
Definition frame_of (id : Z) (bs : list Z) (alph : option (list Z)) (w h : Z) (a : bool) : FrameInfo :=
  if id =? FourCCVP8L then mkFrame 0 0 w h 0 false false a true bs None
  else mkFrame 0 0 w h 0 false false (is_some alph) false bs alph.

Lemma expected_frame_of id bs alpha w h a : expected_frame id bs alpha w h a = frame_of id bs (opt_blob alpha) w h a.
Proof. unfold expected_frame, frame_of, opt_blob. destruct (len alpha >? 0); reflexivity. Qed.

Lemma chunks_step_opt_iccp fuel fx feat frames cs a (icc : option (list Z)) rest r :
  fHasICCP feat = is_some icc -> (forall d, icc = Some d -> len d <= MaxMetadataSize) ->
  parse_vp8x_chunks fuel fx feat frames
    (cs ++ match icc with Some d => [mkChunk FourCCICCP d] | None => [] end) a rest = Ok r ->
  parse_vp8x_chunks (S fuel) fx feat frames cs a
    (opt_bytes FourCCICCP icc ++ rest) = Ok r.
Proof.
  intros Hf Hd H. destruct icc as [d|].
  - rewrite chunks_step_iccp by auto. exact H.
  - rewrite app_nil_r in H. apply (chunks_fuel_mono fuel); [exact H|lia].
Qed.

Lemma chunks_still_exit fuel fx feat frames cs (alph : option (list Z)) id bs w h a tail :
  image_dims id bs = Some (w, h, a) -> len bs <= MaxChunkPayload ->
  (forall d, alph = Some d -> len d <= MaxChunkPayload) ->
  (is_some alph = true -> id = FourCCVP8) -> fHasAnim feat = false ->
  parse_vp8x_chunks (S fuel) fx feat frames cs 0
    (opt_bytes FourCCALPH alph ++ chunk id bs ++ tail) =
  Ok (mkParsed (set_dims (if is_some alph || a then set_alpha feat else feat) w h)
               (frames ++ [frame_of id bs alph w h a]) cs, KStill).
Proof.
  intros Hd Hbs Hal Halph Hanim. destruct fourcc_ranges as (_ & _ & RA & _ & _ & R8 & R8L & _).
  destruct alph as [d|]; cbn [is_some orb app].
  - rewrite (Halph eq_refl) in *. specialize (Hal d eq_refl).
    destruct (image_dims_inv _ _ _ _ _ Hd) as [(E & _)|(_ & -> & Eh)]; [discriminate|].
    rewrite chunks_step_image by auto. rewrite ext_single_step by assumption.
    change (FourCCALPH =? FourCCALPH) with true. cbv iota.
    destruct (chunk_length_S FourCCALPH d (chunk FourCCVP8 bs ++ tail)) as [n ->].
    rewrite ext_single_step by assumption. change (FourCCVP8 =? FourCCALPH) with false.
    change (FourCCVP8 =? FourCCVP8L) with false. change (FourCCVP8 =? FourCCVP8) with true. cbv iota.
    rewrite Eh. reflexivity.
  - destruct (image_dims_inv _ _ _ _ _ Hd) as [(-> & Eh)|(-> & -> & Eh)];
      rewrite chunks_step_image by auto; rewrite ext_single_step by assumption.
    + change (FourCCVP8L =? FourCCALPH) with false. change (FourCCVP8L =? FourCCVP8L) with true. cbv iota.
      rewrite Eh. reflexivity.
    + change (FourCCVP8 =? FourCCALPH) with false. change (FourCCVP8 =? FourCCVP8L) with false.
      change (FourCCVP8 =? FourCCVP8) with true. cbv iota. rewrite Eh. reflexivity.
Qed.

Lemma chunks_still_body fx feat (icc alph : option (list Z)) id bs w h a tail :
  fHasICCP feat = is_some icc -> (forall d, icc = Some d -> len d <= MaxMetadataSize) ->
  image_dims id bs = Some (w, h, a) -> len bs <= MaxChunkPayload ->
  (forall d, alph = Some d -> len d <= MaxChunkPayload) ->
  (is_some alph = true -> id = FourCCVP8) -> fHasAnim feat = false ->
  let rest := opt_bytes FourCCALPH alph ++ chunk id bs ++ tail in
  parse_vp8x_chunks (S (length (opt_bytes FourCCICCP icc ++ rest)))
    fx feat [] [] 0 (opt_bytes FourCCICCP icc ++ rest) =
  Ok (mkParsed (set_dims (if is_some alph || a then set_alpha feat else feat) w h)
               [frame_of id bs alph w h a]
               (match icc with Some d => [mkChunk FourCCICCP d] | None => [] end), KStill).
Proof.
  intros Hf Hic Hd Hbs Hal Halph Hanim rest.
  apply chunks_step_opt_iccp; [exact Hf|exact Hic|]. apply (chunks_fuel_mono 1).
  - apply (chunks_still_exit 0 fx feat [] _ alph id bs w h a tail); assumption.
  - destruct (chunk_length_S id bs tail) as [n E]. subst rest. rewrite app_length in E. rewrite !app_length. lia.
Qed.

Lemma opt_chunk_blob id d : opt_chunk id d = match opt_blob d with Some x => chunk id x | None => [] end.
Proof. unfold opt_chunk, opt_blob. destruct (len d >? 0); reflexivity. Qed.

Theorem parse_written_extended fx fourcc bs alpha w h icc exif xmp a file :
  image_fourcc fourcc -> sizes_ok bs alpha icc exif xmp -> header_declares fourcc bs w h a ->
  (len alpha > 0 -> fourcc = FourCCVP8) -> len icc <= MaxMetadataSize ->
  write_riff_extended fourcc bs alpha w h icc exif xmp = Ok file ->
  parse_ex fx file =
  Ok (mkParsed (expected_features alpha w h icc exif xmp a) [expected_frame fourcc bs alpha w h a]
               (expected_chunks icc), KStill).
Proof.
  intros Hf Hs Hd Halph Hicc Hw.
  destruct (image_dims_range _ _ _ _ _ Hd) as [Hwr Hhr].
  pose proof (header_declares_alpha _ _ _ _ _ Hf Hd) as Hbit.
  destruct (sizes_ok_each _ _ _ _ _ Hs) as (Hbs & Hal & _).
  assert (Hfile : file = le32 FourCCRIFF ++ le32 (riff_size_extended bs alpha icc exif xmp) ++ le32 FourCCWEBP
                      ++ written_body fourcc bs alpha w h icc exif xmp).
  { rewrite write_extended_eq in Hw by exact Hs. congruence. }
  subst file. clear Hw.
  destruct (flags_exact fourcc bs alpha icc exif xmp) as (F5 & F3 & F2 & F4 & F1 & Fl & Fr).
  set (f := vp8x_flags fourcc bs alpha icc exif xmp) in *.
  set (rest := opt_chunk FourCCICCP icc ++ opt_chunk FourCCALPH alpha ++ chunk fourcc bs ++
               opt_chunk FourCCEXIF exif ++ opt_chunk FourCCXMP xmp).
  assert (Hbody : written_body fourcc bs alpha w h icc exif xmp = chunk FourCCVP8X (vp8x_payload f w h) ++ rest)
    by reflexivity.
  pose proof (riff_size_even bs alpha icc exif xmp) as Hev. unfold sizes_ok in Hs.
  rewrite (riff_size_is_body fourcc bs alpha w h icc exif xmp), Hbody in *.
  rewrite parse_ex_vp8x by (lia || (unfold MaxChunkPayload; lia)). rewrite Fl.
  destruct (Z.geb_spec (w * h) MaxImageArea) as [Hbig|_]; [unfold MaxImageArea in Hbig; nia|].
  change (negb (0 =? 0)) with false. cbv iota.
  rewrite F5, F3, F2, F4, F1, Hbit. subst rest. rewrite !opt_chunk_blob.
  rewrite expected_frame_of. unfold expected_features, expected_chunks.
  assert (Ei : forall d, (len d >? 0) = is_some (opt_blob d)) by (intros d; unfold opt_blob; destruct (len d >? 0); reflexivity).
  rewrite !Ei.
  rewrite (chunks_still_body fx _ (opt_blob icc) (opt_blob alpha) fourcc bs w h a); try assumption; try reflexivity.
  - unfold opt_blob. destruct (len icc >? 0), (len alpha >? 0), a; reflexivity.
  - unfold opt_blob. intros d. destruct (len icc >? 0); intros [= <-]. exact Hicc.
  - unfold MaxChunkPayload. lia.
  - unfold opt_blob, MaxChunkPayload. intros d. destruct (len alpha >? 0); intros [= <-]. lia.
  - rewrite <- Ei. intros Hp. apply Halph. lia.
Qed.

(** ** The simple layout *)
Lemma pad_is_repeat n : pad n = repeat 0 (Z.to_nat (n mod 2)).
Proof.
  unfold pad. destruct (Z.eqb_spec (n mod 2) 0) as [E|E]; [rewrite E; reflexivity|].
  replace (n mod 2) with 1 by lia. reflexivity.
Qed.

Lemma firstn_copy_zero (bs : list Z) p :
  firstn (length bs + p) (bs ++ repeat 0 (length bs + p)) = bs ++ repeat 0 p.
Proof.
  rewrite firstn_app, firstn_all2 by lia. f_equal.
  replace (length bs + p - length bs)%nat with p by lia.
  rewrite Nat.add_comm, repeat_app. rewrite <- (repeat_length 0 p) at 1. apply firstn_app_exact.
Qed.

Definition simple_file (fourcc : Z) (bs : list Z) : list Z :=
  le32 FourCCRIFF ++ le32 (4 + len (chunk fourcc bs)) ++ le32 FourCCWEBP ++ chunk fourcc bs.

Lemma simple_header_small fourcc n :
  0 <= n < 4294967296 - 21 ->
  simple_header fourcc n = le32 FourCCRIFF ++ le32 (4 + padded_chunk_size n) ++ le32 FourCCWEBP ++ le32 fourcc ++ le32 n.
Proof.
  intros H. unfold simple_header, u32, padded_chunk_size, ChunkHeaderSize.
  rewrite (Z.mod_small n) by lia. rewrite (Z.mod_small (n + n mod 2)) by lia.
  rewrite (Z.mod_small (4 + 8 + (n + n mod 2))) by lia.
  replace (4 + 8 + (n + n mod 2)) with (4 + (8 + n + n mod 2)) by lia. reflexivity.
Qed.

Theorem write_simple_eq fourcc bs :
  len bs < 4294967296 - 21 -> write_riff_simple fourcc bs = Ok (simple_file fourcc bs).
Proof.
  intros H. pose proof (len_nonneg bs) as H0. unfold write_riff_simple, u32, ChunkHeaderSize.
  rewrite (Z.mod_small (len bs)) by lia. rewrite (Z.mod_small (len bs + len bs mod 2)) by lia.
  rewrite (Z.mod_small (4 + 8 + (len bs + len bs mod 2))) by lia.
  rewrite (Z.mod_small (8 + (4 + 8 + (len bs + len bs mod 2)))) by lia.
  destruct (Z.ltb_spec (8 + (4 + 8 + (len bs + len bs mod 2))) 20); [lia|].
  destruct (Z.ltb_spec (20 + len bs) (8 + (4 + 8 + (len bs + len bs mod 2)))) as [Hl|Hl].
  2:{ assert (Hm : len bs mod 2 = 0) by lia. rewrite Hm. change (negb (0 =? 0)) with false. cbn [andb].
      rewrite simple_header_small by lia. unfold simple_file. rewrite len_chunk. unfold chunk. rewrite pad_is_repeat, Hm.
      replace (8 + (4 + 8 + (len bs + 0)) - 20) with (len bs) by lia.
      replace (Z.to_nat (len bs)) with (length bs + 0)%nat by (unfold len; lia).
      rewrite firstn_copy_zero. cbn [repeat Z.to_nat]. rewrite <- !app_assoc. reflexivity. }
  rewrite andb_false_r.
  rewrite simple_header_small by lia. unfold simple_file. rewrite len_chunk. unfold chunk. rewrite pad_is_repeat.
  replace (8 + (4 + 8 + (len bs + len bs mod 2)) - 20) with (len bs + len bs mod 2) by lia.
  replace (Z.to_nat (len bs + len bs mod 2)) with (length bs + Z.to_nat (len bs mod 2))%nat by (unfold len; lia).
  rewrite firstn_copy_zero. rewrite <- !app_assoc. reflexivity.
Qed.

(** The streaming lossless path writes the same bytes as the buffered one. *)
Theorem streaming_eq_buffered bs :
  len bs < 4294967296 - 21 -> Ok (write_lossless_stream bs) = write_riff_simple FourCCVP8L bs.
Proof.
  intros H. pose proof (len_nonneg bs). rewrite write_simple_eq by exact H. f_equal.
  unfold write_lossless_stream, simple_file. rewrite simple_header_small by lia.
  rewrite len_chunk. unfold chunk. rewrite <- !app_assoc. reflexivity.
Qed.

Definition simple_features (fourcc w h : Z) (a : bool) : Features :=
  mkFeatures w h a false false false false (if fourcc =? FourCCVP8L then FormatVP8L else FormatVP8) 0 0 w h.

Theorem parse_written_simple fx fourcc bs w h a :
  image_fourcc fourcc -> len bs < 4294967296 - 21 -> header_declares fourcc bs w h a ->
  parse_ex fx (simple_file fourcc bs) =
  Ok (mkParsed (simple_features fourcc w h a) [expected_frame fourcc bs [] w h a] [], KStill).
Proof.
  intros Hf Hl Hd. pose proof (len_nonneg bs) as H0. unfold simple_file.
  rewrite (parse_ex_written fx _ _ fourcc bs []).
  2:{ reflexivity. }
  2:{ rewrite len_chunk. unfold padded_chunk_size, ChunkHeaderSize, MaxChunkPayload. lia. }
  2:{ rewrite app_nil_r. reflexivity. }
  2:{ apply image_fourcc_range. exact Hf. }
  unfold parse_single_image, expected_frame, simple_features, opt_blob.
  rewrite <- (app_nil_r (chunk fourcc bs)).
  rewrite chunk_at_chunk by ((apply image_fourcc_range; exact Hf) || (unfold MaxChunkPayload; lia)).
  cbn [bind]. destruct (image_dims_inv _ _ _ _ _ Hd) as [(-> & Eh)|(-> & -> & Eh)]; rewrite Eh; reflexivity.
Qed.
