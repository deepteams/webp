(** C14: witnesses against the full round-trip statement, six for the PINNED muxer
    (/repo before bc01570 / 2c1f6ba), one for the current one (finding "still-canvas"). *)
From Coq Require Import List ZArith Lia Bool.
From Webp Require Import Base.Res Base.Bytes Riff.RiffGrammar Riff.DemuxModel Riff.DemuxTotal Riff.MuxModel Riff.MuxView.
Import ListNotations.
Open Scope Z_scope.

Definition w_vp8 : list Z := [0; 0; 0; 157; 1; 42; 4; 0; 4; 0; 7].        (* 4x4 VP8 key-frame header + 1 byte *)
Definition w_alph : list Z := T_ALPH ++ [3; 0; 0; 0; 1; 2; 3; 0] ++ w_vp8.  (* "ALPH" 3 bytes + pad, then the VP8 data *)
Definition opts (dur ox oy : Z) : option fopts := Some (mkfo dur ox oy 0 0).

(** a necessary condition only: alpha payloads, blend / dispose and metadata are not compared *)
Definition roundtrip_holds (fx : fixes) (dfx : bool) (ops : list op) : bool :=
  let m := run ops in
  match assemble fx m with
  | Err _ => true
  | Panic => false
  | Ok bs =>
    wf bs &&
    match parse dfx bs with
    | Ok d =>
      match view_of_demux d with
      | Some v => (* decidable comparison of the observable parts *)
        let v' := view_of_mux m in
        (vw_cw v =? vw_cw v') && (vw_ch v =? vw_ch v') && Bool.eqb (vw_anim v) (vw_anim v') &&
        (vw_loop v =? vw_loop v') && (vw_bg v =? vw_bg v') &&
        (length (vw_frames v) =? length (vw_frames v'))%nat &&
        forallb (fun p => (v_ox (fst p) =? v_ox (snd p)) && (v_oy (fst p) =? v_oy (snd p)) &&
                          (v_dur (fst p) =? v_dur (snd p)) && bytes_eqb (v_bits (fst p)) (v_bits (snd p)))
                (combine (vw_frames v) (vw_frames v'))
      | None => false
      end
    | _ => false
    end
  end.

Lemma roundtrip_holds_necessary fx dfx ops :
  Forall op_ok ops -> roundtrip_statement fx dfx -> roundtrip_holds fx dfx ops = true.
Proof.
  intros Hok H. specialize (H ops Hok). cbv zeta in H. unfold roundtrip_holds.
  destruct (assemble fx (run ops)) as [bs|e|]; [|reflexivity|contradiction].
  destruct H as [Hwf Hp]. rewrite Hwf. cbn [andb].
  destruct (parse dfx bs) as [d|e|]; try contradiction.
  rewrite Hp.
  rewrite !Z.eqb_refl, Bool.eqb_reflx, Nat.eqb_refl. cbn [andb].
  apply forallb_forall. intros [a b] Hin.
  assert (a = b).
  { clear -Hin. induction (vw_frames (view_of_mux (run ops))) as [|x l IH]; cbn in Hin; [contradiction|].
    destruct Hin as [E|Hin]; [congruence|auto]. }
  subst b. cbn [fst snd]. rewrite !Z.eqb_refl. cbn [andb].
  clear. induction (v_bits a) as [|x l IH]; cbn; [reflexivity|]. rewrite Z.eqb_refl, IH. reflexivity.
Qed.

(** the RIFF-size patch only turns a panic into an error; the statement excludes both *)
Lemma refuted_any_demuxer fx : ~ roundtrip_statement fx true -> forall dfx, ~ roundtrip_statement fx dfx.
Proof.
  intros Hn [|] H; [exact (Hn H)|]. apply Hn. intros ops Hok. specialize (H ops Hok). cbv zeta in *.
  destruct (assemble fx (run ops)) as [bs|e|]; auto. destruct H as [Hwf Hp]. split; [exact Hwf|].
  rewrite <- parse_pinned_agrees; [exact Hp|]. intros E. rewrite E in Hp. exact Hp.
Qed.

(* evaluates [roundtrip_holds] on [ops] to false *)
Ltac refute ops :=
  intros H; assert (Hok : Forall op_ok ops) by (repeat (apply Forall_cons; [vm_compute; reflexivity|]); apply Forall_nil);
  pose proof (roundtrip_holds_necessary _ _ ops Hok H) as E; vm_compute in E; discriminate.

(** a single still frame whose data carries an ALPH prefix, no metadata:
    written as one "VP8 " chunk holding "ALPH..." — not a well-formed file *)
Theorem pinned_still_alpha_refuted : forall dfx, ~ roundtrip_statement pinned dfx.
Proof. apply refuted_any_demuxer. refute [AddFrame w_alph None]. Qed.

Theorem pinned_still_alpha_meta_refuted : forall dfx, ~ roundtrip_statement (mkfx false true) dfx.
Proof. apply refuted_any_demuxer. refute [AddFrame w_alph None; SetEXIF (Some [1; 2; 3])]. Qed.

(** negative offset accepted, putLE24(OffsetX/2) wraps: -2 reads back as 33554430 *)
Theorem pinned_negative_offset_refuted : forall dfx, ~ roundtrip_statement (mkfx true false) dfx.
Proof. apply refuted_any_demuxer. refute [AddFrame w_vp8 (opts 10 (-2) 0)]. Qed.

(** offsets >= 2^25: halved offset and derived canvas truncated to 24 bits *)
Theorem pinned_big_offset_refuted : forall dfx, ~ roundtrip_statement (mkfx true false) dfx.
Proof. apply refuted_any_demuxer. refute [AddFrame w_vp8 (opts 10 33554432 0)]. Qed.

(** canvas derived from offsets wider than 2^24: width-1 does not fit 24 bits *)
Theorem pinned_canvas_limit_refuted : forall dfx, ~ roundtrip_statement (mkfx true false) dfx.
Proof. apply refuted_any_demuxer. refute [AddFrame w_vp8 (opts 10 16777216 0)]. Qed.

(** a still frame with a non-zero offset: offset dropped, canvas inflated *)
Theorem pinned_still_offset_refuted : forall dfx, ~ roundtrip_statement (mkfx true false) dfx.
Proof. apply refuted_any_demuxer. refute [AddFrame w_vp8 (opts 0 2 0); SetEXIF (Some [1])]. Qed.

(** current code: explicit canvas different from the picture on a still image
    (kept by the repository's own test TestCanvasSizeExplicitTakesPriority) *)
Theorem current_still_canvas_refuted : forall dfx, ~ roundtrip_statement repaired dfx.
Proof. apply refuted_any_demuxer. refute [AddFrame w_vp8 None; SetCanvasSize 6 8]. Qed.

(** the current code on the same histories *)
Example current_handles_the_pinned_witnesses :
  assemble repaired (run [AddFrame w_vp8 (opts 10 (-2) 0)]) = Err E_validate /\
  assemble repaired (run [AddFrame w_vp8 (opts 10 33554432 0)]) = Err E_validate /\
  assemble repaired (run [AddFrame w_vp8 (opts 10 16777216 0)]) = Err E_validate /\
  assemble repaired (run [AddFrame w_vp8 (opts 0 2 0); SetEXIF (Some [1])]) = Err E_validate /\
  roundtrip_holds repaired true [AddFrame w_alph None] = true /\
  roundtrip_holds repaired true [AddFrame w_alph None; SetEXIF (Some [1; 2; 3])] = true /\
  roundtrip_holds repaired true
    [AddFrame w_alph (opts 10 2 4); AddFrame w_vp8 (opts 20 0 0); SetLoopCount 3; SetXMP (Some [])] = true.
Proof. vm_compute. repeat split; reflexivity. Qed.
