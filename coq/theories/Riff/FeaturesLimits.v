(** C16, loop count of a still: container.Parser sets LoopCount = 1 in parseVP8X
    and leaves 0 on the simple layouts, and a still has no ANIM chunk to change it;
    mux.Demuxer reports 0 for every still ([ParserDemuxAgree.views_agree_still]). *)
From Coq Require Import List ZArith Lia Bool.
From Webp Require Import Base.Res Base.Bytes Riff.ParserModel Riff.FeaturesModel Riff.PrefixProofs Riff.FeaturesProofs.
Import ListNotations.
Open Scope Z_scope.

Theorem still_loop_count : forall fx bs r, parse_ex fx bs = Ok (r, KStill) ->
  fLoopCount (pFeat r) = (if fFormat (pFeat r) =? FormatVP8X then 1 else 0).
Proof.
  intros fx bs r H. destruct (still_facts fx bs r H) as (_ & _ & [[-> ->]|[[-> | ->] ->]]); reflexivity.
Qed.

Theorem get_features_still_loop : forall fx bs r g,
  parse_ex fx bs = Ok (r, KStill) -> get_features fx bs = Ok g ->
  gLoop g = (if gFormat g =? 3 then 1 else 0) /\ gHasAnim g = false.
Proof.
  intros fx bs r g Hp Hg. unfold get_features in Hg.
  rewrite (parse_of_parse_ex _ _ _ _ Hp) in Hg. cbn [bind] in Hg. injection Hg as <-.
  pose proof (still_loop_count _ _ _ Hp) as Hl.
  destruct (still_shape _ _ _ Hp) as (_ & Ha & Hfmt).
  unfold features_of. cbn [gLoop gFormat gHasAnim]. split; [|exact Ha]. rewrite Hl.
  unfold FormatVP8, FormatVP8L, FormatVP8X in *.
  assert (E : fFormat (pFeat r) = 1 \/ fFormat (pFeat r) = 2 \/ fFormat (pFeat r) = 3) by lia.
  destruct E as [E|[E|E]]; rewrite E; reflexivity.
Qed.
