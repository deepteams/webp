(** C17, codec layer, VP8L: the specification decoder [Vp8l.Vp8lSpec.decode] (C03 ties it
    to internal/lossless by differential execution) threads the list of unread bits through
    every reader and fails as soon as a reader needs a bit that is not there.  Hence a byte
    string that decodes, decodes to the SAME image when bytes are appended: a proper prefix
    of a VP8L stream is rejected or yields the picture of the complete stream. *)
From Coq Require Import List ZArith Lia Bool.
From Webp Require Import Base.Res Vp8l.Vp8lPixel Vp8l.Vp8lArr Vp8l.Vp8lPrefix Vp8l.Vp8lTransforms
     Vp8l.Vp8lSpec.
From Webp Require Alpha.AlphaModel.
Import ListNotations.
Open Scope Z_scope.

(** A reader is extension-stable when a successful read is unaffected by bits
    appended behind the ones it was given. *)
Definition stable {A} (f : bits -> Res (A * bits)) : Prop :=
  forall s a s' ext, f s = Ok (a, s') -> f (s ++ ext) = Ok (a, s' ++ ext).

Lemma read_bits_stable n : stable (read_bits n).
Proof.
  induction n as [|n IH]; intros s a s' ext H; cbn [read_bits] in *.
  - injection H as <- <-. reflexivity.
  - destruct s as [|b tl]; [discriminate|]. cbn [app].
    destruct (read_bits n tl) as [[v s1]|e|] eqn:E; cbn [bind] in H; try discriminate.
    rewrite (IH _ _ _ ext E). cbn [bind]. injection H as <- <-. reflexivity.
Qed.

Lemma read_bitsZ_stable n : stable (read_bitsZ n).
Proof. unfold read_bitsZ. apply read_bits_stable. Qed.

Lemma read_symbol_stable t : stable (read_symbol t).
Proof.
  induction t as [v|l IHl r IHr|]; intros s a s' ext H; cbn [read_symbol] in *.
  - injection H as <- <-. reflexivity.
  - destruct s as [|b tl]; [discriminate|]. cbn [app]. destruct b; [apply IHr|apply IHl]; exact H.
  - discriminate.
Qed.

Create HintDb stable discriminated.
#[local] Hint Resolve read_bits_stable read_bitsZ_stable read_symbol_stable : stable.

(** Generic steps: split a successful bind, transport its first reader to the extended
    bit list (the reader's stability lemma is found in the hint database [stable]), continue. *)
Ltac st_lift E ext :=
  match type of E with
  | ?f ?s = Ok (?a, ?s') =>
    let Hf := fresh in assert (Hf : stable f) by auto with stable; apply (Hf s a s' ext) in E; clear Hf
  end.

Ltac st_bind H ext :=
  match type of H with
  | bind ?r _ = Ok _ =>
    let E := fresh "E" in
    destruct r as [[? ?]|?|] eqn:E; cbn [bind] in H; [|discriminate|discriminate];
    st_lift E ext; rewrite E; cbn [bind]
  end.

(** a bind over a computation that reads no bits: nothing to transport *)
Ltac st_pure H :=
  match type of H with
  | bind ?r _ = Ok _ => destruct r; cbn [bind] in H; [|discriminate|discriminate]
  end.

Ltac st_bindn H ext x s1 :=
  let go r :=
    (let E := fresh "E" in
     destruct r as [[x s1]|?|] eqn:E; cbn [bind] in H; [|discriminate|discriminate];
     st_lift E ext; rewrite E; cbn [bind]) in
  match type of H with
  | bind (bind ?r _) _ = Ok _ => go r
  | bind ?r _ = Ok _ => go r
  end.

Ltac st_if H :=
  cbv zeta in H; cbv zeta;
  match type of H with
  | (if ?c then _ else _) = Ok _ => destruct c; try discriminate
  end.

Ltac st_done H := injection H as <- <-; reflexivity.

Lemma read_simple_lens_stable alphabet : stable (read_simple_lens alphabet).
Proof.
  intros s a s' ext H. unfold read_simple_lens in *.
  st_bind H ext. st_bind H ext. st_bind H ext. st_if H. st_if H.
  - st_bind H ext. st_if H. st_done H.
  - st_done H.
Qed.

Lemma read_cl_lens_stable : forall n order acc, stable (read_cl_lens order n acc).
Proof.
  induction n as [|n IH]; intros order acc s a s' ext H; destruct order as [|o otl]; cbn [read_cl_lens] in *.
  - st_done H.
  - st_done H.
  - discriminate.
  - st_bind H ext. apply IH. exact H.
Qed.

Lemma read_lens_loop_stable : forall fuel clt ntok nsym prev acc,
  stable (read_lens_loop fuel clt ntok nsym prev acc).
Proof.
  induction fuel as [|fuel IH]; intros clt ntok nsym prev acc s a s' ext H; cbn [read_lens_loop] in *;
    [discriminate|].
  destruct ((nsym <=? 0) || (ntok <=? 0)); [st_done H|].
  st_bindn H ext c s1. destruct (c <? 16); [apply IH; exact H|].
  destruct (if c =? 16 then (2%nat, 3) else if c =? 17 then (3%nat, 3) else (7%nat, 11)) as [eb off].
  st_bind H ext. st_if H. apply IH. exact H.
Qed.

#[local] Hint Resolve read_simple_lens_stable read_cl_lens_stable read_lens_loop_stable : stable.

Lemma read_normal_lens_stable alphabet : stable (read_normal_lens alphabet).
Proof.
  intros s a s' ext H. unfold read_normal_lens in *.
  st_bindn H ext n s1. st_bindn H ext cl s2. st_pure H. st_bindn H ext usemax s3.
  destruct (usemax =? 1).
  - st_bindn H ext k s5. st_bindn H ext m s6.
    destruct (alphabet <? 2 + m); cbn [bind] in *; try discriminate.
    apply read_lens_loop_stable. exact H.
  - cbn [bind] in *. apply read_lens_loop_stable. exact H.
Qed.

Lemma read_code_stable alphabet : stable (read_code alphabet).
Proof.
  intros s a s' ext H. unfold read_code in *.
  st_bindn H ext simple s1.
  match type of H with bind ?r _ = _ => destruct r as [[lens s2]|e|] eqn:El; cbn [bind] in H; try discriminate end.
  assert (El' : (if simple =? 1 then read_simple_lens alphabet (s1 ++ ext) else read_normal_lens alphabet (s1 ++ ext))
                = Ok (lens, s2 ++ ext)).
  { destruct (simple =? 1); [apply read_simple_lens_stable|apply read_normal_lens_stable]; exact El. }
  rewrite El'. cbn [bind]. st_pure H. st_done H.
Qed.

#[local] Hint Resolve read_code_stable : stable.

Lemma lz_value_stable prefix : stable (lz_value prefix).
Proof.
  intros s a s' ext H. unfold lz_value in *. destruct (prefix <? 4); [st_done H|].
  cbv zeta in *. st_bindn H ext x s1. st_done H.
Qed.

Lemma read_group_stable cs : stable (read_group cs).
Proof.
  intros s a s' ext H. unfold read_group in *.
  st_bindn H ext tg s1. st_bindn H ext tr s2. st_bindn H ext tb s3. st_bindn H ext ta s4. st_bindn H ext td s5.
  st_done H.
Qed.

#[local] Hint Resolve lz_value_stable read_group_stable : stable.

Lemma read_groups_stable : forall n cs acc, stable (read_groups n cs acc).
Proof.
  induction n as [|n IH]; intros cs acc s a s' ext H; cbn [read_groups] in *; [st_done H|].
  st_bindn H ext g s1. apply IH. exact H.
Qed.

#[local] Hint Resolve read_groups_stable : stable.

Lemma pixels_loop_stable : forall fuel c total pos x y cache acc,
  stable (pixels_loop fuel c total pos x y cache acc).
Proof.
  induction fuel as [|fuel IH]; intros c total pos x y cache acc s a s' ext H; cbn [pixels_loop] in *;
    [discriminate|].
  destruct (total <=? pos); [st_done H|]. cbv zeta in *.
  st_bindn H ext sym s1.
  destruct (sym <? 256).
  - st_bindn H ext r s2. st_bindn H ext b s3. st_bindn H ext al s4.
    destruct (next_xy (e_w c) x y) as [x' y']. apply IH. exact H.
  - destruct (sym <? 280).
    + st_bindn H ext ln s2. st_bindn H ext dsym s3. st_bindn H ext dcode s4.
      match type of H with (if ?cnd then _ else _) = _ => destruct cnd; [discriminate|] end.
      apply IH. exact H.
    + destruct (next_xy (e_w c) x y) as [x' y']. apply IH. exact H.
Qed.

Lemma read_cache_bits_stable : stable read_cache_bits.
Proof.
  intros s a s' ext H. unfold read_cache_bits in *. st_bindn H ext f s1.
  destruct (f =? 1); [|st_done H]. st_bindn H ext b s2. st_if H. st_done H.
Qed.

#[local] Hint Resolve pixels_loop_stable read_cache_bits_stable : stable.

Lemma decode_pixels_stable c w h : stable (decode_pixels c w h).
Proof.
  intros s a s' ext H. unfold decode_pixels in *. st_bindn H ext acc s1. st_done H.
Qed.

#[local] Hint Resolve decode_pixels_stable : stable.

Lemma decode_sub_image_stable w h : stable (decode_sub_image w h).
Proof.
  intros s a s' ext H. unfold decode_sub_image in *.
  st_bindn H ext cb s1. st_bindn H ext gs s2. apply decode_pixels_stable. exact H.
Qed.

#[local] Hint Resolve decode_sub_image_stable : stable.

Lemma read_transform_stable seen w h : stable (read_transform seen w h).
Proof.
  intros s [t cw] s' ext H. unfold read_transform in *.
  st_bindn H ext ty s1. destruct (existsb (Z.eqb ty) seen); [discriminate|].
  destruct (ty =? 2); [injection H as <- <- <-; reflexivity|].
  destruct (ty =? 3).
  - st_bindn H ext n s2. cbv zeta in *. st_bindn H ext pal s3. injection H as <- <- <-; reflexivity.
  - st_bindn H ext b s2. cbv zeta in *. st_bindn H ext data s3.
    match type of H with (if ?cnd then _ else _) = _ => destruct cnd; [discriminate|] end.
    injection H as <- <- <-; reflexivity.
Qed.

#[local] Hint Resolve read_transform_stable : stable.

Lemma read_transforms_stable : forall fuel seen acc w h, stable (read_transforms fuel seen acc w h).
Proof.
  induction fuel as [|fuel IH]; intros seen acc w h s [ts cw] s' ext H; cbn [read_transforms] in *;
    [discriminate|].
  st_bindn H ext present s1. destruct (present =? 0); [injection H as <- <- <-; reflexivity|].
  match type of H with bind ?r _ = _ => destruct r as [[[t w'] s2]|e|] eqn:Em; cbn [bind] in H; try discriminate end.
  st_lift Em ext. rewrite Em. cbn [bind]. apply IH. exact H.
Qed.

#[local] Hint Resolve read_transforms_stable : stable.

Lemma bits_of_bytes_app a b : bits_of_bytes (a ++ b) = bits_of_bytes a ++ bits_of_bytes b.
Proof. unfold bits_of_bytes. apply flat_map_app. Qed.

Theorem vp8l_decode_full_monotone : forall d ext r,
  decode_full d = Ok r -> decode_full (d ++ ext) = Ok r.
Proof.
  intros d ext r H. unfold decode_full in *.
  destruct d as [|b0 rest]; [discriminate|].
  destruct (Z.eqb_spec b0 47) as [->|Hne].
  2:{ (* the signature test is a match on the numeral 47: for another byte it reduces only
         once the binary digits of [b0] are exposed *)
      exfalso. destruct b0 as [|p|p]; try discriminate.
      repeat (destruct p as [p|p|]; try discriminate). contradiction. }
  cbn [app]. cbv zeta in *. rewrite bits_of_bytes_app.
  set (ex := bits_of_bytes ext).
  st_bindn H ex w1 s1. st_bindn H ex h1 s2. st_bindn H ex alpha s3. st_bindn H ex ver s4.
  destruct (negb (ver =? 0)); [discriminate|].
  match type of H with bind ?r _ = _ => destruct r as [[[ts cw] s5]|e|] eqn:Et; cbn [bind] in H; try discriminate end.
  st_lift Et ex. rewrite Et. cbn [bind].
  st_bindn H ex cb s6. st_bindn H ex hasmeta s7.
  destruct (hasmeta =? 1).
  - st_bindn H ex b s8. st_bindn H ex mi s9. st_bindn H ex gs s10. st_bindn H ex coded s11. exact H.
  - cbn [bind] in *. st_bindn H ex gs s10. st_bindn H ex coded s11. exact H.
Qed.

Theorem vp8l_decode_monotone : forall d ext img,
  Vp8lSpec.decode d = Ok img -> Vp8lSpec.decode (d ++ ext) = Ok img.
Proof.
  intros d ext img H. unfold Vp8lSpec.decode in *.
  destruct (decode_full d) as [r|e|] eqn:E; cbn [bind] in H; try discriminate.
  rewrite (vp8l_decode_full_monotone _ ext _ E). exact H.
Qed.

Corollary vp8l_prefix_all_or_nothing : forall full p ext img,
  full = p ++ ext -> Vp8lSpec.decode full = Ok img ->
  (exists e, Vp8lSpec.decode p = Err e) \/ Vp8lSpec.decode p = Ok img \/ Vp8lSpec.decode p = Panic.
Proof.
  intros full p ext img -> Hf. destruct (Vp8lSpec.decode p) as [img'|e|] eqn:E; eauto.
  right; left. rewrite (vp8l_decode_monotone _ ext _ E) in Hf. exact Hf.
Qed.


(** ALPH reads the first w*h bytes of a raw payload and hands a compressed one to the
    lossless coder, which must accept the longer payload with the same result *)
Lemma alph_app (ldec : Z -> Z -> list Z -> option (list Z)) hd payload ext w h plane :
  (hd mod 4 = 1 -> forall g, ldec w h payload = Some g -> ldec w h (payload ++ ext) = Some g) ->
  AlphaModel.decode ldec (hd :: payload) w h = Ok plane ->
  AlphaModel.decode ldec (hd :: payload ++ ext) w h = Ok plane.
Proof.
  intros Hmono H. unfold AlphaModel.decode in *.
  destruct ((w <=? 0) || (h <=? 0)); [discriminate|].
  destruct (2 ^ 30 <? w * h); [discriminate|].
  cbv zeta in *.
  destruct (hd mod 4 =? 0).
  - destruct (Z.ltb_spec (Z.of_nat (length payload)) (w * h)) as [|Hge]; [discriminate|].
    rewrite app_length.
    destruct (Z.ltb_spec (Z.of_nat (length payload + length ext)) (w * h)); [lia|].
    cbn [bind] in *. rewrite firstn_app.
    replace (Z.to_nat (w * h) - length payload)%nat with 0%nat by lia.
    cbn [firstn]. rewrite app_nil_r. exact H.
  - destruct (Z.eqb_spec (hd mod 4) 1) as [E1|]; [|discriminate].
    destruct (ldec w h payload) as [g|]; [|discriminate].
    rewrite (Hmono E1 g eq_refl). exact H.
Qed.

(** An uncompressed ALPH payload: with [AlphaProofs.decode_raw_truncated] (shorter than
    w*h => error) this is the all-or-nothing property for a truncated raw alpha plane. *)
Theorem alph_raw_monotone : forall (ldec : Z -> Z -> list Z -> option (list Z)) hd payload ext w h plane,
  hd mod 4 = 0 ->
  AlphaModel.decode ldec (hd :: payload) w h = Ok plane ->
  AlphaModel.decode ldec (hd :: payload ++ ext) w h = Ok plane.
Proof. intros ldec hd payload ext w h plane Hc. apply alph_app. intros E. rewrite Hc in E. discriminate. Qed.

(** ALPH, any payload kind, for a lossless coder that is prefix-monotone (as
    [vp8l_decode_monotone] shows for the VP8L specification decoder). *)
Theorem alph_monotone : forall (ldec : Z -> Z -> list Z -> option (list Z)),
  (forall w h p ext g, ldec w h p = Some g -> ldec w h (p ++ ext) = Some g) ->
  forall hd payload ext w h plane,
    AlphaModel.decode ldec (hd :: payload) w h = Ok plane ->
    AlphaModel.decode ldec (hd :: payload ++ ext) w h = Ok plane.
Proof. intros ldec Hmono hd payload ext w h plane. apply alph_app. intros _ g. apply Hmono. Qed.
