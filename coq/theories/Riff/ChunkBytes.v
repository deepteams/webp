(** One RIFF chunk as bytes: tag, little-endian size, payload, a zero byte after an odd
    payload.  Lengths are [Z.of_nat (length _)]: the demuxer and parser models each have their own [len]. *)
From Coq Require Import List ZArith Lia Bool.
From Webp Require Import Base.Res Base.Bytes Base.ListFacts.
Import ListNotations.
Open Scope Z_scope.

Definition pad_bytes (n : Z) : list Z := if n mod 2 =? 0 then [] else [0].

Definition chunk_bytes (tag p : list Z) : list Z :=
  tag ++ le32 (Z.of_nat (length p)) ++ p ++ pad_bytes (Z.of_nat (length p)).

Lemma length_pad_bytes n : Z.of_nat (length (pad_bytes n)) = n mod 2.
Proof. unfold pad_bytes. destruct (Z.eqb_spec (n mod 2) 0); cbn [length]; lia. Qed.

Lemma length_chunk_bytes tag p :
  Z.of_nat (length (chunk_bytes tag p)) =
  Z.of_nat (length tag) + 4 + Z.of_nat (length p) + Z.of_nat (length p) mod 2.
Proof.
  unfold chunk_bytes. rewrite !app_length, le32_length.
  pose proof (length_pad_bytes (Z.of_nat (length p))). lia.
Qed.

Lemma bytes_ok_pad_bytes n : bytes_ok (pad_bytes n).
Proof. unfold pad_bytes. destruct (n mod 2 =? 0); repeat constructor; unfold is_byte; lia. Qed.

Lemma bytes_ok_chunk_bytes tag p : bytes_ok tag -> bytes_ok p -> bytes_ok (chunk_bytes tag p).
Proof.
  intros Ht Hp. unfold chunk_bytes.
  repeat (apply bytes_ok_app; split); auto using le32_bytes, bytes_ok_pad_bytes.
Qed.

Lemma rd32_le32_bytes v : 0 <= v < 4294967296 ->
  rd32 [v mod 256; (v / 256) mod 256; (v / 65536) mod 256; (v / 16777216) mod 256] = v.
Proof. exact (rd32_le32 v []). Qed.

Lemma rd24_le24_bytes v : 0 <= v < 16777216 ->
  rd24 [v mod 256; (v / 256) mod 256; (v / 65536) mod 256] = v.
Proof. exact (rd24_le24 v []). Qed.

(* for models that add the three bytes up themselves *)
Lemma le24_sum v : 0 <= v < 16777216 ->
  v mod 256 + 256 * ((v / 256) mod 256) + 65536 * ((v / 65536) mod 256) = v.
Proof. exact (rd24_le24 v []). Qed.

Lemma slice_app_mid {A} (pre s post : list A) a b :
  a = Z.of_nat (length pre) -> b = a + Z.of_nat (length s) -> slice (pre ++ s ++ post) a b = Ok s.
Proof.
  intros -> ->. rewrite slice_ok by (rewrite ?app_length; lia). f_equal.
  rewrite Nat2Z.id, skipn_app_exact.
  replace (Z.to_nat _) with (length s) by lia. apply firstn_app_exact.
Qed.

Lemma slice_app_tail {A} (pre post : list A) :
  slice (pre ++ post) (Z.of_nat (length pre)) (Z.of_nat (length (pre ++ post))) = Ok post.
Proof.
  pose proof (slice_app_mid pre post [] _ _ eq_refl eq_refl) as H.
  rewrite app_nil_r in H. rewrite app_length, Nat2Z.inj_add. exact H.
Qed.

Lemma firstn_app_len {A} (l r : list A) : firstn (Z.to_nat (Z.of_nat (length l))) (l ++ r) = l.
Proof. rewrite Nat2Z.id. apply firstn_app_exact. Qed.

Lemma skipn_app_len {A} (l r : list A) : skipn (Z.to_nat (Z.of_nat (length l))) (l ++ r) = r.
Proof. rewrite Nat2Z.id. apply skipn_app_exact. Qed.
