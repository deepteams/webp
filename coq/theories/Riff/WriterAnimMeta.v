(** C15, animation encoder: metadata set on the encoder can be read back from its
    output.  Composition of
      - the repaired [AnimEncoder.Close] selection ([WriterModel.anim_close true]:
        with any metadata set, the muxer's file is what gets written), and
      - the muxer/demuxer round trip of the C14 area ([MuxRoundtrip.extended_roundtrip]:
        for every history of muxer operations -- AddFrame, SetICCProfile, SetEXIF,
        SetXMP, ... -- the demuxer returns exactly the view of what was put in,
        including the three metadata blobs).
    The animation encoder drives the muxer only through such operations
    (SetICCProfile/SetEXIF/SetXMP forward the blob; frames are added with AddFrame). *)
From Coq Require Import List ZArith Lia Bool.
From Webp Require Import Base.Res Base.Bytes Riff.WriterModel.
From Webp Require Riff.DemuxModel Riff.MuxModel Riff.MuxView Riff.MuxRoundtrip Riff.WriterTheorems.
Import ListNotations.
Open Scope Z_scope.

Module M := MuxModel.
Module D := DemuxModel.
Module V := MuxView.

Definition mux_has_meta (m : M.mstate) : bool :=
  M.is_some (M.m_icc m) || M.is_some (M.m_exif m) || M.is_some (M.m_xmp m).

Lemma view_meta d v : V.view_of_demux d = Some v ->
  V.vw_icc v = D.d_icc d /\ V.vw_exif v = D.d_exif d /\ V.vw_xmp v = D.d_xmp d.
Proof.
  unfold V.view_of_demux. destruct (V.all_some _); [|discriminate]. intros [= <-]. cbn. auto.
Qed.

Definition anim_metadata_roundtrip_statement : Prop :=
  forall ops frameCount hasPrev simple bs,
    Forall V.op_ok ops ->
    let m := M.run ops in
    mux_has_meta m = true ->
    M.assemble M.repaired m = Ok bs ->
    let out := anim_close true frameCount hasPrev true bs simple in
    out = bs /\
    exists d, D.parse true out = Ok d /\
      D.d_icc d = M.m_icc m /\ D.d_exif d = M.m_exif m /\ D.d_xmp d = M.m_xmp m /\
      (forall x, M.m_icc m = Some x -> D.get_chunk d D.FCC_ICCP = Ok x) /\
      (forall x, M.m_exif m = Some x -> D.get_chunk d D.FCC_EXIF = Ok x) /\
      (forall x, M.m_xmp m = Some x -> D.get_chunk d D.FCC_XMP = Ok x).

Theorem anim_metadata_roundtrip : anim_metadata_roundtrip_statement.
Proof.
  intros ops frameCount hasPrev simple bs Hops m Hmeta Hasm out.
  assert (Hout : out = bs) by apply WriterTheorems.anim_close_keeps_metadata.
  split; [exact Hout|]. rewrite Hout.
  pose proof (MuxRoundtrip.extended_roundtrip ops Hops) as Hrt. cbv zeta in Hrt. fold m in Hrt.
  rewrite Hasm in Hrt.
  assert (Hvx : M.needs_vp8x M.repaired m = true).
  { unfold M.needs_vp8x. unfold mux_has_meta in Hmeta.
    destruct (M.is_animated m), (M.is_some (M.m_icc m)), (M.is_some (M.m_exif m)), (M.is_some (M.m_xmp m));
      cbn in *; try reflexivity; discriminate. }
  destruct (Hrt Hvx) as (_ & _ & Hp).
  destruct (D.parse true bs) as [d|e|] eqn:Ed; try contradiction.
  destruct (view_meta _ _ Hp) as (Hi & He & Hx). unfold V.view_of_mux in Hi, He, Hx. destruct (M.canvas_size m) as [cw ch]. cbn [V.vw_icc V.vw_exif V.vw_xmp] in Hi, He, Hx.
  exists d. split; [reflexivity|]. split; [symmetry; exact Hi|]. split; [symmetry; exact He|]. split; [symmetry; exact Hx|].
  repeat split; intros x Hq; unfold D.get_chunk; cbn; rewrite <- ?Hi, <- ?He, <- ?Hx, Hq; reflexivity.
Qed.
