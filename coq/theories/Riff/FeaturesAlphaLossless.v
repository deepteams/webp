(** C16, alpha-flag clause for LOSSLESS files written by this package, as a theorem.

    Since commit 552ea86 the VP8L encoder sets the header's alpha_is_used bit iff
    some pixel handed to it has alpha <> 255 ([argbHasAlpha], evaluated after
    cleanupTransparentAreaLossless, which only rewrites alpha-0 pixels to
    transparent black).  Composition of
      - the VP8L round trip [Vp8lRoundtrip.lossless_roundtrip]
        (decode (emit (plan_of img o c)) = Ok (expected img o)) and
        [Vp8lHeaderBytes.emit_header_bytes] (the five header bytes of an emitted stream),
      - the writer / parser round trip [WriterTheorems.metadata_roundtrip]
        (VP8X alpha flag = ALPH present || VP8L header alpha bit; simple layout: the bit),
      - the GetFeatures glue,
    gives: GetFeatures.HasAlpha is true iff some DECODED pixel is not opaque. *)
From Coq Require Import List ZArith Lia Bool.
From Coq Require Import ZifyBool ZifyNat.
From Webp Require Import Base.Res Base.Bytes Riff.ParserModel Riff.ParserLemmas Riff.ParserSpec
     Riff.WriterModel Riff.WriterProofs Riff.FeaturesModel Riff.MetadataProofs Riff.ParserProofs
     Riff.WriterTheorems.
From Webp Require Vp8l.Vp8lPixel Vp8l.Vp8lSpec Vp8l.Vp8lEmit Vp8l.Vp8lEmitDecode Vp8l.Vp8lImport
     Vp8l.Vp8lHeaderBytes Vp8l.Vp8lRoundtrip.
Import ListNotations.
Open Scope Z_scope.

Module P := Vp8lPixel.
Module R := Vp8lRoundtrip.

(** internal/lossless/encode.go argbHasAlpha *)
Definition argb_has_alpha (l : list P.px) : bool := existsb (fun p => negb (P.pa p =? 255)) l.

(** What the Go encoder does with the alpha_is_used choice of the model encoder:
    [enc.encodeStream(argbHasAlpha(argb))], [argb] being the pixels after the
    transparent-area clean-up. *)
Definition go_alpha_choice (img : R.src_image) (o : R.ll_opts) (c : R.choices) : Prop :=
  R.c_alpha c = b2z (argb_has_alpha (map (Vp8lImport.cleanup (R.o_exact o)) (R.s_px img))).

Lemma emit_header_parsed p :
  Vp8lEmitDecode.wf_plan p ->
  parse_vp8l_header (Vp8lEmit.emit p) = Ok (Vp8lEmit.p_w p, Vp8lEmit.p_h p, Vp8lEmit.p_alpha p =? 1).
Proof.
  intros Hwf. destruct (Vp8lHeaderBytes.wf_plan_dims p Hwf) as (Hw & Hh & Ha).
  destruct (Vp8lHeaderBytes.emit_header_bytes p Hwf) as [payload E]. rewrite E.
  set (V := Vp8lEmit.p_w p - 1 + (Vp8lEmit.p_h p - 1) * 16384 + Vp8lEmit.p_alpha p * 268435456).
  assert (HV : 0 <= V < 536870912) by (subst V; lia).
  unfold le32. cbn [app]. rewrite parse_vp8l_header_bytes. cbv zeta. unfold VP8LMagicByte.
  change (negb (47 =? 47)) with false. cbv iota.
  rewrite rd32_le32' by lia.
  assert (Hver : (V / 536870912) mod 8 = 0) by lia. rewrite Hver. change (negb (0 =? 0)) with false. cbv iota.
  assert (Hw' : V mod 16384 + 1 = Vp8lEmit.p_w p) by (subst V; lia).
  assert (Hh' : (V / 16384) mod 16384 + 1 = Vp8lEmit.p_h p) by (subst V; lia).
  assert (Ha' : (V / 268435456) mod 2 = Vp8lEmit.p_alpha p) by (subst V; lia).
  rewrite Hw', Hh', Ha'.
  destruct (Z.eqb_spec (Vp8lEmit.p_w p) 0); [lia|]. destruct (Z.eqb_spec (Vp8lEmit.p_h p) 0); [lia|]. cbn [orb].
  f_equal. f_equal.
  destruct (Z.eqb_spec (Vp8lEmit.p_alpha p) 0), (Z.eqb_spec (Vp8lEmit.p_alpha p) 1); cbn; try reflexivity; lia.
Qed.

Lemma argb_has_alpha_exists l : argb_has_alpha l = true <-> Exists (fun p => P.pa p <> 255) l.
Proof.
  unfold argb_has_alpha. rewrite existsb_exists, Exists_exists.
  split; intros (p & Hin & Hp); exists p; split; auto.
  - destruct (Z.eqb_spec (P.pa p) 255); [discriminate|assumption].
  - destruct (Z.eqb_spec (P.pa p) 255); [contradiction|reflexivity].
Qed.

Definition alpha_flag_sound_lossless_statement : Prop :=
  forall img o c icc exif xmp fx file,
    R.valid img o c -> go_alpha_choice img o c ->
    sizes_ok (Vp8lEmit.emit (R.plan_of img o c)) [] icc exif xmp -> len icc <= MaxMetadataSize ->
    write_riff FourCCVP8L (Vp8lEmit.emit (R.plan_of img o c)) [] (R.s_w img) (R.s_h img) icc exif xmp = Ok file ->
    exists im g,
      Vp8lSpec.decode (Vp8lEmit.emit (R.plan_of img o c)) = Ok im /\
      get_features fx file = Ok g /\
      gW g = Vp8lSpec.i_w im /\ gH g = Vp8lSpec.i_h im /\
      (gHasAlpha g = true <-> Exists (fun p => P.pa p <> 255) (Vp8lSpec.i_px im)).

Theorem alpha_flag_sound_lossless : alpha_flag_sound_lossless_statement.
Proof.
  intros img o c icc exif xmp fx file Hv Hgo Hs Hicc Hw.
  pose proof (R.lossless_roundtrip img o c Hv) as Hrt.
  destruct Hv as (Hwf & _).
  pose proof (emit_header_parsed _ Hwf) as Hhdr.
  cbn [R.plan_of Vp8lEmit.p_w Vp8lEmit.p_h Vp8lEmit.p_alpha] in Hhdr.
  set (bs := Vp8lEmit.emit (R.plan_of img o c)) in *.
  set (a := R.c_alpha c =? 1) in *.
  assert (Hin : writer_inputs_ok FourCCVP8L bs [] (R.s_w img) (R.s_h img) icc exif xmp a).
  { constructor.
    - right. reflexivity.
    - apply image_dims_vp8l. exact Hhdr.
    - intros H. cbn in H. lia.
    - exact Hs. }
  destruct (metadata_roundtrip _ _ _ _ _ _ _ _ _ Hin) as (file' & Hw' & _ & _ & _ & _ & _ & _ & _ & Hp).
  rewrite Hw in Hw'. injection Hw' as <-.
  destruct (Hp Hicc fx) as (r & P1 & _ & W1 & H1 & A1 & _).
  exists (R.expected img o), (features_of r).
  split; [exact Hrt|]. unfold get_features, parse. rewrite P1. cbn [bind fst].
  split; [reflexivity|]. unfold features_of. cbn [gW gH gHasAlpha R.expected Vp8lSpec.i_w Vp8lSpec.i_h Vp8lSpec.i_px].
  split; [exact W1|]. split; [exact H1|].
  rewrite A1. change (len (@nil Z) >? 0) with false. cbn [orb].
  rewrite <- argb_has_alpha_exists. unfold go_alpha_choice in Hgo. subst a. rewrite Hgo.
  destruct (argb_has_alpha _); cbn; split; intros; congruence.
Qed.
