(** C16, the limits both container parsers enforce, as both-reject theorems on the
    chunk shapes [RiffGrammar.wf] prescribes: more than MaxFrames ANMF chunks
    (container.Parser refuses the 10001st before parsing it, mux.Demuxer after),
    and an ICCP chunk above MaxMetadataSize directly after VP8X.

    Not a shared limit: in a still, EXIF / XMP follow the image chunk, where
    container.Parser has already returned; a trailing EXIF chunk of 100 MB + 1 byte
    is accepted by GetFeatures / Decode and rejected by mux.Demuxer (observed on the
    real code; harness/c16 records it as a note). *)
From Coq Require Import List ZArith Lia Bool.
From Coq Require Import ZifyBool ZifyNat.
From Webp Require Import Base.Res Base.Bytes Base.ListFacts Riff.ParserModel Riff.ParserLemmas Riff.ParserSpec
     Riff.WriterModel Riff.WriterProofs Riff.MetadataProofs Riff.ParserProofs Riff.WriterTheorems
     Riff.ParserSpecProofs Riff.ParserGrammar Riff.ParserDemuxAgree Riff.ParserDemuxAnim.
From Webp Require Riff.DemuxModel Riff.RiffGrammar.
Import ListNotations.
Open Scope Z_scope.

Lemma frames_bytes_app a b : frames_bytes (a ++ b) = frames_bytes a ++ frames_bytes b.
Proof. unfold frames_bytes. rewrite map_app, concat_app. reflexivity. Qed.

Lemma frames_bytes_cons f fs : frames_bytes (f :: fs) = chunk FourCCANMF (af_payload f) ++ frames_bytes fs.
Proof. reflexivity. Qed.

Section TooManyFrames.
  Variables (fx : bool) (flags cw ch : Z) (icc : option (list Z)) (b0 b1 b2 b3 b4 b5 : Z)
            (fs : list aframe) (exif xmp : option (list Z)).

  Hypothesis Hf64 : 0 <= flags < 64.
  Hypothesis Hland : Z.land flags 4294967233 = 0.
  Hypothesis Hanim : Z.testbit flags 1 = true.
  Hypothesis Hficc : Z.testbit flags 5 = is_some icc.
  Hypothesis Hcw : 1 <= cw <= 16777216.
  Hypothesis Hch : 1 <= ch <= 16777216.
  Hypothesis Harea : cw * ch < MaxImageArea.
  Hypothesis Hfs : Forall (af_ok cw ch) fs.
  Hypothesis Hcicc : forall x, icc = Some x -> len x <= 104857600.
  Hypothesis Hsize : 4 + len (anim_body flags cw ch icc b0 b1 b2 b3 b4 b5 fs exif xmp) <= 4294967286.
  Hypothesis Hmany : MaxFrames < len fs.

  Local Notation tl_ := (anim_tail exif xmp).
  Local Notation rest_ := (anim_rest icc b0 b1 b2 b3 b4 b5 fs exif xmp).
  Local Notation core_ := (chunk FourCCANIM [b0; b1; b2; b3; b4; b5] ++ frames_bytes fs ++ tl_).

  (** the first MaxFrames frames, the one too many, the others *)
  Lemma split_frames :
    exists fs1 f fs2, fs = fs1 ++ f :: fs2 /\ len fs1 = MaxFrames /\ Forall (af_ok cw ch) fs1 /\ af_ok cw ch f.
  Proof.
    unfold MaxFrames, len in *.
    destruct (skipn (Z.to_nat 10000) fs) as [|f fs2] eqn:Es.
    - exfalso. apply (f_equal (@length aframe)) in Es. rewrite skipn_length in Es. cbn in Es. lia.
    - exists (firstn (Z.to_nat 10000) fs), f, fs2.
      assert (E : fs = firstn (Z.to_nat 10000) fs ++ f :: fs2) by (rewrite <- Es; symmetry; apply firstn_skipn).
      rewrite E in Hfs. apply Forall_app in Hfs. destruct Hfs as [H1 H2].
      split; [exact E|]. split; [rewrite firstn_length; lia|]. split; [exact H1|exact (Forall_inv H2)].
  Qed.

  (** 10002 iterations are needed: ANIM, MaxFrames accepted frames, the frame that is refused;
      [rest_] is longer than that ([rest_len]: eight bytes per chunk). *)
  Lemma p_core_reject fuel chunks1 : (Z.to_nat 10003 <= fuel)%nat ->
    parse_vp8x_chunks fuel fx (anim_feat0 flags cw ch icc) [] chunks1 0 core_ = Err EInvalidChunk.
  Proof.
    intros Hfu. destruct split_frames as (fs1 & f & fs2 & Efs & Hl1 & Hfs1 & Hf).
    assert (Hn1 : length fs1 = Z.to_nat 10000) by (unfold len, MaxFrames in Hl1; lia).
    replace fuel with (S (length fs1 + S (fuel - Z.to_nat 10002)))%nat by lia.
    rewrite p_step_anim. change (0 + 1) with 1.
    rewrite Efs, frames_bytes_app, frames_bytes_cons, <- !app_assoc.
    destruct (p_frames_loop cw ch fx (set_anim (anim_feat0 flags cw ch icc) (rd32 [b0; b1; b2; b3]) (rd16 [b4; b5]))
                chunks1 1 (chunk FourCCANMF (af_payload f) ++ frames_bytes fs2 ++ tl_)
                Harea ltac:(lia) ltac:(lia) ltac:(lia) fs1 (S (fuel - Z.to_nat 10002))%nat [] Hfs1) as (pfs & Hall & ->).
    { change (len (@nil FrameInfo)) with 0. lia. }
    assert (Hlp : len pfs = MaxFrames) by (rewrite <- Hl1; unfold len; rewrite (Forall2_length _ _ _ Hall); reflexivity).
    rewrite chunks_step by (exact anmf_id_range || apply (af_payload_len cw ch f Hf)). cbn [app].
    rewrite Hlp. reflexivity.
  Qed.

  Lemma d_core_reject fuel st : (Z.to_nat 10003 <= fuel)%nat -> D.d_frames st = [] ->
    D.ext_loop fuel core_ st = Err D.E_toomany.
  Proof.
    intros Hfu Hfr. destruct split_frames as (fs1 & f & fs2 & Efs & Hl1 & Hfs1 & Hf).
    assert (Hn1 : length fs1 = Z.to_nat 10000) by (unfold len, MaxFrames in Hl1; lia).
    replace fuel with (S (length fs1 + S (fuel - Z.to_nat 10002)))%nat by lia.
    destruct (d_step_anim (length fs1 + S (fuel - Z.to_nat 10002)) b0 b1 b2 b3 b4 b5 (frames_bytes fs ++ tl_) st)
      as (st1 & -> & _ & F1 & _).
    rewrite Efs, frames_bytes_app, frames_bytes_cons, <- !app_assoc.
    destruct (d_frames_loop cw ch (chunk FourCCANMF (af_payload f) ++ frames_bytes fs2 ++ tl_)
                Harea ltac:(lia) ltac:(lia) fs1 (S (fuel - Z.to_nat 10002))%nat st1 Hfs1) as (st2 & dfs & Hall & -> & F2 & _ & _).
    { rewrite F1, Hfr. change (D.len (@nil D.frame_info)) with 0. change D.maxFrames with MaxFrames. lia. }
    assert (Hl2 : D.len (D.d_frames st2) = D.maxFrames).
    { rewrite F2, F1, Hfr. cbn [app]. unfold D.len. rewrite <- (Forall2_length _ _ _ Hall), Hn1. reflexivity. }
    destruct (d_step_anmf cw ch (fuel - Z.to_nat 10002) f (frames_bytes fs2 ++ tl_) st2 Hf Harea ltac:(lia) ltac:(lia))
      as (hA & ->).
    rewrite Hl2. reflexivity.
  Qed.

  Lemma rest_len : (Z.to_nat 10010 <= length rest_)%nat.
  Proof.
    unfold anim_rest. rewrite !app_length. pose proof (frames_bytes_len fs).
    unfold MaxFrames, len in Hmany. lia.
  Qed.

  Theorem too_many_frames_shape :
    parse fx (anim_file flags cw ch icc b0 b1 b2 b3 b4 b5 fs exif xmp) = Err EInvalidChunk /\
    D.parse true (anim_file flags cw ch icc b0 b1 b2 b3 b4 b5 fs exif xmp) = Err D.E_toomany.
  Proof using Hf64 Hland Hanim Hficc Hcw Hch Harea Hfs Hcicc Hsize Hmany.
    pose proof rest_len as Hrl. pose proof Hsize as Hs.
    unfold parse, anim_file, anim_body in *. split.
    - rewrite parse_ex_vp8x by (assumption || (unfold MaxChunkPayload; exact Hs)).
      rewrite Hland, Hanim, Hficc. destruct (Z.geb_spec (cw * ch) MaxImageArea); [lia|].
      change (negb (0 =? 0)) with false. cbv iota. fold (anim_feat0 flags cw ch icc).
      unfold anim_rest in *.
      destruct icc as [ic|] eqn:Eic; cbn [optc app] in *; rewrite <- ?Eic.
      + rewrite chunks_step_iccp by (rewrite ?Eic; reflexivity || (apply Hcicc; reflexivity)).
        rewrite p_core_reject; [reflexivity|lia].
      + rewrite p_core_reject; [reflexivity|lia].
    - rewrite d_parse_vp8x, d_parse_extended_chunk by (assumption || lia).
      change D.MaxImageArea with MaxImageArea. destruct (Z.geb_spec (cw * ch) MaxImageArea); [lia|].
      unfold anim_rest in *.
      destruct icc as [ic|] eqn:Eic; cbn [optc app] in *.
      + match goal with |- context [D.ext_loop (S ?n) _ ?s0] =>
          destruct (d_step_iccp n ic core_ s0 (Hcicc ic eq_refl)) as (st1 & -> & _ & F1 & _) end.
        rewrite d_core_reject; [reflexivity|lia|exact F1].
      + rewrite d_core_reject; [reflexivity|lia|reflexivity].
  Qed.
End TooManyFrames.

(** ** An ICCP chunk above the metadata cap: both reject *)
Section BigIccp.
  Variables (fx : bool) (flags cw ch : Z) (ic : list Z) (rest : list Z).
  Hypothesis Hf64 : 0 <= flags < 64.
  Hypothesis Hland : Z.land flags 4294967233 = 0.
  Hypothesis Hficc : Z.testbit flags 5 = true.
  Hypothesis Hcw : 1 <= cw <= 16777216.
  Hypothesis Hch : 1 <= ch <= 16777216.
  Hypothesis Harea : cw * ch < MaxImageArea.
  Hypothesis Hbig : MaxMetadataSize < len ic.
  Definition big_body := chunk FourCCVP8X (vp8x_payload flags cw ch) ++ chunk FourCCICCP ic ++ rest.
  Definition big_file := le32 FourCCRIFF ++ le32 (4 + len big_body) ++ le32 FourCCWEBP ++ big_body.
  Hypothesis Hsize : 4 + len big_body <= 4294967286.

  Theorem big_iccp_both_reject :
    parse fx big_file = Err EInvalidChunk /\ D.parse true big_file = Err D.E_meta.
  Proof using Hf64 Hland Hficc Hcw Hch Harea Hbig Hsize.
    destruct fourcc_ranges as (_ & HI & _).
    assert (Hlic : len ic <= 4294967286).
    { unfold big_body in Hsize. rewrite !len_app, !len_chunk in Hsize. unfold padded_chunk_size, ChunkHeaderSize in Hsize.
      pose proof (len_nonneg rest). pose proof (len_nonneg (vp8x_payload flags cw ch)). lia. }
    pose proof Hsize as Hs. unfold parse, big_file, big_body in *. split.
    - rewrite parse_ex_vp8x by (assumption || (unfold MaxChunkPayload; exact Hs)).
      rewrite Hland, Hficc. destruct (Z.geb_spec (cw * ch) MaxImageArea); [lia|].
      rewrite chunks_step by assumption. unfold add_meta. cbn [fHasICCP].
      destruct (Z.gtb_spec (len ic) MaxMetadataSize); [reflexivity|lia].
    - rewrite d_parse_vp8x, d_parse_extended_chunk by (assumption || lia).
      change D.MaxImageArea with MaxImageArea. destruct (Z.geb_spec (cw * ch) MaxImageArea); [lia|].
      rewrite d_ext_loop_step by assumption. unfold D.ext_dispatch. cbn [D.c_id D.c_data].
      change (FourCCICCP =? D.FCC_ICCP) with true. cbv iota. change D.maxMetadataSize with MaxMetadataSize.
      change (@D.len Z) with (@len Z). destruct (Z.gtb_spec (len ic) MaxMetadataSize); [reflexivity|lia].
  Qed.
End BigIccp.

(** ** From the grammar: every well-formed animated file with more than MaxFrames frames *)
Theorem too_many_frames_both_reject : forall fx bs,
  RiffGrammar.wf bs = true -> g_is_anim bs = true -> len bs <= MaxMetadataSize ->
  g_canvas_area bs < MaxImageArea -> MaxFrames < anmf_count bs ->
  parse fx bs = Err EInvalidChunk /\ D.parse true bs = Err D.E_toomany.
Proof.
  intros fx file Hg Han Hlen Harea Hcount.
  destruct (g_anim_decompose file Hg Han Hlen) as
    (flags & cw & ch & icc & b0 & b1 & b2 & b3 & b4 & b5 & fs & exif & xmp & -> & Hf64 & Hland & Hanimt & Hficc &
     Hcwr & Hchr & Hfs & Hne & Hcicc & Hcexif & Hcxmp & Hsize & Htailb & Earea & Ecnt).
  rewrite Earea in Harea. rewrite Ecnt in Hcount.
  apply too_many_frames_shape; assumption.
Qed.
