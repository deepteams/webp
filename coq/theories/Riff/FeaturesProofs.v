(** C16 at the container / glue level: what the parser guarantees of a still
    ([still_shape]); DecodeConfig and GetFeatures against the Decode glue for any
    codecs that respect the bitstream header ([config_agrees_with_decode]; the
    pinned DecodeConfig violates it, [zero_len_alph_refuted]); the registered magic. *)
From Coq Require Import List ZArith Lia Bool.
From Coq Require Import ZifyBool ZifyNat.
From Webp Require Import Base.Res Base.Bytes Riff.ParserModel Riff.ParserLemmas Riff.FeaturesModel
     Riff.PrefixProofs.
Import ListNotations.
Open Scope Z_scope.

Definition header_ok (f : FrameInfo) : Prop :=
  if frLossless f
  then exists a, parse_vp8l_header (frPayload f) = Ok (frW f, frH f, a)
  else parse_vp8_header (frPayload f) = Ok (frW f, frH f).

Definition frame_shape (r : Parsed) : Prop :=
  exists f, pFrames r = [f] /\ fWidth (pFeat r) = frW f /\ fHeight (pFeat r) = frH f /\ header_ok f.

Definition still_shape_of (r : Parsed) : Prop :=
  frame_shape r /\ fHasAnim (pFeat r) = false /\ 1 <= fFormat (pFeat r) <= 3.

(** What parseExtSingleImage leaves of the features it is given. *)
Lemma ext_single_facts : forall fuel feat chunks alph buf r,
  parse_ext_single fuel feat [] chunks alph buf = Ok r ->
  frame_shape r /\ fHasAnim (pFeat r) = fHasAnim feat /\ fFormat (pFeat r) = fFormat feat /\
  fLoopCount (pFeat r) = fLoopCount feat.
Proof.
  induction fuel as [|fuel IH]; intros feat chunks alph buf r H; [discriminate|].
  cbn [parse_ext_single] in H.
  destruct (len buf <? ChunkHeaderSize); [discriminate|].
  destruct (chunk_at buf) as [[[[f sz] tot] pl]|e|]; cbn [bind] in H; try discriminate.
  destruct (f =? FourCCALPH).
  { destruct (slice buf tot (len buf)); cbn [bind] in H; try discriminate.
    apply IH in H. exact H. }
  destruct (f =? FourCCVP8L).
  { destruct alph; [discriminate|].
    destruct (parse_vp8l_header pl) as [[[w h] a]|e|] eqn:Eh; cbn [bind] in H; try discriminate.
    injection H as <-. cbn [pFeat pFrames app].
    split; [|destruct a; repeat split; reflexivity].
    eexists. split; [reflexivity|]. unfold header_ok. cbn [frW frH frLossless frPayload].
    split; [destruct a; reflexivity|]. split; [destruct a; reflexivity|]. eauto. }
  destruct (f =? FourCCVP8); [|discriminate].
  destruct (parse_vp8_header pl) as [[w h]|e|] eqn:Eh; cbn [bind] in H; try discriminate.
  injection H as <-. cbn [pFeat pFrames app].
  split; [|repeat split; reflexivity].
  eexists. split; [reflexivity|]. unfold header_ok. cbn [frW frH frLossless frPayload].
  split; [reflexivity|]. split; [reflexivity|]. exact Eh.
Qed.

(** A still result of parseVP8XChunks comes from parseExtSingleImage, called with the
    features the loop started from: before the image chunk only the chunk list grows
    (an ANIM chunk would make a still result impossible, [chunks_still_inv]). *)
Lemma chunks_still_from_single : forall fuel fx feat frames chunks buf r,
  parse_vp8x_chunks fuel fx feat frames chunks 0 buf = Ok (r, KStill) ->
  fHasAnim feat = false /\
  exists fuel' chunks' buf', parse_ext_single fuel' feat frames chunks' None buf' = Ok r.
Proof.
  induction fuel as [|fuel IH]; intros fx feat frames chunks buf r H; [discriminate|].
  destruct (chunks_still_inv _ _ _ _ _ _ _ _ H ltac:(lia)) as [_ Hanim]. split; [exact Hanim|].
  cbn [parse_vp8x_chunks] in H.
  destruct (len buf <? ChunkHeaderSize).
  { destruct (fx && negb (fHasAnim feat) && (len frames =? 0)); discriminate. }
  destruct (chunk_at buf) as [[[[f sz] tot] pl]|e|] eqn:Ec; cbn [bind] in H; try discriminate.
  destruct (f =? FourCCVP8X); [discriminate|].
  destruct (f =? FourCCANIM).
  { exfalso. destruct (sz <? ANIMChunkSize); [discriminate|].
    destruct (slice pl 0 4); cbn [bind] in H; try discriminate.
    destruct (slice pl 4 6); cbn [bind] in H; try discriminate.
    destruct (slice buf tot (len buf)); cbn [bind] in H; try discriminate.
    apply chunks_still_inv in H; lia. }
  destruct (f =? FourCCANMF); [discriminate|].
  destruct (is_image_fourcc f || (f =? FourCCALPH)).
  { destruct ((0 >? 0) || fHasAnim feat); [discriminate|].
    destruct (parse_ext_single (S (length buf)) feat frames chunks None buf) as [r0|e|] eqn:Ex;
      cbn [bind] in H; try discriminate.
    injection H as ->. eauto. }
  assert (Hcont : forall cs, (rest <- slice buf tot (len buf);;
                  parse_vp8x_chunks fuel fx feat frames cs 0 rest) = Ok (r, KStill) ->
                  exists fuel' chunks' buf', parse_ext_single fuel' feat frames chunks' None buf' = Ok r).
  { intros cs Hc. destruct (slice buf tot (len buf)); cbn [bind] in Hc; try discriminate.
    apply IH in Hc. apply Hc. }
  destruct (f =? FourCCICCP).
  { destruct (add_meta (fHasICCP feat) sz f pl chunks); cbn [bind] in H; try discriminate. eauto. }
  destruct (f =? FourCCEXIF).
  { destruct (add_meta (fHasEXIF feat) sz f pl chunks); cbn [bind] in H; try discriminate. eauto. }
  destruct (f =? FourCCXMP).
  { destruct (add_meta (fHasXMP feat) sz f pl chunks); cbn [bind] in H; try discriminate. eauto. }
  destruct (len chunks >=? MaxChunks); [discriminate|].
  destruct (sz >? MaxMetadataSize); [discriminate|]. eauto.
Qed.

Lemma single_image_facts fmt buf r :
  parse_single_image fmt buf = Ok r ->
  frame_shape r /\ fHasAnim (pFeat r) = false /\ fFormat (pFeat r) = fmt /\ fLoopCount (pFeat r) = 0.
Proof.
  unfold parse_single_image. intros H.
  destruct (chunk_at buf) as [[[[f sz] tot] pl]|e|]; cbn [bind] in H; try discriminate.
  destruct (f =? FourCCVP8L).
  - destruct (parse_vp8l_header pl) as [[[w h] a]|e|] eqn:Eh; cbn [bind] in H; try discriminate.
    injection H as <-. cbn [pFeat pFrames]. split; [|repeat split; reflexivity].
    eexists. split; [reflexivity|]. unfold header_ok. cbn [frW frH frLossless frPayload fWidth fHeight]. eauto.
  - destruct (parse_vp8_header pl) as [[w h]|e|] eqn:Eh; cbn [bind] in H; try discriminate.
    injection H as <-. cbn [pFeat pFrames]. split; [|repeat split; reflexivity].
    eexists. split; [reflexivity|]. unfold header_ok. cbn [frW frH frLossless frPayload fWidth fHeight]. eauto.
Qed.

Definition still_facts_of (r : Parsed) : Prop :=
  frame_shape r /\ fHasAnim (pFeat r) = false /\
  (fFormat (pFeat r) = FormatVP8X /\ fLoopCount (pFeat r) = 1 \/
   (fFormat (pFeat r) = FormatVP8 \/ fFormat (pFeat r) = FormatVP8L) /\ fLoopCount (pFeat r) = 0).

Lemma still_facts fx bs r : parse_ex fx bs = Ok (r, KStill) -> still_facts_of r.
Proof.
  intros H. unfold parse_ex in H.
  destruct (parse_riff_header bs) as [fs|e|]; cbn [bind] in H; try discriminate.
  destruct (slice bs RIFFHeaderSize _) as [buf|e|]; cbn [bind] in H; try discriminate.
  destruct (len buf <? ChunkHeaderSize); [discriminate|].
  destruct (slice buf 0 4) as [t|e|]; cbn [bind] in H; try discriminate.
  destruct (rd32 t =? FourCCVP8X).
  { unfold parse_vp8x in H.
    destruct (read_chunk_header buf) as [[f sz]|e|]; cbn [bind] in H; try discriminate.
    destruct (negb (sz =? VP8XChunkSize)); [discriminate|].
    destruct (ChunkHeaderSize + (sz + sz mod 2) >? len buf); [discriminate|].
    destruct (slice buf ChunkHeaderSize (ChunkHeaderSize + sz)) as [pl|e|]; cbn [bind] in H; try discriminate.
    destruct pl as [|flags [|? [|? [|? [|w0 [|w1 [|w2 [|h0 [|h1 [|h2 [|? ?]]]]]]]]]]]; try discriminate H.
    destruct (negb (Z.land flags 4294967233 =? 0)); [discriminate|].
    destruct ((1 + rd24 [w0; w1; w2]) * (1 + rd24 [h0; h1; h2]) >=? MaxImageArea); [discriminate|].
    destruct (slice buf _ (len buf)) as [rest|e|]; cbn [bind] in H; try discriminate.
    apply chunks_still_from_single in H. destruct H as (Ha & fuel' & cs' & buf' & Ex).
    apply ext_single_facts in Ex. destruct Ex as (Hs & Ha' & Hf & Hl).
    split; [exact Hs|]. split; [congruence|]. left. split; [exact Hf|exact Hl]. }
  assert (Hsimple : forall fmt, (fmt = FormatVP8 \/ fmt = FormatVP8L) ->
            (r0 <- parse_single_image fmt buf;; Ok (r0, KStill)) = Ok (r, KStill) -> still_facts_of r).
  { intros fmt Hfmt Hq. destruct (parse_single_image fmt buf) as [r0|e|] eqn:Ei; cbn [bind] in Hq; try discriminate.
    injection Hq as ->. apply single_image_facts in Ei. destruct Ei as (Hs & Ha & Hf & Hl).
    split; [exact Hs|]. split; [exact Ha|]. right. rewrite Hf. auto. }
  destruct (rd32 t =? FourCCVP8); [apply (Hsimple FormatVP8); auto|].
  destruct (rd32 t =? FourCCVP8L); [apply (Hsimple FormatVP8L); auto|discriminate].
Qed.

Theorem still_shape : forall fx bs r, parse_ex fx bs = Ok (r, KStill) -> still_shape_of r.
Proof.
  intros fx bs r H. destruct (still_facts fx bs r H) as (Hs & Ha & Hf).
  split; [exact Hs|]. split; [exact Ha|]. unfold FormatVP8, FormatVP8L, FormatVP8X in Hf. lia.
Qed.

Section Agree.
  Context {Pix : Type}.
  Variable lossy_dec : list Z -> Res (Z * Z * Pix).
  Variable lossless_dec : list Z -> Res (Z * Z * Pix).
  Variable alpha_dec : list Z -> Z -> Z -> Res Pix.

  (** The only thing assumed of the codecs: when they accept a bitstream whose
      header the container parser also accepts, the picture they return has the
      size that header declares (both read the same 14-bit fields).  Evaluated on
      the real codecs by harness/c16 (clause a) on every generated file. *)
  Definition codec_dims_from_header : Prop :=
    (forall pl w h px w' h', lossy_dec pl = Ok (w, h, px) -> parse_vp8_header pl = Ok (w', h') ->
                             w = w' /\ h = h') /\
    (forall pl w h px w' h' a, lossless_dec pl = Ok (w, h, px) -> parse_vp8l_header pl = Ok (w', h', a) ->
                               w = w' /\ h = h').

  Definition config_agrees_statement (fix_alpha : bool) : Prop :=
    codec_dims_from_header ->
    forall fx bs r img,
      parse_ex fx bs = Ok (r, KStill) ->
      decode_bytes lossy_dec lossless_dec alpha_dec fx bs = Ok img ->
      decode_config fix_alpha fx bs = Ok (mkConfig (iModel img) (iW img) (iH img)) /\
      exists g, get_features fx bs = Ok g /\ gW g = iW img /\ gH g = iH img /\
                gFrames g = 1 /\ gHasAnim g = false /\ 1 <= gFormat g <= 3.

  Theorem config_agrees_with_decode : config_agrees_statement true.
  Proof.
    intros [Hlossy Hlossless] fx bs r img Hp Hd.
    destruct (still_shape _ _ _ Hp) as ((f & Hfr & Hw & Hh & Hhdr) & Hanim & Hfmt).
    unfold decode_bytes, decode_config, get_features in *.
    rewrite (parse_of_parse_ex _ _ _ _ Hp) in *. cbn [bind] in *.
    rewrite Hfr in Hd. unfold decode_frame in Hd. unfold header_ok in Hhdr.
    unfold config_of, features_of. rewrite Hfr, Hw, Hh, Hanim.
    assert (Hg : 1 <= (if fFormat (pFeat r) =? FormatVP8 then 1 else if fFormat (pFeat r) =? FormatVP8L then 2
                       else if fFormat (pFeat r) =? FormatVP8X then 3 else 0) <= 3).
    { unfold FormatVP8, FormatVP8L, FormatVP8X.
      destruct (Z.eqb_spec (fFormat (pFeat r)) 1); [lia|].
      destruct (Z.eqb_spec (fFormat (pFeat r)) 2); [lia|].
      destruct (Z.eqb_spec (fFormat (pFeat r)) 3); lia. }
    destruct (frLossless f) eqn:El.
    - destruct Hhdr as [a Hhdr].
      destruct (lossless_dec (frPayload f)) as [[[w h] px]|e|] eqn:Ec; cbn [bind] in Hd; try discriminate.
      injection Hd as <-. destruct (Hlossless _ _ _ _ _ _ _ Ec Hhdr) as [-> ->].
      cbn [negb andb iModel iW iH]. split; [reflexivity|].
      eexists. split; [reflexivity|]. cbn [gW gH gFrames gHasAnim gFormat]. repeat split; try reflexivity; lia.
    - unfold decode_lossy in Hd.
      destruct (lossy_dec (frPayload f)) as [[[w h] px]|e|] eqn:Ec; cbn [bind] in Hd; try discriminate.
      destruct (Hlossy _ _ _ _ _ _ Ec Hhdr) as [-> ->].
      assert (Hcm : (if negb false && alpha_absent true (frAlpha f) then CM_YCbCr else CM_NRGBA) = iModel img
                    /\ iW img = frW f /\ iH img = frH f).
      { unfold alpha_absent, alpha_len in *. destruct (frAlpha f) as [al|]; cbn [negb andb].
        - destruct (Z.gtb_spec (len al) 0) as [Hgt|Hle].
          + destruct (alpha_dec al (frW f) (frH f)); cbn [bind] in Hd; try discriminate.
            injection Hd as <-. destruct (Z.eqb_spec (len al) 0); [lia|]. auto.
          + injection Hd as <-. pose proof (len_nonneg al). destruct (Z.eqb_spec (len al) 0); [|lia]. auto.
        - change (0 >? 0) with false in Hd. injection Hd as <-. auto. }
      destruct Hcm as (Hcm & HW & HH). rewrite Hcm, HW, HH. split; [reflexivity|].
      eexists. split; [reflexivity|]. cbn [gW gH gFrames gHasAnim gFormat]. repeat split; try reflexivity; lia.
  Qed.
End Agree.

(** The same statement about the pinned DecodeConfig ([AlphaData == nil]). *)
Definition pinned_config_agrees_statement {Pix : Type} (lossy_dec lossless_dec : list Z -> Res (Z * Z * Pix))
           (alpha_dec : list Z -> Z -> Z -> Res Pix) : Prop :=
  config_agrees_statement lossy_dec lossless_dec alpha_dec false.

(** ** The pinned DecodeConfig is refuted by a zero-length ALPH chunk *)
(** RIFF / VP8X (alpha flag, 1x1) / ALPH with an empty payload / VP8 key-frame header 1x1. *)
Definition wit_empty_alph : list Z :=
  [82; 73; 70; 70; 48; 0; 0; 0; 87; 69; 66; 80; 86; 80; 56; 88; 10; 0; 0; 0; 16; 0; 0; 0; 0; 0; 0; 0; 0; 0;
   65; 76; 80; 72; 0; 0; 0; 0; 86; 80; 56; 32; 10; 0; 0; 0; 0; 0; 0; 157; 1; 42; 1; 0; 1; 0].

(** A codec that decodes every bitstream to the size its header declares. *)
Definition hdr_lossy (pl : list Z) : Res (Z * Z * unit) :=
  '(w, h) <- parse_vp8_header pl ;; Ok (w, h, tt).
Definition hdr_lossless (pl : list Z) : Res (Z * Z * unit) :=
  '(w, h, _) <- parse_vp8l_header pl ;; Ok (w, h, tt).
Definition any_alpha (_ : list Z) (_ _ : Z) : Res unit := Ok tt.

Lemma hdr_codec_ok : codec_dims_from_header hdr_lossy hdr_lossless.
Proof.
  split.
  - intros pl w h px w' h' H1 H2. unfold hdr_lossy in H1. rewrite H2 in H1. cbn [bind] in H1.
    injection H1 as <- <- _. auto.
  - intros pl w h px w' h' a H1 H2. unfold hdr_lossless in H1. rewrite H2 in H1. cbn [bind] in H1.
    injection H1 as <- <- _. auto.
Qed.

(** Decode returns YCbCr, the pinned DecodeConfig announces NRGBA. *)
Theorem zero_len_alph_witness :
  exists img c,
    decode_bytes hdr_lossy hdr_lossless any_alpha false wit_empty_alph = Ok img /\
    decode_config false false wit_empty_alph = Ok c /\
    iModel img = CM_YCbCr /\ cModel c = CM_NRGBA /\
    decode_config true false wit_empty_alph = Ok (mkConfig CM_YCbCr 1 1).
Proof. do 2 eexists. repeat split; vm_compute; reflexivity. Qed.

Theorem zero_len_alph_refuted :
  ~ pinned_config_agrees_statement hdr_lossy hdr_lossless any_alpha.
Proof.
  unfold pinned_config_agrees_statement. intros H.
  destruct zero_len_alph_witness as (img & c & Hd & Hc & Hm & Hcm & _).
  assert (Hp : exists r, parse_ex false wit_empty_alph = Ok (r, KStill)) by (eexists; vm_compute; reflexivity).
  destruct Hp as [r Hp]. destruct (H hdr_codec_ok false wit_empty_alph r img Hp Hd) as [Hc' _].
  rewrite Hc in Hc'. injection Hc' as ->. cbn [cModel] in Hcm. congruence.
Qed.

(** The hypotheses of [config_agrees_with_decode] are satisfiable (same file, repaired code). *)
Example config_agrees_hypotheses_satisfiable :
  codec_dims_from_header hdr_lossy hdr_lossless /\
  exists r img, parse_ex true wit_empty_alph = Ok (r, KStill) /\
                decode_bytes hdr_lossy hdr_lossless any_alpha true wit_empty_alph = Ok img.
Proof. split; [exact hdr_codec_ok|]. do 2 eexists. split; vm_compute; reflexivity. Qed.

Theorem views_agree : forall fa fx bs,
  match get_features fx bs, decode_config fa fx bs with
  | Ok g, Ok c => gW g = cW c /\ gH g = cH c /\
                  (forall r, parse_ex fx bs = Ok (r, KStill) -> gFrames g = 1 /\ gHasAnim g = false) /\
                  (forall r k, parse_ex fx bs = Ok (r, k) ->
                     gFrames g = len (pFrames r) /\ gHasAnim g = fHasAnim (pFeat r) /\
                     gLoop g = fLoopCount (pFeat r))
  | Err e, Err e' => e = e'
  | Panic, Panic => True
  | _, _ => False
  end.
Proof.
  intros fa fx bs. unfold get_features, decode_config, parse.
  destruct (parse_ex fx bs) as [[r k]|e|] eqn:Ep; cbn [bind fst]; auto.
  unfold features_of, config_of. cbn [gW gH cW cH gFrames gHasAnim gLoop].
  split; [reflexivity|]. split; [reflexivity|]. split.
  - intros r0 [= <- ->]. destruct (still_shape _ _ _ Ep) as ((f & Hfr & _) & Ha & _).
    rewrite Hfr, Ha. split; reflexivity.
  - intros r0 k0 [= <- <-]. auto.
Qed.

Definition riff_magic_at (bs : list Z) : Prop :=
  exists s0 s1 s2 s3 tl, bs = [82; 73; 70; 70; s0; s1; s2; s3; 87; 69; 66; 80] ++ tl.

Theorem registered_format : forall bs, sniff bs = true <-> riff_magic_at bs.
Proof.
  intros bs. unfold sniff, riff_magic_at. split.
  - destruct (Z.ltb_spec (len bs) (len webp_magic)) as [|Hl]; [discriminate|].
    destruct bs as [|b0 [|b1 [|b2 [|b3 [|b4 [|b5 [|b6 [|b7 [|b8 [|b9 [|b10 [|b11 tl]]]]]]]]]]]];
      try (exfalso; unfold len in Hl; cbn [webp_magic length] in Hl; lia).
    cbn [webp_magic length firstn match_magic].
    change (63 =? 63) with true. change (82 =? 63) with false. change (73 =? 63) with false.
    change (70 =? 63) with false. change (87 =? 63) with false. change (69 =? 63) with false.
    change (66 =? 63) with false. change (80 =? 63) with false.
    rewrite !orb_false_r, !orb_true_r, !andb_true_iff, !Z.eqb_eq.
    intros (-> & -> & -> & -> & _ & _ & _ & _ & -> & -> & -> & -> & _).
    exists b4, b5, b6, b7, tl. reflexivity.
  - intros (s0 & s1 & s2 & s3 & tl & ->). unfold len. rewrite app_length.
    cbn [webp_magic length].
    destruct (Z.ltb_spec (Z.of_nat (12 + length tl)) (Z.of_nat 12)); [lia|].
    cbn [app firstn]. unfold webp_magic. cbn [match_magic]. rewrite !Z.eqb_refl. cbn [orb andb]. rewrite !orb_true_r. reflexivity.
Qed.

(** Every byte file the parser accepts is dispatched to this package by image.Decode. *)
Theorem accepted_files_are_dispatched : forall fx bs r,
  bytes_ok bs -> parse fx bs = Ok r -> sniff bs = true.
Proof.
  intros fx bs r Hb H. apply registered_format. unfold parse, parse_ex in H.
  destruct (parse_riff_header bs) as [fs|e|] eqn:Eh; cbn [bind] in H; try discriminate. clear H.
  unfold parse_riff_header, RIFFHeaderSize in Eh.
  destruct (Z.ltb_spec (len bs) 12) as [|Hl]; [discriminate|].
  destruct (slice bs 0 4) as [t1|e|] eqn:E1; cbn [bind] in Eh; try discriminate.
  destruct (Z.eqb_spec (rd32 t1) FourCCRIFF) as [H1|]; cbn [negb] in Eh; [|discriminate].
  destruct (slice bs 4 8) as [t2|e|] eqn:E2; cbn [bind] in Eh; try discriminate.
  destruct (rd32 t2 <? ChunkHeaderSize); [discriminate|].
  destruct (rd32 t2 >? MaxChunkPayload); [discriminate|].
  destruct (slice bs 8 12) as [t3|e|] eqn:E3; cbn [bind] in Eh; try discriminate.
  destruct (Z.eqb_spec (rd32 t3) FourCCWEBP) as [H3|]; cbn [negb] in Eh; [|discriminate].
  apply slice_inv in E1. destruct E1 as (_ & _ & _ & ->).
  apply slice_inv in E3. destruct E3 as (_ & _ & _ & ->).
  destruct bs as [|b0 [|b1 [|b2 [|b3 [|b4 [|b5 [|b6 [|b7 [|b8 [|b9 [|b10 [|b11 tl]]]]]]]]]]]];
    try (exfalso; unfold len in Hl; cbn [length] in Hl; lia).
  change (Z.to_nat (4 - 0)) with 4%nat in H1. change (Z.to_nat 0) with 0%nat in H1.
  change (Z.to_nat (12 - 8)) with 4%nat in H3. change (Z.to_nat 8) with 8%nat in H3.
  cbn [skipn firstn rd32] in H1, H3. unfold FourCCRIFF in H1. unfold FourCCWEBP in H3.
  rewrite !bytes_ok_cons in Hb. unfold is_byte in Hb.
  destruct Hb as (B0 & B1 & B2 & B3 & _ & _ & _ & _ & B8 & B9 & B10 & B11 & _).
  assert (b0 = 82 /\ b1 = 73 /\ b2 = 70 /\ b3 = 70) as (-> & -> & -> & ->) by lia.
  assert (b8 = 87 /\ b9 = 69 /\ b10 = 66 /\ b11 = 80) as (-> & -> & -> & ->) by lia.
  exists b4, b5, b6, b7, tl. reflexivity.
Qed.
