(** C20 — option handling of the animation encoder.

    animation.EncodeOptions (LoopCount, Quality, Lossless, AllowMixed, Kmin, Kmax) is never
    validated: NewEncoder clamps LoopCount, sanitizes Kmin / Kmax, and every frame is encoded by
    webp.encodeFrameForAnimation, which builds an EncoderOptions literal (regenerated:
    [F.anim_frame_ints]) with Quality := float32(quality) and calls encodeLossless /
    encodeLossyWithAlpha directly, i.e. WITHOUT validateConfig.  This file shows what reaches
    the codecs for every int value of every field. *)
From Coq Require Import ZArith List Bool Lia.
From Coq Require Import ZifyBool.
From WebpGen Require Consts Funcs.
From Webp Require Import Base.Res Opts.OptsModel Opts.OptsDoc Opts.OptsProof.
Import ListNotations.
Open Scope Z_scope.

(** Go int: 64-bit two's complement. *)
Definition min_int : Z := - 2 ^ 63.
Definition max_int : Z := 2 ^ 63 - 1.
Definition is_int (v : Z) : Prop := min_int <= v <= max_int.
Definition wrap64 (v : Z) : Z := (v + 2 ^ 63) mod 2 ^ 64 - 2 ^ 63.

(** clampLoopCount, bounds regenerated. *)
Definition clamp_loop_count (v : Z) : Z :=
  if v <? fst F.anim_loopcount_clamp then fst F.anim_loopcount_clamp
  else if v >? snd F.anim_loopcount_clamp then snd F.anim_loopcount_clamp else v.

(** sanitizeKeyframeOptions (hand transcription; pinned by [F.anim_sanitize_src_hash]).
    Go's / truncates toward zero; the only operation that can leave the int range is the
    subtraction kmax - kmin, written with [wrap64]. *)
Definition sanitize_keyframes (kmin kmax : Z) : Z * Z :=
  if kmax <=? 0 then (max_int - 1, max_int)
  else if kmax =? 1 then (0, 0)
  else
    let kmin1 :=
      if kmin >=? kmax then kmax - 1
      else let lim := Z.quot kmax 2 + 1 in
           if (kmin <? lim) && (lim <? kmax) then lim else kmin in
    let kmin2 := if wrap64 (kmax - kmin1) >? 30 then kmax - 30 else kmin1 in
    (kmin2, kmax).

(** FNV-1a of the normalised body of animation.sanitizeKeyframeOptions, as the translator computes it
    ([F.anim_sanitize_src_hash]): the transcription above was made from the body with this hash. *)
Definition doc_sanitize_src_hash : Z := 998278632905003257.

(** The options encodeFrameForAnimation builds. *)
Definition anim_frame_opts (lossless : bool) (quality : fl) : opts :=
  set_fl F.fld_Quality quality
    (set_bool F.fld_Lossless lossless
       (fold_left (fun o p => set_int (fst p) (snd p) o) F.anim_frame_ints zero_opts)).

Definition doc_anim_frame_opts (lossless : bool) (quality : fl) : opts :=
  mkOpts lossless quality 4 0 false false 0 (FFin 0) 0 0 0 0 0 0 0 0 false 0 0 (-1) (-1) (-1) 0 0 0.

Lemma anim_frame_opts_eq : forall l q, anim_frame_opts l q = doc_anim_frame_opts l q.
Proof. intros. vm_compute. reflexivity. Qed.

(** float32(quality) for |quality| <= 2^24 is exact. *)
Definition fl_of_int (q : Z) : fl := FFin (q * fscale).

Lemma fl_to_int_of_int : forall q, fl_to_int (fl_of_int q) = Some q.
Proof. intros q. pose proof fscale_pos. cbn. rewrite Z.quot_mul by lia. reflexivity. Qed.

(** Clamps of the quality parameter in front of the literal (regenerated). *)
Definition anim_clamp_quality (quality : Z) : Z :=
  fold_left (fun v r => if (if fst r =f? 0 then v <? snd r else v >? snd r) then snd r else v)
            F.anim_frame_quality_clamp quality.

(** What a frame of the animation is encoded with (no validation step); int(float32(q)) = q
    ([fl_to_int_of_int]), so [q] itself stands for int(opts.Quality). *)
Definition anim_frame_config (lossless : bool) (quality : Z) (has_alpha : bool) : eff :=
  let q := anim_clamp_quality quality in
  let o := anim_frame_opts lossless (fl_of_int q) in
  let meta := (oICC o, oEXIF o, oXMP o) in
  if lossless then ELossless (lossless_config o q) meta
  else ELossy (lossy_config o q has_alpha) (alpha_config o) (oExact o) (oUseSharpYUV o) meta.

Definition doc_anim_frame_ints : list (Z * Z) :=
  [ (F.fld_Method, 4); (F.fld_Preset, 0); (F.fld_TargetSize, 0); (F.fld_Preprocessing, 0); (F.fld_SNSStrength, 0);
    (F.fld_FilterStrength, 0); (F.fld_FilterSharpness, 0); (F.fld_FilterType, 0); (F.fld_Partitions, 0);
    (F.fld_Segments, 0); (F.fld_Pass, 0); (F.fld_QMin, 0); (F.fld_QMax, 0); (F.fld_AlphaCompression, -1);
    (F.fld_AlphaFiltering, -1); (F.fld_AlphaQuality, -1) ].

Definition anim_source_matches_model : Prop :=
  F.anim_frame_ints = doc_anim_frame_ints /\ F.anim_simple_ints = doc_anim_frame_ints /\
  F.anim_frame_validates = false /\ F.anim_simple_validates = true /\
  F.anim_loopcount_clamp = (0, WebpGen.Consts.animation_maxLoopCount) /\ WebpGen.Consts.animation_maxLoopCount = 65535 /\
  F.anim_sanitize_src_hash = doc_sanitize_src_hash /\
  map fst F.anim_field_reads = [F.afld_LoopCount; F.afld_BackgroundColor; F.afld_Quality; F.afld_Lossless; F.afld_AllowMixed; F.afld_Kmin; F.afld_Kmax].

Lemma anim_source_matches_model_holds : anim_source_matches_model.
Proof. unfold anim_source_matches_model. repeat split; reflexivity. Qed.

(** LoopCount always fits the container's 16-bit field. *)
Theorem loop_count_total : forall v, 0 <= clamp_loop_count v <= 65535.
Proof.
  intros v. unfold clamp_loop_count. change F.anim_loopcount_clamp with (0, 65535). cbn [fst snd].
  destruct (v <? 0) eqn:?; [lia|]. destruct (v >? 65535) eqn:?; lia.
Qed.

Lemma quot2_bounds : forall k, 2 <= k -> 1 <= Z.quot k 2 /\ Z.quot k 2 + 1 <= k.
Proof.
  intros k H. rewrite Z.quot_div_nonneg by lia.
  pose proof (Z.div_mod k 2 ltac:(lia)). pose proof (Z.mod_pos_bound k 2 ltac:(lia)). lia.
Qed.

(** kmin after the first two adjustments of sanitizeKeyframeOptions, in front of the window clamp. *)
Definition kmin1 (kmin kmax : Z) : Z :=
  if kmin >=? kmax then kmax - 1
  else if (kmin <? Z.quot kmax 2 + 1) && (Z.quot kmax 2 + 1 <? kmax) then Z.quot kmax 2 + 1 else kmin.

(** [sanitize_keyframes] with its inner [kmin1] named. *)
Lemma sanitize_keyframes_eq : forall kmin kmax, sanitize_keyframes kmin kmax =
  if kmax <=? 0 then (max_int - 1, max_int) else if kmax =? 1 then (0, 0)
  else let k1 := kmin1 kmin kmax in ((if wrap64 (kmax - k1) >? 30 then kmax - 30 else k1), kmax).
Proof. reflexivity. Qed.

Lemma kmin1_bounds : forall kmin kmax, 2 <= kmax -> Z.min kmin 1 <= kmin1 kmin kmax < kmax.
Proof.
  intros kmin kmax H. destruct (quot2_bounds kmax H) as [Hq1 Hq2]. unfold kmin1.
  destruct (kmin >=? kmax) eqn:?; [lia|].
  destruct ((kmin <? Z.quot kmax 2 + 1) && (Z.quot kmax 2 + 1 <? kmax)) eqn:?; lia.
Qed.

(** Kmin / Kmax: for every pair of ints the result is a pair of ints, either (0, 0) (every
    frame a keyframe) or kmin < kmax with kmax >= 2. *)
Theorem sanitize_keyframes_total : forall kmin kmax, is_int kmin -> is_int kmax ->
  is_int (fst (sanitize_keyframes kmin kmax)) /\ is_int (snd (sanitize_keyframes kmin kmax)) /\
  (sanitize_keyframes kmin kmax = (0, 0) \/
   (fst (sanitize_keyframes kmin kmax) < snd (sanitize_keyframes kmin kmax) /\ 2 <= snd (sanitize_keyframes kmin kmax))).
Proof.
  intros kmin kmax [Hm1 Hm2] [Hx1 Hx2]. rewrite sanitize_keyframes_eq. unfold is_int, min_int, max_int in *.
  destruct (kmax <=? 0) eqn:E0; [cbn [fst snd]; split; [lia|split; [lia|right; lia]]|].
  destruct (kmax =? 1) eqn:E1; [cbn [fst snd]; split; [lia|split; [lia|left; reflexivity]]|].
  cbv zeta. pose proof (kmin1_bounds kmin kmax ltac:(lia)) as Hk1.
  destruct (wrap64 (kmax - kmin1 kmin kmax) >? 30) eqn:E3; cbn [fst snd]; (split; [lia|split; [lia|right; lia]]).
Qed.

(** The documented intent "at most 30 cached frames" holds whenever the subtraction does not
    overflow, in particular for every kmin >= 0. *)
Theorem sanitize_keyframes_window : forall kmin kmax, 0 <= kmin -> is_int kmin -> is_int kmax -> 2 <= kmax ->
  snd (sanitize_keyframes kmin kmax) - fst (sanitize_keyframes kmin kmax) <= 30.
Proof.
  intros kmin kmax H0 [Hm1 Hm2] [Hx1 Hx2] H2. rewrite sanitize_keyframes_eq. unfold is_int, min_int, max_int in *.
  replace (kmax <=? 0) with false by lia. replace (kmax =? 1) with false by lia.
  cbv zeta. pose proof (kmin1_bounds kmin kmax H2) as Hk1.
  assert (Hw : wrap64 (kmax - kmin1 kmin kmax) = kmax - kmin1 kmin kmax) by (unfold wrap64; rewrite Z.mod_small; lia).
  rewrite Hw. destruct (kmax - kmin1 kmin kmax >? 30) eqn:E3; cbn [fst snd]; lia.
Qed.

(** ... and is refuted for a negative kmin with kmax = 2: the subtraction wraps. *)
Theorem sanitize_keyframes_window_refuted :
  exists kmin kmax, is_int kmin /\ is_int kmax /\ 2 <= kmax /\
    snd (sanitize_keyframes kmin kmax) - fst (sanitize_keyframes kmin kmax) > 30.
Proof. exists min_int, 2. unfold is_int, min_int, max_int. repeat split; try lia; vm_compute; reflexivity. Qed.

Lemma anim_frame_opts_q0_valid : forall l, doc_valid (doc_anim_frame_opts l (FFin 0)).
Proof. intros l. apply validate_doc_false_iff. reflexivity. Qed.

(** Lossy frames: inside the codec's ranges for EVERY int quality (lossy.DefaultConfig clamps). *)
Theorem anim_lossy_frame_config_total : forall q ha c a e s m,
  anim_frame_config false q ha = ELossy c a e s m -> lossy_pre c /\ alpha_pre a.
Proof.
  intros q0 ha c a e s m H. unfold anim_frame_config in H. cbv zeta in H. revert H.
  generalize (anim_clamp_quality q0). intros q H. rewrite anim_frame_opts_eq in H.
  injection H as <- <- _ _ _. rewrite lossy_config_eq, alpha_config_eq.
  (* Preprocessing is 0, so the Quality field (read for the dithering amplitude only) does not
     reach the configuration: any valid value may stand in its place. *)
  change (lossy_config_doc (doc_anim_frame_opts false (fl_of_int q)) q ha)
    with (lossy_config_doc (doc_anim_frame_opts false (FFin 0)) q ha).
  split; [apply apply_clamps_pre, lossy_config_doc_pre, anim_frame_opts_q0_valid|].
  apply alpha_config_doc_pre; cbn; lia.
Qed.

Lemma anim_clamp_quality_eq : forall q, anim_clamp_quality q = clampZ 0 100 q.
Proof. intros q. unfold anim_clamp_quality, clampZ. cbn. destruct (q <? 0); reflexivity. Qed.

(** Lossless frames: the VP8L configuration is inside the codec's documented
    range (lossless.EncoderConfig.Quality 0..100) for EVERY int quality.
    Holds since 09c6c50 (encodeFrameForAnimation clamps the quality to 0..100): if the clamp
    disappears from the source, [anim_clamp_quality_eq] fails and this obligation with it. *)
Theorem anim_lossless_frame_total_holds : forall q l m,
  anim_frame_config true q false = ELossless l m -> lossless_pre l.
Proof.
  intros q l m H. unfold anim_frame_config in H. cbv zeta in H.
  rewrite anim_frame_opts_eq, anim_clamp_quality_eq in H. injection H as <- _.
  pose proof (clampZ_range 0 100 q ltac:(lia)). unfold lossless_pre, lossless_config. cbn. lia.
Qed.

(** Historic defect, about a pinned definition that no run selects: without the clamp the VP8L
    quality is the raw option value (101 is out of the codec's range; the match search runs
    about quality^2/128 iterations per position, 2^24 did not terminate in practice). *)
Definition pinned_anim_lossless_config_unclamped (quality : Z) : llcfg :=
  lossless_config (anim_frame_opts true (fl_of_int quality)) quality.
Theorem pinned_anim_lossless_unclamped_refuted : exists q, ~ lossless_pre (pinned_anim_lossless_config_unclamped q).
Proof. exists 101. unfold lossless_pre. vm_compute. intros [[_ H] _]. apply H. reflexivity. Qed.

(** The option fields the encoder never reads (regenerated read counts). *)
Definition anim_unused_fields : list Z :=
  map fst (filter (fun r => snd r =? 0) F.anim_field_reads).

(** Kmin is documented ("frames closer than Kmin to the previous keyframe are always encoded as
    sub-frames") but, after being sanitized, is the one option field the encoder never reads
    (regenerated read counts; breaks when that changes, in either direction). *)
Theorem anim_kmin_is_the_only_unused_field : anim_unused_fields = [F.afld_Kmin].
Proof. vm_compute. reflexivity. Qed.
