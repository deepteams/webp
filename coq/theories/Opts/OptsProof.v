(** C20 — option handling: the interpreted model (OptsModel.v) equals its readable form (OptsDoc.v);
    totality, codec preconditions, sentinels and documentation are proved on that. *)
From Coq Require Import ZArith List Bool Lia.
From Coq Require Import ZifyBool.
From WebpGen Require Consts Funcs.
From Webp Require Import Base.Res Opts.OptsModel Opts.OptsDoc.
Import ListNotations.
Open Scope Z_scope.

Lemma source_matches_documentation_holds : source_matches_documentation.
Proof. unfold source_matches_documentation. repeat split; reflexivity. Qed.

(** Unfolds the interpreters over the closed tables, keeping arithmetic on symbolic option values
    folded.  [Z.eqb] is blocked too: hence [fid_eqb] (via [Z.compare]) for field ids in the model. *)
Ltac interp :=
  cbv -[Z.ltb Z.gtb Z.geb Z.leb Z.eqb Z.land Z.lor Z.ldiff Z.quot Z.mul Z.pow fscale fl_lt fl_gt fl_ge
        fl_isnan fl_isinf fl_to_int clampZ rq rs negb orb andb].

Lemma validate_eq : forall o, validate o = validate_doc o.
Proof. intros []. interp. reflexivity. Qed.

Lemma default_options_eq : default_options = doc_default_options.
Proof. vm_compute. reflexivity. Qed.

Lemma alpha_config_eq : forall o, alpha_config o = alpha_config_doc o.
Proof. intros []. interp. reflexivity. Qed.

Lemma lossy_config_pre_eq : forall o q ha, lossy_config_pre o q ha = lossy_config_doc o q ha.
Proof. intros [] q ha. interp. reflexivity. Qed.

Lemma lossy_config_eq : forall o q ha, lossy_config o q ha = apply_clamps (lossy_config_doc o q ha).
Proof. intros. unfold lossy_config. rewrite lossy_config_pre_eq. reflexivity. Qed.

Lemma effective_eq : forall oo w h ha, effective oo w h ha = effective_doc oo w h ha.
Proof.
  intros oo w h ha. unfold effective, effective_doc.
  rewrite default_options_eq.
  set (o := match oo with None => doc_default_options | Some o => o end).
  rewrite validate_eq.
  destruct (validate_doc o); [reflexivity|].
  destruct ((w <=? 0) || (h <=? 0)) eqn:Ed; [reflexivity|].
  change K.root_MaxDimension with 16383.
  destruct ((w >? 16383) || (h >? 16383)) eqn:Em; [reflexivity|].
  destruct (fl_to_int (oQuality o)) as [q|]; [|reflexivity].
  destruct (oLossless o).
  - change F.lossless_maxdim_Encode with 16383. change F.lossless_maxdim_EncodeToWriter with 16383.
    apply orb_false_elim in Em. destruct Em as [Em1 Em2]. rewrite Em1, Em2. cbn [orb].
    unfold lossless_config. reflexivity.
  - rewrite lossy_config_eq, alpha_config_eq. reflexivity.
Qed.

Definition fl_in (x : fl) (lo hi : Z) : Prop :=
  exists n, x = FFin n /\ lo * fscale <= n <= hi * fscale.
Definition fl_fin_ge0 (x : fl) : Prop := exists n, x = FFin n /\ 0 <= n.

Record doc_valid (o : opts) : Prop := {
  dv_quality : fl_in (oQuality o) 0 100;
  dv_method : 0 <= oMethod o <= 6;
  dv_tsize : 0 <= oTargetSize o;
  dv_psnr : fl_fin_ge0 (oTargetPSNR o);
  dv_prep : 0 <= oPreprocessing o <= 3;
  dv_preset : 0 <= oPreset o <= 5;
  dv_sns : oSNSStrength o <= 100;
  dv_fstr : oFilterStrength o <= 100;
  dv_fsharp : 0 <= oFilterSharpness o <= 7;
  dv_ftype : oFilterType o <= 1;
  dv_parts : 0 <= oPartitions o <= 3;
  dv_segs : oSegments o <= 4;
  dv_pass : oPass o <= 10;
  dv_q : 0 <= oQMin o <= rq (oQMax o) /\ rq (oQMax o) <= 100;
  dv_acomp : oAlphaCompression o <= 1;
  dv_afilt : oAlphaFiltering o <= 2;
  dv_aqual : oAlphaQuality o <= 100;
  dv_meta : oICC o <= doc_meta_max /\ oEXIF o <= doc_meta_max /\ oXMP o <= doc_meta_max
}.

Lemma fscale_pos : 0 < fscale.
Proof. unfold fscale. apply Z.pow_pos_nonneg; lia. Qed.

Lemma validate_doc_false_iff : forall o, validate_doc o = false <-> doc_valid o.
Proof.
  intros o. unfold validate_doc. split.
  - intros H.
    repeat (apply orb_false_elim in H; destruct H as [? H]).
    destruct (oQuality o) as [| | |nq] eqn:EQ; cbn [fl_lt fl_gt fl_isnan fl_isinf] in *; try discriminate.
    destruct (oTargetPSNR o) as [| | |np] eqn:EP; cbn [fl_lt fl_gt fl_isnan fl_isinf] in *; try discriminate.
    unfold rq in *.
    constructor; try rewrite EQ; try rewrite EP; unfold fl_in, fl_fin_ge0, rq; try lia.
    + exists nq. split; [reflexivity|lia].
    + exists np. split; [reflexivity|lia].
  - intros [[nq [EQ Hq]] Hm Ht [np [EP Hp]] Hpr Hps Hs Hf Hfs Hft Hpa Hsg Hpp Hqq Hac Haf Haq Hme].
    rewrite EQ, EP. cbn [fl_lt fl_gt fl_isnan fl_isinf]. unfold rq in *.
    destruct (oQMax o <? 0) eqn:E; cbn [existsb]; lia.
Qed.

Lemma fl_quot_range : forall lo hi n, 0 <= lo -> lo * fscale <= n <= hi * fscale -> lo <= Z.quot n fscale <= hi.
Proof.
  intros lo hi n L H. pose proof fscale_pos as P.
  rewrite Z.quot_div_nonneg by nia.
  split; [apply Z.div_le_lower_bound; lia | apply Z.div_le_upper_bound; lia].
Qed.

Definition opts_or_default (oo : option opts) : opts :=
  match oo with None => doc_default_options | Some o => o end.

(** [q] = int(Quality) *)
Definition eff_doc (o : opts) (q : Z) (ha : bool) : eff :=
  let meta := (oICC o, oEXIF o, oXMP o) in
  if oLossless o then ELossless (mkLL q (oMethod o) 100 (oExact o)) meta
  else ELossy (apply_clamps (lossy_config_doc o q ha)) (alpha_config_doc o) (oExact o) (oUseSharpYUV o) meta.

(** A valid Quality is finite, so int(Quality) is defined: no [Panic]. *)
Lemma effective_cases : forall oo w h ha, let o := opts_or_default oo in
  (~ doc_valid o /\ effective oo w h ha = Err 1) \/
  (doc_valid o /\ (w <= 0 \/ h <= 0 \/ w > 16383 \/ h > 16383) /\ effective oo w h ha = Err 2) \/
  (doc_valid o /\ 1 <= w <= 16383 /\ 1 <= h <= 16383 /\
   exists q, 0 <= q <= 100 /\ effective oo w h ha = Ok (eff_doc o q ha)).
Proof.
  intros oo w h ha o. rewrite effective_eq. unfold effective_doc. fold (opts_or_default oo). fold o. cbv zeta.
  destruct (validate_doc o) eqn:V.
  { left. split; [|reflexivity]. rewrite <- validate_doc_false_iff. congruence. }
  apply validate_doc_false_iff in V. right.
  destruct ((w <=? 0) || (h <=? 0)) eqn:D1; [left; split; [exact V|split; [lia|reflexivity]]|].
  destruct ((w >? 16383) || (h >? 16383)) eqn:D2; [left; split; [exact V|split; [lia|reflexivity]]|].
  right. destruct (dv_quality _ V) as [n [E Hn]]. rewrite E. cbn [fl_to_int].
  split; [exact V|]. split; [lia|]. split; [lia|].
  exists (Z.quot n fscale). split; [apply fl_quot_range; [lia|exact Hn]|].
  unfold eff_doc. destruct (oLossless o); reflexivity.
Qed.

Theorem encode_total : forall wn inl oo w h ha, encode_outcome wn inl oo w h ha <> Panic.
Proof.
  intros. unfold encode_outcome. destruct wn; [discriminate|]. destruct inl; [discriminate|].
  destruct (effective_cases oo w h ha) as [(_ & ->)|[(_ & _ & ->)|(_ & _ & _ & q & _ & ->)]]; discriminate.
Qed.

Theorem encode_errors_exactly_documented : forall wn inl oo w h ha,
  (exists e, encode_outcome wn inl oo w h ha = Err e) <->
  (wn = true \/ inl = true \/ ~ doc_valid (opts_or_default oo) \/ w <= 0 \/ h <= 0 \/ w > 16383 \/ h > 16383).
Proof.
  intros. unfold encode_outcome.
  destruct wn; [split; [auto | eexists; reflexivity]|].
  destruct inl; [split; [auto | eexists; reflexivity]|].
  destruct (effective_cases oo w h ha) as [(N & ->)|[(V & D & ->)|(V & Hw & Hh & q & _ & ->)]].
  - split; [intros _; right; right; left; exact N | eexists; reflexivity].
  - split; [intros _; do 3 right; exact D | eexists; reflexivity].
  - split; [intros [e [=]] | intros [[=]|[[=]|[N|D]]]; [contradiction | lia]].
Qed.

Definition lossy_pre (c : lcfg) : Prop :=
  0 <= cQuality c <= 100 /\ 0 <= cTargetSize c /\ fl_fin_ge0 (cTargetPSNR c) /\ 0 <= cMethod c <= 6 /\
  0 <= cSNS c <= 100 /\ 0 <= cFStrength c <= 100 /\ 0 <= cFSharpness c <= 7 /\ 0 <= cFType c <= 1 /\
  0 <= cPartitions c <= 3 /\ 1 <= cSegments c <= 4 /\ 1 <= cPass c <= 10 /\ 0 <= cPreprocessing c <= 3 /\
  (forall q, cDither c = Some q -> fl_in q 0 100 /\ Z.land (cPreprocessing c) 2 <> 0) /\
  (cDither c = None -> Z.land (cPreprocessing c) 2 = 0) /\
  0 <= cQMin c <= cQMax c /\ cQMax c <= 100 /\ 0 <= cHasAlpha c <= 1.

Definition alpha_pre (a : acfg) : Prop :=
  0 <= aQuality a <= 100 /\ 0 <= aMethod a <= 1 /\ (aFilter a = 0 \/ aFilter a = 4 \/ aFilter a = 5) /\
  0 <= aEffort a <= 6.

(** [lNear]: encodeLossless passes the literal NearLosslessQuality 100 (near-lossless off). *)
Definition lossless_pre (l : llcfg) : Prop :=
  0 <= lQuality l <= 100 /\ 0 <= lMethod l <= 6 /\ lNear l = 100.

Definition meta_pre (m : Z * Z * Z) : Prop :=
  let '(i, e, x) := m in i <= doc_meta_max /\ e <= doc_meta_max /\ x <= doc_meta_max.

Definition codec_pre (w h : Z) (e : eff) : Prop :=
  1 <= w <= 16383 /\ 1 <= h <= 16383 /\
  match e with
  | ELossless l m => lossless_pre l /\ meta_pre m
  | ELossy c a _ _ m => lossy_pre c /\ alpha_pre a /\ meta_pre m
  end.

Lemma lossy_pre_quality : forall c, lossy_pre c -> 0 <= cQuality c <= 100.
Proof. unfold lossy_pre. tauto. Qed.

Lemma lossy_pre_qrange : forall c, lossy_pre c -> 0 <= cQMin c <= cQMax c /\ cQMax c <= 100.
Proof. unfold lossy_pre. tauto. Qed.

Lemma lossy_pre_dither : forall c, lossy_pre c ->
  0 <= cPreprocessing c <= 3 /\
  (forall q, cDither c = Some q -> fl_in q 0 100 /\ Z.land (cPreprocessing c) 2 <> 0) /\
  (cDither c = None -> Z.land (cPreprocessing c) 2 = 0).
Proof. unfold lossy_pre. tauto. Qed.

Lemma resolve_sentinel : forall t d v, v < t -> resolve (t, d) v = d.
Proof. intros t d v H. unfold resolve. cbn [fst snd]. destruct (v <? t) eqn:E; [reflexivity|lia]. Qed.

Lemma resolve_keep : forall t d v, t <= v -> resolve (t, d) v = v.
Proof. intros t d v H. unfold resolve. cbn [fst snd]. destruct (v <? t) eqn:E; [lia|reflexivity]. Qed.

Lemma resolve_idem : forall t d v, t <= d -> resolve (t, d) (resolve (t, d) v) = resolve (t, d) v.
Proof.
  intros t d v H. unfold resolve. cbn [fst snd].
  destruct (v <? t) eqn:E; [apply (resolve_keep t d d H)|rewrite E; reflexivity].
Qed.

Lemma resolve_gt : forall t d c v, t <= d <= c -> (resolve (t, d) v >? c) = (v >? c).
Proof. intros t d c v H. unfold resolve. cbn [fst snd]. destruct (v <? t) eqn:E; lia. Qed.

Lemma resolve_range : forall t d c v, t <= d <= c -> v <= c -> t <= resolve (t, d) v <= c.
Proof. intros t d c v H Hv. unfold resolve. cbn [fst snd]. destruct (v <? t) eqn:E; lia. Qed.

(** [rq] and [rs d] are [resolve (0, _)] by conversion; the two other spellings: *)
Lemma geb_resolve : forall d v, (if v >=? 0 then v else d) = resolve (0, d) v.
Proof. intros d v. unfold resolve. cbn [fst snd]. destruct (v >=? 0) eqn:A, (v <? 0) eqn:B; try reflexivity; lia. Qed.
Lemma gtb_resolve : forall d v, (if v >? 0 then v else d) = resolve (1, d) v.
Proof. intros d v. unfold resolve. cbn [fst snd]. destruct (v >? 0) eqn:A, (v <? 1) eqn:B; try reflexivity; lia. Qed.

Lemma clampZ_range : forall lo hi v, lo <= hi -> lo <= clampZ lo hi v <= hi.
Proof. intros lo hi v H. unfold clampZ. destruct (v <? lo) eqn:A; [lia|]. destruct (v >? hi) eqn:B; lia. Qed.

Lemma lossy_config_doc_pre : forall o q ha, doc_valid o -> lossy_pre (lossy_config_doc o q ha).
Proof.
  intros o q ha [[nq [EQ Hq]] Hm Ht [np [EP Hp]] Hpr _ Hs Hf Hfs Hft Hpa Hsg Hpp [Hqm Hqx] _ _ _ _].
  unfold lossy_pre, lossy_config_doc. cbn.
  (* one [split] per conjunct of [lossy_pre], in its order *)
  split. { apply clampZ_range. lia. }
  split. { destruct (oTargetSize o >? 0) eqn:E; lia. }
  split. { rewrite EP. cbn [fl_gt]. destruct (np >? 0 * fscale); [exists np|exists 0]; split; try reflexivity; lia. }
  split. { exact Hm. }
  rewrite !geb_resolve, !gtb_resolve.
  split. { apply resolve_range; [easy|exact Hs]. }
  split. { apply resolve_range; [easy|exact Hf]. }
  split. { exact Hfs. }
  split. { apply resolve_range; [easy|exact Hft]. }
  split. { exact Hpa. }
  split. { apply resolve_range; [easy|exact Hsg]. }
  split. { apply resolve_range; [easy|exact Hpp]. }
  split. { exact Hpr. }
  split. { rewrite EQ. destruct (negb (Z.land (oPreprocessing o) 2 =? 0)) eqn:E; intros x [= <-].
           split; [exists nq; split; [reflexivity|exact Hq] | lia]. }
  split. { destruct (negb (Z.land (oPreprocessing o) 2 =? 0)) eqn:E; [discriminate|]. intros _. lia. }
  split. { exact Hqm. }
  split. { exact Hqx. }
  destruct ha; lia.
Qed.

Lemma alpha_config_doc_pre : forall o, 0 <= oMethod o <= 6 -> oAlphaQuality o <= 100 -> alpha_pre (alpha_config_doc o).
Proof.
  intros o Hm Hq. unfold alpha_pre, alpha_config_doc. cbn [aQuality aMethod aFilter aEffort].
  change (rs ?d ?v) with (resolve (0, d) v).
  split; [apply resolve_range; [easy|exact Hq]|].
  split; [destruct (_ =? 0); lia|]. split; [|exact Hm].
  destruct (_ =? 0); [tauto|]. destruct (_ =? 2); tauto.
Qed.

Definition set_quality (q : Z) (c : lcfg) : lcfg :=
  mkL q (cTargetSize c) (cTargetPSNR c) (cMethod c) (cSNS c) (cFStrength c) (cFSharpness c) (cFType c)
      (cPartitions c) (cSegments c) (cPass c) (cPreprocessing c) (cDither c) (cQMin c) (cQMax c) (cHasAlpha c).

Definition clamp_guard (c : lcfg) : bool := (cTargetSize c >? 0) || fl_gt (cTargetPSNR c) 0.

(** Since d401cf2: with a target set, Quality is raised to QMin, then lowered to QMax.  Breaks, and
    [quality_in_range_when_target_holds] with it, if the clamps leave the propagation block. *)
Lemma apply_clamps_eq : forall c, apply_clamps c =
  set_quality (if clamp_guard c then Z.min (cQMax c) (Z.max (cQMin c) (cQuality c)) else cQuality c) c.
Proof.
  intros []. unfold apply_clamps, clamp_guard, set_quality.
  cbn [OptsModel.cQuality OptsModel.cTargetSize OptsModel.cTargetPSNR OptsModel.cQMin OptsModel.cQMax].
  destruct ((cTargetSize >? 0) || fl_gt cTargetPSNR 0); [|reflexivity].
  cbn. f_equal.
  destruct (cQuality <? cQMin) eqn:A; destruct (_ >? cQMax) eqn:B; lia.
Qed.

Lemma apply_clamps_pre : forall c, lossy_pre c -> lossy_pre (apply_clamps c).
Proof.
  intros c H. pose proof (lossy_pre_quality c H) as Hq. pose proof (lossy_pre_qrange c H) as Hr.
  rewrite apply_clamps_eq. destruct H as [_ Hrest]. split; [|exact Hrest].
  cbn [set_quality cQuality]. destruct (clamp_guard c); lia.
Qed.

Lemma apply_clamps_in_range : forall c, cQMin c <= cQMax c -> clamp_guard (apply_clamps c) = true ->
  cQMin (apply_clamps c) <= cQuality (apply_clamps c) <= cQMax (apply_clamps c).
Proof.
  intros c H G. rewrite apply_clamps_eq in *. change (clamp_guard c = true) in G. rewrite G.
  cbn [set_quality cQuality cQMin cQMax]. lia.
Qed.

Theorem validate_complete : forall oo w h ha e,
  effective oo w h ha = Ok e -> codec_pre w h e.
Proof.
  intros oo w h ha e.
  destruct (effective_cases oo w h ha) as [(_ & ->)|[(_ & _ & ->)|(V & Hw & Hh & q & Hq & ->)]]; try discriminate.
  intros [= <-]. split; [exact Hw|]. split; [exact Hh|]. unfold eff_doc.
  pose proof (dv_method _ V) as Hm. pose proof (dv_meta _ V) as Hme.
  destruct (oLossless (opts_or_default oo)).
  - split; [|exact Hme]. unfold lossless_pre. cbn [lQuality lMethod lNear]. lia.
  - split; [apply apply_clamps_pre, lossy_config_doc_pre, V|].
    split; [apply alpha_config_doc_pre; [exact Hm|apply dv_aqual, V] | exact Hme].
Qed.

Example validate_complete_nonvacuous :
  exists e, effective (Some (mkOpts false (FFin (33 * fscale + 7)) 6 2 true false 300 (FFin (40 * fscale)) 3 (-1) 100 7 0 3 0 10
                               true 5 (-9) (-1) 2 0 7 0 1)) 17 16383 true = Ok e.
Proof. eexists. vm_compute. reflexivity. Qed.

Theorem nil_is_default : forall w h ha,
  effective None w h ha = effective (Some default_options) w h ha.
Proof. reflexivity. Qed.

Lemma effective_dims : forall oo w h ha, 1 <= w <= 16383 -> 1 <= h <= 16383 ->
  effective oo w h ha = effective oo 1 1 ha.
Proof.
  intros oo w h ha Hw Hh. rewrite 2 effective_eq. unfold effective_doc.
  replace ((w <=? 0) || (h <=? 0)) with false by lia.
  replace ((w >? 16383) || (h >? 16383)) with false by lia. reflexivity.
Qed.

Theorem default_resolves_to_documented_defaults : forall w h ha, 1 <= w <= 16383 -> 1 <= h <= 16383 ->
  effective None w h ha =
  Ok (ELossy (mkL 75 0 (FFin 0) 4 50 60 0 1 0 4 1 0 None 0 100 (if ha then 1 else 0)) (mkA 100 1 4 4) false false (0, 0, 0)).
Proof.
  intros w h ha Hw Hh. rewrite (effective_dims _ w h) by assumption. destruct ha; vm_compute; reflexivity.
Qed.

(** [o] with every sentinel resolved (and EmulateJpegSize, which nothing reads, cleared):
    [effective] depends on [norm o] alone. *)
Definition norm (o : opts) : opts :=
  mkOpts (oLossless o) (oQuality o) (oMethod o) (oPreset o) (oUseSharpYUV o) (oExact o) (oTargetSize o) (oTargetPSNR o)
    (oPreprocessing o) (resolve (0, doc_SNSStrength) (oSNSStrength o)) (resolve (0, doc_FilterStrength) (oFilterStrength o))
    (oFilterSharpness o) (resolve (0, doc_FilterType) (oFilterType o)) (oPartitions o)
    (resolve (1, doc_Segments) (oSegments o)) (resolve (1, doc_Pass) (oPass o)) false (oQMin o)
    (resolve (0, doc_QMax) (oQMax o)) (resolve (0, doc_AlphaCompression) (oAlphaCompression o))
    (resolve (0, doc_AlphaFiltering) (oAlphaFiltering o)) (resolve (0, doc_AlphaQuality) (oAlphaQuality o))
    (oICC o) (oEXIF o) (oXMP o).

Lemma validate_doc_norm : forall o, validate_doc (norm o) = validate_doc o.
Proof.
  intros o. unfold validate_doc, norm. cbn. change rq with (resolve (0, doc_QMax)).
  rewrite resolve_idem, !resolve_gt by easy. reflexivity.
Qed.

Lemma lossy_config_doc_norm : forall o q ha, lossy_config_doc (norm o) q ha = lossy_config_doc o q ha.
Proof.
  intros o q ha. unfold lossy_config_doc, norm. cbn. change rq with (resolve (0, doc_QMax)).
  rewrite !geb_resolve, !gtb_resolve, !resolve_idem by easy. reflexivity.
Qed.

Lemma alpha_config_doc_norm : forall o, alpha_config_doc (norm o) = alpha_config_doc o.
Proof.
  intros o. unfold alpha_config_doc, norm. cbn. change (rs ?d ?v) with (resolve (0, d) v).
  rewrite !resolve_idem by easy. reflexivity.
Qed.

Lemma effective_norm : forall o o' w h ha, norm o = norm o' ->
  effective (Some o) w h ha = effective (Some o') w h ha.
Proof.
  assert (N : forall o w h ha, effective_doc (Some (norm o)) w h ha = effective_doc (Some o) w h ha).
  { intros. unfold effective_doc. rewrite validate_doc_norm. change (oQuality (norm o)) with (oQuality o).
    destruct (fl_to_int (oQuality o)) as [q|]; [|reflexivity].
    rewrite lossy_config_doc_norm, alpha_config_doc_norm. reflexivity. }
  intros o o' w h ha E. rewrite (effective_eq (Some o)), (effective_eq (Some o')), <- (N o), <- (N o'), E. reflexivity.
Qed.

(** The documented sentinels: field, whether 0 is a sentinel too, documented default. *)
Definition doc_sentinels : list (Z * bool * Z) :=
  [ (F.fld_SNSStrength, false, doc_SNSStrength); (F.fld_FilterStrength, false, doc_FilterStrength);
    (F.fld_FilterType, false, doc_FilterType); (F.fld_Segments, true, doc_Segments); (F.fld_Pass, true, doc_Pass);
    (F.fld_QMax, false, doc_QMax); (F.fld_AlphaCompression, false, doc_AlphaCompression);
    (F.fld_AlphaFiltering, false, doc_AlphaFiltering); (F.fld_AlphaQuality, false, doc_AlphaQuality) ].

(** A sentinel behaves as the documented default: both have the same [norm]. *)
Theorem sentinel_resolves : forall k,
  match nth_error doc_sentinels k with
  | Some (f, zero, d) => forall o w h ha s, (if zero then s <= 0 else s < 0) ->
      effective (Some (set_int f s o)) w h ha = effective (Some (set_int f d o)) w h ha
  | None => True
  end.
Proof.
  intros k.
  (* per row: evaluate [set_int] and [norm] on the record, keeping [resolve] folded *)
  do 9 (destruct k as [|k];
        [intros [] w h ha s H; apply effective_norm; lazy -[resolve];
         rewrite (resolve_sentinel _ _ s) by lia; reflexivity|]).
  destruct k; exact I.
Qed.

Definition lossless_view (o : opts) := (oQuality o, oMethod o, oExact o, oICC o, oEXIF o, oXMP o).

Theorem lossy_only_ignored_by_lossless : forall o o' w h ha ha',
  oLossless o = true -> oLossless o' = true -> lossless_view o = lossless_view o' ->
  validate o = false -> validate o' = false ->
  effective (Some o) w h ha = effective (Some o') w h ha'.
Proof.
  intros o o' w h ha ha' L L' Hv V V'. rewrite validate_eq in V, V'.
  rewrite 2 effective_eq. unfold effective_doc. rewrite V, V', L, L'.
  unfold lossless_view in Hv. injection Hv as -> -> -> -> -> ->. reflexivity.
Qed.

Example lossy_only_ignored_nonvacuous :
  let o := mkOpts true (FFin (75 * fscale)) 4 0 false false 0 (FFin 0) 0 (-1) (-1) 0 (-1) 0 (-1) (-1) false 0 (-1) (-1) (-1) (-1) 0 0 0 in
  let o' := mkOpts true (FFin (75 * fscale)) 4 5 true false 999 (FFin (40 * fscale)) 3 100 0 7 0 3 1 10 true 50 60 0 2 0 0 0 0 in
  validate o = false /\ validate o' = false /\ lossless_view o = lossless_view o' /\ o <> o'.
Proof. repeat split; try (vm_compute; reflexivity). discriminate. Qed.

Theorem no_effect_EmulateJpegSize : forall o b w h ha,
  effective (Some (set_bool F.fld_EmulateJpegSize b o)) w h ha = effective (Some o) w h ha.
Proof. intros [] b w h ha. apply effective_norm. reflexivity. Qed.

Theorem no_effect_Preset : forall o p w h ha, 0 <= p <= 5 -> 0 <= oPreset o <= 5 ->
  effective (Some (set_int F.fld_Preset p o)) w h ha = effective (Some o) w h ha.
Proof.
  intros [] p w h ha Hp Ho. cbn in Ho. rewrite 2 effective_eq.
  unfold effective_doc, validate_doc. cbn.
  replace (p <? 0) with false by lia. replace (p >? 5) with false by lia.
  replace (oPreset <? 0) with false by lia. replace (oPreset >? 5) with false by lia.
  reflexivity.
Qed.

Theorem preset_table : forall p q, options_for_preset p q = doc_preset p q.
Proof.
  intros p q. unfold options_for_preset, doc_preset. rewrite default_options_eq.
  change F.preset_table with doc_preset_table. cbn [doc_preset_table find fst snd].
  rewrite !(Z.eqb_sym _ p).
  (* [p] itself only lands in the Preset field: each row is compared with [p] symbolic *)
  do 5 (destruct (p =? _); [reflexivity|]). destruct (p =? 0); reflexivity.
Qed.

(** lossy.initPassStats resolves QMax once more (documented: only negative values mean 100).
    Holds since 17c8929 (rule [qmax < 0]); breaks if the rule changes back. *)
Theorem ratectl_honours_explicit_qmax_holds : forall v, 0 <= v <= 100 -> ratectl_qmax v = v.
Proof. intros v H. change (ratectl_qmax v) with (resolve (0, 100) v). apply resolve_keep, H. Qed.

(** Whatever comparison the rule uses ([<], [<=], none): a value above every threshold passes. *)
Lemma ratectl_rules_above : forall rules v, Forall (fun r : Z * Z * Z => snd (fst r) < v) rules ->
  fold_left (fun q r => let '(op, c, d) := r in if (if op =f? 0 then q <? c else q <=? c) then d else q) rules v = v.
Proof.
  induction rules as [|[[op c] d] t IH]; intros v H; [reflexivity|].
  inversion H as [|? ? Hc Ht]; subst. cbn [fold_left fst snd] in *.
  replace (if op =f? 0 then v <? c else v <=? c) with false by (destruct (op =f? 0); lia). exact (IH v Ht).
Qed.

Theorem ratectl_qmax_positive_honoured : forall v, 0 < v <= 100 -> ratectl_qmax v = v.
Proof. intros v H. apply ratectl_rules_above. repeat constructor; exact (proj1 H). Qed.

(** Historic defect, stated about a pinned definition that no run selects: with the rule
    [qmax <= 0 -> 100] the explicit value 0 was replaced by 100. *)
Definition pinned_ratectl_qmax_le_rule (v : Z) : Z := if v <=? 0 then 100 else v.
Theorem pinned_ratectl_le_rule_refuted : exists v, 0 <= v <= 100 /\ pinned_ratectl_qmax_le_rule v <> v.
Proof. exists 0. split; [lia|]. vm_compute. discriminate. Qed.

(** Documented ("QMin / QMax set the minimum / maximum quantizer value"): the quality handed to
    the lossy codec lies in [QMin, QMax]. *)
Definition quality_in_range : Prop := forall oo w h ha c a e s m,
  effective oo w h ha = Ok (ELossy c a e s m) -> cQMin c <= cQuality c <= cQMax c.

Definition ex_q90_range30 (tsize : Z) : opts :=
  mkOpts false (FFin (90 * fscale)) 4 0 false false tsize (FFin 0) 0 (-1) (-1) 0 (-1) 0 (-1) (-1) false 30 30 (-1) (-1) (-1) 0 0 0.

(** Refuted on the faithful model: without a target the range is ignored (Quality 90 with
    QMin = QMax = 30 is handed over as 90). *)
Theorem quality_in_range_refuted :
  exists o c a e s m, validate o = false /\ effective (Some o) 16 16 false = Ok (ELossy c a e s m) /\
                      cTargetSize c = 0 /\ cQMax c < cQuality c.
Proof.
  exists (ex_q90_range30 0). eexists. eexists. eexists. eexists. eexists.
  split; [vm_compute; reflexivity|]. split; [vm_compute; reflexivity|]. split; vm_compute; reflexivity.
Qed.

(** With a target the range holds (since d401cf2 the propagation block clamps, see [apply_clamps_eq]). *)
Theorem quality_in_range_when_target_holds : forall oo w h ha c a e s m,
  effective oo w h ha = Ok (ELossy c a e s m) ->
  (cTargetSize c >? 0) || fl_gt (cTargetPSNR c) 0 = true -> cQMin c <= cQuality c <= cQMax c.
Proof.
  intros oo w h ha c a e s m He Hg.
  destruct (effective_cases oo w h ha) as [(_ & E)|[(_ & _ & E)|(V & _ & _ & q & _ & E)]];
    rewrite E in He; try discriminate.
  unfold eff_doc in He. destruct (oLossless _); [discriminate|]. injection He as <- _ _ _ _.
  apply apply_clamps_in_range; [exact (proj2 (proj1 (dv_q _ V))) | exact Hg].
Qed.

(** Historic defect, about the pinned unclamped configuration [lossy_config_pre] (what the
    propagation block computed before d401cf2): Quality 90, QMin = QMax = 30, TargetSize 600. *)
Theorem pinned_unclamped_config_out_of_range :
  let c := lossy_config_pre (ex_q90_range30 600) 90 false in
  cTargetSize c = 600 /\ cQMax c = 30 /\ cQuality c = 90.
Proof. vm_compute. repeat split. Qed.

(** Field kinds ([F.opts_field_kinds], [kind_of]): 0 bool, 1 float32, 2 int, 3 blob (its length), 4 Preset. *)
Definition atom_fields (a : F.vatom) : list Z :=
  match a with
  | F.VLt f _ | F.VGt f _ | F.VNaN f | F.VInf f | F.VLenGt f _ | F.VResGt f _ _ _ => [f]
  | F.VGtRes f g _ _ => [f; g]
  end.
Definition field_ids : list Z := map Z.of_nat (seq 0 (length F.opts_field_kinds)).
Definition field_atoms (f : Z) : list F.vatom :=
  filter (fun a => existsb (Z.eqb f) (atom_fields a)) F.validate_atoms.
Definition field_rows (f : Z) : list (Z * Z * F.pkind) :=
  filter (fun r => snd (fst r) =? f) F.prop_table.
(** the generated per-field table: (field, kind, validation atoms, propagation rows) *)
Definition field_treatment : list (Z * Z * list F.vatom * list (Z * Z * F.pkind)) :=
  map (fun f => (f, kind_of f, field_atoms f, field_rows f)) field_ids.

Definition has_atom (p : F.vatom -> bool) (f : Z) : bool := existsb p (field_atoms f).

Theorem every_numeric_field_validated :
  forallb (fun f => (kind_of f =? 0) || negb (match field_atoms f with [] => true | _ => false end)) field_ids = true.
Proof. vm_compute. reflexivity. Qed.

Theorem every_float_field_rejects_nan_inf_negative :
  forallb (fun f => negb (kind_of f =? 1) ||
                    (has_atom (fun a => match a with F.VNaN _ => true | _ => false end) f &&
                     has_atom (fun a => match a with F.VInf _ => true | _ => false end) f &&
                     has_atom (fun a => match a with F.VLt _ 0 => true | _ => false end) f)) field_ids = true.
Proof. vm_compute. reflexivity. Qed.

Theorem every_int_field_bounded_above_except_target_size :
  forallb (fun f => negb ((kind_of f =? 2) || (kind_of f =? 4)) || (f =? F.fld_TargetSize) ||
                    has_atom (fun a => match a with F.VGt _ _ | F.VResGt _ _ _ _ | F.VGtRes _ _ _ _ => true | _ => false end) f) field_ids = true.
Proof. vm_compute. reflexivity. Qed.

(** A field left at its DefaultOptions() value resolves to the documented default, whatever the
    other fields are. *)
Theorem default_resolves_to_documented : forall o q ha,
  (oSNSStrength o = -1 -> cSNS (lossy_config o q ha) = doc_SNSStrength) /\
  (oFilterStrength o = -1 -> cFStrength (lossy_config o q ha) = doc_FilterStrength) /\
  (oFilterType o = -1 -> cFType (lossy_config o q ha) = doc_FilterType) /\
  (oSegments o = -1 -> cSegments (lossy_config o q ha) = doc_Segments) /\
  (oPass o = -1 -> cPass (lossy_config o q ha) = doc_Pass) /\
  (oQMax o = -1 -> cQMax (lossy_config o q ha) = doc_QMax) /\
  (oQMin o = 0 -> cQMin (lossy_config o q ha) = 0) /\
  (oPartitions o = 0 -> cPartitions (lossy_config o q ha) = 0) /\
  (oFilterSharpness o = 0 -> cFSharpness (lossy_config o q ha) = 0) /\
  (oMethod o = 4 -> cMethod (lossy_config o q ha) = 4) /\
  (oAlphaCompression o = -1 -> aMethod (alpha_config o) = 1) /\
  (oAlphaFiltering o = -1 -> aFilter (alpha_config o) = 4) /\
  (oAlphaQuality o = -1 -> aQuality (alpha_config o) = doc_AlphaQuality).
Proof.
  intros o q ha. rewrite lossy_config_eq, alpha_config_eq, apply_clamps_eq.
  unfold set_quality, lossy_config_doc, alpha_config_doc, rq, rs. cbn.
  repeat split; intros ->; reflexivity.
Qed.

(** The zero value EncoderOptions{} is accepted and is NOT DefaultOptions(): it means quality 0,
    method 0, no SNS, no filter, raw unfiltered alpha at quality 0; only Segments and Pass fall
    back to their defaults. *)
Theorem zero_value_options_resolve_to : forall w h ha, 1 <= w <= 16383 -> 1 <= h <= 16383 ->
  effective (Some zero_opts) w h ha =
  Ok (ELossy (mkL 0 0 (FFin 0) 0 0 0 0 0 0 4 1 0 None 0 0 (if ha then 1 else 0)) (mkA 0 0 0 0) false false (0, 0, 0)).
Proof.
  intros w h ha Hw Hh. rewrite (effective_dims _ w h) by assumption. destruct ha; vm_compute; reflexivity.
Qed.

Definition doc_preprocessing_tests : list (Z * Z) := [(1, 1)].
Lemma preprocessing_tests_match_doc : F.lossy_preprocessing_tests = doc_preprocessing_tests /\ F.dither_mask = 2.
Proof. split; reflexivity. Qed.

(** Segment smoothing is on iff bit 0 is set (and several segments are used), dithering iff bit 1:
    the documented table 0 none, 1 segment smooth, 2 dithering, 3 both. *)
Theorem preprocessing_bits_meaning : forall oo w h ha c a e s m,
  effective oo w h ha = Ok (ELossy c a e s m) ->
  0 <= cPreprocessing c <= 3 /\
  segment_smooth_on c = ((cSegments c >? 1) && ((cPreprocessing c =? 1) || (cPreprocessing c =? 3))) /\
  dither_on c = ((cPreprocessing c =? 2) || (cPreprocessing c =? 3)).
Proof.
  intros oo w h ha c a e s m He.
  destruct (validate_complete oo w h ha _ He) as (_ & _ & Hp & _).
  destruct (lossy_pre_dither c Hp) as (Hprep & Hd1 & Hd2).
  clear He Hp. split; [exact Hprep|].
  unfold segment_smooth_on, dither_on. change F.lossy_preprocessing_tests with doc_preprocessing_tests.
  assert (Hc : cPreprocessing c = 0 \/ cPreprocessing c = 1 \/ cPreprocessing c = 2 \/ cPreprocessing c = 3) by lia.
  (* [lossy_pre] ties the dithering to bit 1; the rest is the four values *)
  destruct (cDither c) as [q|]; [destruct (Hd1 q eq_refl) as [_ Hn] | pose proof (Hd2 eq_refl) as Hn];
    destruct Hc as [E|[E|[E|E]]]; rewrite E in *; cbn in *; split; (reflexivity || congruence).
Qed.
