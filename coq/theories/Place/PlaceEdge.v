(** C19 — edge replication: the direct import path (read x < w, replicate the last value up to
    the padded width) equals the serial path (clamp both coordinates). *)
From Coq Require Import ZArith List Bool Lia.
From Coq Require Import ZifyBool.
From Webp Require Import Base.Res Place.PlaceModel Place.PlaceProof.
Import ListNotations.
Open Scope Z_scope.

Lemma clamp_row {T} : forall (G : Z -> T) (d : T) w n, 1 <= w <= n ->
  map (fun x => G (clampi w x)) (zrange n) = replicate_to d (map G (zrange w)) n.
Proof.
  intros G d w n H. unfold replicate_to. rewrite map_length, zrange_length, last_map_zrange by lia.
  replace n with (w + (n - w)) at 1 by lia. rewrite zrange_app by lia. rewrite map_app, map_map. f_equal.
  - apply map_ext_in. intros x Hx. apply In_zrange in Hx. unfold clampi. replace (x >=? w) with false by lia. reflexivity.
  - rewrite (map_ext_in _ (fun _ => G (w - 1))).
    + rewrite map_const_repeat, zrange_length. f_equal. lia.
    + intros k Hk. apply In_zrange in Hk. unfold clampi. replace (w + k >=? w) with true by lia. reflexivity.
Qed.

Lemma pad16_ge : forall n, 1 <= n -> n <= pad16 n.
Proof.
  intros n H. unfold pad16. pose proof (Z.div_mod (n + 15) 16 ltac:(lia)). pose proof (Z.mod_pos_bound (n + 15) 16 ltac:(lia)). lia.
Qed.

(** On any h x w matrix given by a function: replicating the last value of a row clamped to h - 1
    is reading with both coordinates clamped. *)
Lemma import_rows_eq_serial {T} : forall (F : px -> T) d (g : Z -> Z -> px) w h, 1 <= w -> 1 <= h ->
  let p := map (fun y => map (fun x => g x y) (zrange w)) (zrange h) in
  gen_import_rows F d w h p = gen_import_rows_serial F w h p.
Proof.
  intros F d g w h Hw Hh p. unfold gen_import_rows, gen_import_rows_serial.
  apply map_ext_in. intros y Hy. apply In_zrange in Hy. cbv zeta.
  pose proof (clampi_range h y Hh ltac:(lia)) as Hc.
  unfold p. rewrite (nth_zrange_map (fun y => map (fun x => g x y) (zrange w))) by assumption. rewrite map_map.
  rewrite <- (clamp_row (fun x => F (g x (clampi h y))) d w (pad16 w)) by (split; [lia|apply pad16_ge; lia]).
  apply map_ext_in. intros x Hx. apply In_zrange in Hx.
  rewrite (nth_zrange_map (fun x => g x (clampi h y))) by (apply clampi_range; lia). reflexivity.
Qed.

Theorem edge_replication {T} : forall (F : px -> T) d pl, valid pl ->
  fast_import_rows F d pl = fast_import_rows_serial F pl.
Proof.
  intros F d pl V. rewrite (fast_import_rows_ok F d pl V), (fast_import_rows_serial_ok F pl V). f_equal.
  destruct V as [(_ & _ & _ & _ & Hw & Hh) _]. exact (import_rows_eq_serial F d (pix_at pl) _ _ Hw Hh).
Qed.
