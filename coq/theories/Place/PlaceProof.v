(** C19 — proofs: every fast path of a valid placement reads exactly the pixels of the
    picture, never panics, and therefore depends on the picture only. *)
From Coq Require Import ZArith List Bool Lia.
From Coq Require Import ZifyBool.
From Webp Require Import Base.Res Place.PlaceModel.
From Webp Require Import Base.ListFacts.
Import ListNotations.
Open Scope Z_scope.

Lemma In_zrange : forall n x, In x (zrange n) <-> 0 <= x < n.
Proof.
  intros n x. unfold zrange. rewrite in_map_iff. split.
  - intros [k [<- Hk]]. apply in_seq in Hk. lia.
  - intros H. exists (Z.to_nat x). split; [lia|]. apply in_seq. lia.
Qed.

Lemma zrange_length : forall n, length (zrange n) = Z.to_nat n.
Proof. intros. unfold zrange. rewrite map_length, seq_length. reflexivity. Qed.

Lemma nth_zrange_map {T} : forall (f : Z -> T) n i d, 0 <= i < n ->
  nth (Z.to_nat i) (map f (zrange n)) d = f i.
Proof.
  intros f n i d H. unfold zrange. rewrite map_map.
  rewrite (nth_indep _ d (f (Z.of_nat 0))) by (rewrite map_length, seq_length; lia).
  rewrite (map_nth (fun k => f (Z.of_nat k)) (seq 0 (Z.to_nat n)) 0%nat).
  rewrite seq_nth by lia. f_equal. lia.
Qed.

Lemma zrange_app : forall a b, 0 <= a -> 0 <= b -> zrange (a + b) = zrange a ++ map (fun k => a + k) (zrange b).
Proof.
  intros a b Ha Hb. unfold zrange. rewrite Z2Nat.inj_add by lia. rewrite seq_app, map_app. f_equal.
  cbn [plus]. rewrite (seq_shift0 (Z.to_nat a)), !map_map. apply map_ext_in. intros k _. lia.
Qed.

Lemma map_const_repeat {A B} : forall (c : B) (l : list A), map (fun _ => c) l = repeat c (length l).
Proof. induction l; cbn; congruence. Qed.

Lemma last_map_zrange {T} : forall (G : Z -> T) w d, 1 <= w -> last (map G (zrange w)) d = G (w - 1).
Proof.
  intros G w d Hw. replace w with ((w - 1) + 1) at 1 by lia. rewrite zrange_app by lia.
  change (zrange 1) with [0]. cbn [map]. rewrite map_app. cbn [map]. rewrite last_last. f_equal. lia.
Qed.

Lemma mapR_ok {A B} : forall (f : A -> Res B) (g : A -> B) l,
  (forall a, In a l -> f a = Ok (g a)) -> mapR f l = Ok (map g l).
Proof.
  intros f g l. induction l as [|a t IH]; intros H; cbn; [reflexivity|].
  rewrite (H a) by (left; reflexivity). cbn. rewrite IH by (intros; apply H; right; assumption). reflexivity.
Qed.

Lemma mapR2_ok {A B C} : forall (f : A -> B -> Res C) (g : A -> B -> C) ys xs,
  (forall y x, In y ys -> In x xs -> f y x = Ok (g y x)) ->
  mapR (fun y => mapR (f y) xs) ys = Ok (map (fun y => map (g y) xs) ys).
Proof.
  intros f g ys xs H. apply mapR_ok. intros y Hy. apply mapR_ok. intros x Hx. apply H; assumption.
Qed.

Lemma scan_alpha_ok : forall l, scan_alpha (map Ok l) = Ok (existsb (fun a => negb (a =? 255)) l).
Proof.
  induction l as [|a t IH]; cbn; [reflexivity|]. destruct (a =? 255); cbn; [exact IH|reflexivity].
Qed.

Lemma existsb_flat {T} : forall (f : T -> bool) (ll : list (list T)),
  existsb f (concat ll) = existsb (existsb f) ll.
Proof.
  induction ll as [|l t IH]; cbn; [reflexivity|]. rewrite existsb_app, IH. reflexivity.
Qed.

Lemma scan_alpha_rows {P} : forall (a : P -> Z) rows,
  scan_alpha (concat (map (map (fun p => Ok (a p))) rows)) = Ok (any_transparent (map (map a) rows)).
Proof.
  intros a rows. rewrite (map_ext _ (fun r => map Ok (map a r))) by (intros; symmetry; apply map_map).
  rewrite <- (map_map (map a) (map Ok)), <- concat_map, scan_alpha_ok, existsb_flat. reflexivity.
Qed.

Lemma clampi_range : forall n i, 1 <= n -> 0 <= i -> 0 <= clampi n i < n.
Proof. intros n i Hn Hi. unfold clampi. destruct (i >=? n) eqn:E; lia. Qed.

Lemma index_nth : forall (l : list Z) i, 0 <= i < Z.of_nat (length l) -> index l i = Ok (nth (Z.to_nat i) l 0).
Proof.
  intros l i H. unfold index.
  replace ((0 <=? i) && (i <? Z.of_nat (length l))) with true by lia.
  rewrite (nth_error_nth' l 0) by lia. reflexivity.
Qed.

Definition valid (pl : placement) : Prop := wf pl /\ validb pl = true.

Section Picture.
  Variable pl : placement.

  (** offset of byte c of logical pixel (x, y) *)
  Definition off (x y c : Z) : Z := y * pStride pl + x * 4 + c.

  Definition pix_at (x y : Z) : px := (pxb pl (off x y 0), pxb pl (off x y 1), pxb pl (off x y 2), pxb pl (off x y 3)).
  Definition pic : list (list px) := map (fun y => map (fun x => pix_at x y) (zrange (pw pl))) (zrange (ph pl)).

  Lemma map2_pic {T} : forall (f : Z -> Z -> T) (g : px -> T),
    (forall x y, 0 <= x < pw pl -> 0 <= y < ph pl -> f y x = g (pix_at x y)) ->
    map (fun y => map (f y) (zrange (pw pl))) (zrange (ph pl)) = map (map g) pic.
  Proof.
    intros f g H. unfold pic. rewrite map_map. apply map_ext_in. intros y Hy. apply In_zrange in Hy.
    rewrite map_map. apply map_ext_in. intros x Hx. apply In_zrange in Hx. apply H; assumption.
  Qed.

  Lemma mapR2_pic {T} : forall (f : Z -> Z -> Res T) (g : px -> T),
    (forall x y, 0 <= x < pw pl -> 0 <= y < ph pl -> f y x = Ok (g (pix_at x y))) ->
    mapR (fun y => mapR (f y) (zrange (pw pl))) (zrange (ph pl)) = Ok (map (map g) pic).
  Proof.
    intros f g H. rewrite (mapR2_ok f (fun y x => g (pix_at x y))).
    - f_equal. apply map2_pic. reflexivity.
    - intros y x Hy Hx. apply In_zrange in Hy. apply In_zrange in Hx. apply H; assumption.
  Qed.

  Lemma pic_row : forall y, 0 <= y < ph pl ->
    nth (Z.to_nat y) pic [] = map (fun x => pix_at x y) (zrange (pw pl)).
  Proof. intros y Hy. apply (nth_zrange_map (fun y => map (fun x => pix_at x y) (zrange (pw pl)))). assumption. Qed.
End Picture.

Section Valid.
  Variable pl : placement.
  Hypothesis V : valid pl.

  Lemma valid_facts :
    pStride pl >= pw pl * 4 /\ plen pl >= (ph pl - 1) * pStride pl + pw pl * 4 /\ 1 <= pw pl /\ 1 <= ph pl.
  Proof. destruct V as [(_ & _ & _ & _ & Hw & Hh) Hv]. unfold validb in Hv. lia. Qed.

  Lemma off_range : forall x y c, 0 <= x < pw pl -> 0 <= y < ph pl -> 0 <= c < 4 -> 0 <= off pl x y c < plen pl.
  Proof.
    intros x y c Hx Hy Hc. destruct valid_facts as (H1 & H2 & H3 & H4). unfold off.
    assert (0 <= pStride pl) by lia.
    assert (y * pStride pl <= (ph pl - 1) * pStride pl) by (apply Z.mul_le_mono_nonneg_r; lia).
    assert (0 <= y * pStride pl) by (apply Z.mul_nonneg_nonneg; lia).
    lia.
  Qed.

  (** Every read of the fast paths is at some [o = off x y c]; each path writes [o] its own way. *)
  Lemma rd_off : forall x y c o, 0 <= x < pw pl -> 0 <= y < ph pl -> 0 <= c < 4 -> o = off pl x y c ->
    rd pl o = Ok (pxb pl (off pl x y c)).
  Proof. intros x y c o Hx Hy Hc ->. unfold rd, pxb. apply index_nth. apply off_range; assumption. Qed.

  Lemma rd4_off : forall x y o, 0 <= x < pw pl -> 0 <= y < ph pl -> o = off pl x y 0 -> rd4 pl o = Ok (pix_at pl x y).
  Proof.
    intros x y o Hx Hy ->. unfold rd4, pix_at.
    rewrite (rd_off x y 0), (rd_off x y 1), (rd_off x y 2), (rd_off x y 3) by (try assumption; unfold off; lia).
    reflexivity.
  Qed.

  Lemma bounds_eq :
    bMinX pl = rMinX pl /\ bMinY pl = rMinY pl /\ rMaxX pl = rMinX pl + pw pl /\ rMaxY pl = rMinY pl + ph pl.
  Proof. destruct V as [(A & B & C & D & _) _]. unfold pw, ph. lia. Qed.

  (** Bounds = Rect: the row offsets of the source reduce to y * Stride. *)
  Lemma row_off_eq : forall y, row_off pl y = y * pStride pl.
  Proof. intros. destruct bounds_eq as (A & B & _). unfold row_off. rewrite A, B. lia. Qed.

  Lemma src_base_eq : src_base pl = 0.
  Proof. destruct bounds_eq as (A & B & _). unfold src_base. rewrite A, B. lia. Qed.

  (** the generic At() path never panics and defines the picture *)
  Theorem picture_ok : picture pl = Ok (pic pl).
  Proof.
    unfold picture, pic. apply mapR2_ok. intros y x Hy Hx.
    apply In_zrange in Hy. apply In_zrange in Hx. destruct bounds_eq as (A & B & C & D).
    unfold at_generic.
    replace ((rMinX pl <=? bMinX pl + x) && (bMinX pl + x <? rMaxX pl) && (rMinY pl <=? bMinY pl + y) && (bMinY pl + y <? rMaxY pl))
      with true by lia.
    apply rd4_off; try assumption. unfold off. rewrite A, B. lia.
  Qed.
End Valid.

Lemma in_bounds_offsets_in_range : forall pl, wf pl -> validb pl = true ->
  forall x y c, 0 <= x < pw pl -> 0 <= y < ph pl -> 0 <= c < 4 ->
  0 <= off pl x y c < plen pl /\ y * pStride pl <= off pl x y c < y * pStride pl + pw pl * 4.
Proof.
  intros pl W V x y c Hx Hy Hc. split; [exact (off_range pl (conj W V) x y c Hx Hy Hc)|].
  unfold off. lia.
Qed.

(** [f] is [g] of the dimensions and the picture, on every valid placement. *)
Definition through_picture {A} (f : placement -> A) (g : Z -> Z -> list (list px) -> A) : Prop :=
  forall pl, valid pl -> f pl = g (pw pl) (ph pl) (pic pl).

Theorem fast_argb_ok : through_picture fast_argb (fun _ _ p => Ok (gen_argb p)).
Proof.
  intros pl V. unfold fast_argb. rewrite (proj2 V). apply (mapR2_pic pl). intros x y Hx Hy.
  rewrite (rd4_off pl V x y) by (try assumption; rewrite (row_off_eq pl V); unfold off; lia). reflexivity.
Qed.

Theorem fast_extract_alpha_ok : through_picture fast_extract_alpha (fun _ _ p => Ok (gen_alpha p)).
Proof.
  intros pl V. unfold fast_extract_alpha. rewrite (proj2 V). apply (mapR2_pic pl _ alpha_of). intros x y Hx Hy.
  rewrite (row_off_eq pl V). apply (rd_off pl V x y 3); try assumption; unfold off; lia.
Qed.

Theorem fast_sharp_rgb_ok : through_picture fast_sharp_rgb (fun _ _ p => Ok (gen_sharp_rgb p)).
Proof.
  intros pl V. unfold fast_sharp_rgb. rewrite (proj2 V). apply (mapR2_pic pl _ rgb_of). intros x y Hx Hy. cbv zeta.
  rewrite (rd_off pl V x y 0), (rd_off pl V x y 1), (rd_off pl V x y 2)
    by (try assumption; rewrite ?(row_off_eq pl V); unfold off; lia).
  reflexivity.
Qed.

Theorem fast_cleanup_copy_ok : through_picture fast_cleanup_copy (fun _ _ p => Ok p).
Proof.
  intros pl V. unfold fast_cleanup_copy. rewrite (proj2 V). unfold pic.
  apply mapR_ok. intros y Hy. apply In_zrange in Hy. cbv zeta. rewrite (row_off_eq pl V).
  destruct (valid_facts pl V) as (H1 & H2 & H3 & H4).
  (* the slice bounds: first byte of pixel 0 and last byte of pixel w-1 of the row *)
  pose proof (off_range pl V 0 y 0 ltac:(lia) Hy ltac:(lia)) as R0.
  pose proof (off_range pl V (pw pl - 1) y 3 ltac:(lia) Hy ltac:(lia)) as R1. unfold off in R0, R1.
  replace ((0 <=? y * pStride pl) && (y * pStride pl <=? y * pStride pl + pw pl * 4) && (y * pStride pl + pw pl * 4 <=? plen pl))
    with true by lia.
  apply f_equal, map_ext. intros x. unfold pix_at, off. rewrite Z.add_0_r. reflexivity.
Qed.

Theorem fast_root_has_alpha_ok : through_picture fast_root_has_alpha (fun _ _ p => Ok (gen_has_alpha p)).
Proof.
  intros pl V. unfold fast_root_has_alpha. rewrite (proj2 V), flat_map_concat_map.
  rewrite (map2_pic pl _ (fun p => Ok (alpha_of p))); [apply scan_alpha_rows|]. intros x y Hx Hy.
  apply (rd_off pl V x y 3); try assumption; unfold off; lia.
Qed.

Theorem fast_lossy_has_alpha_ok : through_picture fast_lossy_has_alpha (fun _ _ p => Ok (gen_has_alpha p)).
Proof.
  intros pl V. unfold fast_lossy_has_alpha. rewrite (mapR2_pic pl _ alpha_of); [reflexivity|].
  intros x y Hx Hy. destruct (bounds_eq pl V) as (A & B & _). rewrite A, B.
  apply (rd_off pl V x y 3); try assumption; unfold off; lia.
Qed.

Theorem fast_import_rows_ok {T} : forall (F : px -> T) d,
  through_picture (fast_import_rows F d) (fun w h p => Ok (gen_import_rows F d w h p)).
Proof.
  intros F d pl V. unfold fast_import_rows, gen_import_rows.
  apply mapR_ok. intros y Hy. apply In_zrange in Hy. cbv zeta. destruct (valid_facts pl V) as (H1 & H2 & H3 & H4).
  fold (clampi (ph pl) y). set (sy := clampi (ph pl) y).
  assert (Hsy : 0 <= sy < ph pl) by (apply clampi_range; lia).
  rewrite (mapR_ok _ (fun x => F (pix_at pl x sy))).
  - cbn [bind]. rewrite (pic_row pl), map_map by assumption. reflexivity.
  - intros x Hx. apply In_zrange in Hx.
    rewrite (rd4_off pl V x sy) by (try assumption; rewrite (src_base_eq pl V); unfold off; lia). reflexivity.
Qed.

Theorem fast_import_rows_serial_ok {T} : forall (F : px -> T),
  through_picture (fast_import_rows_serial F) (fun w h p => Ok (gen_import_rows_serial F w h p)).
Proof.
  intros F pl V. unfold fast_import_rows_serial, gen_import_rows_serial.
  apply mapR2_ok. intros y x Hy Hx. apply In_zrange in Hy. apply In_zrange in Hx. cbv zeta.
  destruct (valid_facts pl V) as (H1 & H2 & H3 & H4). destruct (bounds_eq pl V) as (A & B & _).
  set (cy := clampi (ph pl) y). set (cx := clampi (pw pl) x).
  assert (Hcy : 0 <= cy < ph pl) by (apply clampi_range; lia).
  assert (Hcx : 0 <= cx < pw pl) by (apply clampi_range; lia).
  rewrite (pic_row pl) by assumption. rewrite (nth_zrange_map (fun x => pix_at pl x cy)) by assumption.
  rewrite (rd4_off pl V cx cy); [reflexivity|assumption|assumption|].
  (* the source clamps y + Min.Y against Min.Y + h *)
  subst cy cx. unfold clampi, off. rewrite A, B.
  replace (y + rMinY pl >=? rMinY pl + ph pl) with (y >=? ph pl) by lia.
  destruct (y >=? ph pl); lia.
Qed.

Lemma pic_eq : forall pl1 pl2, valid pl1 -> valid pl2 -> picture pl1 = picture pl2 -> pic pl1 = pic pl2.
Proof.
  intros pl1 pl2 V1 V2 E. rewrite (picture_ok pl1 V1), (picture_ok pl2 V2) in E.
  injection E. trivial.
Qed.

Lemma pic_dims : forall pl, 1 <= ph pl ->
  length (pic pl) = Z.to_nat (ph pl) /\ length (nth 0 (pic pl) []) = Z.to_nat (pw pl).
Proof.
  intros pl H. split; [unfold pic|change 0%nat with (Z.to_nat 0); rewrite (pic_row pl 0) by lia];
    rewrite map_length, zrange_length; reflexivity.
Qed.

Lemma same_picture_same_dims : forall pl1 pl2, valid pl1 -> valid pl2 -> picture pl1 = picture pl2 ->
  pw pl1 = pw pl2 /\ ph pl1 = ph pl2.
Proof.
  intros pl1 pl2 V1 V2 E. pose proof (pic_eq pl1 pl2 V1 V2 E) as Ep.
  destruct (proj1 V1) as (_ & _ & _ & _ & Hw1 & Hh1). destruct (proj1 V2) as (_ & _ & _ & _ & Hw2 & Hh2).
  destruct (pic_dims pl1 Hh1) as [L1 R1]. destruct (pic_dims pl2 Hh2) as [L2 R2].
  rewrite Ep in L1, R1. lia.
Qed.

Theorem through_picture_generic {A} {f : placement -> A} {g} : through_picture f g ->
  forall pl p, valid pl -> picture pl = Ok p -> f pl = g (pw pl) (ph pl) p.
Proof.
  intros H pl p V E. rewrite (picture_ok pl V) in E. injection E as <-. exact (H pl V).
Qed.

Theorem through_picture_indep {A} {f : placement -> A} {g} : through_picture f g ->
  forall pl1 pl2, valid pl1 -> valid pl2 -> picture pl1 = picture pl2 -> f pl1 = f pl2.
Proof.
  intros H pl1 pl2 V1 V2 E. destruct (same_picture_same_dims pl1 pl2 V1 V2 E) as [Ew Eh].
  rewrite (H pl1 V1), (H pl2 V2), (pic_eq pl1 pl2 V1 V2 E), Ew, Eh.
  reflexivity.
Qed.

Definition same_geometry (pl1 pl2 : placement) : Prop :=
  pStride pl1 = pStride pl2 /\ rMinX pl1 = rMinX pl2 /\ rMinY pl1 = rMinY pl2 /\ rMaxX pl1 = rMaxX pl2 /\
  rMaxY pl1 = rMaxY pl2 /\ bMinX pl1 = bMinX pl2 /\ bMinY pl1 = bMinY pl2 /\ bMaxX pl1 = bMaxX pl2 /\ bMaxY pl1 = bMaxY pl2.

Definition agree_in_bounds (pl1 pl2 : placement) : Prop :=
  forall x y c, 0 <= x < pw pl1 -> 0 <= y < ph pl1 -> 0 <= c < 4 ->
    pxb pl1 (off pl1 x y c) = pxb pl2 (off pl2 x y c).

(** The picture is the in-bounds bytes and nothing else: strides and positions may even differ. *)
Theorem same_bytes_same_picture : forall pl1 pl2,
  valid pl1 -> valid pl2 -> pw pl1 = pw pl2 -> ph pl1 = ph pl2 -> agree_in_bounds pl1 pl2 ->
  picture pl1 = picture pl2.
Proof.
  intros pl1 pl2 V1 V2 Ew Eh A.
  rewrite (picture_ok pl1 V1), (picture_ok pl2 V2). f_equal.
  unfold pic. rewrite <- Ew, <- Eh.
  apply map_ext_in. intros y Hy. apply In_zrange in Hy.
  apply map_ext_in. intros x Hx. apply In_zrange in Hx.
  unfold pix_at. rewrite !A by lia. reflexivity.
Qed.

Theorem outside_bounds_irrelevant : forall pl1 pl2,
  valid pl1 -> valid pl2 -> same_geometry pl1 pl2 -> agree_in_bounds pl1 pl2 ->
  picture pl1 = picture pl2.
Proof.
  intros pl1 pl2 V1 V2 (_ & _ & _ & _ & _ & G5 & G6 & G7 & G8) A.
  apply same_bytes_same_picture; try assumption; [unfold pw|unfold ph]; lia.
Qed.

(** the picture [[(1,2,3,4); (5,6,7,8)]] (2x1) at the origin and as a sub-image view at
    (3,5) of a parent with stride 28 and noise around it *)
Definition ex_origin : placement := mkPl [1; 2; 3; 4; 5; 6; 7; 8] 8 0 0 2 1 0 0 2 1.
Definition ex_sub : placement :=
  mkPl [1; 2; 3; 4; 5; 6; 7; 8; 99; 98; 97; 96; 95; 94] 28 3 5 5 6 3 5 5 6.

Example ex_valid : valid ex_origin /\ valid ex_sub /\ picture ex_origin = picture ex_sub /\ pPix ex_origin <> pPix ex_sub.
Proof. unfold valid, wf. cbn. repeat split; try lia; try discriminate. Qed.

(** A 2x2 placement whose Pix is one row short: without validNRGBA the unguarded lossy paths
    index out of range, and so does the generic At() path the guarded extractAlphaWith falls back to. *)
Definition ex_short : placement := mkPl [1; 2; 3; 255; 5; 6; 7; 255] 8 0 0 2 2 0 0 2 2.
Example short_placement_panics :
  validb ex_short = false /\ fast_lossy_has_alpha ex_short = Panic /\ fast_import_rows rgb_to_y 0 ex_short = Panic /\
  fast_extract_alpha ex_short = Panic.
Proof. vm_compute. repeat split. Qed.
