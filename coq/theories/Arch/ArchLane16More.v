(** C13 — further lane models: dequantisation, the packed U/V interpolation of
    the fancy upsampler, DC predictors (PSADBW), block compositions of SSE and
    of the Hadamard distortion, chunked (8-/4-lane + scalar tail) row kernels,
    and the non-zero scan of the quantiser. *)
From Coq Require Import ZArith List Bool Lia.
From Coq Require Import ZifyBool ZifyNat ZifyN.
From Webp Require Import Base.Res Arch.ArchLane16 Arch.ArchLane16Proofs.
Import ListNotations.
Open Scope Z_scope.

(** * DequantCoeffs (dequantCoeffsGo: int16(int(in) * q); dequantCoeffsSSE2:
    PMULLW for all sixteen lanes with q broadcast, then the DC redone with a
    32-bit IMUL and a 16-bit store). *)
Definition dequant_go (x q : Z) : Z := wrap16 (x * q).
Definition pmullw (a b : Z) : Z := wrap16 (a * b).                (* low 16 bits of the lane product *)
Definition dequant_lane_ac (x q : Z) : Z := pmullw x (wrap16 q).
Definition dequant_lane_dc (x dcq : Z) : Z := wrap16 (wrap32 (x * wrap32 dcq)).

Theorem lane_dequant_eq : forall x q, int16 x -> 0 <= q <= 32767 ->
  dequant_lane_ac x q = dequant_go x q /\ dequant_lane_dc x q = dequant_go x q.
Proof.
  intros x q Hx Hq. unfold dequant_lane_ac, dequant_lane_dc, dequant_go, pmullw.
  rewrite (wrap16_id q) by (unfold int16; lia). rewrite (wrap32_id q) by lia.
  split; [reflexivity|]. f_equal. apply wrap32_id. unfold int16 in Hx. nia.
Qed.

(** * Chroma interpolation of the fancy upsampler (upsampleLinePairNRGBAGo and
    the amd64 wrapper): U and V travel packed in one uint32 (u | v << 16); the
    9-3-3-1 kernel is evaluated in two halving steps on the packed word.
    [interp_def] is the definition: (9a + 3b + 3c + d + 8) >> 4. *)
Definition pack_uv (u v : Z) : Z := u + 65536 * v.
Definition interp_def (a b c d : Z) : Z := (9 * a + 3 * b + 3 * c + d + 8) / 16.
Definition edge_def (a b : Z) : Z := (3 * a + b + 2) / 4.
(** packed: avg = tl + t + l + b + 0x00080008; diag12 = (avg + 2*(t + l)) >> 3;
    out = (diag12 + tl) >> 1  (the pixel nearest to tl). *)
Definition interp_packed (tl t l b : Z) : Z :=
  let avg := tl + t + l + b + 524296 in
  let diag12 := (avg + 2 * (t + l)) / 8 in
  (diag12 + tl) / 2.
Definition edge_packed (a b : Z) : Z := (3 * a + b + 131074) / 4.
Definition lo8 (p : Z) : Z := p mod 256.
Definition hi8 (p : Z) : Z := (p / 65536) mod 256.

(** The low half stays below 2^12 after the halvings and never carries into the
    high half, which moves as a block. *)
Lemma packed_halving u v x y : 0 <= u -> 0 <= x ->
  ((u + 65536 * v) / 8 + (x + 65536 * y)) / 2 = (u / 8 + x) / 2 + 4096 * (v + 8 * y).
Proof. lia. Qed.

Lemma packed_fields w n : 0 <= w < 256 -> 0 <= n < 4096 ->
  lo8 (w + 4096 * n) = w /\ hi8 (w + 4096 * n) = n / 16.
Proof. unfold lo8, hi8. lia. Qed.

Theorem upsample_packed_eq : forall u0 v0 u1 v1 u2 v2 u3 v3,
  byte u0 -> byte v0 -> byte u1 -> byte v1 -> byte u2 -> byte v2 -> byte u3 -> byte v3 ->
  let p := interp_packed (pack_uv u0 v0) (pack_uv u1 v1) (pack_uv u2 v2) (pack_uv u3 v3) in
  lo8 p = interp_def u0 u1 u2 u3 /\ hi8 p = interp_def v0 v1 v2 v3.
Proof.
  unfold byte. intros u0 v0 u1 v1 u2 v2 u3 v3 A0 B0 A1 B1 A2 B2 A3 B3. unfold interp_packed, interp_def, pack_uv. cbv zeta.
  set (U := u0 + 3 * u1 + 3 * u2 + u3 + 8). set (V := v0 + 3 * v1 + 3 * v2 + v3 + 8).
  replace (u0 + 65536 * v0 + (u1 + 65536 * v1) + (u2 + 65536 * v2) + (u3 + 65536 * v3) + 524296 +
           2 * (u1 + 65536 * v1 + (u2 + 65536 * v2))) with (U + 65536 * V) by (subst U V; ring).
  rewrite packed_halving by (subst U; lia).
  replace (9 * u0 + 3 * u1 + 3 * u2 + u3 + 8) with (U + 8 * u0) by (subst U; ring).
  replace (9 * v0 + 3 * v1 + 3 * v2 + v3 + 8) with (V + 8 * v0) by (subst V; ring).
  assert (HU : 8 <= U <= 2048) by (subst U; lia). assert (HV : 8 <= V <= 2048) by (subst V; lia). clearbody U V.
  replace ((U + 8 * u0) / 16) with ((U / 8 + u0) / 2) by lia.
  apply packed_fields; lia.
Qed.

Theorem upsample_edge_packed_eq : forall u0 v0 u1 v1,
  byte u0 -> byte v0 -> byte u1 -> byte v1 ->
  let p := edge_packed (pack_uv u0 v0) (pack_uv u1 v1) in
  lo8 p = edge_def u0 u1 /\ hi8 p = edge_def v0 v1.
Proof. unfold byte, edge_packed, edge_def, pack_uv, lo8, hi8. cbv zeta. intros. split; lia. Qed.

(** * DC predictors (dc16, dc8uv; dc16asmSSE2, dc8uvasmSSE2)
    Go accumulates top[i] and left[i] alternately; SSE2 sums the top row with
    PSADBW (two 8-byte halves for 16x16) and the left column with scalar adds.
    (The VE / HE predictors only copy bytes and have no model here.) *)
Definition sumZ (l : list Z) : Z := fold_right Z.add 0 l.
Definition dc_go (top left : list Z) (shift round : Z) : Z :=
  (fold_left (fun acc tl => acc + fst tl + snd tl) (combine top left) 0 + round) / 2 ^ shift.
Definition psadbw8 (l : list Z) : Z := sumZ (firstn 8 l).    (* sum of |b - 0| over 8 bytes, 16-bit result *)
Definition dc16_lane (top left : list Z) : Z :=
  ((psadbw8 top + psadbw8 (skipn 8 top)) + sumZ left + 16) / 32.
Definition dc8_lane (top left : list Z) : Z := (psadbw8 top + sumZ left + 8) / 16.

Lemma sumZ_app a b : sumZ (a ++ b) = sumZ a + sumZ b.
Proof. unfold sumZ. induction a as [|x a IH]; cbn [app fold_right]; lia. Qed.

Lemma sumZ_split n l : sumZ (firstn n l) + sumZ (skipn n l) = sumZ l.
Proof. now rewrite <- sumZ_app, firstn_skipn. Qed.

Lemma fold_left_pairs l acc :
  fold_left (fun a (tl : Z * Z) => a + fst tl + snd tl) l acc = acc + sumZ (map fst l) + sumZ (map snd l).
Proof.
  revert acc. induction l as [|[x y] l IH]; intros acc; cbn [fold_left map sumZ fold_right fst snd]; [lia|].
  rewrite IH. unfold sumZ. lia.
Qed.

Lemma map_fst_snd_combine (a b : list Z) : length a = length b ->
  map fst (combine a b) = a /\ map snd (combine a b) = b.
Proof.
  revert b. induction a as [|x a IH]; intros [|y b] H; try discriminate; [split; reflexivity|].
  cbn [combine map fst snd]. injection H as H. destruct (IH b H) as [-> ->]. split; reflexivity.
Qed.

Theorem lane_dc16_eq : forall top left, length top = 16%nat -> length left = 16%nat ->
  dc16_lane top left = dc_go top left 5 16.
Proof.
  intros top left Ht Hl. unfold dc16_lane, dc_go, psadbw8. rewrite fold_left_pairs.
  destruct (map_fst_snd_combine top left ltac:(lia)) as [-> ->].
  change (2 ^ 5) with 32. f_equal.
  rewrite (firstn_all2 (skipn 8 top)) by (rewrite skipn_length; lia). pose proof (sumZ_split 8 top). lia.
Qed.

Theorem lane_dc8_eq : forall top left, length top = 8%nat -> length left = 8%nat ->
  dc8_lane top left = dc_go top left 4 8.
Proof.
  intros top left Ht Hl. unfold dc8_lane, dc_go, psadbw8. rewrite fold_left_pairs.
  destruct (map_fst_snd_combine top left ltac:(lia)) as [-> ->].
  change (2 ^ 4) with 16. now rewrite (firstn_all2 top) by lia.
Qed.

(** * SSE16x16 / SSE16x8 / SSE8x8 as compositions of blocks
    Any partition of the samples into blocks (rows of 16, 4x4 blocks, 8-byte
    halves as in the assembly loops): the lane SSE of the concatenation is the
    sum of the portable SSE of the blocks. *)
Lemma sse_list_app a1 a2 b1 b2 : length a1 = length b1 ->
  sse_list (a1 ++ a2) (b1 ++ b2) = sse_list a1 b1 + sse_list a2 b2.
Proof.
  unfold sse_list. revert b1. induction a1 as [|x a1 IH]; intros [|y b1] H; try discriminate; [cbn; lia|].
  injection H as H. cbn [app combine map fold_right fst snd]. rewrite (IH b1 H). lia.
Qed.

Definition sse_blocks (bs : list (list Z * list Z)) : Z :=
  fold_right (fun ab acc => sse_list (fst ab) (snd ab) + acc) 0 bs.

Lemma sse_list_concat bs : Forall (fun ab => length (fst ab) = length (snd ab)) bs ->
  sse_list (concat (map fst bs)) (concat (map snd bs)) = sse_blocks bs.
Proof.
  induction 1 as [|[a b] bs Hab _ IH]; [reflexivity|].
  cbn [map concat fst snd sse_blocks fold_right] in *. rewrite sse_list_app by exact Hab. rewrite IH. reflexivity.
Qed.

Theorem lane16_sse_blocks_eq : forall bs,
  Forall (fun ab => length (fst ab) = length (snd ab) /\ Forall byte (fst ab) /\ Forall byte (snd ab)) bs ->
  (length (concat (map fst bs)) <= 1024)%nat ->
  l_sse_list (concat (map fst bs)) (concat (map snd bs)) = sse_blocks bs.
Proof.
  intros bs H HL. rewrite lane16_sse_eq.
  - apply sse_list_concat. eapply Forall_impl; [|exact H]. intros ab (E & _ & _). exact E.
  - apply Forall_concat. rewrite Forall_map. eapply Forall_impl; [|exact H]. intros ab (_ & A & _). exact A.
  - apply Forall_concat. rewrite Forall_map. eapply Forall_impl; [|exact H]. intros ab (_ & _ & B). exact B.
  - exact HL.
Qed.

(** * TDisto16x16: both builds sum the sixteen 4x4 distortions. *)
Definition sum_res (l : list (Res Z)) : Res Z :=
  fold_right (fun r acc => x <- r ;; y <- acc ;; Ok (x + y)) (Ok 0) l.
Definition tdisto16 (w : list Z) (blocks : list (list Z * list Z)) : Res Z :=
  sum_res (map (fun ab => tdisto w (fst ab) (snd ab)) blocks).
Definition l_tdisto16 (w : list Z) (blocks : list (list Z * list Z)) : Res Z :=
  sum_res (map (fun ab => l_tdisto w (fst ab) (snd ab)) blocks).

Theorem lane16_tdisto16_eq : forall w blocks, Forall (fun x => 0 <= x <= 255) w ->
  Forall (fun ab => Forall byte (fst ab) /\ Forall byte (snd ab)) blocks ->
  l_tdisto16 w blocks = tdisto16 w blocks.
Proof.
  intros w blocks Hw H. unfold l_tdisto16, tdisto16. f_equal.
  apply map_ext_in. intros ab Hin. rewrite Forall_forall in H. destruct (H ab Hin) as [A B].
  apply lane16_tdisto_eq; assumption.
Qed.

(** * Row kernels processed in chunks (AVX2: 8 pixels, then SSE2: 4 pixels,
    then a scalar tail) equal the plain per-pixel map: AddGreenToBlueAndRed,
    SubtractGreen, the YUV->NRGBA batch. *)
Fixpoint chunked {A B} (k : nat) (f : A -> B) (fuel : nat) (l : list A) : list B :=
  match fuel with
  | O => map f l
  | S fuel' =>
    if (k <=? length l)%nat then map f (firstn k l) ++ chunked k f fuel' (skipn k l) else map f l
  end.

Lemma chunked_eq_map {A B} k (f : A -> B) fuel l : chunked k f fuel l = map f l.
Proof.
  revert l. induction fuel as [|fuel IH]; intros l; [reflexivity|]. cbn [chunked].
  destruct (k <=? length l)%nat; [|reflexivity].
  rewrite IH, <- map_app, firstn_skipn. reflexivity.
Qed.

(** 8-lane loop, then one optional 4-lane step, then the scalar tail - as in
    addGreenToBlueAndRedSSE2/AVX2: every schedule is the per-pixel map. *)
Definition row_8_4_1 {A B} (f8 f4 f1 : A -> B) (l : list A) : list B :=
  let n8 := (length l / 8 * 8)%nat in
  let rest := skipn n8 l in
  chunked 8 f8 (length l) (firstn n8 l) ++
  (if (4 <=? length rest)%nat then map f4 (firstn 4 rest) ++ map f1 (skipn 4 rest) else map f1 rest).

Theorem row_8_4_1_eq {A B} (f : A -> B) (l : list A) : row_8_4_1 f f f l = map f l.
Proof.
  unfold row_8_4_1. rewrite chunked_eq_map.
  set (n8 := (length l / 8 * 8)%nat). set (rest := skipn n8 l).
  assert (E : (if (4 <=? length rest)%nat then map f (firstn 4 rest) ++ map f (skipn 4 rest) else map f rest) = map f rest).
  { destruct (4 <=? length rest)%nat; [|reflexivity]. rewrite <- map_app, firstn_skipn. reflexivity. }
  rewrite E. subst rest. rewrite <- map_app, firstn_skipn. reflexivity.
Qed.

Definition add_green_px (p : Z) : Z := add_green_go p.
Theorem add_green_row_schedules_eq : forall row,
  row_8_4_1 add_green_go add_green_go add_green_go row = map add_green_go row /\
  row_8_4_1 sub_green_go sub_green_go sub_green_go row = map sub_green_go row.
Proof. intros row. split; apply row_8_4_1_eq. Qed.

(** * Non-zero scan of QuantizeCoeffs: Go keeps a running maximum of the
    zig-zag positions of the non-zero AC levels; nzCountACSSE2 blends
    (position or -1) per lane and reduces with PMAXSW in a tree. *)
Definition nz_val (zz x : Z) : Z := if x =? 0 then -1 else zz.
Definition nz_go (zz out : list Z) : Z :=
  fold_left (fun m zx => Z.max m (nz_val (fst zx) (snd zx))) (combine (tl zz) (tl out)) (-1).
Definition nz_lane (zz out : list Z) : Z :=
  match map (fun zx => nz_val (fst zx) (snd zx)) (combine (-1 :: tl zz) (0 :: tl out)) with
  | [a0; a1; a2; a3; a4; a5; a6; a7; b0; b1; b2; b3; b4; b5; b6; b7] =>
    (* PMAXSW lo,hi ; swap 64-bit halves ; swap word pairs ; swap adjacent words *)
    let c0 := Z.max a0 b0 in let c1 := Z.max a1 b1 in let c2 := Z.max a2 b2 in let c3 := Z.max a3 b3 in
    let c4 := Z.max a4 b4 in let c5 := Z.max a5 b5 in let c6 := Z.max a6 b6 in let c7 := Z.max a7 b7 in
    let d0 := Z.max c0 c4 in let d1 := Z.max c1 c5 in let d2 := Z.max c2 c6 in let d3 := Z.max c3 c7 in
    let e0 := Z.max d0 d2 in let e1 := Z.max d1 d3 in
    Z.max e0 e1
  | _ => -1
  end.

Lemma same_upper_bounds a b : (forall z, a <= z <-> b <= z) -> a = b.
Proof. intros H. apply Z.le_antisymm; [apply (proj2 (H b))|apply (proj1 (H a))]; apply Z.le_refl. Qed.

Theorem lane_nz_scan_eq : forall zz out, length zz = 16%nat -> length out = 16%nat ->
  nz_lane zz out = nz_go zz out.
Proof.
  intros zz out Hz Ho.
  do 17 (destruct zz as [|? zz]; try discriminate). do 17 (destruct out as [|? out]; try discriminate).
  unfold nz_lane, nz_go. cbn [tl combine map fold_left fst snd]. cbv zeta.
  unfold nz_val at 1. cbn [Z.eqb].
  (* both sides are nested maxima of -1 and the same fifteen values: a number bounds either iff it bounds each *)
  apply same_upper_bounds. intros ub. rewrite !Z.max_lub_iff. tauto.
Qed.
