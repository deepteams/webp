(** C13 — the int-width obligations over the constant list of [Gen/IntWidth.v]:
    complete finite checks ([vm_compute] over every listed constant). *)
From Coq Require Import ZArith List String Bool Lia.
From Webp Require Import Arch.ArchIntWidth.
From WebpGen Require IntWidth.
Import ListNotations.
Open Scope Z_scope.

Lemma no_int_constant_out_of_range : out_of_range fits_int32 IntWidth.int_constants = [].
Proof. vm_compute. reflexivity. Qed.

Lemma no_uint_constant_out_of_range : out_of_range fits_uint32 IntWidth.uint_constants = [].
Proof. vm_compute. reflexivity. Qed.

Lemma int_constants_fit_32bit : forall file l line col v,
  In (file, l) IntWidth.int_constants -> In (line, col, v) l -> -2^31 <= v < 2^31.
Proof.
  intros file l line col v Hf Hc. apply fits_int32_spec.
  exact (out_of_range_nil _ _ no_int_constant_out_of_range file l (line, col, v) Hf Hc).
Qed.

Lemma uint_constants_fit_32bit : forall file l line col v,
  In (file, l) IntWidth.uint_constants -> In (line, col, v) l -> 0 <= v < 2^32.
Proof.
  intros file l line col v Hf Hc. apply fits_uint32_spec.
  exact (out_of_range_nil _ _ no_uint_constant_out_of_range file l (line, col, v) Hf Hc).
Qed.

(** The list is the complete one the translator announced (guards against a
    truncated file) and is far from empty. *)
Lemma int_constant_list_is_complete :
  count_consts IntWidth.int_constants = IntWidth.int_constants_count /\
  count_consts IntWidth.uint_constants = IntWidth.uint_constants_count /\
  1000 <= IntWidth.int_constants_count /\ 10 <= IntWidth.uint_constants_count.
Proof. vm_compute. repeat split; discriminate. Qed.
