(** C13 — every assembly routine of the module (amd64 and arm64) pinned by the
    digest of its canonical body, and the DATA tables of the amd64 files by
    theirs.  The canonical body of an amd64 routine does not depend on comments,
    spacing, label names, a consistent renaming of registers, nor on the order of
    instructions inside a basic block as far as they do not depend on each other
    (tools/gosrc2v/asmparse.go, asmReorder: a deterministic topological order of
    the dependency graph over registers, flags and memory, memory treated
    conservatively).  The six routines whose lane model is derived from the
    instruction list by proof (ArchAsm.v) carry the mark "proved" instead of a
    digest: an edit of their body is judged by those proofs.  For the others the
    lane models were read from exactly these bodies: an edited body, a new or a
    removed routine changes [asm_digests] and breaks [asm_bodies_pinned]. *)
From Coq Require Import ZArith List String.
From WebpGen Require AsmAmd64.
Import ListNotations.
Open Scope string_scope.

Definition pinned_digests : list (string * string) := [
 ("addGreenToBlueAndRedAVX2", "b532122c9f5a0c4b");
 ("addGreenToBlueAndRedNEON", "5240ee48b01ffd66");
 ("addGreenToBlueAndRedSSE2", "d57d2f51ea2c8d9e");
 ("cpuidAVX2Check", "01d790632b1df781");
 ("dc16asmNEON", "22c3cc2b746d615a");
 ("dc16asmSSE2", "8c33f466103a4d63");
 ("dc8uvasmNEON", "cd896b7461b2167c");
 ("dc8uvasmSSE2", "e528289a28b1b320");
 ("dequantCoeffsSSE2", "70c36425841c6ba4");
 ("fTransformAVX2", "d9d52b79b5f60ca0");
 ("fTransformNEON", "0ea7bb9b9899753e");
 ("fTransformSSE2", "9779bbe71c252d0b");
 ("fTransformWHTNEON", "437da7603f97878d");
 ("fTransformWHTSSE2", "proved");
 ("he16asmNEON", "072e939ad723ba5a");
 ("he16asmSSE2", "6e2aaeb6ef23b8a0");
 ("he8uvasmNEON", "e56572f149e1d3b9");
 ("he8uvasmSSE2", "41ecaf20ec1d8875");
 ("iTransformOneAVX2", "proved");
 ("iTransformOneNEON", "7a1a9c7513174264");
 ("iTransformOneSSE2", "proved");
 ("nzCountACSSE2", "97fe93362a35e982");
 ("quantizeACAVX2", "5974a3a8742db5bb");
 ("quantizeACSSE2", "58dae87f790246d9");
 ("simpleVFilter16AVX2", "889949f3e847cd98");
 ("simpleVFilter16SSE2", "3febef6958e063dc");
 ("sse16x16AVX2", "c73d809f2bcb037d");
 ("sse16x16NEON", "a84a09e69a1bdd5d");
 ("sse16x16SSE2", "proved");
 ("sse4x4NEON", "2dfba460ece9ee49");
 ("sse4x4SSE2", "proved");
 ("subtractGreenAVX2", "e764d290c7698a6b");
 ("subtractGreenNEON", "dcf686d9617c9614");
 ("subtractGreenSSE2", "0a5167f3034fb0e0");
 ("tDisto4x4AVX2", "1be01a9d5f3d89f1");
 ("tDisto4x4SSE2", "3cc0f476d65932a1");
 ("tm16asmNEON", "3b06b55b441dfa0c");
 ("tm16asmSSE2", "3c2ce6d3fe69ccef");
 ("tm8uvasmNEON", "48b239481e740aa9");
 ("tm8uvasmSSE2", "9f4bb71f85fb4532");
 ("transformWHTNEON", "26ce1b15de80b7de");
 ("transformWHTSSE2", "proved");
 ("ve16asmNEON", "4552de528bd47c1d");
 ("ve16asmSSE2", "378eb74be93041da");
 ("ve8uvasmNEON", "25944432e0826973");
 ("ve8uvasmSSE2", "0ede511009443a42");
 ("yuvPackedToNRGBABatchAVX2", "6061c8949740be2d");
 ("yuvPackedToNRGBABatchSSE2", "25b7c950fb9e0c23")
].

Definition pinned_data_digest : string := "4a33599003dee710".

Lemma asm_bodies_pinned :
  AsmAmd64.asm_digests = pinned_digests /\ AsmAmd64.asm_data_digest = pinned_data_digest.
Proof. split; reflexivity. Qed.

(** The arm64 routines are emitted as instruction lists (mnemonic, raw operands)
    without a semantics: the list is complete. *)
Lemma arm64_lists_emitted :
  AsmAmd64.arm64_instruction_count = 924%Z /\
  List.length AsmAmd64.arm64_iTransformOneNEON = 106%nat.
Proof. split; reflexivity. Qed.
