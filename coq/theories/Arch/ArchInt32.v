(** C13 — the inverse DCT in 32-bit arithmetic.

    Two implementations compute the IDCT with 32-bit two's-complement words:
    - the arm64 routine iTransformOneNEON (transforms_arm64.s): the coefficients
      are widened to 32-bit lanes (SXTL), multiplied by 20091 / 35468 with a
      32-bit MUL, shifted with SSHR #16, and narrowed with saturation at the end;
    - the portable Go kernels transformOne / iTransformOne on every target whose
      [int] is 32 bits wide (386, arm, mips, mipsle): [(a * c2) >> 16] is an [int]
      product and wraps (Go defines signed overflow as wrapping).
    [idct32] models both: every [int] operation reduced with [wrap32].
    The 64-bit portable semantics is [ArchLane16.transform_one].  They agree
    whenever no 32-bit product overflows - for every coefficient block with
    |c| <= 15735 - and differ beyond, on blocks a valid stream can deliver. *)
From Coq Require Import ZArith List Bool Lia.
From Coq Require Import ZifyBool ZifyNat ZifyN.
From Webp Require Import Base.Res Arch.ArchLane16 Arch.ArchLane16Proofs.
Import ListNotations.
Open Scope Z_scope.

Definition mul1_32 (a : Z) : Z := wrap32 (wrap32 (a * kC1) / 65536 + a).
Definition mul2_32 (a : Z) : Z := wrap32 (a * kC2) / 65536.

Definition bfly32 (q : Q) : Q :=
  let '(x0, x1, x2, x3) := q in
  let a := wrap32 (x0 + x2) in let b := wrap32 (x0 - x2) in
  let c := wrap32 (mul2_32 x1 - mul1_32 x3) in let d := wrap32 (mul1_32 x1 + mul2_32 x3) in
  (wrap32 (a + d), wrap32 (b + c), wrap32 (b - c), wrap32 (a - d)).

Definition bias32 (k : Z) (q : Q) : Q := let '(a, b, c, d) := q in (wrap32 (a + k), b, c, d).
Definition idct32_core (m : M) : M := two_pass bfly32 (fun r => bfly32 (bias32 4 r)) m.
Definition recon32 (p x : Z) : Z := clip8 (wrap32 (p + x / 8)).

Definition idct32 (coeffs pred : list Z) : Res (list Z) :=
  c <- blk16 coeffs ;; p <- blk16 pred ;; Ok (listM (map2M recon32 p (idct32_core c))).

Definition kInt32Box : Z := 15735.
Definition in_range32 (coeffs : list Z) : Prop := Forall (fun c => - kInt32Box <= c <= kInt32Box) coeffs.

(** 60547 = (2^31 - 1) / 35468; 15735 is the largest box whose first-pass bound
    stays within it; 250000 and 240000 are loose bounds of the sums. *)
Lemma bfly32_eq x0 x1 x2 x3 :
  in_box 250000 x0 -> in_box 60547 x1 -> in_box 250000 x2 -> in_box 60547 x3 ->
  bfly32 (x0, x1, x2, x3) = bfly (x0, x1, x2, x3).
Proof.
  unfold in_box. intros H0 H1 H2 H3. unfold bfly32, bfly, mul1_32, mul2_32, mul1, mul2, kC1, kC2. cbv zeta.
  rewrite (wrap32_id (x1 * 20091)), (wrap32_id (x3 * 20091)), (wrap32_id (x1 * 35468)), (wrap32_id (x3 * 35468)) by lia.
  set (m11 := x1 * 20091 / 65536). set (m13 := x3 * 20091 / 65536).
  set (m21 := x1 * 35468 / 65536). set (m23 := x3 * 35468 / 65536).
  assert (-18562 <= m11 <= 18562) by (subst m11; lia). assert (-18562 <= m13 <= 18562) by (subst m13; lia).
  assert (-32769 <= m21 <= 32768) by (subst m21; lia). assert (-32769 <= m23 <= 32768) by (subst m23; lia).
  rewrite (wrap32_id (m11 + x1)), (wrap32_id (m13 + x3)) by lia.
  rewrite (wrap32_id (x0 + x2)), (wrap32_id (x0 - x2)) by lia.
  rewrite (wrap32_id (m21 - (m13 + x3))), (wrap32_id (m11 + x1 + m23)) by lia.
  rewrite !wrap32_id by lia. reflexivity.
Qed.

Lemma bfly32_row_eq q : forallQ (in_box 60547) q -> bfly32 q = bfly q /\ bfly32 (bias32 4 q) = bfly (bias0 4 q).
Proof.
  destruct q as [[[x0 x1] x2] x3]. intros (H0 & H1 & H2 & H3). cbn [bias32 bias0]. unfold in_box in H0.
  rewrite (wrap32_id (x0 + 4)) by lia. split; apply bfly32_eq; unfold in_box in *; lia.
Qed.

Lemma row32_bound q : forallQ (in_box 60547) q -> forallQ (in_box 240000) (bfly (bias0 4 q)).
Proof.
  destruct q as [[[t0 t1] t2] t3]. intros (H0 & H1 & H2 & H3). cbn [bias0].
  assert (H0' : in_box (60547 + 4) (t0 + 4)) by (unfold in_box in *; lia).
  pose proof (bfly_box _ _ _ _ _ _ _ _ H0' H1 H2 H3) as K. cbv zeta in K.
  destruct (bfly (t0 + 4, t1, t2, t3)) as [[[y0 y1] y2] y3]. destruct K as (K0 & K1 & K2 & K3).
  cbn [forallQ]. split; [|split; [|split]]; (eapply in_box_le; [|eassumption]); vm_compute; discriminate.
Qed.

Lemma idct32_core_eq m : forallM (in_box kInt32Box) m ->
  idct32_core m = idct_core m /\ forallM (in_box 240000) (idct_core m).
Proof.
  intros H. apply (proj2 (forallM_transpose _ _)) in H. unfold idct32_core, idct_core, two_pass.
  assert (H1 : forallM (in_box 60547) (transpose (mapM bfly (transpose m)))).
  { apply forallM_transpose, (forallM_box_le (2 * kInt32Box + mul1 kInt32Box + mul2 kInt32Box + 2) 60547 _ ltac:(vm_compute; discriminate)), (forallM_mapM _ _ bfly _ (bfly_box_uniform _) H). }
  rewrite (mapM_ext bfly32 bfly (in_box 60547) _ (fun q Hq => proj1 (bfly32_row_eq q Hq)) (forallM_box_le kInt32Box 60547 _ ltac:(vm_compute; discriminate) H)).
  rewrite (mapM_ext _ _ (in_box 60547) _ (fun q Hq => proj2 (bfly32_row_eq q Hq)) H1).
  split; [reflexivity|]. revert H1. apply forallM_mapM, row32_bound.
Qed.

Lemma map2M_recon32_eq p x : forallM byte p -> forallM (in_box 240000) x -> map2M recon32 p x = map2M recon p x.
Proof.
  apply map2M_ext. unfold byte, in_box, recon32, recon. intros a b Ha Hb. now rewrite wrap32_id by lia.
Qed.

(** 32-bit arithmetic (arm64 NEON routine; portable Go where int is 32 bits)
    equals the 64-bit portable IDCT on every block with |c| <= 15735. *)
Theorem idct32_eq : forall coeffs pred, in_range32 coeffs -> Forall byte pred ->
  idct32 coeffs pred = transform_one coeffs pred.
Proof.
  intros coeffs pred Hr Hb. unfold idct32, transform_one.
  apply (blk16_bind_ext (in_box kInt32Box)); [exact Hr|]. intros c Hc.
  apply (blk16_bind_ext byte); [exact Hb|]. intros p Hp. do 2 f_equal.
  destruct (idct32_core_eq c Hc) as [-> HB]. apply map2M_recon32_eq; assumption.
Qed.

(** A block at |c| = 15736, just outside the box. *)
Definition int32_block_15736 : list Z :=
  [-15736; -15736; -15736; -15736; -15736; -15736; -15736; -15736; -15736; -15736; -15736; -15736; -15736; -15736; 15736; -15736].
(** Two int16 coefficients 32767 = int16(1057 * 31) (31 is an AC step of the
    table) overflow the 32-bit product 126206 * 35468. *)
Definition int32_block_sparse : list Z := [0; 32767; 0; 0; 0; 32767; 0; 0; 0; 0; 0; 0; 0; 0; 0; 0].

Theorem int32_box_maximal :
  Forall (fun c => - (kInt32Box + 1) <= c <= kInt32Box + 1) int32_block_15736 /\
  idct32 int32_block_15736 (repeat 128 16) <> transform_one int32_block_15736 (repeat 128 16).
Proof. split; [unfold kInt32Box, int32_block_15736; forall_lia|vm_compute; discriminate]. Qed.

Theorem idct_int_width_differs_refuted :
  Forall int16 int32_block_sparse /\
  idct32 int32_block_sparse (repeat 128 16) = Ok [255; 0; 255; 0; 255; 255; 0; 0; 255; 255; 0; 0; 0; 0; 255; 255] /\
  transform_one int32_block_sparse (repeat 128 16) = Ok [255; 255; 0; 0; 255; 255; 0; 0; 255; 255; 0; 0; 0; 0; 255; 255].
Proof. split; [unfold int32_block_sparse, int16; forall_lia|split; vm_compute; reflexivity]. Qed.

(** Every block the encoder reconstructs from (|c| <= 2655, ArchEncRange.encB)
    and every block inside the 16-bit-lane box is far inside the 32-bit box:
    the three arithmetics agree there. *)
Lemma lane16_box_in_int32_box : kIdctBox <= kInt32Box /\ 2655 <= kInt32Box.
Proof. unfold kIdctBox, kInt32Box. lia. Qed.

(** sse16x16NEON squares the unsigned absolute difference (UABDL, UMULL). *)
Lemma neon_abd_square a b : Z.abs (a - b) * Z.abs (a - b) = (a - b) * (a - b).
Proof. lia. Qed.
