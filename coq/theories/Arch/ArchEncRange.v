(** C13 — encoder-side ranges: the coefficient blocks the encoder itself hands
    to the inverse DCT (ITransform: reconstruction of intra-4x4, intra-16x16 AC
    and chroma blocks) stay inside the region where the 16-bit-lane IDCT equals
    the portable one.

    Chain:  byte residuals --fTransform--> f, |f_i| <= F_i
    ([fdct_core_pos_bounds])  --quantise (QuantizeCoeffs or trellis: 0 <= level <=
    (v*iq+b)>>17, b < 2^17) and dequantise--> c, |c_i| <= |f_i| + sharpen_i + q
    ([dequant_upper], one coefficient; steps and sharpening checked by
    ArchLane16Tables.enc_tables_ok)  =>  |c_i| <= B_i  =>  idct_fits16 c
    ([idct_fits16_enc_box])  =>  lane16_idct = transform_one.
    The lifting of the one-coefficient facts to the block relations
    [dequant_close] / [wht_close] is not made in Coq: they are hypotheses of
    [encoder_idct_in_range] / [encoder_wht_in_range]. *)
From Coq Require Import ZArith List Bool Lia.
From Coq Require Import ZifyBool ZifyNat ZifyN.
From Webp Require Import Base.Res Arch.ArchLane16 Arch.ArchLane16Proofs.
Import ListNotations.
Open Scope Z_scope.

Definition forall2Q (R : Z -> Z -> Prop) (p q : Q) : Prop :=
  let '(a, b, c, d) := p in let '(a', b', c', d') := q in R a a' /\ R b b' /\ R c c' /\ R d d'.
Definition forall2M (R : Z -> Z -> Prop) (m n : M) : Prop :=
  let '(a, b, c, d) := m in let '(a', b', c', d') := n in
  forall2Q R a a' /\ forall2Q R b b' /\ forall2Q R c c' /\ forall2Q R d d'.

Definition forall3Q (R : Z -> Z -> Z -> Prop) (p q r : Q) : Prop :=
  let '(a, b, c, d) := p in let '(a', b', c', d') := q in let '(a'', b'', c'', d'') := r in
  R a a' a'' /\ R b b' b'' /\ R c c' c'' /\ R d d' d''.
Definition forall3M (R : Z -> Z -> Z -> Prop) (m n o : M) : Prop :=
  let '(a, b, c, d) := m in let '(a', b', c', d') := n in let '(a'', b'', c'', d'') := o in
  forall3Q R a a' a'' /\ forall3Q R b b' b'' /\ forall3Q R c c' c'' /\ forall3Q R d d' d''.

(** Per-position bounds of the forward DCT of byte residuals (raster order). *)
Definition fdctF : M :=
  ((2040, 1886, 2040, 1886), (1886, 1743, 1886, 1743), (2040, 1886, 2040, 1886), (1885, 1743, 1885, 1743)).
(** Per-position box of the dequantised coefficients: F_i + sharpen_i + q with
    the largest AC step 284 and sharpening (kFreqSharpening_i * 284) >> 11; the
    DC entry 2655 covers both the quantised DC of a 4x4 / chroma block
    (2040 + 157) and the DC an intra-16x16 block receives from the inverse WHT
    (within 2655 by [encoder_wht_in_range]). *)
Definition encB : M :=
  ((2655, 2174, 2332, 2182), (2174, 2035, 2182, 2039), (2332, 2182, 2336, 2182), (2181, 2039, 2181, 2039)).
Definition encSlack : M := map2M Z.sub encB fdctF.

Lemma forall2M_transpose R B m : forall2M R (transpose B) (transpose m) <-> forall2M R B m.
Proof.
  destruct B using M_cases.
  destruct m using M_cases.
  cbn [forall2M forall2Q transpose]. tauto.
Qed.

Lemma forall2M_mapM (R S : Z -> Z -> Prop) f b0 b1 b2 b3 c0 c1 c2 c3 m :
  (forall q, forall2Q R b0 q -> forall2Q S c0 (f q)) -> (forall q, forall2Q R b1 q -> forall2Q S c1 (f q)) ->
  (forall q, forall2Q R b2 q -> forall2Q S c2 (f q)) -> (forall q, forall2Q R b3 q -> forall2Q S c3 (f q)) ->
  forall2M R (b0, b1, b2, b3) m -> forall2M S (c0, c1, c2, c3) (mapM f m).
Proof. intros F0 F1 F2 F3. destruct m as [[[r0 r1] r2] r3]. cbn [forall2M mapM]. intros (H0 & H1 & H2 & H3). auto. Qed.

Lemma forall2Q_const (R : Z -> Z -> Prop) b q : forallQ (R b) q <-> forall2Q R (b, b, b, b) q.
Proof. destruct q as [[[x0 x1] x2] x3]. apply iff_refl. Qed.

Lemma forall2M_const (R : Z -> Z -> Prop) b m :
  forallM (R b) m <-> forall2M R ((b, b, b, b), (b, b, b, b), (b, b, b, b), (b, b, b, b)) m.
Proof. destruct m using M_cases. apply iff_refl. Qed.

Lemma frow_bounds q : forallQ (in_box 255) q -> forall2Q in_box (8160, 7543, 8160, 7543) (frow q).
Proof.
  destruct q as [[[d0 d1] d2] d3]. unfold in_box, frow, forall2Q, forallQ. cbv zeta.
  intros (H0 & H1 & H2 & H3). repeat split; lia.
Qed.

Lemma fcol_bounds B q : B <= 8160 -> forallQ (in_box B) q -> forall2Q in_box (fcol_bound B) (fcol q).
Proof.
  destruct q as [[[t0 t1] t2] t3]. intros HB (H0 & H1 & H2 & H3).
  destruct (fcol_quotients B t0 t1 t2 t3 HB H0 H1 H2 H3) as (K0 & K1 & K2 & K3).
  unfold fcol, fcol_bound, forall2Q in *. cbv zeta.
  rewrite !wrap16_id by (eapply in_box_int16; [|eassumption]; lia). auto.
Qed.

Lemma fdct_core_pos_bounds d : forallM (in_box 255) d -> forall2M in_box fdctF (fdct_core d).
Proof.
  intros H. unfold fdct_core.
  apply (forall2M_transpose in_box (fcol_bound 8160, fcol_bound 7543, fcol_bound 8160, fcol_bound 7543)).
  apply (forall2M_mapM in_box in_box fcol (8160, 8160, 8160, 8160) (7543, 7543, 7543, 7543) (8160, 8160, 8160, 8160) (7543, 7543, 7543, 7543));
    try (intros q Hq; apply fcol_bounds; [lia|apply forall2Q_const, Hq]).
  apply (forall2M_transpose in_box ((8160, 7543, 8160, 7543), (8160, 7543, 8160, 7543), (8160, 7543, 8160, 7543), (8160, 7543, 8160, 7543))).
  apply (proj1 (forall2M_const in_box 255 d)) in H. revert H.
  apply forall2M_mapM; intros q Hq; apply frow_bounds, forall2Q_const, Hq.
Qed.

(** ** The per-position box implies the no-wrap condition of the lane IDCT *)
Definition bfly_bound (b : Q) : Q :=
  let '(b0, b1, b2, b3) := b in
  let s := b0 + b2 in let c := mul2 b1 + mul1 b3 + 1 in let d := mul1 b1 + mul2 b3 + 2 in
  (s + d, s + c, s + c, s + d).

Lemma bfly_bounds b q : forall2Q in_box b q -> forall2Q in_box (bfly_bound b) (bfly q).
Proof.
  destruct b as [[[b0 b1] b2] b3], q as [[[x0 x1] x2] x3]. cbn [forall2Q bfly_bound]. intros (H0 & H1 & H2 & H3).
  exact (bfly_box _ _ _ _ _ _ _ _ H0 H1 H2 H3).
Qed.

Lemma row_fits_bounds b r :
  (let '(b0, b1, b2, b3) := b in
   b1 <= 32767 /\ b3 <= 32767 /\
   b0 + 4 + b2 + (mul1 b1 + mul2 b3 + 2) <= 32767 /\ b0 + 4 + b2 + (mul2 b1 + mul1 b3 + 1) <= 32767) ->
  forall2Q in_box b r -> row_fits r.
Proof.
  destruct b as [[[b0 b1] b2] b3], r as [[[t0 t1] t2] t3]. cbn [forall2Q]. intros (K1 & K3 & Kd & Kc) (H0 & H1 & H2 & H3).
  exact (row_fits_box _ _ _ _ _ _ _ _ H0 H1 H2 H3 K1 K3 Kd Kc).
Qed.

Lemma idct_fits16_enc_box c : forall2M in_box encB c -> idct_fits16 c.
Proof.
  intros H. apply (proj2 (forall2M_transpose _ _ _)) in H.
  apply (forall2M_mapM in_box in_box bfly _ _ _ _ _ _ _ _ _ (bfly_bounds _) (bfly_bounds _) (bfly_bounds _) (bfly_bounds _)) in H.
  apply (proj2 (forall2M_transpose _ _ _)) in H. fold (idct_mid c) in H. unfold idct_fits16.
  destruct (idct_mid c) as [[[r0 r1] r2] r3]. destruct H as (H0 & H1 & H2 & H3).
  repeat split; (eapply row_fits_bounds; [|eassumption]); vm_compute; repeat split; discriminate.
Qed.

(** ** The quantiser: level = (v*iq + b) >> 17 with iq = floor(2^17 / q). *)
Lemma iq_facts q iq : 0 < q -> iq = 131072 / q -> 0 <= iq /\ iq * q <= 131072 < iq * q + q.
Proof.
  intros Hq ->. pose proof (Z.mul_div_le 131072 q Hq). pose proof (Z.mul_succ_div_gt 131072 q Hq).
  split; [apply Z.div_pos; lia|lia].
Qed.

(** Quantiser error, both sides (QuantizeCoeffs without trellis):
      - q + (b*q - v*q) / 2^17  <  level*q - v  <=  b*q / 2^17. *)
Lemma quant_two_sided v q iq b :
  0 < q -> iq = 131072 / q -> 0 <= b < 131072 -> 0 <= v ->
  let level := (v * iq + b) / 131072 in
  131072 * (level * q - v) <= b * q /\
  b * q - v * q - 131072 * q < 131072 * (level * q - v).
Proof.
  intros Hq Hiq Hb Hv level. destruct (iq_facts q iq Hq Hiq) as (Hi0 & E1 & E1').
  assert (F1 : 131072 * level <= v * iq + b) by (subst level; lia).
  assert (F2 : v * iq + b < 131072 * level + 131072) by (subst level; lia).
  set (p := iq * q) in *.
  assert (G0 : (v * iq + b) * q = v * p + b * q) by (subst p; ring).
  assert (G1 : 131072 * level * q <= (v * iq + b) * q) by (apply Z.mul_le_mono_nonneg_r; lia).
  assert (G1' : (v * iq + b) * q < (131072 * level + 131072) * q) by (apply Z.mul_lt_mono_pos_r; lia).
  assert (G2 : v * p <= v * 131072) by (apply Z.mul_le_mono_nonneg_l; lia).
  assert (G3 : v * (131072 - q) <= v * p) by (apply Z.mul_le_mono_nonneg_l; lia).
  split.
  - replace (131072 * (level * q - v)) with (131072 * level * q - v * 131072) by ring. lia.
  - replace (131072 * (level * q - v)) with ((131072 * level + 131072) * q - 131072 * q - v * 131072) by ring.
    replace (v * (131072 - q)) with (v * 131072 - v * q) in G3 by ring. lia.
Qed.

(** Quantise / dequantise moves a coefficient at most one step beyond
    |coefficient| + sharpening.  Covers quantizeCoeffsGo / the assembly (bias < 2^17,
    clamp 2047) and the trellis (levels 0, L0 or L0+1 <= (v*iq + 2^16) >> 17). *)
Lemma dequant_upper v q iq b level :
  0 < q -> iq = 131072 / q -> 0 <= b < 131072 -> 0 <= v ->
  0 <= level <= (v * iq + b) / 131072 ->
  0 <= level * q <= v + q.
Proof.
  intros Hq Hiq Hb Hv HL. destruct (quant_two_sided v q iq b Hq Hiq Hb Hv) as [U _]. cbv zeta in U.
  split; [apply Z.mul_nonneg_nonneg; lia|].
  assert (level * q <= (v * iq + b) / 131072 * q) by (apply Z.mul_le_mono_nonneg_r; lia).
  assert (b * q < 131072 * q) by (apply Z.mul_lt_mono_pos_r; lia). lia.
Qed.

(** [c] is a dequantised version of [f]: per position |c_i| <= |f_i| + slack_i. *)
Definition dequant_close (f c : M) : Prop :=
  forall3M (fun s fi ci => Z.abs ci <= Z.abs fi + s) encSlack f c.

Lemma abs_close_box F s f c : - F <= f <= F -> Z.abs c <= Z.abs f + s -> - (F + s) <= c <= F + s.
Proof. lia. Qed.

Lemma forall3M_forall2M (R S : Z -> Z -> Prop) (T : Z -> Z -> Z -> Prop) (k : Z -> Z -> Z) F E f c :
  (forall b e x y, R b x -> T e x y -> S (k b e) y) ->
  forall2M R F f -> forall3M T E f c -> forall2M S (map2M k F E) c.
Proof.
  intros H.
  destruct F using M_cases.
  destruct E using M_cases.
  destruct f using M_cases.
  destruct c using M_cases.
  cbn [forall2M forall2Q forall3M forall3Q map2M map2Q].
  intros ((A0 & A1 & A2 & A3) & (B0 & B1 & B2 & B3) & (C0 & C1 & C2 & C3) & (D0 & D1 & D2 & D3)).
  intros ((E0 & E1 & E2 & E3) & (G0 & G1 & G2 & G3) & (H0 & H1 & H2 & H3) & (I0 & I1 & I2 & I3)).
  repeat split; eapply H; eassumption.
Qed.

Lemma dequant_close_box f c : forall2M in_box fdctF f -> dequant_close f c -> forall2M in_box encB c.
Proof. exact (forall3M_forall2M in_box in_box _ Z.add fdctF encSlack f c abs_close_box). Qed.

Lemma box1_int16 B c : B <= 32767 -> - B <= c <= B -> int16 c.
Proof. exact (in_box_int16 B c). Qed.

Lemma box_int16 c : forall2M in_box encB c -> forallM int16 c.
Proof.
  destruct c using M_cases.
  unfold encB, in_box, int16. cbn [forall2M forall2Q forallM forallQ]. lia.
Qed.

Theorem encoder_idct_in_range : forall src ref coeffs pred s r c,
  blk16 src = Ok s -> blk16 ref = Ok r -> Forall byte src -> Forall byte ref ->
  blk16 coeffs = Ok c -> Forall byte pred ->
  dequant_close (fdct_core (map2M Z.sub s r)) c ->
  lane16_idct coeffs pred = transform_one coeffs pred.
Proof.
  intros src ref coeffs pred s r c Es Er Hs Hr Ec Hp Hc.
  destruct (diff_box s r (blk16_Forall _ _ _ Es Hs) (blk16_Forall _ _ _ Er Hr)) as [_ Hd].
  pose proof (dequant_close_box _ _ (fdct_core_pos_bounds _ Hd) Hc) as Hb.
  unfold lane16_idct, transform_one. rewrite Ec. cbn [bind].
  apply (blk16_bind_ext byte); [exact Hp|]. intros p Bp. do 2 f_equal.
  apply idct_blocks_eq; [apply box_int16, Hb|exact Bp|apply idct_fits16_enc_box, Hb].
Qed.

(** ** The encoder's inverse WHT input is in range, and the DC it hands to the
    inverse DCT of an intra-16x16 block is inside [encB].

    Chain: sixteen forward-DCT DCs (|dc| <= 2040, proved) --fTransformWHT--> w
    (|w_i| <= 16320) --QuantizeCoeffs with the Y2 steps (no trellis, no
    sharpening) / DequantCoeffs--> c with |c_0 - w_0| <= 237, |c_i - w_i| <= 311
    ([y2_quant_error]: q * (1 - b / 2^17 + 16320 / 2^17) at q_dc = 314, q_ac = 440)
    --TransformWHT--> dc'. *)
Definition whtErr : M := ((237, 311, 311, 311), (311, 311, 311, 311), (311, 311, 311, 311), (311, 311, 311, 311)).
Definition wht_close (w c : M) : Prop := forall3M (fun e wi ci => - e <= ci - wi <= e) whtErr w c.

Lemma fwht_core_hadamard m : fwht_core m = mapM (mapQ (fun x => wrap16 (x / 2))) (hadamard m).
Proof.
  unfold fwht_core, hadamard.
  now rewrite <- (mapM_mapM (mapQ (fun x => wrap16 (x / 2))) fwht_b), transpose_mapM_mapQ.
Qed.

(** Halving seen from the doubled side: no division is left.  32640 = 16 * 2040. *)
Lemma half_close e f x : in_box 32640 f -> - e <= x - wrap16 (f / 2) <= e -> - (2 * e + 1) <= 2 * x - f <= 2 * e + 1.
Proof. unfold in_box. intros Hf. rewrite wrap16_id by (unfold int16; lia). lia. Qed.

Lemma forall3M_mapM_mid (R R' : Z -> Z -> Z -> Prop) (P : Z -> Prop) h E F c :
  (forall e f x, P f -> R e (h f) x -> R' e f x) ->
  forallM P F -> forall3M R E (mapM (mapQ h) F) c -> forall3M R' E F c.
Proof.
  intros H.
  destruct E using M_cases.
  destruct F using M_cases.
  destruct c using M_cases.
  cbn [forallM forallQ forall3M forall3Q mapM mapQ].
  intros ((A0 & A1 & A2 & A3) & (B0 & B1 & B2 & B3) & (C0 & C1 & C2 & C3) & (D0 & D1 & D2 & D3)).
  intros ((E0 & E1 & E2 & E3) & (G0 & G1 & G2 & G3) & (H0 & H1 & H2 & H3) & (I0 & I1 & I2 & I3)).
  repeat split; eapply H; eassumption.
Qed.

(** WHT o FWHT = 16 Id, so the presums of [c] are 8 * dcs plus the transform of
    the doubled quantisation error (a box argument on [c] alone would give
    4 * 4 * 16631); [lia] finds that identity in each goal.
    21233 = (16 * 2040 + (475 + 15 * 623) + 2 * 3) / 2, 475 = 2 * 237 + 1,
    623 = 2 * 311 + 1;  16631 = (32640 + 623) / 2. *)
Lemma wht_of_hadamard_presums d c :
  forallM (in_box 2040) d ->
  forall3M (fun e f x => - (2 * e + 1) <= 2 * x - f <= 2 * e + 1) whtErr (hadamard d) c ->
  forallM (in_box 21233) (mapM (fun r => wht_b (bias0 3 r)) (transpose (mapM wht_b (transpose c)))) /\
  forallM (in_box 16631) c.
Proof.
  destruct d using M_cases.
  destruct c using M_cases.
  unfold whtErr, hadamard, fwht_b, wht_b, bias0, in_box.
  cbn [forallM forallQ forall3M forall3Q mapM mapQ transpose]. cbv zeta.
  intros ((A0 & A1 & A2 & A3) & (B0 & B1 & B2 & B3) & (C0 & C1 & C2 & C3) & (D0 & D1 & D2 & D3)).
  intros ((E0 & E1 & E2 & E3) & (G0 & G1 & G2 & G3) & (H0 & H1 & H2 & H3) & (I0 & I1 & I2 & I3)).
  repeat split; lia.
Qed.

Lemma enc_wht_presums dcs c : forallM (in_box 2040) dcs -> wht_close (fwht_core dcs) c ->
  forallM (in_box 21233) (mapM (fun r => wht_b (bias0 3 r)) (transpose (mapM wht_b (transpose c)))) /\
  forallM (in_box 16631) c.
Proof.
  intros Hd Hc. apply (wht_of_hadamard_presums dcs c Hd).
  unfold wht_close in Hc. rewrite fwht_core_hadamard in Hc. revert Hc.
  apply (forall3M_mapM_mid _ _ (in_box 32640)); [exact half_close|]. apply (hadamard_box 2040), Hd.
Qed.

Theorem encoder_wht_in_range : forall dcs coeffs d c,
  blk16 dcs = Ok d -> Forall (in_box 2040) dcs -> blk16 coeffs = Ok c ->
  wht_close (fwht_core d) c ->
  lane16_wht coeffs = transform_wht coeffs /\ forallM (in_box 2655) (iwht_core c).
Proof.
  intros dcs coeffs d c Ed Hd Ec Hc.
  destruct (enc_wht_presums d c (blk16_Forall _ _ _ Ed Hd) Hc) as [HP HB].
  assert (Hfit : iwht_fits16 c).
  { revert HP. apply forallM_box_int16. discriminate. }
  split.
  - unfold lane16_wht, transform_wht. rewrite Ec. cbn [bind]. do 2 f_equal.
    apply l_iwht_core_eq; [|exact Hfit].
    revert HB. apply forallM_box_int16. discriminate.
  - unfold iwht_core, two_pass. rewrite <- mapM_mapM with (f := mapQ (fun x => wrap16 (x / 8))) (g := fun r => wht_b (bias0 3 r)).
    revert HP. apply (forallM_mapM (in_box 21233) (in_box 2655) (mapQ (fun x => wrap16 (x / 8)))).
    intros [[[p0 p1] p2] p3]. unfold in_box, forallQ, mapQ. intros HP.
    rewrite !wrap16_id by (unfold int16; lia). lia.
Qed.

(** The Y2 quantiser of the encoder (DC: BIAS(96), AC: BIAS(108)); the level
    never reaches the 2047 clamp because steps are >= 8. *)
Lemma y2_quant_error v q iq b e :
  8 <= q -> iq = 131072 / q -> 0 <= v <= 16320 ->
  (b = 49152 /\ q <= 314 /\ e = 237) \/ (b = 55296 /\ q <= 440 /\ e = 311) ->
  let level := (v * iq + b) / 131072 in
  - e <= level * q - v <= e /\ 0 <= level <= 2047.
Proof.
  intros Hq Hiq Hv Hcase level.
  assert (Hb : 0 <= b < 131072) by (destruct Hcase as [(-> & _ & _)|(-> & _ & _)]; lia).
  destruct (quant_two_sided v q iq b ltac:(lia) Hiq Hb ltac:(lia)) as [U L]. fold level in U, L.
  assert (Hvq : 0 <= v * q <= 16320 * q) by (split; [apply Z.mul_nonneg_nonneg; lia|apply Z.mul_le_mono_nonneg_r; lia]).
  destruct (iq_facts q iq ltac:(lia) Hiq) as (Hi0 & _ & _).
  assert (HL0 : 0 <= level) by (subst level; apply Z.div_pos; [apply Z.add_nonneg_nonneg; [apply Z.mul_nonneg_nonneg|]|]; lia).
  split.
  - destruct Hcase as [(-> & Hq2 & ->)|(-> & Hq2 & ->)]; lia.
  - split; [exact HL0|].
    (* level*q <= v + b*q/2^17 <= 16320 + q, and q >= 8 *)
    assert (131072 * (level * q) <= 131072 * (16320 + q)) by lia.
    destruct (Z.le_gt_cases level 1); [lia|].
    assert ((level - 1) * 8 <= (level - 1) * q) by (apply Z.mul_le_mono_nonneg_l; lia). lia.
Qed.
