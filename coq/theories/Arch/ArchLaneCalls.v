(** C13 — checked facts about the source, over [Gen/LaneCalls.v] (printed from
    /repo by tools/gosrc2v/lanecalls.go):

    1. every assembly routine of the module has a lane model with a theorem in
       Properties/C13.v, or an explicit entry saying why it is covered by
       differential execution only;
    2. every call of a lane kernel in the encoder (internal/lossy) receives its
       coefficient input along the chain the range theorems of ArchEncRange.v
       assume:  two byte planes -> FDCT -> (DC gather -> FWHT ->) quantise with a
       segment quantiser -> dequantise with a segment quantiser (-> inverse WHT
       -> DC of a Y1 block) -> inverse DCT.

    An event is (position, kernel, quantiser "Y1"/"Y2"/"UV" or "", kinds); [kinds]
    (computed per function in source order, never empty) are the provenances
    the input buffer can have: bytes; fdct, fdct0 (element 0 zeroed); dcs, fwht;
    lvS / dqS (quantised / dequantised with seg.S); dqY1+dc (DC from the inverse
    WHT); stream (decoder); param-uncalled; "?" (unclassified: fails
    [lane_events_follow_chain]).  A segment fact is (position, what, "function|text"). *)
From Coq Require Import List String Ascii Bool.
From WebpGen Require LaneCalls.
Import ListNotations.
Open Scope string_scope.

Definition mem (s : string) (l : list string) : bool := existsb (String.eqb s) l.
Definition subset (a b : list string) : bool := forallb (fun x => mem x b) a.

(** ** Call-site provenance *)
Definition event_ok (e : string * string * string * list string) : bool :=
  let '(pos, kernel, sq, kinds) := e in
  if String.prefix "internal/lossy/decode_" pos then
    (* decoder: the input is whatever the stream says (kind "stream"); the
       decoder theorems are range-conditional and the unconditional statement is
       refuted (known findings), nothing to check here *)
    true
  else if mem kernel ["FTransformDirect"; "FTransform"; "FTransform2"] then
    (* residual of two []byte planes: |d| <= 255, C13_lane32_fdct_eq, C13_fdct_core_pos_bounds *)
    subset kinds ["bytes"] && negb (match kinds with [] => true | _ => false end)
  else if String.eqb kernel "FTransformWHT" then
    (* elements of FDCT outputs (|dc| <= 2040): C13_lane16_fwht_eq_on_encoder_input *)
    subset kinds ["dcs"; "param-uncalled"]
  else if mem kernel ["QuantizeCoeffs"; "TrellisQuantizeBlock"; "quantizeCoeffsGo"] then
    if String.eqb sq "Y2" then subset kinds ["fwht"]                      (* C13_y2_quant_error *)
    else if mem sq ["Y1"; "UV"] then subset kinds ["fdct"; "fdct0"]       (* C13_dequant_upper, C13_lane_quant_eq_encoder *)
    else false
  else if mem kernel ["DequantCoeffs"; "dequantCoeffsGo"] then
    (* the levels being dequantised were quantised with the same matrix (Y1 / Y2 / UV):
       buffers are tracked per region of MBEncInfo.Coeffs (luma blocks, chroma blocks, [384:400]) *)
    if mem sq ["Y1"; "Y2"; "UV"] then subset kinds ["lv" ++ sq] && negb (match kinds with [] => true | _ => false end)
    else false
  else if String.eqb kernel "TransformWHT" then
    subset kinds ["dqY2"]                                                 (* C13_encoder_wht_in_range *)
  else if mem kernel ["ITransformDirect"; "ITransform"] then
    subset kinds ["dqY1"; "dqUV"; "dqY1+dc"]                              (* C13_encoder_idct_in_range *)
  else false.

Lemma lane_events_follow_chain : forallb event_ok LaneCalls.lane_events = true.
Proof. vm_compute. reflexivity. Qed.

(** The check has teeth: an unclassified input, a Y2-dequantised block fed to the
    IDCT, or a decoded ("stream") block fed to an encoder kernel is rejected. *)
Example event_ok_rejects :
  event_ok ("internal/lossy/encode_frame.go:1", "ITransformDirect", "", ["?"]) = false /\
  event_ok ("internal/lossy/encode_frame.go:1", "ITransformDirect", "", ["dqY2"]) = false /\
  event_ok ("internal/lossy/encode_frame.go:1", "TransformWHT", "", ["stream"]) = false /\
  event_ok ("internal/lossy/encode_frame.go:1", "QuantizeCoeffs", "Y1", ["lvY1"]) = false /\
  event_ok ("internal/lossy/encode_frame.go:1", "FTransformDirect", "", ["?"]) = false /\
  event_ok ("internal/lossy/encode_frame.go:1", "DequantCoeffs", "Y1", ["lvUV"]) = false /\
  event_ok ("internal/lossy/encode_frame.go:1", "DequantCoeffs", "UV", ["lvUV"; "lvY1"]) = false.
Proof. repeat split; reflexivity. Qed.

(** Every kind of call occurs (the list is not empty or truncated). *)
Lemma lane_events_cover_all_kernels :
  forallb (fun k => existsb (fun e => String.eqb (snd (fst (fst e))) k) LaneCalls.lane_events)
          ["FTransformDirect"; "FTransformWHT"; "QuantizeCoeffs"; "TrellisQuantizeBlock";
           "DequantCoeffs"; "TransformWHT"; "ITransformDirect"] = true.
Proof. vm_compute. reflexivity. Qed.

(** Functions that receive a coefficient buffer without being one of the
    kernels above: reviewed to be readers (token costs, statistics, flatness
    test), the decoder's own transforms, or the assembly bodies behind
    QuantizeCoeffs / DequantCoeffs.  A new one must be looked at. *)
Definition reviewed_readers : list string :=
  ["RecordCoeffs"; "TokenCostForCoeffs"; "Transform"; "TransformAC3"; "TransformUV"; "collectCoeffStats";
   "collectHistogramAlphaWith"; "computeMBAlphaDCTWith"; "computeMBUVAlphaDCTWith"; "dequantCoeffsSSE2";
   "doTransform"; "doTransformDCBlock"; "doUVTransform"; "getCoeffsInline"; "isFlat"; "nzCountACSSE2";
   "quantizeACAVX2"; "quantizeACSSE2"].

Lemma lane_buffer_readers_reviewed : subset LaneCalls.lane_buffer_readers reviewed_readers = true.
Proof. vm_compute. reflexivity. Qed.

(** ** Segment identity: the quantiser matrices all come from one segment

    Every quantiser argument is [&seg.Y1 / .Y2 / .UV] with [seg] a *parameter* of
    the function; every call that passes a *SegmentInfo passes its own [seg]; the
    only bindings of a *SegmentInfo in the encoding path are
    [seg := &enc.dqm[info.Segment]] in encodeFrame / encodeRow (the roots of the
    per-macroblock call trees, where [info] is that macroblock's MBEncInfo); the
    two other bindings are in set-up code that makes no such call.  Together with
    the per-region tracking above: a block is dequantised with the matrix of the
    same kind of the same segment it was quantised with. *)
Fixpoint after_bar (s : string) : string :=
  match s with
  | EmptyString => EmptyString
  | String c t => if Ascii.eqb c "|"%char then t else after_bar t
  end.
Fixpoint before_bar (s : string) : string :=
  match s with
  | EmptyString => EmptyString
  | String c t => if Ascii.eqb c "|"%char then EmptyString else String c (before_bar t)
  end.

Definition root_binders : list string := ["encodeFrame"; "encodeRow"].
Definition reviewed_segbinds : list string :=
  ["setupSegment|seg:=&enc.dqm[idx]"; "setupFilterStrength|m:=&enc.dqm[i]";
   "encodeFrame|seg:=&enc.dqm[info.Segment]"; "encodeRow|seg:=&enc.dqm[info.Segment]"].

Definition seg_fact_ok (all : list (string * string * string)) (f : string * string * string) : bool :=
  let '(pos, what, text) := f in
  if String.eqb what "sqroot" then String.eqb (after_bar text) "param:seg"
  else if String.eqb what "segcall" then
    String.eqb (after_bar text) "seg" &&
    (* the caller either received seg as a parameter or is one of the two roots *)
    (mem (before_bar text) root_binders ||
     negb (existsb (fun g => String.eqb (snd (fst g)) "segbind" && String.eqb (before_bar (snd g)) (before_bar text)) all))
  else if String.eqb what "segbind" then
    mem text reviewed_segbinds &&
    (if mem (before_bar text) root_binders then String.eqb (after_bar text) "seg:=&enc.dqm[info.Segment]" else true)
  else false.

Lemma lane_segments_consistent :
  forallb (seg_fact_ok LaneCalls.lane_seg_facts) LaneCalls.lane_seg_facts = true /\
  existsb (fun f => String.eqb (snd (fst f)) "sqroot") LaneCalls.lane_seg_facts = true /\
  existsb (fun f => String.eqb (snd f) "encodeFrame|seg:=&enc.dqm[info.Segment]") LaneCalls.lane_seg_facts = true.
Proof. vm_compute. repeat split; reflexivity. Qed.

Example seg_fact_ok_rejects :
  seg_fact_ok [] ("p", "sqroot", "f|local:&enc.dqm[0]") = false /\
  seg_fact_ok [] ("p", "segcall", "f|&enc.dqm[k]") = false /\
  seg_fact_ok [("q", "segbind", "f|seg:=&enc.dqm[idx]")] ("p", "segcall", "f|seg") = false /\
  seg_fact_ok [] ("p", "segbind", "encodeFrame|seg:=&enc.dqm[0]") = false.
Proof. repeat split; reflexivity. Qed.

(** ** Assembly inventory: routine -> how it is covered *)
Definition asm_covered : list (string * string) := [
  ("addGreenToBlueAndRedSSE2", "C13_lane16_add_green_eq + C13_row_8_4_1_eq");
  ("addGreenToBlueAndRedAVX2", "C13_lane16_add_green_eq + C13_row_8_4_1_eq");
  ("addGreenToBlueAndRedNEON", "same byte-wise add as SSE2: C13_lane16_add_green_eq; not executable here");
  ("subtractGreenSSE2", "C13_lane16_sub_green_eq + C13_row_8_4_1_eq");
  ("subtractGreenAVX2", "C13_lane16_sub_green_eq + C13_row_8_4_1_eq");
  ("subtractGreenNEON", "same byte-wise sub as SSE2: C13_lane16_sub_green_eq; not executable here");
  ("cpuidAVX2Check", "partial: CPU probe, no data path; AVX2 on/off pipeline runs must agree");
  ("dc16asmSSE2", "C13_lane_dc16_eq"); ("dc8uvasmSSE2", "C13_lane_dc8_eq");
  ("dc16asmNEON", "scalar sums: C13_lane_dc16_eq; not executable here");
  ("dc8uvasmNEON", "scalar sums: C13_lane_dc8_eq; not executable here");
  ("ve16asmSSE2", "partial: byte copy, differential only"); ("ve8uvasmSSE2", "partial: byte copy, differential only");
  ("he16asmSSE2", "partial: byte broadcast, differential only"); ("he8uvasmSSE2", "partial: byte broadcast, differential only");
  ("ve16asmNEON", "partial: byte copy, build matrix only"); ("ve8uvasmNEON", "partial: byte copy, build matrix only");
  ("he16asmNEON", "partial: byte broadcast, build matrix only"); ("he8uvasmNEON", "partial: byte broadcast, build matrix only");
  ("tm16asmSSE2", "C13_lane16_tm_eq"); ("tm8uvasmSSE2", "C13_lane16_tm_eq");
  ("tm16asmNEON", "16-bit add + SQXTUN = the SSE2 lane model: C13_lane16_tm_eq; not executable here");
  ("tm8uvasmNEON", "16-bit add + SQXTUN = the SSE2 lane model: C13_lane16_tm_eq; not executable here");
  ("dequantCoeffsSSE2", "C13_lane_dequant_eq");
  ("quantizeACSSE2", "C13_lane_quant_eq"); ("quantizeACAVX2", "C13_lane_quant_eq");
  ("nzCountACSSE2", "C13_lane_nz_scan_eq");
  ("fTransformSSE2", "C13_lane32_fdct_eq"); ("fTransformAVX2", "C13_lane32_fdct_eq");
  ("fTransformNEON", "partial: 32-bit lanes, truncating narrow; not dispatched (benchmark export only), not modelled");
  ("fTransformWHTSSE2", "C13_asm_fwht_is_lane16_fwht (derived from the instruction list) + C13_lane16_fwht_eq + C13_lane16_fwht_eq_on_encoder_input");
  ("fTransformWHTNEON", "scalar 64-bit registers: the portable arithmetic itself; not executable here");
  ("transformWHTSSE2", "C13_asm_iwht_is_lane16_wht (derived from the instruction list) + C13_lane16_wht_eq, refuted beyond |c|<=2047 (known finding)");
  ("transformWHTNEON", "scalar 64-bit registers: the portable arithmetic itself (so arm64 = portable, differs from amd64 beyond the box); not executable here");
  ("iTransformOneSSE2", "C13_asm_idct_is_lane16_idct (derived from the instruction list) + C13_lane16_idct_eq(_fits), refuted beyond |c|<=2212 (known finding)");
  ("iTransformOneAVX2", "C13_asm_idct_avx2_is_lane16_idct (derived from the instruction list, raw VEX encodings decoded) + C13_lane16_idct_eq(_fits)");
  ("iTransformOneNEON", "C13_idct32_eq (32-bit lanes), refuted beyond |c|<=15735: C13_idct_int_width_differs_refuted; not executable here");
  ("simpleVFilter16SSE2", "C13_lane16_simple_filter_eq"); ("simpleVFilter16AVX2", "C13_lane16_simple_filter_eq");
  ("sse4x4SSE2", "C13_asm_sse4x4_eq_model (model derived from the instruction list) + C13_lane16_sse_eq"); ("sse16x16SSE2", "C13_asm_sse16x16_eq_model (derived from the instruction list) + C13_lane16_sse_blocks_eq"); ("sse16x16AVX2", "C13_lane16_sse_blocks_eq");
  ("sse4x4NEON", "same lane model (16-bit diff, 32-bit squares): C13_lane16_sse_eq; not executable here");
  ("sse16x16NEON", "UABDL + UMULL: neon_abd_square + C13_lane16_sse_blocks_eq; not executable here");
  ("tDisto4x4SSE2", "C13_lane16_tdisto_eq"); ("tDisto4x4AVX2", "C13_lane16_tdisto_eq (two blocks per register)");
  ("yuvPackedToNRGBABatchSSE2", "C13_lane32_yuv_eq + C13_row_8_4_1_eq"); ("yuvPackedToNRGBABatchAVX2", "C13_lane32_yuv_eq + C13_row_8_4_1_eq")
].

Definition asm_inventory_ok : bool :=
  forallb (fun r => mem (snd r) (map fst asm_covered)) LaneCalls.asm_routines &&
  forallb (fun c => mem (fst c) (map snd LaneCalls.asm_routines)) asm_covered &&
  forallb (fun r => String.prefix "internal/dsp/" (fst r) || String.prefix "internal/lossy/" (fst r)) LaneCalls.asm_routines.

(** Every TEXT symbol of every .s file is in the table, the table has no stale
    entry, and assembly lives only in internal/dsp and internal/lossy. *)
Lemma asm_inventory_covered : asm_inventory_ok = true.
Proof. vm_compute. reflexivity. Qed.
