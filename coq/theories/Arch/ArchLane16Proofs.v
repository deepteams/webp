(** C13 — equivalence of the lane-16 models with the portable kernels
    on the ranges where no 16-bit lane wraps, and concrete witnesses where the
    full statement is false. *)
From Coq Require Import ZArith List Bool Lia.
From Coq Require Import ZifyBool ZifyNat ZifyN.
From Webp Require Import Base.Res Arch.ArchLane16.
From Webp Require Import Base.ListFacts.
Import ListNotations.
Open Scope Z_scope.
Ltac forall_lia := repeat (apply Forall_cons; [lia|]); apply Forall_nil.

(** * wrap16 is a ring homomorphism onto the signed 16-bit representatives *)

Lemma wrap16_id x : int16 x -> wrap16 x = x.
Proof. unfold int16, wrap16. intros H. rewrite Z.mod_small; lia. Qed.

Lemma wrap16_int16 x : int16 (wrap16 x).
Proof. unfold int16, wrap16. pose proof (Z.mod_pos_bound (x + 32768) 65536 eq_refl). lia. Qed.

Lemma wrap16_add_l a b : wrap16 (wrap16 a + b) = wrap16 (a + b).
Proof. unfold wrap16. Z.div_mod_to_equations. lia. Qed.
Lemma wrap16_add_r a b : wrap16 (a + wrap16 b) = wrap16 (a + b).
Proof. now rewrite Z.add_comm, wrap16_add_l, Z.add_comm. Qed.
Lemma wrap16_sub_l a b : wrap16 (wrap16 a - b) = wrap16 (a - b).
Proof. exact (wrap16_add_l a (- b)). Qed.
Lemma wrap16_sub_r a b : wrap16 (a - wrap16 b) = wrap16 (a - b).
Proof. unfold wrap16. Z.div_mod_to_equations. lia. Qed.

Lemma add16_wrap a b : add16 (wrap16 a) (wrap16 b) = wrap16 (a + b).
Proof. unfold add16. now rewrite wrap16_add_l, wrap16_add_r. Qed.
Lemma sub16_wrap a b : sub16 (wrap16 a) (wrap16 b) = wrap16 (a - b).
Proof. unfold sub16. now rewrite wrap16_sub_l, wrap16_sub_r. Qed.

Lemma add16_id a b : int16 (a + b) -> add16 a b = a + b.
Proof. apply wrap16_id. Qed.
Lemma sub16_id a b : int16 (a - b) -> sub16 a b = a - b.
Proof. apply wrap16_id. Qed.

Lemma wrap32_id x : -2147483648 <= x <= 2147483647 -> wrap32 x = x.
Proof. unfold wrap32. intros H. rewrite Z.mod_small; lia. Qed.

Lemma sat16_id x : int16 x -> sat16 x = x.
Proof. unfold sat16, clampz, int16. intros H. destruct (x <? -32768) eqn:E1; [lia|]. destruct (32767 <? x) eqn:E2; lia. Qed.

(** The models' [in_range*] are [Forall (in_box k)] written out. *)
Definition in_box (B : Z) (x : Z) : Prop := - B <= x <= B.

Lemma in_box_le b b' x : b <= b' -> in_box b x -> in_box b' x.
Proof. unfold in_box. lia. Qed.

Lemma in_box_int16 B x : B <= 32767 -> in_box B x -> int16 x.
Proof. unfold in_box, int16. lia. Qed.

Lemma byte_in_box x : byte x -> in_box 255 x.
Proof. unfold byte, in_box. lia. Qed.


Lemma M_cases (P : M -> Prop) :
  (forall a0 a1 a2 a3 b0 b1 b2 b3 c0 c1 c2 c3 d0 d1 d2 d3,
     P ((a0, a1, a2, a3), (b0, b1, b2, b3), (c0, c1, c2, c3), (d0, d1, d2, d3))) ->
  forall m, P m.
Proof. intros H [[[[[[a0 a1] a2] a3] [[[b0 b1] b2] b3]] [[[c0 c1] c2] c3]] [[[d0 d1] d2] d3]]. apply H. Qed.

Lemma transpose_mapM_mapQ f m : transpose (mapM (mapQ f) m) = mapM (mapQ f) (transpose m).
Proof. destruct m using M_cases. reflexivity. Qed.

Lemma mapM_mapM f g m : mapM f (mapM g m) = mapM (fun q => f (g q)) m.
Proof. destruct m as [[[a b] c] d]. reflexivity. Qed.

Lemma mapM_ext (f g : Q -> Q) (P : Z -> Prop) m :
  (forall q, forallQ P q -> f q = g q) -> forallM P m -> mapM f m = mapM g m.
Proof.
  intros Hfg. destruct m as [[[r0 r1] r2] r3]. cbn [forallM mapM]. intros (H0 & H1 & H2 & H3).
  now rewrite !Hfg by assumption.
Qed.

Lemma forallM_transpose P m : forallM P (transpose m) <-> forallM P m.
Proof.
  destruct m using M_cases.
  cbn [forallM forallQ transpose]. tauto.
Qed.

Lemma forallM_mapM (P R : Z -> Prop) f m :
  (forall q, forallQ P q -> forallQ R (f q)) -> forallM P m -> forallM R (mapM f m).
Proof. intros Hf. destruct m as [[[r0 r1] r2] r3]. cbn [forallM mapM]. intros (H0 & H1 & H2 & H3). auto. Qed.

Lemma forallQ_impl (P R : Z -> Prop) q : (forall x, P x -> R x) -> forallQ P q -> forallQ R q.
Proof. intros HPR. destruct q as [[[a b] c] d]. cbn [forallQ]. intros (Ha & Hb & Hc & Hd). auto. Qed.

Lemma forallM_impl (P R : Z -> Prop) m : (forall x, P x -> R x) -> forallM P m -> forallM R m.
Proof.
  intros HPR H. apply (forallM_mapM P R (fun q => q) m) in H; [|intros q; apply forallQ_impl, HPR].
  destruct m as [[[a b] c] d]. exact H.
Qed.

Lemma forallM_box_le B B' m : B <= B' -> forallM (in_box B) m -> forallM (in_box B') m.
Proof. intros HB. apply forallM_impl. intros x. apply in_box_le, HB. Qed.

Lemma forallM_box_int16 B m : B <= 32767 -> forallM (in_box B) m -> forallM int16 m.
Proof. intros HB. apply forallM_impl. intros x. apply in_box_int16, HB. Qed.

Lemma map2M_mapM_r f h p x : map2M f p (mapM (mapQ h) x) = map2M (fun a b => f a (h b)) p x.
Proof.
  destruct p using M_cases.
  destruct x using M_cases.
  reflexivity.
Qed.

Lemma map2M_ext (P R : Z -> Prop) f g p x :
  (forall a b, P a -> R b -> f a b = g a b) -> forallM P p -> forallM R x -> map2M f p x = map2M g p x.
Proof.
  intros H.
  destruct p using M_cases.
  destruct x using M_cases.
  cbn [forallM forallQ map2M map2Q].
  intros ((P0 & P1 & P2 & P3) & (P4 & P5 & P6 & P7) & (P8 & P9 & P10 & P11) & (P12 & P13 & P14 & P15)).
  intros ((X0 & X1 & X2 & X3) & (X4 & X5 & X6 & X7) & (X8 & X9 & X10 & X11) & (X12 & X13 & X14 & X15)).
  now rewrite !H by assumption.
Qed.

Lemma forallM_map2M (P R S : Z -> Prop) f p x :
  (forall a b, P a -> R b -> S (f a b)) -> forallM P p -> forallM R x -> forallM S (map2M f p x).
Proof.
  intros H.
  destruct p using M_cases.
  destruct x using M_cases.
  cbn [forallM forallQ map2M map2Q].
  intros ((P0 & P1 & P2 & P3) & (P4 & P5 & P6 & P7) & (P8 & P9 & P10 & P11) & (P12 & P13 & P14 & P15)).
  intros ((X0 & X1 & X2 & X3) & (X4 & X5 & X6 & X7) & (X8 & X9 & X10 & X11) & (X12 & X13 & X14 & X15)).
  repeat split; apply H; assumption.
Qed.

Lemma forallM_listM P m : forallM P m -> Forall P (listM m).
Proof.
  destruct m using M_cases.
  cbn [forallM forallQ listM listQ app].
  intros ((A0 & A1 & A2 & A3) & (B0 & B1 & B2 & B3) & (C0 & C1 & C2 & C3) & (D0 & D1 & D2 & D3)).
  repeat constructor; assumption.
Qed.

Lemma length_listM m : length (listM m) = 16%nat.
Proof. destruct m using M_cases. reflexivity. Qed.

Lemma blk16_Forall (P : Z -> Prop) l c : blk16 l = Ok c -> Forall P l -> forallM P c.
Proof.
  unfold blk16. destruct (16 <=? Z.of_nat (length l)) eqn:E; [|discriminate].
  intros H HP. injection H as <-. cbn [forallM forallQ].
  rewrite Forall_forall in HP.
  repeat split; apply HP, nth_In; lia.
Qed.

Lemma blk16_cases l : (exists c, blk16 l = Ok c) \/ blk16 l = Panic.
Proof. unfold blk16. destruct (16 <=? Z.of_nat (length l)); eauto. Qed.

(** Short slices panic alike, so agreement on blocks is agreement on slices. *)
Lemma blk16_bind_ext (P : Z -> Prop) {A} (f g : M -> Res A) l :
  Forall P l -> (forall c, forallM P c -> f c = g c) -> bind (blk16 l) f = bind (blk16 l) g.
Proof.
  intros HP H. destruct (blk16_cases l) as [[c Hc]|Hc]; rewrite Hc; [|reflexivity].
  apply H, (blk16_Forall _ _ _ Hc HP).
Qed.

Lemma l_mul1_spec x : l_mul1 x = wrap16 (mul1 x).
Proof. reflexivity. Qed.

Lemma l_mul2_spec x : l_mul2 x = wrap16 (mul2 x).
Proof.
  unfold l_mul2, mul2, add16, mulhi16, kC2_lane, kC2. f_equal.
  (* floor(x*(35468-65536)/65536) + x = floor(x*35468/65536) *)
  Z.div_mod_to_equations. lia.
Qed.

Lemma mul2_int16 x : int16 x -> int16 (mul2 x).
Proof. unfold int16, mul2, kC2. Z.div_mod_to_equations. lia. Qed.

(** Lanes 0 and 2 only meet wrapping adds: they may hold wrapped values. *)
Lemma l_bfly_spec x0 x1 x2 x3 :
  l_bfly (wrap16 x0, x1, wrap16 x2, x3) = mapQ wrap16 (bfly (x0, x1, x2, x3)).
Proof.
  unfold l_bfly, bfly, mapQ. cbv zeta. rewrite !l_mul1_spec, !l_mul2_spec.
  repeat (rewrite ?add16_wrap, ?sub16_wrap). reflexivity.
Qed.

Lemma l_bfly_int16 q : forallQ int16 q -> l_bfly q = mapQ wrap16 (bfly q).
Proof.
  destruct q as [[[x0 x1] x2] x3]. cbn [forallQ]. intros (H0 & _ & H2 & _).
  rewrite <- (wrap16_id x0 H0) at 1. rewrite <- (wrap16_id x2 H2) at 1. apply l_bfly_spec.
Qed.

Lemma l_idct_mid m : forallM int16 m ->
  transpose (mapM l_bfly (transpose m)) = mapM (mapQ wrap16) (idct_mid m).
Proof.
  intros Hm. unfold idct_mid.
  rewrite (mapM_ext l_bfly (fun q => mapQ wrap16 (bfly q)) int16 _ l_bfly_int16 (proj2 (forallM_transpose _ _) Hm)).
  rewrite <- (mapM_mapM (mapQ wrap16) bfly). apply transpose_mapM_mapQ.
Qed.

Lemma l_row_spec t0 t1 t2 t3 : row_fits (t0, t1, t2, t3) ->
  mapQ (fun x => sra16 x 3) (l_bfly (l_bias0 4 (mapQ wrap16 (t0, t1, t2, t3))))
  = mapQ (fun x => x / 8) (bfly (bias0 4 (t0, t1, t2, t3))).
Proof.
  unfold row_fits. intros (H1 & H3 & Hs). cbn [mapQ l_bias0 bias0] in *.
  unfold add16 at 1. rewrite wrap16_add_l.
  rewrite (wrap16_id t1 H1), (wrap16_id t3 H3), l_bfly_spec.
  destruct (bfly (t0 + 4, t1, t2, t3)) as [[[s0 s1] s2] s3]. cbn [forallQ mapQ] in *.
  destruct Hs as (S0 & S1 & S2 & S3).
  rewrite !wrap16_id by assumption. reflexivity.
Qed.

Lemma l_idct_core_eq m : forallM int16 m -> idct_fits16 m ->
  l_idct_core m = mapM (mapQ (fun x => x / 8)) (idct_core m).
Proof.
  intros Hm Hf. unfold l_idct_core, idct_core, two_pass.
  rewrite (l_idct_mid m Hm). fold (idct_mid m). unfold idct_fits16 in Hf.
  destruct (idct_mid m) using M_cases.
  destruct Hf as (Ha & Hb & Hc & Hd). cbn [mapM].
  rewrite (l_row_spec _ _ _ _ Ha), (l_row_spec _ _ _ _ Hb), (l_row_spec _ _ _ _ Hc), (l_row_spec _ _ _ _ Hd).
  reflexivity.
Qed.

Lemma idct_core_int16 m : idct_fits16 m -> forallM int16 (idct_core m).
Proof.
  intros Hf. unfold idct_core, two_pass. fold (idct_mid m). unfold idct_fits16 in Hf.
  destruct (idct_mid m) as [[[r0 r1] r2] r3]. unfold row_fits in Hf. cbn [mapM forallM].
  destruct r0 as [[[? ?] ?] ?], r1 as [[[? ?] ?] ?], r2 as [[[? ?] ?] ?], r3 as [[[? ?] ?] ?]. tauto.
Qed.

Lemma l_recon_eq p s : byte p -> int16 s -> l_recon p (s / 8) = recon p s.
Proof.
  unfold byte, int16, l_recon, recon. intros Hp Hs.
  rewrite add16_id by (unfold int16; Z.div_mod_to_equations; lia). f_equal. lia.
Qed.

Lemma idct_blocks_eq c p : forallM int16 c -> forallM byte p -> idct_fits16 c ->
  map2M l_recon p (l_idct_core c) = map2M recon p (idct_core c).
Proof.
  intros Hi Hb Hf. rewrite (l_idct_core_eq c Hi Hf), map2M_mapM_r.
  exact (map2M_ext byte int16 _ _ p _ l_recon_eq Hb (idct_core_int16 c Hf)).
Qed.

(** The lane-16 IDCT equals the portable one whenever no lane feeding a
    non-linear operation wraps. *)
Theorem lane16_idct_eq_fits : forall coeffs pred c p,
  blk16 coeffs = Ok c -> blk16 pred = Ok p ->
  forallM int16 c -> forallM byte p -> idct_fits16 c ->
  lane16_idct coeffs pred = transform_one coeffs pred.
Proof.
  intros coeffs pred c p Hc Hp Hi Hb Hf. unfold lane16_idct, transform_one.
  rewrite Hc, Hp. cbn [bind]. do 2 f_equal. apply idct_blocks_eq; assumption.
Qed.

(** The floor costs one unit on the negative side; division occurs only here. *)
Lemma mul1_range B x : in_box B x -> - mul1 B - 1 <= mul1 x <= mul1 B.
Proof. unfold in_box, mul1, kC1. Z.div_mod_to_equations. lia. Qed.
Lemma mul2_range B x : in_box B x -> - mul2 B - 1 <= mul2 x <= mul2 B.
Proof. unfold in_box, mul2, kC2. Z.div_mod_to_equations. lia. Qed.

Lemma bfly_box b0 b1 b2 b3 x0 x1 x2 x3 :
  in_box b0 x0 -> in_box b1 x1 -> in_box b2 x2 -> in_box b3 x3 ->
  let s := b0 + b2 in let c := mul2 b1 + mul1 b3 + 1 in let d := mul1 b1 + mul2 b3 + 2 in
  let '(y0, y1, y2, y3) := bfly (x0, x1, x2, x3) in
  in_box (s + d) y0 /\ in_box (s + c) y1 /\ in_box (s + c) y2 /\ in_box (s + d) y3.
Proof.
  intros H0 H1 H2 H3. unfold bfly. cbv zeta.
  pose proof (mul1_range b1 x1 H1). pose proof (mul2_range b1 x1 H1).
  pose proof (mul1_range b3 x3 H3). pose proof (mul2_range b3 x3 H3). unfold in_box in *. lia.
Qed.

Lemma row_fits_box b0 b1 b2 b3 t0 t1 t2 t3 :
  in_box b0 t0 -> in_box b1 t1 -> in_box b2 t2 -> in_box b3 t3 ->
  b1 <= 32767 -> b3 <= 32767 ->
  b0 + 4 + b2 + (mul1 b1 + mul2 b3 + 2) <= 32767 -> b0 + 4 + b2 + (mul2 b1 + mul1 b3 + 1) <= 32767 ->
  row_fits (t0, t1, t2, t3).
Proof.
  intros H0 H1 H2 H3 K1 K3 Kd Kc. unfold row_fits. cbn [bias0].
  assert (H0' : in_box (b0 + 4) (t0 + 4)) by (unfold in_box in *; lia).
  pose proof (bfly_box _ _ _ _ _ _ _ _ H0' H1 H2 H3) as K. cbv zeta in K.
  destruct (bfly (t0 + 4, t1, t2, t3)) as [[[y0 y1] y2] y3]. unfold in_box, int16, forallQ in *. lia.
Qed.

Lemma bfly_box_uniform B q : forallQ (in_box B) q -> forallQ (in_box (2 * B + mul1 B + mul2 B + 2)) (bfly q).
Proof.
  destruct q as [[[x0 x1] x2] x3]. cbn [forallQ]. intros (H0 & H1 & H2 & H3).
  pose proof (bfly_box _ _ _ _ _ _ _ _ H0 H1 H2 H3) as K. cbv zeta in K.
  destruct (bfly (x0, x1, x2, x3)) as [[[y0 y1] y2] y3]. cbn [forallQ]. unfold in_box in *. lia.
Qed.

Lemma idct_fits16_rows (P : Q -> Prop) m :
  (forall r, P r -> row_fits r) -> (let '(r0, r1, r2, r3) := idct_mid m in P r0 /\ P r1 /\ P r2 /\ P r3) -> idct_fits16 m.
Proof. intros HP. unfold idct_fits16. destruct (idct_mid m) as [[[r0 r1] r2] r3]. intros (H0 & H1 & H2 & H3). auto. Qed.

Lemma idct_fits16_box m : forallM (in_box kIdctBox) m -> idct_fits16 m.
Proof.
  intros H. apply (proj2 (forallM_transpose _ _)), (forallM_mapM _ _ bfly _ (bfly_box_uniform _)) in H.
  apply (proj2 (forallM_transpose _ _)) in H.
  apply (idct_fits16_rows (forallQ (in_box (2 * kIdctBox + mul1 kIdctBox + mul2 kIdctBox + 2)))); [|exact H].
  intros [[[t0 t1] t2] t3] (H0 & H1 & H2 & H3). apply (row_fits_box _ _ _ _ _ _ _ _ H0 H1 H2 H3); vm_compute; discriminate.
Qed.

(** Equal on every coefficient block inside the box |c| <= 2212, for any
    prediction bytes and slices of any length (short ones panic alike). *)
Theorem lane16_idct_eq : forall coeffs pred,
  in_range coeffs -> Forall byte pred ->
  lane16_idct coeffs pred = transform_one coeffs pred.
Proof.
  intros coeffs pred Hr Hb. unfold lane16_idct, transform_one.
  apply (blk16_bind_ext (in_box kIdctBox)); [exact Hr|]. intros c Hc.
  apply (blk16_bind_ext byte); [exact Hb|]. intros p Hp. do 2 f_equal.
  apply idct_blocks_eq; [|exact Hp|apply idct_fits16_box, Hc].
  revert Hc. apply forallM_box_int16. discriminate.
Qed.

(** The hypotheses of [lane16_idct_eq] are met by non-trivial blocks. *)
Example lane16_idct_eq_applies :
  in_range [2212; -2212; 700; -3; 0; 15; -2212; 2212; 1; 2; 3; 4; -100; 2000; -2000; 2212] /\
  lane16_idct [2212; -2212; 700; -3; 0; 15; -2212; 2212; 1; 2; 3; 4; -100; 2000; -2000; 2212]
              [0; 255; 128; 7; 200; 100; 50; 25; 12; 6; 3; 1; 255; 255; 0; 0]
  = Ok [0; 191; 255; 0; 0; 80; 127; 255; 255; 107; 255; 0; 255; 255; 0; 255].
Proof.
  split; [unfold in_range, kIdctBox; forall_lia|vm_compute; reflexivity].
Qed.

(** The box is the widest symmetric one: at |c| = 2213 a final sum reaches
    32768, the lane wraps to -32768 and the reconstructed sample flips from 255
    to 0. *)
Definition idct_block_2213 : list Z :=
  [2213; -2213; -2213; 2213; -2213; 2213; 2213; -2213; -2213; 2213; 2213; -2213; 2213; -2213; -2213; 2213].

Theorem idct_box_maximal :
  Forall (fun c => - (kIdctBox + 1) <= c <= kIdctBox + 1) idct_block_2213 /\
  lane16_idct idct_block_2213 (repeat 128 16) <> transform_one idct_block_2213 (repeat 128 16).
Proof.
  split; [unfold kIdctBox, idct_block_2213; forall_lia|vm_compute; discriminate].
Qed.

(** ** Which coefficients can reach the IDCT from a valid bitstream

    The decoder stores [int16(level * dq)] (decode_mb.go, getCoeffs): [level] is a
    DCT token value, at most 2^11 - 1 + 67 = 2114 in magnitude (DCT_CAT6: 11
    extra bits on top of the base 67), and [dq] is an entry of the AC
    dequantisation table selected by the quantiser index in the frame header.
    The product is truncated to 16 bits, nothing clamps it. *)
Definition kMaxLevel : Z := 2114.

Definition reachable_coeff (ac_table : list Z) (v : Z) : Prop :=
  exists level dq, - kMaxLevel <= level <= kMaxLevel /\ In dq ac_table /\ v = wrap16 (level * dq).

(** A block of 16 AC-quantiser multiples, each reachable, on which the 16-bit
    lanes wrap: level 100 at quantiser step 23 (index 19 of kAcTable). *)
Definition idct_block_2300 : list Z := repeat 2300 16.

Lemma lane16_idct_differs_witness :
  lane16_idct idct_block_2300 (repeat 128 16) = Ok [0; 0; 255; 255; 0; 255; 0; 95; 255; 0; 255; 162; 255; 94; 162; 135] /\
  transform_one idct_block_2300 (repeat 128 16) = Ok [255; 0; 255; 255; 0; 255; 0; 95; 255; 0; 255; 162; 255; 94; 162; 135].
Proof. split; vm_compute; reflexivity. Qed.

Lemma idct_block_2300_differs :
  lane16_idct idct_block_2300 (repeat 128 16) <> transform_one idct_block_2300 (repeat 128 16).
Proof. destruct lane16_idct_differs_witness as [-> ->]. discriminate. Qed.

Theorem lane16_idct_differs_refuted : exists coeffs pred,
  length coeffs = 16%nat /\ Forall int16 coeffs /\ Forall byte pred /\
  lane16_idct coeffs pred <> transform_one coeffs pred.
Proof.
  exists idct_block_2300, (repeat 128 16).
  split; [reflexivity|]. split; [unfold idct_block_2300, int16; cbn [repeat]; forall_lia|].
  split; [unfold byte; cbn [repeat]; forall_lia|]. exact idct_block_2300_differs.
Qed.

(** * Linear butterflies (inverse and forward WHT, Hadamard): every lane
    operation is a wrapping add/sub, so the lanes hold [wrap16] of the exact
    values throughout; only the final arithmetic shift needs the exact value. *)
Lemma int16_shift s n : 0 <= n -> int16 s -> int16 (s / 2 ^ n).
Proof.
  intros Hn Hs. assert (Hp : 0 < 2 ^ n) by (apply Z.pow_pos_nonneg; lia). unfold int16 in *. split.
  - apply Z.div_le_lower_bound; [exact Hp|]. nia.
  - apply Z.div_le_upper_bound; [exact Hp|]. nia.
Qed.

Lemma mapM_wrap16_id m : forallM int16 m -> mapM (mapQ wrap16) m = m.
Proof.
  destruct m using M_cases.
  cbn [forallM forallQ mapM mapQ].
  intros ((A0 & A1 & A2 & A3) & (B0 & B1 & B2 & B3) & (C0 & C1 & C2 & C3) & (D0 & D1 & D2 & D3)).
  now rewrite !wrap16_id by assumption.
Qed.

Section Linear.
  Variables (lb b : Q -> Q).
  Hypothesis Hlin : forall x0 x1 x2 x3,
    lb (mapQ wrap16 (x0, x1, x2, x3)) = mapQ wrap16 (b (x0, x1, x2, x3)).

  Lemma lin_int16 q : forallQ int16 q -> lb q = mapQ wrap16 (b q).
  Proof.
    destruct q as [[[x0 x1] x2] x3]. cbn [forallQ]. intros (H0 & H1 & H2 & H3).
    rewrite <- Hlin. cbn [mapQ]. now rewrite !wrap16_id by assumption.
  Qed.

  Lemma lin_shift q n : 0 <= n -> forallQ int16 (b q) ->
    mapQ (fun x => sra16 x n) (lb (mapQ wrap16 q)) = mapQ (fun x => wrap16 (x / 2 ^ n)) (b q).
  Proof.
    intros Hn. destruct q as [[[x0 x1] x2] x3]. rewrite Hlin.
    destruct (b (x0, x1, x2, x3)) as [[[s0 s1] s2] s3]. cbn [forallQ mapQ].
    intros (S0 & S1 & S2 & S3). rewrite !wrap16_id by assumption. unfold sra16.
    now rewrite !wrap16_id by (apply int16_shift; assumption).
  Qed.

  Lemma lin_pass_id m : forallM int16 m -> forallM int16 (mapM b m) -> mapM lb m = mapM b m.
  Proof.
    intros Hm Hb. rewrite (mapM_ext lb (fun q => mapQ wrap16 (b q)) int16 m lin_int16 Hm), <- (mapM_mapM (mapQ wrap16) b).
    apply mapM_wrap16_id, Hb.
  Qed.

  (** The first pass may wrap; [pl] (the rounding bias) commutes with wrapping;
      the second pass and the shift must see exact values. *)
  Lemma lin_two_pass (pl p : Q -> Q) n m :
    (forall q, pl (mapQ wrap16 q) = mapQ wrap16 (p q)) -> 0 <= n -> forallM int16 m ->
    forallM int16 (mapM (fun r => b (p r)) (transpose (mapM b m))) ->
    mapM (fun r => mapQ (fun x => sra16 x n) (lb (pl r))) (transpose (mapM lb m))
    = mapM (fun r => mapQ (fun x => wrap16 (x / 2 ^ n)) (b (p r))) (transpose (mapM b m)).
  Proof.
    intros Hpl Hn Hm Hf.
    rewrite (mapM_ext lb (fun q => mapQ wrap16 (b q)) int16 m lin_int16 Hm).
    rewrite <- (mapM_mapM (mapQ wrap16) b), transpose_mapM_mapQ.
    destruct (transpose (mapM b m)) as [[[r0 r1] r2] r3].
    cbn [mapM forallM] in *. destruct Hf as (F0 & F1 & F2 & F3).
    now rewrite !Hpl, !lin_shift by assumption.
  Qed.
End Linear.

Lemma l_wht_b_lin x0 x1 x2 x3 :
  l_wht_b (mapQ wrap16 (x0, x1, x2, x3)) = mapQ wrap16 (wht_b (x0, x1, x2, x3)).
Proof. unfold l_wht_b, wht_b, mapQ. cbv zeta. repeat (rewrite ?add16_wrap, ?sub16_wrap). reflexivity. Qed.

Lemma l_fwht_b_lin x0 x1 x2 x3 :
  l_fwht_b (mapQ wrap16 (x0, x1, x2, x3)) = mapQ wrap16 (fwht_b (x0, x1, x2, x3)).
Proof. unfold l_fwht_b, fwht_b, mapQ. cbv zeta. repeat (rewrite ?add16_wrap, ?sub16_wrap). reflexivity. Qed.

Lemma l_bias0_wrap k q : l_bias0 k (mapQ wrap16 q) = mapQ wrap16 (bias0 k q) .
Proof.
  destruct q as [[[x0 x1] x2] x3]. cbn [l_bias0 bias0 mapQ]. unfold add16. now rewrite wrap16_add_l.
Qed.

Lemma l_iwht_core_eq m : forallM int16 m -> iwht_fits16 m -> l_iwht_core m = iwht_core m.
Proof.
  intros Hm Hf. unfold l_iwht_core, iwht_core, two_pass.
  apply (lin_two_pass _ _ l_wht_b_lin (l_bias0 3) (bias0 3)); [apply l_bias0_wrap|lia|apply forallM_transpose, Hm|exact Hf].
Qed.

Lemma wht_b_box B q : forallQ (in_box B) q -> forallQ (in_box (4 * B)) (wht_b q).
Proof. destruct q as [[[x0 x1] x2] x3]. unfold in_box, wht_b, forallQ. cbv zeta. lia. Qed.

Lemma wht_b_bias_box B k q : 0 <= k -> forallQ (in_box B) q -> forallQ (in_box (4 * B + k)) (wht_b (bias0 k q)).
Proof. destruct q as [[[x0 x1] x2] x3]. unfold in_box, wht_b, bias0, forallQ. cbv zeta. lia. Qed.

Lemma iwht_fits16_box m : forallM (in_box kWhtBox) m -> iwht_fits16 m.
Proof.
  intros H. unfold iwht_fits16.
  apply (proj2 (forallM_transpose _ _)), (forallM_mapM _ _ wht_b _ (wht_b_box _)), (proj2 (forallM_transpose _ _)) in H.
  apply (forallM_mapM _ _ (fun r => wht_b (bias0 3 r)) _ (fun q => wht_b_bias_box _ 3 q ltac:(lia))) in H.
  revert H. apply forallM_box_int16. vm_compute; discriminate.
Qed.

Theorem lane16_wht_eq : forall coeffs, in_range_wht coeffs -> lane16_wht coeffs = transform_wht coeffs.
Proof.
  intros coeffs Hr. unfold lane16_wht, transform_wht.
  apply (blk16_bind_ext (in_box kWhtBox)); [exact Hr|]. intros c Hc. do 2 f_equal.
  apply l_iwht_core_eq; [|apply iwht_fits16_box, Hc].
  revert Hc. apply forallM_box_int16. discriminate.
Qed.

Example lane16_wht_eq_applies :
  in_range_wht [2047; -2047; 5; 0; 1; 2; 3; 4; -2047; 2047; 100; -100; 7; 8; 9; 2047] /\
  lane16_wht (repeat 2047 16) = Ok [4094; 0; 0; 0; 0; 0; 0; 0; 0; 0; 0; 0; 0; 0; 0; 0].
Proof. split; [unfold in_range_wht, kWhtBox; forall_lia|vm_compute; reflexivity]. Qed.

(** At |c| = 2048 the sum of sixteen coefficients plus the rounding 3 is 32771:
    the lane wraps, the block DC comes out as -4096 instead of 4096. *)
Theorem lane16_wht_differs_refuted : exists coeffs,
  length coeffs = 16%nat /\ Forall (fun c => - (kWhtBox + 1) <= c <= kWhtBox + 1) coeffs /\
  lane16_wht coeffs = Ok [-4096; 0; 0; 0; 0; 0; 0; 0; 0; 0; 0; 0; 0; 0; 0; 0] /\
  transform_wht coeffs = Ok [4096; 0; 0; 0; 0; 0; 0; 0; 0; 0; 0; 0; 0; 0; 0; 0].
Proof.
  exists (repeat 2048 16). split; [reflexivity|].
  split; [unfold kWhtBox; cbn [repeat]; forall_lia|]. split; vm_compute; reflexivity.
Qed.

Lemma l_fwht_core_eq m : forallM int16 m -> fwht_fits16 m -> l_fwht_core m = fwht_core m.
Proof.
  intros Hm Hf. unfold l_fwht_core, fwht_core. f_equal.
  apply (lin_two_pass _ _ l_fwht_b_lin (fun q => q) (fun q => q)); [reflexivity|lia|exact Hm|exact Hf].
Qed.

Lemma fwht_b_box B q : forallQ (in_box B) q -> forallQ (in_box (4 * B)) (fwht_b q).
Proof. destruct q as [[[x0 x1] x2] x3]. unfold in_box, fwht_b, forallQ. cbv zeta. lia. Qed.

Lemma hadamard_box B m : forallM (in_box B) m -> forallM (in_box (4 * (4 * B))) (hadamard m).
Proof.
  intros H. unfold hadamard.
  apply (forallM_mapM _ _ fwht_b _ (fwht_b_box _)), (proj2 (forallM_transpose _ _)), (forallM_mapM _ _ fwht_b _ (fwht_b_box _)) in H.
  apply forallM_transpose, H.
Qed.

Lemma fwht_fits16_box m : forallM (in_box kFwhtBox) m -> fwht_fits16 m.
Proof.
  intros H. apply (forallM_transpose int16 (mapM fwht_b (transpose (mapM fwht_b m)))). fold (hadamard m).
  apply hadamard_box in H. revert H. apply forallM_box_int16. vm_compute; discriminate.
Qed.

Theorem lane16_fwht_eq : forall coeffs, in_range_fwht coeffs -> lane16_fwht coeffs = ftransform_wht coeffs.
Proof.
  intros coeffs Hr. unfold lane16_fwht, ftransform_wht.
  apply (blk16_bind_ext (in_box kFwhtBox)); [exact Hr|]. intros c Hc. do 2 f_equal.
  apply l_fwht_core_eq; [|apply fwht_fits16_box, Hc].
  revert Hc. apply forallM_box_int16. discriminate.
Qed.

Theorem lane16_fwht_differs_refuted : exists coeffs,
  length coeffs = 16%nat /\ Forall (fun c => - (kFwhtBox + 1) <= c <= kFwhtBox + 1) coeffs /\
  lane16_fwht coeffs = Ok [-16384; 0; 0; 0; 0; 0; 0; 0; 0; 0; 0; 0; 0; 0; 0; 0] /\
  ftransform_wht coeffs = Ok [16384; 0; 0; 0; 0; 0; 0; 0; 0; 0; 0; 0; 0; 0; 0; 0].
Proof.
  exists (repeat 2048 16). split; [reflexivity|].
  split; [unfold kFwhtBox; cbn [repeat]; forall_lia|]. split; vm_compute; reflexivity.
Qed.

(** * TrueMotion prediction: byte inputs cannot wrap a 16-bit lane. *)
Theorem lane16_tm_eq : forall top left tl, byte top -> byte left -> byte tl ->
  l_tm_sample top left tl = tm_sample top left tl.
Proof.
  unfold byte, l_tm_sample, tm_sample, add16, sub16. intros top left tl Ht Hl Htl.
  rewrite (wrap16_id (top - tl)) by (unfold int16; lia).
  rewrite wrap16_id by (unfold int16; lia). f_equal. lia.
Qed.

(** * Green transforms: byte-wise PADDB/PSUBB vs the packed uint32 arithmetic. *)
Lemma argb_of_bytes a r g b : byte a -> byte r -> byte g -> byte b ->
  let p := argb_of a r g b in
  p mod 256 = b /\ (p / 256) mod 256 = g /\ (p / 65536) mod 256 = r /\ (p / 16777216) mod 256 = a.
Proof. unfold byte, argb_of. intros Ha Hr Hg Hb. cbv zeta. repeat split; lia. Qed.

Theorem lane16_add_green_eq : forall a r g b, byte a -> byte r -> byte g -> byte b ->
  add_green_lanes a r g b = add_green_go (argb_of a r g b).
Proof.
  intros a r g b Ha Hr Hg Hb. destruct (argb_of_bytes a r g b Ha Hr Hg Hb) as (E0 & E1 & E2 & E3).
  unfold add_green_lanes, add_green_go, and_00ff00ff, and_ff00ff00. cbv zeta. rewrite E0, E1, E2, E3. clear E0 E1 E2 E3.
  unfold byte, argb_of in *.
  set (rb := (b + r * 65536 + g * 65537) mod 4294967296).
  assert (F : rb = (r + g) * 65536 + (b + g)) by (subst rb; lia).
  assert (G0 : rb mod 256 = (b + g) mod 256) by (rewrite F; lia).
  assert (G2 : (rb / 65536) mod 256 = (r + g) mod 256) by (rewrite F; lia).
  rewrite G0, G2. lia.
Qed.

Theorem lane16_sub_green_eq : forall a r g b, byte a -> byte r -> byte g -> byte b ->
  sub_green_lanes a r g b = sub_green_go (argb_of a r g b).
Proof.
  intros a r g b Ha Hr Hg Hb. destruct (argb_of_bytes a r g b Ha Hr Hg Hb) as (E0 & E1 & E2 & E3).
  unfold sub_green_lanes, sub_green_go, and_ff00ff00. cbv zeta. rewrite E0, E1, E2, E3. clear E0 E1 E2 E3.
  unfold byte, argb_of in *.
  assert (G0 : ((b - g) mod 4294967296) mod 256 = (b - g) mod 256) by lia.
  assert (G2 : ((r - g) mod 4294967296) mod 256 = (r - g) mod 256) by lia.
  rewrite G0, G2. lia.
Qed.

(** * SSE: 16-bit differences, 32-bit accumulation (up to 16x16 samples). *)

Lemma wrap32_sum {A} (f g : A -> Z) K l :
  Forall (fun x => f x = g x /\ 0 <= g x <= K) l -> K * Z.of_nat (length l) <= 2147483647 ->
  fold_right (fun v acc => wrap32 (v + acc)) 0 (map f l) = fold_right Z.add 0 (map g l)
  /\ 0 <= fold_right Z.add 0 (map g l) <= K * Z.of_nat (length l).
Proof.
  induction 1 as [|x l [E B] _ IH]; cbn [map fold_right length]; intros HL; [lia|].
  destruct IH as [IH1 IH2]; [lia|]. rewrite IH1, E. split; [apply wrap32_id|]; lia.
Qed.

Lemma l_sq_eq x y : byte x -> byte y -> l_sq x y = (x - y) * (x - y) /\ 0 <= (x - y) * (x - y) <= 65025.
Proof.
  unfold byte, l_sq. intros Hx Hy. rewrite sub16_id by (unfold int16; lia). split; [reflexivity|].
  set (d := x - y). assert (Hd : -255 <= d <= 255) by (subst d; lia). clearbody d. nia.
Qed.

Theorem lane16_sse_eq : forall a b, Forall byte a -> Forall byte b -> (length a <= 1024)%nat ->
  l_sse_list a b = sse_list a b.
Proof.
  intros a b Ha Hb HL. unfold l_sse_list, sse_list.
  apply (wrap32_sum (fun xy => l_sq (fst xy) (snd xy)) _ 65025).
  - apply (Forall_combine2 byte byte); [exact l_sq_eq|exact Ha|exact Hb].
  - rewrite combine_length. lia.     (* 1024 * 65025 < 2^31 *)
Qed.

(** * Simple loop filter: one column. *)
Lemma clamp_minmax lo hi x : lo <= hi -> Z.max lo (Z.min hi x) = clampz lo hi x.
Proof. unfold clampz. intros H. destruct (x <? lo) eqn:E1; destruct (hi <? x) eqn:E2; lia. Qed.

Lemma clampz_range lo hi x : lo <= hi -> lo <= clampz lo hi x <= hi.
Proof. unfold clampz. intros H. destruct (x <? lo) eqn:E1; [lia|]. destruct (hi <? x) eqn:E2; lia. Qed.

Lemma lane_absdiff x y : byte x -> byte y -> max16 (sub16 x y) (sub16 y x) = Z.abs (x - y).
Proof. unfold byte, max16. intros Hx Hy. rewrite !sub16_id by (unfold int16; lia). lia. Qed.

Lemma lane_filter_mask d0 d1 thresh : 0 <= d0 <= 255 -> 0 <= d1 <= 255 -> 0 <= thresh <= 32767 ->
  (subus16 (add16 (shl16 d0 2) d1) (wrap16 (2 * thresh + 1)) =? 0) = (4 * d0 + d1 <=? 2 * thresh + 1).
Proof.
  intros H0 H1 HT. unfold shl16. change (2 ^ 2) with 4.
  rewrite (wrap16_id (d0 * 4)), add16_id by (unfold int16; lia).
  unfold subus16, wrap16. destruct (Z.leb_spec (4 * d0 + d1) (2 * thresh + 1)); lia.
Qed.

Lemma lane_filter_delta d s k : -255 <= d <= 255 -> -128 <= s <= 127 -> 0 <= k <= 4 ->
  sra16 (add16 (add16 (add16 (add16 d d) d) s) k) 3 = (3 * d + s + k) / 8.
Proof.
  intros Hd Hs Hk. rewrite (add16_id d d) by (unfold int16; lia). rewrite (add16_id (d + d) d) by (unfold int16; lia).
  rewrite (add16_id (d + d + d) s) by (unfold int16; lia). rewrite add16_id by (unfold int16; lia).
  unfold sra16. change (2 ^ 3) with 8. f_equal. lia.
Qed.

Theorem lane16_simple_filter_eq : forall p1 p0 q0 q1 thresh,
  byte p1 -> byte p0 -> byte q0 -> byte q1 -> 0 <= thresh <= 32767 ->
  simple_filter_lane p1 p0 q0 q1 thresh = simple_filter_go p1 p0 q0 q1 thresh.
Proof.
  intros p1 p0 q0 q1 thresh H1 H0 G0 G1 HT. unfold simple_filter_lane, simple_filter_go. cbv zeta.
  rewrite !lane_absdiff by assumption. unfold byte in *.
  rewrite lane_filter_mask by lia. rewrite (sub16_id p1 q1), (sub16_id q0 p0) by (unfold int16; lia).
  unfold max16, min16. rewrite !clamp_minmax by lia.
  pose proof (clampz_range (-128) 127 (p1 - q1) ltac:(lia)) as Hs.
  rewrite !lane_filter_delta by lia.
  pose proof (clampz_range (-16) 15 ((3 * (q0 - p0) + clampz (-128) 127 (p1 - q1) + 4) / 8) ltac:(lia)) as Ha1.
  pose proof (clampz_range (-16) 15 ((3 * (q0 - p0) + clampz (-128) 127 (p1 - q1) + 3) / 8) ltac:(lia)) as Ha2.
  destruct (4 * Z.abs (p0 - q0) + Z.abs (p1 - q1) <=? 2 * thresh + 1).
  - rewrite add16_id, sub16_id by (unfold int16; lia). reflexivity.
  - rewrite add16_id, sub16_id by (unfold int16; lia). unfold clip8.
    rewrite Z.add_0_r, Z.sub_0_r. destruct (p0 <? 0) eqn:E1; [lia|]. destruct (255 <? p0) eqn:E2; [lia|].
    destruct (q0 <? 0) eqn:E3; [lia|]. destruct (255 <? q0) eqn:E4; [lia|]. reflexivity.
Qed.

(** The filter models are exercised by inputs on which the filter fires. *)
Example simple_filter_fires : simple_filter_go 100 104 120 118 63 = (108, 116) /\ simple_filter_lane 100 104 120 118 63 = (108, 116).
Proof. split; vm_compute; reflexivity. Qed.

(** * Forward DCT: 32-bit lanes never wrap and no pack saturates on byte input. *)
Lemma l_frow_spec d0 d1 d2 d3 :
  in_box 255 d0 -> in_box 255 d1 -> in_box 255 d2 -> in_box 255 d3 ->
  l_frow (d0, d1, d2, d3) = frow (d0, d1, d2, d3) /\ forallQ (in_box 8160) (frow (d0, d1, d2, d3)).
Proof.
  unfold in_box. intros H0 H1 H2 H3. unfold l_frow, frow, pmadd, sra32. cbv zeta.
  change (2 ^ 9) with 512.
  rewrite (wrap32_id (d0 + d3)), (wrap32_id (d1 + d2)), (wrap32_id (d1 - d2)), (wrap32_id (d0 - d3)) by lia.
  rewrite (sat16_id (d1 - d2)), (sat16_id (d0 - d3)) by (unfold int16; lia).
  rewrite (wrap32_id (d0 + d3 + (d1 + d2))), (wrap32_id (d0 + d3 - (d1 + d2))) by lia.
  rewrite (wrap32_id ((d0 + d3 + (d1 + d2)) * 8)), (wrap32_id ((d0 + d3 - (d1 + d2)) * 8)) by lia.
  rewrite (wrap32_id ((d1 - d2) * 2217 + (d0 - d3) * 5352)), (wrap32_id ((d0 - d3) * 2217 + (d1 - d2) * -5352)) by lia.
  rewrite (wrap32_id ((d1 - d2) * 2217 + (d0 - d3) * 5352 + 1812)), (wrap32_id ((d0 - d3) * 2217 + (d1 - d2) * -5352 + 937)) by lia.
  replace ((d0 - d3) * 2217 + (d1 - d2) * -5352 + 937) with ((d0 - d3) * 2217 - (d1 - d2) * 5352 + 937) by lia.
  split; [reflexivity|]. cbn [forallQ]. unfold in_box. repeat split; lia.
Qed.

Definition fcol_bound (B : Z) : Q :=
  ((4 * B + 8) / 16, (15138 * B + 12000) / 65536 + 1, (4 * B + 8) / 16, (15138 * B + 51000) / 65536).

Lemma fcol_quotients B t0 t1 t2 t3 :
  B <= 8160 -> in_box B t0 -> in_box B t1 -> in_box B t2 -> in_box B t3 ->
  let '(b0, b1, b2, b3) := fcol_bound B in
  in_box b0 ((t0 + t3 + (t1 + t2) + 7) / 16) /\
  in_box b1 (((t1 - t2) * 2217 + (t0 - t3) * 5352 + 12000) / 65536 + (if t0 - t3 =? 0 then 0 else 1)) /\
  in_box b2 ((t0 + t3 - (t1 + t2) + 7) / 16) /\
  in_box b3 (((t0 - t3) * 2217 - (t1 - t2) * 5352 + 51000) / 65536).
Proof.
  unfold fcol_bound, in_box. intros HB H0 H1 H2 H3.
  set (e := if t0 - t3 =? 0 then 0 else 1). assert (0 <= e <= 1) by (subst e; destruct (t0 - t3 =? 0); lia).
  clearbody e. repeat split; lia.
Qed.

Lemma l_fcol_spec t0 t1 t2 t3 :
  in_box 8160 t0 -> in_box 8160 t1 -> in_box 8160 t2 -> in_box 8160 t3 ->
  l_fcol (t0, t1, t2, t3) = fcol (t0, t1, t2, t3) /\ forallQ (in_box 2040) (fcol (t0, t1, t2, t3)).
Proof.
  unfold in_box. intros H0 H1 H2 H3. unfold l_fcol, fcol, pmadd, sra32. cbv zeta.
  change (2 ^ 4) with 16. change (2 ^ 16) with 65536.
  rewrite (wrap32_id (t0 + t3)), (wrap32_id (t1 + t2)), (wrap32_id (t1 - t2)), (wrap32_id (t0 - t3)) by lia.
  rewrite (sat16_id (t1 - t2)), (sat16_id (t0 - t3)) by (unfold int16; lia).
  rewrite (wrap32_id (t0 + t3 + (t1 + t2))), (wrap32_id (t0 + t3 - (t1 + t2))) by lia.
  rewrite (wrap32_id (t0 + t3 + (t1 + t2) + 7)), (wrap32_id (t0 + t3 - (t1 + t2) + 7)) by lia.
  rewrite (wrap32_id ((t1 - t2) * 2217 + (t0 - t3) * 5352)), (wrap32_id ((t0 - t3) * 2217 + (t1 - t2) * -5352)) by lia.
  rewrite (wrap32_id ((t1 - t2) * 2217 + (t0 - t3) * 5352 + 12000)), (wrap32_id ((t0 - t3) * 2217 + (t1 - t2) * -5352 + 51000)) by lia.
  replace ((t0 - t3) * 2217 + (t1 - t2) * -5352 + 51000) with ((t0 - t3) * 2217 - (t1 - t2) * 5352 + 51000) by lia.
  destruct (fcol_quotients 8160 t0 t1 t2 t3 (Z.le_refl _) H0 H1 H2 H3) as (K0 & K1 & K2 & K3). clear H0 H1 H2 H3.
  unfold fcol_bound, in_box in *.
  rewrite (wrap32_id (((t1 - t2) * 2217 + (t0 - t3) * 5352 + 12000) / 65536 + (if t0 - t3 =? 0 then 0 else 1))) by lia.
  rewrite !sat16_id, !wrap16_id by (unfold int16; lia).
  split; [reflexivity|]. cbn [forallQ]. lia.
Qed.

Lemma l_fdct_core_eq d : forallM (in_box 255) d ->
  l_fdct_core d = fdct_core d /\ forallM (in_box 2040) (fdct_core d).
Proof.
  intros Hd. unfold l_fdct_core, fdct_core.
  assert (E1 : forall q, forallQ (in_box 255) q -> l_frow q = frow q)
    by (intros [[[d0 d1] d2] d3] (H0 & H1 & H2 & H3); apply l_frow_spec; assumption).
  assert (E2 : forall q, forallQ (in_box 8160) q -> l_fcol q = fcol q)
    by (intros [[[t0 t1] t2] t3] (H0 & H1 & H2 & H3); apply l_fcol_spec; assumption).
  assert (B1 : forallM (in_box 8160) (transpose (mapM frow d))).
  { apply forallM_transpose. revert Hd. apply forallM_mapM.
    intros [[[d0 d1] d2] d3] (H0 & H1 & H2 & H3). apply l_frow_spec; assumption. }
  rewrite (mapM_ext _ _ _ d E1 Hd), (mapM_ext _ _ _ _ E2 B1). split; [reflexivity|].
  apply forallM_transpose. revert B1. apply forallM_mapM.
  intros [[[t0 t1] t2] t3] (H0 & H1 & H2 & H3). apply l_fcol_spec; assumption.
Qed.

Lemma diff_box s r : forallM byte s -> forallM byte r ->
  map2M sub16 s r = map2M Z.sub s r /\ forallM (in_box 255) (map2M Z.sub s r).
Proof.
  intros Hs Hr. split.
  - apply (map2M_ext byte byte); [|exact Hs|exact Hr]. unfold byte. intros a b Ha Hb. apply sub16_id. unfold int16. lia.
  - apply (forallM_map2M byte byte); [|exact Hs|exact Hr]. unfold byte, in_box. lia.
Qed.

Theorem lane32_fdct_eq : forall src ref, Forall byte src -> Forall byte ref ->
  lane32_fdct src ref = ftransform src ref.
Proof.
  intros src ref Hs Hr. unfold lane32_fdct, ftransform.
  apply (blk16_bind_ext byte); [exact Hs|]. intros s Bs.
  apply (blk16_bind_ext byte); [exact Hr|]. intros r Br. do 2 f_equal.
  destruct (diff_box s r Bs Br) as [-> Hd]. apply l_fdct_core_eq, Hd.
Qed.

Theorem ftransform_bound : forall src ref s r, blk16 src = Ok s -> blk16 ref = Ok r ->
  Forall byte src -> Forall byte ref ->
  forallM (in_box 2040) (fdct_core (map2M Z.sub s r)).
Proof.
  intros src ref s r Es Er Hs Hr.
  destruct (diff_box s r (blk16_Forall _ _ _ Es Hs) (blk16_Forall _ _ _ Er Hr)) as [_ Hd].
  apply l_fdct_core_eq, Hd.
Qed.

(** The forward WHT, fed in the encoder with the DCs of sixteen forward DCTs
    (each within +-2040), never leaves its no-wrap range there. *)
Theorem lane16_fwht_eq_on_encoder_input : forall dcs,
  Forall (fun dc => exists src ref s r, blk16 src = Ok s /\ blk16 ref = Ok r /\ Forall byte src /\ Forall byte ref /\
                    dc = nth 0 (listM (fdct_core (map2M Z.sub s r))) 0) dcs ->
  lane16_fwht dcs = ftransform_wht dcs.
Proof.
  intros dcs H. apply lane16_fwht_eq. unfold in_range_fwht, kFwhtBox.
  eapply Forall_impl; [|exact H]. cbn beta.
  intros dc (src & ref & s & r & Es & Er & Hs & Hr & ->).
  pose proof (ftransform_bound src ref s r Es Er Hs Hr) as B.
  destruct (fdct_core (map2M Z.sub s r)) as [[[[[[p0 p1] p2] p3] q] r'] z].
  cbn [forallM forallQ listM listQ app nth] in *. unfold in_box in B. lia.
Qed.

Example ftransform_example :
  ftransform (repeat 255 16) (repeat 0 16) = Ok [2040; 1; 0; 0; 0; 0; 0; 0; 0; 0; 0; 0; 0; 0; 0; 0] /\
  lane32_fdct [255; 0; 255; 0; 0; 255; 0; 255; 255; 0; 255; 0; 0; 255; 0; 255] (repeat 128 16)
  = ftransform [255; 0; 255; 0; 0; 255; 0; 255; 255; 0; 255; 0; 0; 255; 0; 255] (repeat 128 16).
Proof. split; vm_compute; reflexivity. Qed.

(** * YUV -> RGB: equal for all byte triples. *)
Lemma pack_clip_yuv x : int16 (x / 64) -> pack_u8 (x / 64) = clip_yuv x.
Proof.
  unfold int16. intros H. unfold pack_u8, clip_yuv, sat16, clampz, clip8.
  destruct (x / 64 <? -32768) eqn:E1; [lia|]. destruct (32767 <? x / 64) eqn:E2; [lia|].
  destruct (x <? 0) eqn:E3.
  - destruct (x / 64 <? 0) eqn:E4; lia.
  - destruct (16383 <? x) eqn:E5.
    + destruct (x / 64 <? 0) eqn:E4; [lia|]. destruct (255 <? x / 64) eqn:E6; lia.
    + reflexivity.
Qed.

Theorem lane32_yuv_eq : forall y u v, byte y -> byte u -> byte v ->
  l_yuv_r y v = yuv_r y v /\ l_yuv_g y u v = yuv_g y u v /\ l_yuv_b y u = yuv_b y u.
Proof.
  unfold byte. intros y u v Hy Hu Hv.
  unfold l_yuv_r, l_yuv_g, l_yuv_b, yuv_r, yuv_g, yuv_b, pmadd, sra32.
  change (2 ^ 8) with 256. change (2 ^ 7) with 128. change (2 ^ 6) with 64.
  rewrite !Z.mul_0_l, !Z.add_0_r.
  rewrite (wrap32_id (y * 19077)), (wrap32_id (v * 26149)), (wrap32_id (u * 6419)),
          (wrap32_id (v * 13320)), (wrap32_id (u * 16525)) by lia.
  replace (u * 16525 / 128) with (u * 33050 / 256) by lia.
  set (ys := y * 19077 / 256). set (rv := v * 26149 / 256). set (gu := u * 6419 / 256).
  set (gv := v * 13320 / 256). set (bu := u * 33050 / 256).
  assert (0 <= ys <= 19003) by (subst ys; lia). assert (0 <= rv <= 26047) by (subst rv; lia).
  assert (0 <= gu <= 6394) by (subst gu; lia). assert (0 <= gv <= 13268) by (subst gv; lia).
  assert (0 <= bu <= 32921) by (subst bu; lia).
  rewrite (wrap32_id (ys + rv)), (wrap32_id (ys + rv - 14234)) by lia.
  rewrite (wrap32_id (ys - gu)), (wrap32_id (ys - gu - gv)), (wrap32_id (ys - gu - gv + 8708)) by lia.
  rewrite (wrap32_id (ys + bu)), (wrap32_id (ys + bu - 17685)) by lia.
  repeat split; apply pack_clip_yuv; unfold int16; lia.
Qed.

Example yuv_example : yuv_r 235 240 = 255 /\ yuv_g 16 128 128 = 0 /\ yuv_b 128 50 = 0 /\ yuv_g 180 100 90 = 233.
Proof. repeat split; vm_compute; reflexivity. Qed.

(** * Hadamard distortion: byte blocks keep every lane within +-4080. *)
Lemma l_hadamard_eq m : forallM byte m -> l_hadamard m = hadamard m /\ forallM (in_box 4080) (hadamard m).
Proof.
  intros Hm. apply (forallM_impl _ _ _ byte_in_box) in Hm. split; [|exact (hadamard_box 255 m Hm)].
  pose proof (forallM_mapM _ _ fwht_b m (fwht_b_box 255) Hm) as H1.
  pose proof (proj2 (forallM_transpose _ _) H1) as H1t.
  pose proof (forallM_mapM _ _ fwht_b _ (fwht_b_box _) H1t) as H2.
  unfold l_hadamard, hadamard.
  rewrite (lin_pass_id _ _ l_fwht_b_lin m); [|apply (forallM_box_int16 255)|apply (forallM_box_int16 (4 * 255))]; try assumption; try discriminate.
  rewrite (lin_pass_id _ _ l_fwht_b_lin (transpose (mapM fwht_b m))); [reflexivity|apply (forallM_box_int16 (4 * 255))|apply (forallM_box_int16 (4 * (4 * 255)))];
    try assumption; discriminate.
Qed.

Lemma l_wsum_eq w h : Forall (fun x => 0 <= x <= 255) w -> Forall (in_box 4080) h -> (length h <= 64)%nat ->
  l_wsum w h = wsum w h.
Proof.
  intros Hw Hh HL. unfold l_wsum, wsum.
  apply (wrap32_sum (fun wh => fst wh * abs16 (snd wh)) _ 1040400).
  - apply (Forall_combine2 (fun x => 0 <= x <= 255) (in_box 4080)); [|exact Hw|exact Hh]. unfold in_box. intros x y Hx Hy. cbn [fst snd].
    unfold abs16. rewrite wrap16_id by (unfold int16; lia). split; [reflexivity|nia].
  - rewrite combine_length. lia.
Qed.

Theorem lane16_tdisto_eq : forall w a b, Forall (fun x => 0 <= x <= 255) w -> Forall byte a -> Forall byte b ->
  l_tdisto w a b = tdisto w a b.
Proof.
  intros w a b Hw Ha Hb. unfold l_tdisto, tdisto.
  apply (blk16_bind_ext byte); [exact Ha|]. intros x Bx.
  apply (blk16_bind_ext byte); [exact Hb|]. intros y By.
  destruct (l_hadamard_eq x Bx) as [-> Hx], (l_hadamard_eq y By) as [-> Hy].
  rewrite !l_wsum_eq by (try apply forallM_listM; try rewrite length_listM; (assumption || lia)). reflexivity.
Qed.

(** * AC quantisation: equal whenever the 32-bit product of the Go code does not wrap. *)
Theorem lane_quant_eq : forall x sharpen iq bias,
  -32767 <= x <= 32767 -> 0 <= sharpen -> Z.abs x + sharpen <= 32767 ->
  0 <= iq < 4294967296 -> 0 <= bias ->
  (Z.abs x + sharpen) * iq + bias < 4294967296 ->
  quant_lane x sharpen iq bias = quant_go x sharpen iq bias.
Proof.
  intros x sharpen iq bias Hx Hs Hv Hiq Hb Hp. unfold quant_lane, quant_go. cbv zeta.
  assert (Ea : (if x <? 0 then wrap16 (- x) else x) = Z.abs x).
  { destruct (Z.ltb_spec x 0) as [E|E]; [rewrite wrap16_id by (unfold int16; lia)|]; lia. }
  rewrite Ea. unfold add16. rewrite (wrap16_id (Z.abs x + sharpen)) by (unfold int16; lia).
  set (v := Z.abs x + sharpen) in *.
  replace (Z.max v 0) with v by lia.
  replace (if v <? 0 then 0 else v) with v by (destruct (Z.ltb_spec v 0); lia).
  assert (Hvi : 0 <= v * iq) by (apply Z.mul_nonneg_nonneg; lia).
  rewrite (Z.mod_small v), (Z.mod_small iq), (Z.mod_small bias) by lia.
  rewrite (Z.mod_small (v * iq + bias) 4294967296) by lia.
  rewrite (Z.mod_small (v * iq + bias) 18446744073709551616) by lia.
  set (p := (v * iq + bias) / 131072).
  assert (Hpp : 0 <= p < 32768) by (subst p; lia).
  rewrite (Z.mod_small p) by lia. rewrite (wrap32_id p) by lia.
  set (c := if 2047 <? p then 2047 else p).
  assert (Hc : 0 <= c <= 2047) by (subst c; destruct (Z.ltb_spec 2047 p); lia).
  rewrite (sat16_id c) by (unfold int16; lia).
  destruct (Z.ltb_spec x 0) as [E|E].
  - replace (-1 * c) with (- c) by lia. reflexivity.
  - rewrite wrap16_id by (unfold int16; lia). lia.
Qed.

Corollary lane_quant_eq_encoder : forall x sharpen iq bias,
  -4095 <= x <= 4095 -> 0 <= sharpen <= 255 -> 0 <= iq <= 131072 -> 0 <= bias <= 1048576 ->
  quant_lane x sharpen iq bias = quant_go x sharpen iq bias.
Proof.
  intros x sharpen iq bias Hx Hs Hiq Hb. apply lane_quant_eq; try lia.
  assert (Hv : 0 <= Z.abs x + sharpen <= 4350) by lia.
  pose proof (Z.mul_le_mono_nonneg _ _ _ _ (proj1 Hv) (proj2 Hv) (proj1 Hiq) (proj2 Hiq)). lia.
Qed.

Example quant_example : quant_go (-1000) 3 16384 65536 = -125 /\ quant_lane (-1000) 3 16384 65536 = -125.
Proof. split; vm_compute; reflexivity. Qed.
