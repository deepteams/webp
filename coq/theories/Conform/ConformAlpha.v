(** The ALPH chunk round trip with its lossless-coder parameter instantiated by
    the VP8L specification decoder and the VP8L emitter: for every plane, every
    prediction filter and EVERY well-formed plan the lossless encoder may choose
    for the green-channel image of the filtered plane (its heuristics are
    choices), the ALPH chunk whose payload is that stream minus its 5-byte header
    decodes — through DecodeAlpha's rebuilt header and the VP8L specification
    decoder — to exactly the plane that was given.  This composes C07
    (Alpha/AlphaProofs) with C03's [emit_decode]. *)
From Coq Require Import List ZArith Lia Bool.
From Webp Require Import Base.Res Base.Bytes Alpha.AlphaModel Alpha.AlphaProofs
  Vp8l.Vp8lPixel Vp8l.Vp8lSpec Vp8l.Vp8lEmit Vp8l.Vp8lEmitDecode Vp8l.Vp8lHeaderBytes
  Conform.ConformVp8Hdr Conform.ConformFile.
Import ListNotations.
Open Scope Z_scope.

(** The green channel of the picture a plan denotes. *)
Definition green_of (p : plan) : list Z := map pg (i_px (sem p)).

Lemma ldec_spec_emit p w h :
  wf_plan p -> p_alpha p = 0 -> p_w p = w -> p_h p = h ->
  ldec_spec w h (skipn 5 (emit p)) = Some (green_of p).
Proof.
  intros Hwf Ha Hw Hh. unfold ldec_spec, ConformVp8Hdr.vp8l_header. cbn [app].
  rewrite Z.add_0_r, (decode_rebuilt_header p w h Hwf Ha Hw Hh).
  unfold green_of, sem. destruct (sem_transforms _ _ _). cbn [i_w i_h i_px].
  rewrite Hw, Hh, !Z.eqb_refl. reflexivity.
Qed.

(** ALPH chunk with lossless compression, any filter, any plan of the encoder. *)
Theorem alpha_lossless_chunk_exact rs w h filter r16 (p : plan) :
  1 <= w -> 1 <= h -> w * h <= 2^30 ->
  wf_plane (Z.to_nat w) rs -> Z.of_nat (length rs) = h -> 0 <= filter <= 3 ->
  (r16 = 0 \/ r16 = 16) ->
  wf_plan p -> p_alpha p = 0 -> p_w p = w -> p_h p = h ->
  green_of p = concat (apply_filter filter rs) ->
  alpha_decode ((1 + 4 * filter + r16) :: skipn 5 (emit p)) w h = Ok (concat rs).
Proof.
  intros Hw Hh Harea Hwf Hlen Hf Hr Hp Ha Hpw Hph Hg.
  apply decode_filtered; try assumption. right. split; [reflexivity|].
  rewrite <- Hg. exact (ldec_spec_emit p w h Hp Ha Hpw Hph).
Qed.
