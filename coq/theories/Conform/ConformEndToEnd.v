(** C02 end to end, lossless: for EVERY source picture, EVERY option and EVERY
    admissible set of choices of the lossless encoder (its heuristics are
    choices: transforms, code lengths, tokens, colour cache, meta image), and
    every ICC / EXIF / XMP blob within the writer's size guard, the file that the
    container writer model produces around the emitted VP8L stream
      - is accepted by the independent container grammar (RiffGrammar.wf), and
      - is analysed by the independent format models (Conform.ConformFile.analyse:
        RiffGrammar chunk walk + VP8L specification decoder) to a report with the
        source's dimensions, the alpha bit the encoder chose and exactly the
        pixels the round trip must return.
    Composition of Vp8lRoundtrip.lossless_roundtrip (C01/C03), the header bytes
    of an emitted stream, WriterTheorems.metadata_roundtrip (C15) and the
    ParserSpec -> RiffGrammar bridge (ParserGrammar). *)
From Coq Require Import List ZArith Lia Bool.
From Coq Require Import ZifyBool ZifyNat.
From Webp Require Import Base.Res Base.Bytes.
From Webp Require Riff.RiffGrammar Riff.ParserModel Riff.ParserSpec Riff.ParserSpecProofs
  Riff.WriterModel Riff.MetadataProofs Riff.WriterTheorems Riff.ParserGrammar Riff.FeaturesAlphaLossless.
From Webp Require Vp8l.Vp8lPixel Vp8l.Vp8lSpec Vp8l.Vp8lPrefix Vp8l.Vp8lEmit Vp8l.Vp8lEmitDecode Vp8l.Vp8lRoundtrip.
From Webp Require Conform.ConformFile.
Import ListNotations.
Open Scope Z_scope.

Module G := RiffGrammar.
Module PS := ParserSpec.
Module PG := ParserGrammar.
Module R := Vp8lRoundtrip.
Module CF := ConformFile.

(** ** The emitted stream is a byte string *)
Lemma bits_value_bound l : 0 <= Vp8lPrefix.bits_value l < 2 ^ Z.of_nat (length l).
Proof.
  induction l as [|b tl IH]; [cbn; lia|].
  cbn [Vp8lPrefix.bits_value length]. rewrite Nat2Z.inj_succ, Z.pow_succ_r by lia.
  destruct b; lia.
Qed.

Lemma bytes_of_bits_fuel_ok fuel s : bytes_ok (Vp8lPrefix.bytes_of_bits_fuel fuel s).
Proof.
  revert s. induction fuel as [|f IH]; intros s; [constructor|].
  cbn [Vp8lPrefix.bytes_of_bits_fuel]. destruct s as [|b tl]; [constructor|].
  constructor; [|apply IH].
  pose proof (bits_value_bound (firstn 8 (b :: tl))) as Hb.
  pose proof (firstn_le_length 8 (b :: tl)) as Hl.
  assert (2 ^ Z.of_nat (length (firstn 8 (b :: tl))) <= 2 ^ 8) by (apply Z.pow_le_mono_r; lia).
  unfold is_byte. lia.
Qed.

Lemma emit_bytes_ok p : bytes_ok (Vp8lEmit.emit p).
Proof.
  unfold Vp8lEmit.emit. constructor; [unfold is_byte; lia|]. apply bytes_of_bits_fuel_ok.
Qed.

(** ** Chunk lookup: ParserSpec (ids) vs ConformFile (tags) *)
Lemma find_chunk_conv id cs :
  0 <= id < 4294967296 -> PG.ids_ok cs ->
  CF.find_chunk (le32 id) (map PG.conv cs) = PS.find_chunk id cs.
Proof.
  intros Hid Hids. induction cs as [|[i d] tl IH]; [reflexivity|].
  inversion Hids as [|? ? [Hi _] Htl]; subst. cbn [fst] in Hi.
  cbn [map PG.conv fst snd CF.find_chunk PS.find_chunk].
  rewrite PG.tag_eqb by assumption. destruct (i =? id); [reflexivity|]. apply IH. exact Htl.
Qed.

Lemma skipn12_file v body :
  skipn 12 (le32 ParserModel.FourCCRIFF ++ le32 v ++ le32 ParserModel.FourCCWEBP ++ body) = body.
Proof. unfold le32. reflexivity. Qed.

(** ** The written file as the analyser reads it: accepted by the grammar, and the grammar's
    chunk walk over its body is ParserSpec's chunk list, tag for id; the image chunk is there *)
Lemma written_file_chunks fourcc bs alpha w h icc exif xmp a file :
  WriterTheorems.writer_inputs_ok fourcc bs alpha w h icc exif xmp a ->
  bytes_ok bs -> bytes_ok alpha -> bytes_ok icc -> bytes_ok exif -> bytes_ok xmp ->
  WriterModel.write_riff fourcc bs alpha w h icc exif xmp = Ok file ->
  G.wf file = true /\
  exists cs, G.chunks (length (skipn 12 file)) (skipn 12 file) = Some (map PG.conv cs) /\
    (forall id, 0 <= id < 4294967296 -> CF.find_chunk (le32 id) (map PG.conv cs) = PS.spec_get_chunk file id) /\
    PS.spec_get_chunk file fourcc = Some bs.
Proof.
  intros Hin Hbs Hal Hic Hex Hxm Hw.
  destruct (WriterTheorems.metadata_roundtrip _ _ _ _ _ _ _ _ _ Hin)
    as (file' & Hw' & _ & _ & _ & _ & Hget & Hrwf & _).
  rewrite Hw in Hw'. injection Hw' as <-.
  assert (Hfb : bytes_ok file).
  { apply (PG.write_riff_bytes_ok _ _ _ _ _ _ _ _ _ Hbs Hal Hic Hex Hxm
             (WriterTheorems.sizes_ok_simple _ _ _ _ _ (WriterTheorems.wi_sizes _ _ _ _ _ _ _ _ _ Hin)) Hw). }
  split; [apply PG.riff_wf_grammar; assumption|].
  unfold PS.spec_get_chunk in *.
  destruct (PS.riff_chunks file) as [cs|] eqn:Erc; [|discriminate].
  destruct (ParserSpecProofs.riff_chunks_inv _ _ Hfb Erc) as (body & Hfile & Hwalk & Hbody & _).
  exists cs. rewrite Hfile, skipn12_file.
  split; [exact (PG.chunks_of_walk _ _ _ Hbody Hwalk eq_refl)|]. split; [|exact Hget].
  intros id Hid. exact (find_chunk_conv id cs Hid (PG.walk_ids_ok _ _ _ Hbody Hwalk)).
Qed.

Definition lossless_file_conformant_statement : Prop :=
  forall img o c icc exif xmp file,
    R.valid img o c ->
    MetadataProofs.sizes_ok (Vp8lEmit.emit (R.plan_of img o c)) [] icc exif xmp ->
    bytes_ok icc -> bytes_ok exif -> bytes_ok xmp ->
    WriterModel.write_riff ParserModel.FourCCVP8L (Vp8lEmit.emit (R.plan_of img o c)) []
                           (R.s_w img) (R.s_h img) icc exif xmp = Ok file ->
    G.wf file = true /\
    exists rep, CF.analyse file = Ok rep /\
      CF.r_wf rep = true /\ CF.r_lossless rep = true /\
      CF.r_w rep = R.s_w img /\ CF.r_h rep = R.s_h img /\
      CF.r_alpha rep = (R.c_alpha c =? 1) /\
      CF.r_rgba rep = Some (Vp8lSpec.i_px (R.expected img o)).

Theorem lossless_file_conformant : lossless_file_conformant_statement.
Proof.
  intros img o c icc exif xmp file Hv Hs Hic Hex Hxm Hw.
  pose proof (R.lossless_roundtrip img o c Hv) as Hrt.
  destruct Hv as (Hwf & _).
  pose proof (FeaturesAlphaLossless.emit_header_parsed _ Hwf) as Hhdr.
  cbn [R.plan_of Vp8lEmit.p_w Vp8lEmit.p_h Vp8lEmit.p_alpha] in Hhdr.
  set (bs := Vp8lEmit.emit (R.plan_of img o c)) in *.
  set (a := R.c_alpha c =? 1) in *.
  assert (Hbs : bytes_ok bs) by apply emit_bytes_ok.
  assert (Hin : WriterTheorems.writer_inputs_ok ParserModel.FourCCVP8L bs [] (R.s_w img) (R.s_h img) icc exif xmp a).
  { constructor.
    - right. reflexivity.
    - unfold MetadataProofs.header_declares, PS.image_dims. rewrite Z.eqb_refl, Hhdr. reflexivity.
    - intros H. cbn in H. lia.
    - exact Hs. }
  destruct (written_file_chunks _ _ _ _ _ _ _ _ _ _ Hin Hbs (Forall_nil _) Hic Hex Hxm Hw)
    as (Hg & cs & Hch & Hconv & Hget).
  split; [exact Hg|].
  assert (Hfind : CF.find_chunk G.T_VP8L (map PG.conv cs) = Some bs).
  { rewrite <- Hget. apply (Hconv ParserModel.FourCCVP8L). vm_compute. split; [discriminate|reflexivity]. }
  assert (Hgh : G.vp8l_header bs = Some (R.s_w img, R.s_h img, a)).
  { apply (proj1 (PG.vp8l_header_bridge _ _ _ _ Hbs)). exact Hhdr. }
  unfold CF.analyse. cbv zeta. rewrite Hg, Hch, Hfind, Hrt, Hgh.
  eexists. split; [reflexivity|].
  cbn [CF.r_wf CF.r_lossless CF.r_w CF.r_h CF.r_alpha CF.r_rgba R.expected Vp8lSpec.i_w Vp8lSpec.i_h Vp8lSpec.i_px].
  rewrite !Z.eqb_refl. cbn [andb]. repeat split; reflexivity.
Qed.
