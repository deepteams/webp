(** The fixed-width fields of a VP8 key frame as written by the encoder
    (internal/lossy/encode_syntax.go emitFrame/assembleFrame) and as read back by a
    decoder following RFC 6386 §9.1/§9.2/§9.5: 3-byte frame tag with the 19-bit
    partition-0 length, 7-byte picture header with 14-bit dimensions, the
    (N-1)x3-byte token-partition size table.  Partition contents are opaque byte
    strings here.  At the end, the 5-byte VP8L header (signature, 14-bit dimensions minus one,
    alpha bit, version) with its round trip. *)
From Coq Require Import List ZArith Lia Bool ZifyBool.
From Webp Require Import Base.Res Base.Bytes Base.ListFacts.
Import ListNotations.
Open Scope Z_scope.

Definition len {A} (l : list A) : Z := Z.of_nat (length l).

(* uint32(tag) low three bytes: keyframe=0, profile=0 (bits 1-3), show=1 (bit 4), length<<5 *)
Definition frame_tag (part0_len : Z) : list Z :=
  let tag := (16 + part0_len * 32) mod 2^32 in
  [tag mod 256; (tag / 256) mod 256; (tag / 65536) mod 256].

(* signature + uint16(width & 0x3FFF) + uint16(height & 0x3FFF) *)
Definition pic_header (w h : Z) : list Z :=
  [157; 1; 42] ++ le16 (w mod 16384) ++ le16 (h mod 16384).

Definition size3 (sz : Z) : list Z := [sz mod 256; (sz / 256) mod 256; (sz / 65536) mod 256].

(* sizes of all partitions but the last *)
Fixpoint size_table (parts : list (list Z)) : list Z :=
  match parts with
  | [] => []
  | [_] => []
  | p :: tl => size3 (len p) ++ size_table tl
  end.

(* assembleFrame *)
Definition assemble (w h : Z) (part0 : list Z) (parts : list (list Z)) : list Z :=
  frame_tag (len part0) ++ pic_header w h ++ part0 ++ size_table parts ++ concat parts.

Fixpoint sized_parts_ok (parts : list (list Z)) : bool :=
  match parts with
  | [] => true
  | [_] => true
  | p :: tl => (len p <? 2^24) && sized_parts_ok tl
  end.

(* emitFrame after the fix: an error instead of a truncated size field *)
Definition emit_frame (w h : Z) (part0 : list Z) (parts : list (list Z)) : Res (list Z) :=
  if 2^19 <=? len part0 then Err 1
  else if negb (sized_parts_ok parts) then Err 2
  else Ok (assemble w h part0 parts).

(* the pinned (pre-fix) behaviour: no check at all *)
Definition pinned_emit_frame (w h : Z) (part0 : list Z) (parts : list (list Z)) : Res (list Z) :=
  Ok (assemble w h part0 parts).

(* the reader: RFC 6386 §9.1, §9.2, §9.5 *)
Record vp8_hdr := mk_hdr {
  h_key : bool; h_profile : Z; h_show : bool; h_part0_len : Z;
  h_width : Z; h_xscale : Z; h_height : Z; h_yscale : Z
}.

Definition parse_hdr (bs : list Z) : Res (vp8_hdr * list Z) :=
  match bs with
  | b0 :: b1 :: b2 :: s0 :: s1 :: s2 :: w0 :: w1 :: h0 :: h1 :: rest =>
      let bits := b0 + 256 * b1 + 65536 * b2 in
      if negb ((s0 =? 157) && (s1 =? 1) && (s2 =? 42)) then Err 3 else
      Ok (mk_hdr (bits mod 2 =? 0) ((bits / 2) mod 8) ((bits / 16) mod 2 =? 1) (bits / 32)
                 ((w0 + 256 * w1) mod 16384) (w1 / 64) ((h0 + 256 * h1) mod 16384) (h1 / 64),
          rest)
  | _ => Err 4
  end.

Definition take (n : Z) (l : list Z) : list Z := firstn (Z.to_nat n) l.
Definition drop (n : Z) (l : list Z) : list Z := skipn (Z.to_nat n) l.

(* split [n] sized partitions off [data] using the size table [tbl]; the last
   partition takes what is left *)
Fixpoint split_parts (n : nat) (tbl data : list Z) : Res (list (list Z)) :=
  match n with
  | O => Ok [data]
  | S k =>
      match tbl with
      | a :: b :: c :: tbl' =>
          let sz := a + 256 * b + 65536 * c in
          if len data <? sz then Err 5 else
          rest <- split_parts k tbl' (drop sz data) ;;
          Ok (take sz data :: rest)
      | _ => Err 6
      end
  end.

(* whole frame -> header, partition 0, token partitions (nparts known from
   partition 0's 2-bit field; here a parameter) *)
Definition parse_frame (nparts : nat) (bs : list Z) : Res (vp8_hdr * list Z * list (list Z)) :=
  '(hd, rest) <- parse_hdr bs ;;
  if len rest <? h_part0_len hd then Err 7 else
  let part0 := take (h_part0_len hd) rest in
  let after := drop (h_part0_len hd) rest in
  match nparts with
  | O => Err 8
  | S k =>
      if len after <? 3 * Z.of_nat k then Err 9 else
      parts <- split_parts k (take (3 * Z.of_nat k) after) (drop (3 * Z.of_nat k) after) ;;
      Ok (hd, part0, parts)
  end.


Lemma le24_value v : 0 <= v < 2^24 ->
  v mod 256 + 256 * ((v / 256) mod 256) + 65536 * ((v / 65536) mod 256) = v.
Proof. exact (rd24_le24 v []). Qed.

Lemma take_app (a b : list Z) : take (len a) (a ++ b) = a.
Proof. unfold take, len. rewrite Nat2Z.id. apply firstn_app_exact. Qed.

Lemma drop_app (a b : list Z) : drop (len a) (a ++ b) = b.
Proof. unfold drop, len. rewrite Nat2Z.id. apply skipn_app_exact. Qed.

Lemma len_app {A} (a b : list A) : len (a ++ b) = len a + len b.
Proof. unfold len. rewrite app_length. lia. Qed.

Lemma len_nonneg {A} (l : list A) : 0 <= len l.
Proof. unfold len. lia. Qed.

Lemma len_app_ltb {A} (a b : list A) : len (a ++ b) <? len a = false.
Proof. apply Z.ltb_ge. rewrite len_app. pose proof (len_nonneg b). lia. Qed.

Lemma size_table_len p tl : len (size_table (p :: tl)) = 3 * Z.of_nat (length tl).
Proof.
  revert p. induction tl as [|q tl IH]; intros p; [reflexivity|].
  change (size_table (p :: q :: tl)) with (size3 (len p) ++ size_table (q :: tl)).
  rewrite len_app, IH. unfold len, size3; cbn [length]. lia.
Qed.

Lemma split_parts_ok p tl : sized_parts_ok (p :: tl) = true ->
  split_parts (length tl) (size_table (p :: tl)) (concat (p :: tl)) = Ok (p :: tl).
Proof.
  revert p. induction tl as [|q tl IH]; intros p Hok.
  - cbn. rewrite app_nil_r. reflexivity.
  - cbn [sized_parts_ok] in Hok. apply andb_prop in Hok as [Hp Hrest]. apply Z.ltb_lt in Hp.
    change (size_table (p :: q :: tl)) with (size3 (len p) ++ size_table (q :: tl)).
    change (concat (p :: q :: tl)) with (p ++ concat (q :: tl)).
    unfold size3. cbn [length app split_parts].
    rewrite le24_value by (split; [apply len_nonneg|exact Hp]).
    rewrite len_app_ltb, drop_app, take_app, (IH q Hrest). reflexivity.
Qed.

(** The ten bytes in front of partition 0, as any reader sees them: three bytes that make up
    the tag 16 + 32 n (key frame, profile 0, shown, length n), the start code, and two 16-bit
    little-endian fields holding a 14-bit dimension and, in the upper two bits, the scale 0. *)
Lemma frame_head w h n rest : 1 <= w < 16384 -> 1 <= h < 16384 -> 0 <= n < 2^19 ->
  exists b0 b1 b2 w0 w1 h0 h1,
    frame_tag n ++ pic_header w h ++ rest =
      b0 :: b1 :: b2 :: 157 :: 1 :: 42 :: w0 :: w1 :: h0 :: h1 :: rest /\
    b0 + 256 * b1 + 65536 * b2 = 16 + n * 32 /\
    (w0 + 256 * w1) mod 16384 = w /\ w1 / 64 = 0 /\ (h0 + 256 * h1) mod 16384 = h /\ h1 / 64 = 0.
Proof.
  intros Hw Hh Hn. change (2^19) with 524288 in Hn.
  assert (Hd : forall x, 1 <= x < 16384 ->
            (x mod 256 + 256 * ((x / 256) mod 256)) mod 16384 = x /\ (x / 256) mod 256 / 64 = 0)
    by (intros; split; Z.div_mod_to_equations; lia).
  unfold frame_tag, pic_header, le16.
  rewrite (Z.mod_small (16 + n * 32)), (Z.mod_small w), (Z.mod_small h) by (change (2^32) with 4294967296; lia).
  do 7 eexists. split; [reflexivity|].
  split; [apply le24_value; change (2^24) with 16777216; lia|].
  split; [apply Hd, Hw|]. split; [apply Hd, Hw|]. split; apply Hd, Hh.
Qed.

Lemma tag_fields n : let tag := 16 + n * 32 in
  tag mod 2 = 0 /\ (tag / 2) mod 8 = 0 /\ (tag / 16) mod 2 = 1 /\ tag / 32 = n.
Proof. cbv zeta. repeat split; Z.div_mod_to_equations; lia. Qed.

Lemma dim_nonzero w : 1 <= w < 16384 -> (w =? 0) = false.
Proof. intros H. apply Z.eqb_neq. lia. Qed.

Lemma parse_hdr_frame w h n rest : 1 <= w < 16384 -> 1 <= h < 16384 -> 0 <= n < 2^19 ->
  parse_hdr (frame_tag n ++ pic_header w h ++ rest) = Ok (mk_hdr true 0 true n w 0 h 0, rest).
Proof.
  intros Hw Hh Hn.
  destruct (frame_head w h n rest Hw Hh Hn) as (b0 & b1 & b2 & w0 & w1 & h0 & h1 & E & Eb & Ew & Ew1 & Eh & Eh1).
  destruct (tag_fields n) as (T2 & T3 & T4 & T5).
  rewrite E. cbn [parse_hdr]. rewrite Eb, Ew, Ew1, Eh, Eh1, T2, T3, T4, T5. reflexivity.
Qed.

Lemma emit_frame_ok w h part0 parts bs : emit_frame w h part0 parts = Ok bs ->
  len part0 < 2^19 /\ sized_parts_ok parts = true /\ bs = assemble w h part0 parts.
Proof.
  unfold emit_frame. destruct (Z.leb_spec (2^19) (len part0)) as [|Hp0]; [discriminate|].
  destruct (sized_parts_ok parts); cbn [negb]; [|discriminate].
  intros [= <-]. repeat split. exact Hp0.
Qed.

(** What is written is what a reader gets back: header fields, partition 0 and
    every token partition, byte for byte — for every size the guard lets through. *)
Theorem emit_parse_roundtrip w h part0 parts bs :
  1 <= w < 16384 -> 1 <= h < 16384 -> parts <> [] ->
  emit_frame w h part0 parts = Ok bs ->
  parse_frame (length parts) bs =
    Ok (mk_hdr true 0 true (len part0) w 0 h 0, part0, parts).
Proof.
  intros Hw Hh Hne He. apply emit_frame_ok in He as (Hp0 & Hok & ->). unfold assemble, parse_frame.
  rewrite parse_hdr_frame by first [assumption|split; [apply len_nonneg|exact Hp0]].
  cbn [bind h_part0_len]. rewrite len_app_ltb, take_app, drop_app.
  destruct parts as [|p tl]; [congruence|]. cbn [length].
  rewrite <- (size_table_len p tl), len_app_ltb, take_app, drop_app, split_parts_ok by exact Hok.
  reflexivity.
Qed.

(** The guard is exact: it refuses precisely the sizes the fields cannot hold. *)
Theorem emit_frame_guard_exact w h part0 parts :
  (exists bs, emit_frame w h part0 parts = Ok bs) <->
  (len part0 < 2^19 /\ sized_parts_ok parts = true).
Proof.
  unfold emit_frame. destruct (Z.leb_spec (2^19) (len part0)).
  - split; [intros [bs Hb]; discriminate|intros [Hc _]; lia].
  - destruct (sized_parts_ok parts); cbn [negb].
    + split; [intros _; split; [assumption|reflexivity]|intros _; eauto].
    + split; [intros [bs Hb]; discriminate|intros [_ Hc]; discriminate].
Qed.

Theorem emit_frame_total w h part0 parts : emit_frame w h part0 parts <> Panic.
Proof.
  unfold emit_frame. destruct (2^19 <=? len part0); [discriminate|].
  destruct (negb (sized_parts_ok parts)); discriminate.
Qed.

(** The pinned code wrote a frame whose header lies about partition 0 as soon as
    it reaches 2^19 bytes: the tag is 10 00 00, i.e. the reader sees length 0. *)
Theorem pinned_emit_truncates_part0 : forall w h part0 parts bs,
  len part0 = 2^19 -> pinned_emit_frame w h part0 parts = Ok bs -> firstn 3 bs = [16; 0; 0].
Proof.
  intros w h part0 parts bs Hl [= <-]. unfold assemble, frame_tag. rewrite Hl.
  cbn [app firstn]. reflexivity.
Qed.

(** Non-vacuity: a two-partition frame round-trips. *)
Example conform_example :
  parse_frame 2 (match emit_frame 17 33 [1; 2; 3] [[4; 5]; [6]] with Ok b => b | _ => [] end)
  = Ok (mk_hdr true 0 true 3 17 0 33 0, [1; 2; 3], [[4; 5]; [6]]).
Proof. vm_compute. reflexivity. Qed.

(** VP8L stream header (5 bytes): signature 0x2f, then 14-bit width-1, 14-bit
    height-1, alpha-is-used bit, 3-bit version, LSB first — as written by
    lossless encodeStream through the bit writer and as alphaVP8LStream rebuilds
    it for ALPH payloads. *)
Definition vp8l_header (w h : Z) (alpha : bool) : list Z :=
  47 :: le32 ((w - 1) + (h - 1) * 16384 + (if alpha then 268435456 else 0)).

Definition parse_vp8l_header (bs : list Z) : Res (Z * Z * bool * Z) :=
  match bs with
  | sig :: b0 :: b1 :: b2 :: b3 :: _ =>
      if negb (sig =? 47) then Err 1 else
      let v := b0 + 256 * b1 + 65536 * b2 + 16777216 * b3 in
      Ok (v mod 16384 + 1, (v / 16384) mod 16384 + 1, (v / 268435456) mod 2 =? 1, v / 536870912)
  | _ => Err 2
  end.

Lemma vp8l_fields w h (alpha : bool) : 1 <= w <= 16384 -> 1 <= h <= 16384 ->
  let v := w - 1 + (h - 1) * 16384 + (if alpha then 268435456 else 0) in
  0 <= v < 4294967296 /\ v mod 16384 + 1 = w /\ (v / 16384) mod 16384 + 1 = h /\
  ((v / 268435456) mod 2 =? 1) = alpha /\ v / 536870912 = 0.
Proof. intros Hw Hh. destruct alpha; repeat apply conj; Z.div_mod_to_equations; lia. Qed.

Theorem vp8l_header_roundtrip w h alpha tl :
  1 <= w <= 16384 -> 1 <= h <= 16384 ->
  parse_vp8l_header (vp8l_header w h alpha ++ tl) = Ok (w, h, alpha, 0).
Proof.
  intros Hw Hh. destruct (vp8l_fields w h alpha Hw Hh) as (Hv & E1 & E2 & E3 & E4).
  unfold vp8l_header. set (v := w - 1 + _ + _) in *.
  pose proof (rd32_le32 v tl Hv) as R. unfold rd32, le32 in R. cbn [app] in R.
  unfold parse_vp8l_header, le32. cbn [app]. rewrite R, E1, E2, E3, E4. reflexivity.
Qed.
