(** C02 end to end, lossy: for EVERY well-formed set of encoder choices (header,
    segment/filter parameters, per-macroblock modes and quantised levels — the
    rate-distortion heuristics are choices), every ALPH payload that the
    independent ALPH model decodes, and every ICC / EXIF / XMP blob within the
    writer's size guard, the file that the container writer model produces
    around the VP8 frame emitted through the Go boolean-encoder model and
    assembleFrame's layout
      - is accepted by the independent container grammar (RiffGrammar.wf), and
      - is analysed by the independent format models (ConformFile.analyse:
        RiffGrammar chunk walk, RFC 6386 frame header reader, VP8 specification
        decoder, ALPH model) to a report with the declared dimensions, alpha iff
        an ALPH chunk was given, the decoded alpha plane, the declared first
        partition length within the data, and the samples the specification
        decoder reconstructs = the reconstruction the syntax denotes (the
        decoder never has to read beyond the end of a partition:
        Vp8FrameRT.vp8_emit_decode_full).
    Composition of Vp8FrameRT.vp8_emit_decode_full (C04/C06),
    ConformVp8Hdr (frame tag / picture header), Vp8BoolEnc (output is bytes),
    WriterTheorems.metadata_roundtrip (C15) and the ParserSpec -> RiffGrammar
    bridge (ParserGrammar). *)
From Coq Require Import List ZArith Lia Bool.
From Coq Require Import ZifyBool ZifyNat.
From Webp Require Import Base.Res Base.Bytes.
From Webp Require Riff.RiffGrammar Riff.ParserLemmas Riff.ParserProofs Riff.ParserModel Riff.ParserSpec Riff.ParserSpecProofs Riff.WriterProofs
  Riff.WriterModel Riff.MetadataProofs Riff.WriterTheorems Riff.ParserGrammar.
From Webp Require Vp8.Vp8Syntax Vp8.Vp8BoolAbs Vp8.Vp8BoolEnc Vp8.Vp8Filter Vp8.Vp8Spec Vp8.Vp8FrameRT.
From Webp Require Conform.ConformVp8Hdr Conform.ConformFile Conform.ConformEndToEnd.
From Webp Require Alpha.AlphaModel Alpha.AlphaProofs Vp8l.Vp8lEmit Vp8l.Vp8lEmitDecode Conform.ConformAlpha.
Import ListNotations.
Open Scope Z_scope.

Module G := RiffGrammar.
Module PM := ParserModel.
Module PS := ParserSpec.
Module PG := ParserGrammar.
Module MP := MetadataProofs.
Module CH := ConformVp8Hdr.
Module CF := ConformFile.
Module E2E := ConformEndToEnd.
Module BE := Vp8BoolEnc.
Module BA := Vp8BoolAbs.
Module FR := Vp8FrameRT.
Module VS := Vp8Spec.

(** ** The Go boolean encoder only writes bytes *)
Lemma abs_bytes l : Forall BA.is_byte l -> bytes_ok l.
Proof. intros H. eapply Forall_impl; [|exact H]. unfold BA.is_byte, is_byte. intros; lia. Qed.

(* the empty list by computation; otherwise the byte conjunct of Vp8BoolEnc.bool_encode_spec *)
Lemma bool_encode_bytes ps : BA.probs_ok ps -> bytes_ok (BE.bool_encode ps).
Proof.
  intros Hps. destruct ps as [|bp tl]; [vm_compute; repeat constructor; discriminate|].
  pose proof (BE.bool_encode_spec _ Hps ltac:(discriminate)) as H.
  destruct (BA.aenc (bp :: tl) (255, 0, 0)) as [[Rf Lf] kf]. apply abs_bytes, H.
Qed.

(** ** assembleFrame's layout *)
Lemma size_table_bytes parts : bytes_ok (CH.size_table parts).
Proof.
  induction parts as [|p tl IH]; [constructor|].
  cbn [CH.size_table]. destruct tl as [|q tl']; [constructor|].
  apply bytes_ok_app. split; [apply le24_bytes|exact IH].
Qed.

Lemma concat_bytes parts : Forall bytes_ok parts -> bytes_ok (concat parts).
Proof.
  induction 1 as [|p tl Hp _ IH]; [constructor|]. cbn [concat]. apply bytes_ok_app. split; assumption.
Qed.

Lemma assemble_bytes w h part0 parts :
  bytes_ok part0 -> Forall bytes_ok parts -> bytes_ok (CH.assemble w h part0 parts).
Proof.
  intros H0 Hp. unfold CH.assemble, CH.pic_header.
  repeat (apply bytes_ok_app; split); try assumption.
  - apply le24_bytes.
  - repeat constructor; unfold is_byte; lia.
  - apply le16_bytes.
  - apply le16_bytes.
  - apply size_table_bytes.
  - apply concat_bytes; assumption.
Qed.

(** what the container parser's header reader (ParserModel.parse_vp8_header, the
    model of internal/container) gets from the frame's first ten bytes *)
Lemma parse_vp8_header_frame w h n rest :
  1 <= w < 16384 -> 1 <= h < 16384 -> 0 <= n < 2^19 ->
  PM.parse_vp8_header (CH.frame_tag n ++ CH.pic_header w h ++ rest) = Ok (w, h).
Proof.
  intros Hw Hh Hn.
  destruct (CH.frame_head w h n rest Hw Hh Hn) as (b0 & b1 & b2 & w0 & w1 & h0 & h1 & E & Eb & Ew & _ & Eh & _).
  destruct (CH.tag_fields n) as (T2 & _).
  rewrite E.
  change (PM.parse_vp8_header ([b0; b1; b2; 157; 1; 42; w0; w1; h0; h1] ++ rest) = Ok (w, h)).
  set (hd := [b0; b1; b2; 157; 1; 42; w0; w1; h0; h1]).
  unfold PM.parse_vp8_header. change PM.VP8FrameHeaderSize with (CH.len hd) at 1.
  rewrite CH.len_app_ltb. change 10 with (PM.len hd). rewrite WriterProofs.slice_head.
  cbn [bind hd rd16]. rewrite Eb, T2, Ew, Eh, (CH.dim_nonzero w Hw), (CH.dim_nonzero h Hh). reflexivity.
Qed.

(** ** A lossy file holds no VP8L chunk, and its ALPH chunk is the one given *)
Lemma lossy_chunks bs alpha w h icc exif xmp file :
  MP.sizes_ok bs alpha icc exif xmp ->
  WriterModel.write_riff PM.FourCCVP8 bs alpha w h icc exif xmp = Ok file ->
  PS.spec_get_chunk file PM.FourCCVP8L = None /\
  PS.spec_get_chunk file PM.FourCCALPH = MP.opt_blob alpha.
Proof.
  intros Hs Hw. unfold WriterModel.write_riff in Hw. unfold PS.spec_get_chunk.
  assert (Hf : MP.image_fourcc PM.FourCCVP8) by (left; reflexivity).
  destruct ((PM.len alpha >? 0) || (PM.len icc >? 0) || (PM.len exif >? 0) || (PM.len xmp >? 0)) eqn:Ext.
  - rewrite (MP.riff_chunks_written _ _ _ _ _ _ _ _ _ Hs (MP.image_fourcc_range _ Hf) Hw).
    unfold MP.written_chunks, WriterProofs.opt_entry, MP.opt_blob.
    destruct (PM.len icc >? 0), (PM.len alpha >? 0), (PM.len exif >? 0), (PM.len xmp >? 0); split; reflexivity.
  - pose proof (WriterTheorems.sizes_ok_simple _ _ _ _ _ Hs) as Hl.
    rewrite ParserProofs.write_simple_eq in Hw by exact Hl. injection Hw as <-.
    rewrite (WriterTheorems.riff_chunks_simple _ _ Hf Hl).
    destruct (WriterTheorems.not_extended_empty _ _ _ _ Ext) as (Ha & _).
    unfold MP.opt_blob. rewrite Ha. split; reflexivity.
Qed.

(** ** The emitted frame: bytes, with the dimensions where the container writer looks for them
    and the RFC 6386 header fields of a shown key frame whose first partition fits *)
Lemma emit_key_frame_bytes qk s bs :
  let w := Vp8Syntax.fh_w (FR.fs_hdr s) in
  let h := Vp8Syntax.fh_h (FR.fs_hdr s) in
  FR.wf_frame_syn qk s -> FR.emit_key_frame qk s = Ok bs ->
  bytes_ok bs /\ PM.parse_vp8_header bs = Ok (w, h) /\
  exists n rest, 0 <= n < 2^19 /\ n <= CH.len rest /\
    CH.parse_hdr bs = Ok (CH.mk_hdr true 0 true n w 0 h 0, rest).
Proof.
  intros w h Hwf Hemit.
  destruct (FR.wf_frame_dims _ _ Hwf) as [Hw Hh]. destruct (FR.wf_frame_probs _ _ Hwf) as [Hok0 Hoks].
  apply FR.emit_key_frame_ok in Hemit as (Hp0 & _ & ->). fold w h.
  set (part0 := BE.bool_encode _) in *. set (parts := map BE.bool_encode _).
  assert (Hn : 0 <= CH.len part0 < 2^19) by (split; [apply CH.len_nonneg|exact Hp0]).
  split; [|split; [apply parse_vp8_header_frame; assumption|]].
  - apply assemble_bytes; [exact (bool_encode_bytes _ Hok0)|].
    apply Forall_map. exact (Forall_impl _ bool_encode_bytes Hoks).
  - exists (CH.len part0), (part0 ++ CH.size_table parts ++ concat parts).
    split; [exact Hn|]. split; [|apply CH.parse_hdr_frame; assumption].
    rewrite CH.len_app. pose proof (CH.len_nonneg (CH.size_table parts ++ concat parts)). lia.
Qed.

Definition yuv_of (p : Vp8Filter.planes) : list Z * list Z * list Z :=
  (concat (Vp8Filter.pl_y p), concat (Vp8Filter.pl_u p), concat (Vp8Filter.pl_v p)).

Definition lossy_file_conformant_statement : Prop :=
  forall s bs alpha plane icc exif xmp file,
    let w := Vp8Syntax.fh_w (FR.fs_hdr s) in
    let h := Vp8Syntax.fh_h (FR.fs_hdr s) in
    FR.wf_frame_syn VS.rfc_quirks s -> FR.emit_key_frame VS.rfc_quirks s = Ok bs ->
    bytes_ok alpha -> (PM.len alpha > 0 -> CF.alpha_decode alpha w h = Ok plane) ->
    MP.sizes_ok bs alpha icc exif xmp ->
    bytes_ok icc -> bytes_ok exif -> bytes_ok xmp ->
    WriterModel.write_riff PM.FourCCVP8 bs alpha w h icc exif xmp = Ok file ->
    G.wf file = true /\
    exists rep r, CF.analyse file = Ok rep /\ VS.decode bs = Ok r /\
      CF.r_wf rep = true /\ CF.r_lossless rep = false /\
      CF.r_w rep = w /\ CF.r_h rep = h /\
      CF.r_alpha rep = (PM.len alpha >? 0) /\
      CF.r_aplane rep = (if PM.len alpha >? 0 then Some plane else None) /\
      0 <= CF.r_part0 rep < 2^19 /\
      VS.dc_filtered r = snd (FR.reconstruct VS.rfc_quirks s) /\
      VS.dc_past_end r = false /\
      CF.r_yuv rep = Some (yuv_of (snd (FR.reconstruct VS.rfc_quirks s))).

Theorem lossy_file_conformant : lossy_file_conformant_statement.
Proof.
  intros s bs alpha plane icc exif xmp file w h Hwf Hemit Hal Hdec Hs Hic Hex Hxm Hw.
  destruct (FR.vp8_emit_decode_full _ _ _ Hwf Hemit) as (r & Hr & Hrw & Hrh & _ & _ & Hrf & Hpe).
  destruct (emit_key_frame_bytes _ _ _ Hwf Hemit) as (Hbsb & Hph & n & rest & Hn & Hle & Hch).
  fold w in Hrw, Hph, Hch. fold h in Hrh, Hph, Hch.
  assert (Hin : WriterTheorems.writer_inputs_ok PM.FourCCVP8 bs alpha w h icc exif xmp false).
  { constructor.
    - left. reflexivity.
    - unfold MP.header_declares, PS.image_dims.
      change (PM.FourCCVP8 =? PM.FourCCVP8L) with false. rewrite Z.eqb_refl, Hph. reflexivity.
    - intros _. reflexivity.
    - exact Hs. }
  destruct (E2E.written_file_chunks _ _ _ _ _ _ _ _ _ _ Hin Hbsb Hal Hic Hex Hxm Hw) as (Hg & cs & Hcs & Hconv & Hg8).
  destruct (lossy_chunks _ _ _ _ _ _ _ _ Hs Hw) as (HgL & HgA).
  split; [exact Hg|].
  rewrite <- (Hconv PM.FourCCVP8L) in HgL by (vm_compute; split; [discriminate|reflexivity]).
  rewrite <- (Hconv PM.FourCCVP8) in Hg8 by (vm_compute; split; [discriminate|reflexivity]).
  rewrite <- (Hconv PM.FourCCALPH) in HgA by (vm_compute; split; [discriminate|reflexivity]).
  change (le32 PM.FourCCVP8L) with G.T_VP8L in HgL. change (le32 PM.FourCCVP8) with G.T_VP8 in Hg8.
  change (le32 PM.FourCCALPH) with G.T_ALPH in HgA.
  assert (Hyuv : CF.yuv_spec bs w h = Some (yuv_of (VS.dc_filtered r))).
  { unfold CF.yuv_spec, VS.decode_yuv, VS.decode. rewrite Hr. cbn [bind].
    rewrite Hpe, Hrw, Hrh, !Z.eqb_refl. reflexivity. }
  exists (CF.mkreport true false w h (PM.len alpha >? 0)
            (match map PG.conv cs with (t, _) :: _ => G.bytes_eqb t G.T_VP8X | [] => false end)
            None (if PM.len alpha >? 0 then Some plane else None) n
            (Some (yuv_of (VS.dc_filtered r)))), r.
  split.
  - unfold CF.analyse. cbv zeta. rewrite Hg, Hcs, HgL, Hg8, Hch.
    cbn [CH.h_key CH.h_show CH.h_profile CH.h_xscale CH.h_yscale CH.h_part0_len CH.h_width CH.h_height].
    rewrite (proj2 (Z.leb_le _ _) Hle). cbn [andb negb Z.leb Z.eqb]. rewrite HgA, Hyuv.
    unfold MP.opt_blob. destruct (Z.gtb_spec (PM.len alpha) 0) as [Hpos|Hz]; [|reflexivity].
    rewrite (Hdec ltac:(lia)). reflexivity.
  - split; [exact Hr|]. cbn [CF.r_wf CF.r_lossless CF.r_w CF.r_h CF.r_alpha CF.r_aplane CF.r_part0 CF.r_yuv].
    rewrite Hrf. repeat split; try reflexivity; try assumption; apply Hn.
Qed.

(** ** With the ALPH chunk the encoder writes at AlphaQuality 100 (lossless coding)

    The ALPH hypothesis of [lossy_file_conformant] discharged by
    ConformAlpha.alpha_lossless_chunk_exact: for every alpha plane [rs], every
    prediction filter and every well-formed plan of the lossless coder for the
    filtered plane, the analysed file reports exactly the plane that was given. *)

Definition lossy_alpha_file_conformant_statement : Prop :=
  forall s bs rs filter r16 p icc exif xmp file,
    let w := Vp8Syntax.fh_w (FR.fs_hdr s) in
    let h := Vp8Syntax.fh_h (FR.fs_hdr s) in
    let alpha := (1 + 4 * filter + r16) :: skipn 5 (Vp8lEmit.emit p) in
    FR.wf_frame_syn VS.rfc_quirks s -> FR.emit_key_frame VS.rfc_quirks s = Ok bs ->
    AlphaProofs.wf_plane (Z.to_nat w) rs -> Z.of_nat (length rs) = h -> 0 <= filter <= 3 ->
    (r16 = 0 \/ r16 = 16) ->
    Vp8lEmitDecode.wf_plan p -> Vp8lEmit.p_alpha p = 0 -> Vp8lEmit.p_w p = w -> Vp8lEmit.p_h p = h ->
    ConformAlpha.green_of p = concat (AlphaModel.apply_filter filter rs) ->
    MP.sizes_ok bs alpha icc exif xmp ->
    bytes_ok icc -> bytes_ok exif -> bytes_ok xmp ->
    WriterModel.write_riff PM.FourCCVP8 bs alpha w h icc exif xmp = Ok file ->
    G.wf file = true /\
    exists rep, CF.analyse file = Ok rep /\
      CF.r_wf rep = true /\ CF.r_lossless rep = false /\ CF.r_w rep = w /\ CF.r_h rep = h /\
      CF.r_alpha rep = true /\ CF.r_aplane rep = Some (concat rs).

Theorem lossy_alpha_file_conformant : lossy_alpha_file_conformant_statement.
Proof.
  intros s bs rs filter r16 p icc exif xmp file w h alpha Hwf Hemit Hpl Hlen Hf Hr Hp Ha Hpw Hph Hg Hs Hic Hex Hxm Hw.
  destruct (FR.wf_frame_dims _ _ Hwf) as [Hwr Hhr]. fold w in Hwr. fold h in Hhr.
  assert (Hdec : CF.alpha_decode alpha w h = Ok (concat rs)).
  { apply (ConformAlpha.alpha_lossless_chunk_exact rs w h filter r16 p); try assumption; try lia.
    change (2^30) with 1073741824. nia. }
  assert (Hab : bytes_ok alpha).
  { unfold alpha. constructor; [unfold is_byte; destruct Hr; subst; lia|].
    apply bytes_ok_skipn. apply E2E.emit_bytes_ok. }
  assert (Hpos : PM.len alpha > 0).
  { unfold alpha, PM.len. cbn [length]. lia. }
  destruct (lossy_file_conformant s bs alpha (concat rs) icc exif xmp file Hwf Hemit Hab (fun _ => Hdec) Hs Hic Hex Hxm Hw)
    as (Hg' & rep & r & Han & _ & R1 & R2 & R3 & R4 & R5 & R6 & _).
  split; [exact Hg'|]. exists rep. split; [exact Han|].
  fold w in R3. fold h in R4.
  destruct (Z.gtb_spec (PM.len alpha) 0) as [_|Hn]; [|lia].
  repeat split; assumption.
Qed.
