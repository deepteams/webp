(** The decoder model of AnimDec.v shows the canvases of the specification in Canvas.v:
    a simulation ([inv]); only the key-frame shortcut needs an argument ([is_key_sound]). *)
From Coq Require Import List ZArith Lia Bool ZifyBool.
From Webp Require Import Anim.Blend Anim.Canvas Anim.AnimDec.
Import ListNotations.
Open Scope Z_scope.

Definition int64 (z : Z) : Prop := - 2^63 <= z < 2^63.

(* below 2^62, offset + size overflows int64 at most once: the case Frame.Bounds clamps *)
Record wf_frame (f : frame) : Prop := {
  wf_fx : int64 (fx f);
  wf_fy : int64 (fy f);
  wf_fw : 0 <= fw f < 2^62;
  wf_fh : 0 <= fh f < 2^62;
  wf_len : Z.of_nat (length (fpix f)) = fw f * fh f;
  wf_pix : Forall wf_px (fpix f)
}.

Lemma all_opaque_sound f : all_opaque f = true -> Forall (fun p => pa p = 255) (fpix f).
Proof.
  unfold all_opaque. rewrite forallb_forall, Forall_forall. intros H p Hp.
  apply Z.eqb_eq. apply H. exact Hp.
Qed.

Definition wf_dims (W H : Z) : Prop := 1 <= W /\ 1 <= H /\ W * H <= 2^30.

Definition wf_canvas (W H : Z) (c : canvas) : Prop :=
  length c = Z.to_nat (W * H) /\
  forall x y, 0 <= x < W -> 0 <= y < H -> wf_px (cget W c x y).

Lemma wf_px0 : wf_px px0.
Proof. unfold wf_px, px0; cbn; lia. Qed.

Lemma wf_canvas_tab W H g : 0 < W ->
  (forall x y, 0 <= x < W -> 0 <= y < H -> wf_px (g x y)) -> wf_canvas W H (tab W H g).
Proof.
  intros HW Hg. split; [apply tab_length|].
  intros x y Hx Hy. rewrite cget_tab by assumption. apply Hg; assumption.
Qed.

Lemma wf_blank W H : 0 < W -> wf_canvas W H (blank W H).
Proof. intros HW. apply wf_canvas_tab; [exact HW|]. intros; apply wf_px0. Qed.

Lemma fget_wf f sx sy : Forall wf_px (fpix f) -> wf_px (fget f sx sy).
Proof.
  intros HF. unfold fget.
  destruct (nth_in_or_default (Z.to_nat (sy * fw f + sx)) (fpix f) px0) as [Hin|Hdef].
  - rewrite Forall_forall in HF. apply HF; exact Hin.
  - rewrite Hdef. apply wf_px0.
Qed.

Lemma wf_composite W H c f : 0 < W -> wf_canvas W H c -> Forall wf_px (fpix f) ->
  wf_canvas W H (composite W H c f).
Proof.
  intros HW [_ Hc] Hf. apply wf_canvas_tab; [exact HW|]. intros x y Hx Hy.
  destruct (in_rect _ x y); [|apply Hc; assumption].
  destruct (fblend_none f); [apply fget_wf; exact Hf|].
  apply blend_spec_wf; [apply fget_wf; exact Hf|apply Hc; assumption].
Qed.

Lemma wf_fill W H c r : 0 < W -> wf_canvas W H c -> wf_canvas W H (fill W H c r).
Proof.
  intros HW [_ Hc]. apply wf_canvas_tab; [exact HW|]. intros x y Hx Hy.
  destruct (in_rect r x y); [apply wf_px0|apply Hc; assumption].
Qed.

Lemma wrap64_id z : int64 z -> wrap64 z = z.
Proof. unfold int64, wrap64. intros H. Z.div_mod_to_equations. lia. Qed.

Lemma wrap64_clamp a w : int64 a -> 0 <= w < 2^62 ->
  (if (0 <? w) && (wrap64 (a + w) <? a) then maxint else wrap64 (a + w)) = Z.min (a + w) maxint.
Proof.
  unfold int64, maxint. intros Ha Hw. destruct (Z.lt_ge_cases (a + w) (2^63)) as [Hs|Hb].
  - rewrite wrap64_id by (unfold int64; lia).
    replace (a + w <? a) with false by lia. rewrite andb_false_r. lia.
  - replace (wrap64 (a + w)) with (a + w - 2^64) by (unfold wrap64; Z.div_mod_to_equations; lia).
    replace ((0 <? w) && (a + w - 2^64 <? a)) with true by lia. lia.
Qed.

Lemma go_bounds_char f : wf_frame f ->
  go_bounds f = mkrect (fx f) (fy f) (Z.min (fx f + fw f) maxint) (Z.min (fy f + fh f) maxint).
Proof.
  intros [Hfx Hfy Hfw Hfh _ _]. unfold go_bounds. cbv zeta.
  rewrite (wrap64_clamp _ _ Hfx Hfw), (wrap64_clamp _ _ Hfy Hfh). unfold go_rect.
  replace (Z.min (fx f + fw f) maxint <? fx f) with false by (unfold int64, maxint in *; lia).
  replace (Z.min (fy f + fh f) maxint <? fy f) with false by (unfold int64, maxint in *; lia).
  reflexivity.
Qed.

Lemma in_rect_clip W H r x y : 0 <= x < W -> 0 <= y < H ->
  in_rect (intersect r (canvas_bounds W H)) x y = in_rect r x y.
Proof.
  intros Hx Hy. unfold intersect, canvas_bounds, rect_empty; cbn [rx0 ry0 rx1 ry1].
  destruct ((Z.min (rx1 r) W <=? Z.max (rx0 r) 0) || (Z.min (ry1 r) H <=? Z.max (ry0 r) 0)) eqn:He;
    unfold in_rect; cbn [rx0 ry0 rx1 ry1]; lia.
Qed.

Lemma wf_dims_le W H : wf_dims W H -> W <= 2^30 /\ H <= 2^30.
Proof. intros (HW & HH & HA). nia. Qed.

Lemma ltb_min_maxint x b : x < 2^30 -> (x <? Z.min b maxint) = (x <? b).
Proof. unfold maxint. lia. Qed.

Lemma go_bounds_clip W H f x y :
  wf_dims W H -> wf_frame f -> 0 <= x < W -> 0 <= y < H ->
  in_rect (intersect (go_bounds f) (canvas_bounds W H)) x y = in_rect (true_rect f) x y.
Proof.
  intros Hd Hf Hx Hy. destruct (wf_dims_le W H Hd).
  rewrite in_rect_clip, (go_bounds_char f Hf) by assumption.
  unfold in_rect, true_rect; cbn [rx0 ry0 rx1 ry1]. rewrite !ltb_min_maxint by lia. reflexivity.
Qed.

Lemma go_bounds_empty W H f :
  wf_dims W H -> wf_frame f ->
  rect_empty (intersect (go_bounds f) (canvas_bounds W H)) = true ->
  forall x y, 0 <= x < W -> 0 <= y < H -> in_rect (true_rect f) x y = false.
Proof.
  intros Hd Hf He x y Hx Hy. rewrite <- (go_bounds_clip W H f x y Hd Hf Hx Hy).
  unfold rect_empty in He. unfold in_rect. lia.
Qed.

Lemma src_coords f x y :
  wf_frame f -> in_rect (true_rect f) x y = true ->
  wrap64 (x - fx f) = x - fx f /\ wrap64 (y - fy f) = y - fy f /\
  0 <= x - fx f < fw f /\ 0 <= y - fy f < fh f.
Proof.
  intros [_ _ Hfw Hfh _ _] Hin. unfold in_rect, true_rect in Hin; cbn [rx0 ry0 rx1 ry1] in Hin.
  rewrite !wrap64_id by (unfold int64; lia). lia.
Qed.

Lemma composite_impl_eq W H c f :
  wf_dims W H -> wf_frame f -> wf_canvas W H c ->
  composite_impl W H c f = composite W H c f.
Proof.
  intros Hd Hf Hc. pose proof Hd as (HW & HH & HA).
  unfold composite_impl.
  destruct (rect_empty (intersect (go_bounds f) (canvas_bounds W H))) eqn:He.
  - unfold composite. rewrite <- (tab_cget W H c) at 1 by (try lia; apply Hc).
    apply tab_ext; [lia|]. intros x y Hx Hy.
    rewrite (go_bounds_empty W H f Hd Hf He x y Hx Hy). reflexivity.
  - unfold composite. apply tab_ext; [lia|]. intros x y Hx Hy.
    rewrite (go_bounds_clip W H f x y Hd Hf Hx Hy).
    destruct (in_rect (true_rect f) x y) eqn:Hin; [|reflexivity].
    destruct (src_coords f x y Hf Hin) as (-> & -> & Hsx & Hsy).
    destruct (Z.ltb_spec (y - fy f) 0); [lia|].
    destruct (Z.leb_spec (fh f) (y - fy f)); [lia|].
    destruct (Z.ltb_spec (x - fx f) 0); [lia|].
    destruct (Z.leb_spec (fw f) (x - fx f)); [lia|].
    cbn [andb orb negb].
    destruct (fblend_none f); [reflexivity|].
    apply blend_impl_eq_spec.
    + apply fget_wf. apply (wf_pix f Hf).
    + apply Hc; assumption.
Qed.

Lemma fill_impl_eq W H c f :
  wf_dims W H -> wf_frame f ->
  fill_impl W H c (go_bounds f) = fill W H c (true_rect f).
Proof.
  intros Hd Hf. pose proof Hd as (HW & HH & HA).
  unfold fill_impl, fill. apply tab_ext; [lia|]. intros x y Hx Hy.
  rewrite (go_bounds_clip W H f x y Hd Hf Hx Hy). reflexivity.
Qed.

Definition clear_outside (W H : Z) (c : canvas) (r : rect) : Prop :=
  forall x y, 0 <= x < W -> 0 <= y < H -> in_rect r x y = false -> cget W c x y = px0.

Lemma fill_blank W H c r : 0 < W -> clear_outside W H c r -> fill W H c r = blank W H.
Proof.
  intros HW Hc. unfold fill, blank. apply tab_ext; [exact HW|]. intros x y Hx Hy.
  destruct (in_rect r x y) eqn:E; [reflexivity|]. apply Hc; assumption.
Qed.

Lemma composite_clear_outside W H f : 0 < W ->
  clear_outside W H (composite W H (blank W H) f) (true_rect f).
Proof.
  intros HW x y Hx Hy Hout. unfold composite. rewrite cget_tab by assumption.
  rewrite Hout. unfold blank. rewrite cget_tab by assumption. reflexivity.
Qed.

Lemma fget_opaque f sx sy :
  Forall (fun p => pa p = 255) (fpix f) ->
  0 <= sx < fw f -> 0 <= sy < fh f -> Z.of_nat (length (fpix f)) = fw f * fh f ->
  pa (fget f sx sy) = 255.
Proof.
  intros HF Hx Hy Hlen. unfold fget. rewrite Forall_forall in HF. apply HF.
  apply nth_In. pose proof (cell_index_bound (fw f) (fh f) sx sy Hx Hy). lia.
Qed.

Lemma composite_full_indep W H c c' f :
  wf_dims W H -> wf_frame f ->
  fx f = 0 -> fy f = 0 -> fw f = W -> fh f = H ->
  (fblend_none f = true \/ Forall (fun p => pa p = 255) (fpix f)) ->
  composite W H c f = composite W H c' f.
Proof.
  intros (HW & HH & HA) Hf E1 E2 E3 E4 Hov. unfold composite. apply tab_ext; [lia|].
  intros x y Hx Hy.
  assert (Hin : in_rect (true_rect f) x y = true).
  { unfold in_rect, true_rect; cbn [rx0 ry0 rx1 ry1]. lia. }
  rewrite Hin. destruct (fblend_none f) eqn:Eb; [reflexivity|].
  destruct Hov as [Hov|Hov]; [discriminate|].
  rewrite !blend_src_opaque; try reflexivity;
    apply fget_opaque; try assumption; try lia; apply (wf_len f Hf).
Qed.

Lemma clear_outside_full W H c r :
  (forall x y, 0 <= x < W -> 0 <= y < H -> in_rect r x y = true) -> clear_outside W H c r.
Proof. intros Hall x y Hx Hy Hout. rewrite Hall in Hout by assumption. discriminate. Qed.

Lemma pfull_covers W H f :
  wf_frame f ->
  let pb := go_bounds f in
  ((rx0 pb =? 0) && (ry0 pb =? 0) && (wrap64 (rx1 pb - rx0 pb) =? W) &&
   (wrap64 (ry1 pb - ry0 pb) =? H)) = true ->
  forall x y, 0 <= x < W -> 0 <= y < H -> in_rect (true_rect f) x y = true.
Proof.
  intros Hf pb Hp x y Hx Hy. unfold pb in Hp. rewrite (go_bounds_char f Hf) in Hp.
  cbn [rx0 ry0 rx1 ry1] in Hp. destruct Hf as [Hfx Hfy Hfw Hfh _ _].
  rewrite !wrap64_id in Hp by (unfold int64, maxint in *; lia).
  unfold in_rect, true_rect, maxint in *; cbn [rx0 ry0 rx1 ry1]. lia.
Qed.

Definition disposed (W H : Z) (c : canvas) (prev : option (rect * bool)) : canvas :=
  match prev with Some (r, true) => fill W H c r | _ => c end.

Lemma wf_disposed W H c prev : 0 < W -> wf_canvas W H c -> wf_canvas W H (disposed W H c prev).
Proof. intros HW Hc. destruct prev as [[r []]|]; try exact Hc. apply wf_fill; assumption. Qed.

(** [was_key]: a key frame is drawn on a blank canvas, which stays blank outside the frame's
    rectangle; disposed to background it is blank again: [is_key]'s test [pfull || was_key]
    relies on that.  [curr] is not constrained: nothing reads it. *)
Definition inv (W H : Z) (st : dstate) (c : canvas) (prev : option (rect * bool)) : Prop :=
  wf_canvas W H c /\ prevd st = disposed W H c prev /\
  match prev with
  | None => c = blank W H /\ pdisp st = false
  | Some (r, d) =>
      exists f, wf_frame f /\ r = true_rect f /\ pbounds st = go_bounds f /\ pdisp st = d /\
                (was_key st = true -> clear_outside W H c r)
  end.

Lemma inv_init W H : 0 < W -> inv W H (dinit W H) (blank W H) None.
Proof. intros HW. split; [apply wf_blank; exact HW|]. repeat split. Qed.

Lemma is_key_sound W H first f st c prev :
  wf_dims W H -> wf_frame f -> inv W H st c prev -> (first = true <-> prev = None) ->
  is_key W H first f st = true ->
  composite W H (blank W H) f = composite W H (disposed W H c prev) f.
Proof.
  intros Hd Hf (_ & _ & Hinv) Hfirst Ek. pose proof Hd as (HW & _ & _). unfold is_key in Ek.
  destruct first.
  - (* first frame *)
    rewrite (proj1 Hfirst eq_refl) in *. destruct Hinv as [-> _]. reflexivity.
  - destruct ((fx f =? 0) && (fy f =? 0) && (fw f =? W) && (fh f =? H) &&
              (fblend_none f || (negb (fhas_alpha f) && all_opaque f))) eqn:Efull.
    + (* full-canvas frame *)
      apply andb_prop in Efull as [Efull Eov]. apply composite_full_indep; try assumption; try lia.
      apply orb_prop in Eov as [Eov|Eov]; [left; exact Eov|right].
      apply andb_prop in Eov as [_ Eov]. apply all_opaque_sound. exact Eov.
    + (* previous frame disposed to background *)
      destruct (pdisp st) eqn:Epd; [|discriminate].
      destruct prev as [[r d]|]; [|destruct Hinv; congruence].
      destruct Hinv as (f0 & Hf0 & -> & Hpb & <- & Hkey). cbn [disposed].
      f_equal. symmetry. apply fill_blank; [lia|]. rewrite Hpb in Ek.
      apply orb_prop in Ek as [Ek|Ek]; [|apply Hkey; exact Ek].
      apply clear_outside_full, (pfull_covers W H f0 Hf0 Ek).
Qed.

Definition step_with (key : bool) (W H : Z) (f : frame) (st : dstate) : canvas * dstate :=
  let c0 := if key then blank W H else prevd st in
  let c1 := composite_impl W H c0 f in
  let pd := if fdispose_bg f then fill_impl W H c1 (go_bounds f) else c1 in
  (c1, mkd c1 pd key (fdispose_bg f) (go_bounds f)).

Lemma next_frame_step_with W H first f st :
  next_frame W H first f st = step_with (is_key W H first f st) W H f st.
Proof. reflexivity. Qed.

Lemma next_frame_nokey_step_with W H f st : next_frame_nokey W H f st = step_with false W H f st.
Proof. reflexivity. Qed.

(** One step, under any key-frame decision that does not change the picture. *)
Lemma step_with_refines key W H f st c prev :
  wf_dims W H -> wf_frame f -> inv W H st c prev ->
  (key = true -> composite W H (blank W H) f = composite W H (disposed W H c prev) f) ->
  let c2 := composite W H (disposed W H c prev) f in
  fst (step_with key W H f st) = c2 /\
  inv W H (snd (step_with key W H f st)) c2 (Some (true_rect f, fdispose_bg f)).
Proof.
  intros Hd Hf (Hwc & Hp & _) Hkey c2. pose proof Hd as (HW & _ & _).
  assert (Hwc1 : wf_canvas W H (disposed W H c prev)) by (apply wf_disposed; [lia|exact Hwc]).
  assert (Hsnap : composite_impl W H (if key then blank W H else prevd st) f = c2).
  { rewrite composite_impl_eq; try assumption.
    - destruct key; [apply Hkey; reflexivity|rewrite Hp; reflexivity].
    - destruct key; [apply wf_blank; lia|rewrite Hp; exact Hwc1]. }
  unfold step_with; cbn [fst snd]. rewrite Hsnap. split; [reflexivity|].
  split; [apply wf_composite; [lia|exact Hwc1|apply (wf_pix f Hf)]|]. split.
  - cbn [prevd disposed]. destruct (fdispose_bg f); [apply fill_impl_eq; assumption|reflexivity].
  - exists f. cbn [pbounds pdisp was_key]. split; [exact Hf|]. do 3 (split; [reflexivity|]).
    intros ->. unfold c2. rewrite <- Hkey by reflexivity. apply composite_clear_outside. lia.
Qed.

Lemma step_refines W H first f st c prev :
  wf_dims W H -> wf_frame f -> inv W H st c prev -> (first = true <-> prev = None) ->
  let c2 := composite W H (disposed W H c prev) f in
  fst (next_frame W H first f st) = c2 /\
  inv W H (snd (next_frame W H first f st)) c2 (Some (true_rect f, fdispose_bg f)).
Proof.
  intros Hd Hf Hinv Hfirst. rewrite next_frame_step_with.
  apply step_with_refines; try assumption. apply (is_key_sound W H first f st c prev); assumption.
Qed.

Lemma go_refines W H fs : forall first st c prev,
  wf_dims W H -> Forall wf_frame fs ->
  inv W H st c prev -> (first = true <-> prev = None) ->
  impl_go W H first st fs = spec_go W H c prev fs.
Proof.
  induction fs as [|f fs IH]; intros first st c prev Hd Hwf Hinv Hfirst; [reflexivity|].
  inversion Hwf as [|? ? Hf Hwf']; subst. cbn [impl_go spec_go].
  destruct (step_refines W H first f st c prev Hd Hf Hinv Hfirst) as [Hs Hi].
  destruct (next_frame W H first f st) as [snap st']. cbn [fst snd] in Hs, Hi. rewrite Hs.
  f_equal. apply IH; try assumption. split; discriminate.
Qed.

Lemma nokey_refines W H fs : forall st c prev,
  wf_dims W H -> Forall wf_frame fs -> inv W H st c prev ->
  impl_go_nokey W H st fs = spec_go W H c prev fs.
Proof.
  induction fs as [|f fs IH]; intros st c prev Hd Hwf Hinv; [reflexivity|].
  inversion Hwf as [|? ? Hf Hwf']; subst. cbn [impl_go_nokey spec_go].
  rewrite next_frame_nokey_step_with.
  destruct (step_with_refines false W H f st c prev Hd Hf Hinv ltac:(discriminate)) as [Hs Hi].
  destruct (step_with false W H f st) as [snap st']. cbn [fst snd] in Hs, Hi. rewrite Hs.
  f_equal. apply IH; assumption.
Qed.

Theorem animdec_refines_spec W H fs :
  wf_dims W H -> Forall wf_frame fs ->
  impl_run W H fs = spec_run W H fs.
Proof.
  intros Hd Hwf. apply go_refines; try assumption; [|split; reflexivity].
  apply inv_init. destruct Hd; lia.
Qed.

Theorem keyframes_never_change_result W H fs :
  wf_dims W H -> Forall wf_frame fs ->
  impl_run W H fs = impl_go_nokey W H (dinit W H) fs.
Proof.
  intros Hd Hwf. rewrite (animdec_refines_spec W H fs Hd Hwf). symmetry.
  apply nokey_refines; try assumption. apply inv_init. destruct Hd; lia.
Qed.
