(** findChangedRect as the code runs it: the column boundaries are found by a
    progressive narrowing loop over the changed rows (scan from the left only up to the
    current minX, from the right only down to the current maxX, early exit when the full
    width is reached), and the proof that this computes the declarative bounding box
    [find_changed_rect] of Anim/AnimEncModel.v the round-trip theorems are stated about. *)
From Coq Require Import List ZArith Lia Bool ZifyBool.
From Webp Require Import Anim.Blend Anim.Canvas Anim.AnimDec Anim.AnimDecProof Anim.AnimDecLoops
  Anim.AnimEncModel Anim.AnimEncLemmas.
Import ListNotations.
Open Scope Z_scope.

(* [lia] needs ZifyBool for the comparisons in [in_rect] and the like, not its case analysis
   on boolean constraints, which no goal here needs and which is slow to check. *)
Local Ltac Zify.zify_post_hook ::= idtac.

(* for y := ..; k rows left: the two inner scans with their break, then the early exit *)
Fixpoint narrow (W : Z) (diff : Z -> Z -> bool) (k : nat) (y minX maxX : Z) : Z * Z :=
  match k with
  | O => (minX, maxX)
  | S k' =>
      let minX' := match first_from (fun x => diff x y) (Z.to_nat minX) 0 with
                   | Some x => x | None => minX end in
      let maxX' := match last_from (fun x => diff x y) (Z.to_nat (W - maxX)) (W - 1) with
                   | Some x => x + 1 | None => maxX end in
      if (minX' =? 0) && (maxX' =? W) then (minX', maxX')
      else narrow W diff k' (y + 1) minX' maxX'
  end.

Definition find_changed_rect_loops (W H : Z) (prev curr : canvas) : rect :=
  if (W =? 0) || (H =? 0) then rect0 else
  match first_from (row_diff W prev curr) (Z.to_nat H) 0 with
  | None => rect0
  | Some minY =>
      let maxY := match last_from (row_diff W prev curr) (Z.to_nat (H - 1 - minY)) (H - 1) with
                  | Some y => y + 1
                  | None => minY + 1
                  end in
      let '(minX, maxX) := narrow W (px_diff W prev curr) (Z.to_nat (maxY - minY)) minY W 0 in
      if maxX <=? minX then rect0 else go_rect minX minY maxX maxY
  end.


Lemma last_from_all_false P k : forall i,
  (forall j, i - Z.of_nat k < j <= i -> P j = false) -> last_from P k i = None.
Proof. intros i. apply last_from_None. Qed.

Lemma scan_min P minX : 0 <= minX ->
  let m := match first_from P (Z.to_nat minX) 0 with Some x => x | None => minX end in
  0 <= m <= minX /\ (forall x, 0 <= x -> P x = true -> m <= x) /\ (m < minX -> P m = true).
Proof.
  intros Hm. cbn zeta. destruct (first_from P (Z.to_nat minX) 0) as [fx|] eqn:Hf.
  - apply first_from_Some in Hf as (Hfr & Hfp & Hfb). split; [lia|]. split.
    + intros x Hx Hp. destruct (Z.le_gt_cases fx x); [assumption|]. rewrite Hfb in Hp by lia. discriminate.
    + intros _. exact Hfp.
  - pose proof (proj1 (first_from_None _ _ _) Hf) as Hfb. split; [lia|]. split; [|lia].
    intros x Hx Hp. destruct (Z.le_gt_cases minX x); [assumption|]. rewrite Hfb in Hp by lia. discriminate.
Qed.

Lemma scan_max P W maxX : maxX <= W ->
  let m := match last_from P (Z.to_nat (W - maxX)) (W - 1) with Some x => x + 1 | None => maxX end in
  maxX <= m <= W /\ (forall x, x < W -> P x = true -> x < m) /\ (maxX < m -> P (m - 1) = true).
Proof.
  intros Hm. cbn zeta. destruct (last_from P (Z.to_nat (W - maxX)) (W - 1)) as [lx|] eqn:Hl.
  - apply last_from_Some in Hl as (Hlr & Hlp & Hlb). split; [lia|]. split.
    + intros x Hx Hp. destruct (Z.lt_ge_cases x (lx + 1)); [assumption|]. rewrite Hlb in Hp by lia. discriminate.
    + intros _. replace (lx + 1 - 1) with lx by lia. exact Hlp.
  - pose proof (proj1 (last_from_None _ _ _) Hl) as Hlb. split; [lia|]. split; [|lia].
    intros x Hx Hp. destruct (Z.lt_ge_cases x maxX); [assumption|]. rewrite Hlb in Hp by lia. discriminate.
Qed.

Section Narrow.
  Variables (W : Z) (diff : Z -> Z -> bool).
  Hypothesis HW : 0 < W.

  (* state of the narrowing loop after the rows [ylo, y).  It starts at minX = W, maxX = 0,
     which stand for "no differing column seen": hence the guards of the two witnesses *)
  Definition ninv (ylo y minX maxX : Z) : Prop :=
    0 <= minX <= W /\ 0 <= maxX <= W /\
    (forall x y', ylo <= y' < y -> 0 <= x < W -> diff x y' = true -> minX <= x < maxX) /\
    (minX < W -> exists y', ylo <= y' < y /\ diff minX y' = true) /\
    (0 < maxX -> exists y', ylo <= y' < y /\ diff (maxX - 1) y' = true).

  Lemma narrow_spec k : forall ylo y minX maxX mn mx,
    ylo <= y -> ninv ylo y minX maxX ->
    narrow W diff k y minX maxX = (mn, mx) ->
    ninv ylo (y + Z.of_nat k) mn mx.
  Proof.
    induction k as [|k IH]; intros ylo y minX maxX mn mx Hy Hinv Hn.
    - cbn in Hn. injection Hn as <- <-. replace (y + Z.of_nat 0) with y by lia. exact Hinv.
    - cbn [narrow] in Hn.
      destruct Hinv as (Hmn & Hmx & Hcov & Hwmin & Hwmax).
      destruct (scan_min (fun x => diff x y) minX ltac:(lia)) as (F1 & F2 & F3).
      destruct (scan_max (fun x => diff x y) W maxX ltac:(lia)) as (G1 & G2 & G3).
      set (minX' := match first_from (fun x => diff x y) (Z.to_nat minX) 0 with
                    | Some x => x | None => minX end) in *.
      set (maxX' := match last_from (fun x => diff x y) (Z.to_nat (W - maxX)) (W - 1) with
                    | Some x => x + 1 | None => maxX end) in *.
      assert (Hinv' : ninv ylo (y + 1) minX' maxX').
      { split; [lia|]. split; [lia|]. split; [|split].
        - intros x y' Hy' Hx Hd. destruct (Z.eq_dec y' y) as [->|Hne].
          + pose proof (F2 x ltac:(lia) Hd). pose proof (G2 x ltac:(lia) Hd). lia.
          + pose proof (Hcov x y' ltac:(lia) Hx Hd). lia.
        - intros Hlt. destruct (Z.lt_ge_cases minX' minX) as [Hl|Hg].
          + exists y. split; [lia|]. apply F3. exact Hl.
          + assert (minX' = minX) by lia. destruct (Hwmin ltac:(lia)) as (y' & Hy' & Hd).
            exists y'. split; [lia|]. congruence.
        - intros Hpos. destruct (Z.lt_ge_cases maxX maxX') as [Hl|Hg].
          + exists y. split; [lia|]. apply G3. exact Hl.
          + assert (maxX' = maxX) by lia. destruct (Hwmax ltac:(lia)) as (y' & Hy' & Hd).
            exists y'. split; [lia|]. congruence. }
      destruct ((minX' =? 0) && (maxX' =? W)) eqn:Hex.
      + (* early exit at full width: the remaining rows cannot change that *)
        injection Hn as <- <-. destruct Hinv' as (_ & _ & _ & Hw1 & Hw2).
        assert (E1 : minX' = 0) by lia. assert (E2 : maxX' = W) by lia.
        rewrite E1 in Hw1 |- *. rewrite E2 in Hw2 |- *.
        split; [lia|]. split; [lia|]. split; [intros; lia|]. split; intros Hlt.
        * destruct (Hw1 Hlt) as (y' & Hy' & Hd). exists y'. split; [lia|exact Hd].
        * destruct (Hw2 Hlt) as (y' & Hy' & Hd). exists y'. split; [lia|exact Hd].
      + replace (y + Z.of_nat (S k)) with ((y + 1) + Z.of_nat k) by lia.
        apply (IH ylo (y + 1) minX' maxX'); [lia|exact Hinv'|exact Hn].
  Qed.
End Narrow.

Lemma col_diff_iff W a b y0 y1 x :
  col_diff W a b y0 y1 x = true <-> exists y, y0 <= y < y1 /\ px_diff W a b x y = true.
Proof.
  unfold col_diff. rewrite existsb_exists. split.
  - intros (y & Hy & Hd). apply zspan_In in Hy. eauto.
  - intros (y & Hy & Hd). exists y. split; [apply zspan_In; exact Hy|exact Hd].
Qed.

Theorem find_changed_rect_loops_eq W H prev curr :
  0 <= W -> find_changed_rect_loops W H prev curr = find_changed_rect W H prev curr.
Proof.
  intros HW0. unfold find_changed_rect_loops, find_changed_rect.
  destruct (Z.eqb_spec W 0) as [|HWn]; [reflexivity|]. cbn [orb].
  destruct (H =? 0); [reflexivity|].
  assert (HW : 0 < W) by lia.
  destruct (first_from (row_diff W prev curr) (Z.to_nat H) 0) as [minY|] eqn:Hf; [|reflexivity].
  set (maxY := match last_from (row_diff W prev curr) (Z.to_nat (H - 1 - minY)) (H - 1) with
               | Some y => y + 1 | None => minY + 1 end).
  assert (HmY : minY < maxY).
  { unfold maxY. destruct (last_from _ _ _) as [ly|] eqn:Hl; [|lia].
    apply last_from_Some in Hl as (Hly & _ & _). lia. }
  set (diff := px_diff W prev curr).
  destruct (narrow W diff (Z.to_nat (maxY - minY)) minY W 0) as [mn mx] eqn:Hn.
  assert (Hi0 : ninv W diff minY minY W 0).
  { unfold ninv. split; [lia|]. split; [lia|]. split; [intros; lia|]. split; intros; lia. }
  pose proof (narrow_spec W diff HW _ minY minY W 0 mn mx (Z.le_refl _) Hi0 Hn) as Hfin.
  replace (minY + Z.of_nat (Z.to_nat (maxY - minY))) with maxY in Hfin by lia.
  set (cd := col_diff W prev curr minY maxY).
  destruct Hfin as (Hmn & Hmx & Hcov & Hwmin & Hwmax).
  (* the loop's bounds enclose every differing column; what the model's two scans find are
     its extreme columns, which are witnessed *)
  assert (Hout : forall j, 0 <= j < W -> ~ mn <= j < mx -> cd j = false).
  { intros j Hj Hn'. destruct (cd j) eqn:Hc; [|reflexivity].
    apply col_diff_iff in Hc as (y & Hy & Hd). destruct (Hn' (Hcov j y Hy Hj Hd)). }
  destruct (Z.eq_dec mn W) as [->|HmnW].
  - (* no differing column at all *)
    assert (mx = 0).
    { destruct (Z.eq_dec mx 0); [assumption|]. destruct (Hwmax ltac:(lia)) as (y' & Hy' & Hd).
      pose proof (Hcov (mx - 1) y' Hy' ltac:(lia) Hd). lia. }
    subst mx. rewrite (proj2 (first_from_None cd (Z.to_nat W) 0)) by (intros j Hj; apply Hout; lia).
    destruct (Z.leb_spec 0 W); [reflexivity|lia].
  - destruct (Hwmin ltac:(lia)) as (y1 & Hy1 & Hd1).
    pose proof (Hcov mn y1 Hy1 ltac:(lia) Hd1) as Hmnmx.
    rewrite (proj2 (first_from_Some cd (Z.to_nat W) 0 mn)),
            (proj2 (last_from_Some cd (Z.to_nat W) (W - 1) (mx - 1))).
    + replace (mx - 1 + 1) with mx by lia. reflexivity.
    + repeat split; [lia|lia|apply col_diff_iff; exact (Hwmax ltac:(lia))|]. intros j Hj. apply Hout; lia.
    + repeat split; [lia|lia|apply col_diff_iff; eauto|]. intros j Hj. apply Hout; lia.
Qed.

(** * The pixel loops of the encoder that write a rectangle cell by cell

    clearKeptPixels (in place, conditional write), extractSubImage (row copies into a fresh
    picture) and the padding copy of addOptimizedFrame (copyImageRect into a fresh canvas)
    are nested loops in which iteration (x,y) reads and writes cell (x,y) only:
    [write_loops], whose pointwise meaning is an instance of AnimDecLoops.cell_loops_tab.
    The three loops are proved equal to [clear_kept], [extract_sub] and [pad] of the model. *)

(* body of the inner loop: an optional write of cell (x,y), computed from its current value *)
Definition cell_step (w h : Z) (g : Z -> Z -> px -> option px) (y x : Z) (c : canvas) : canvas :=
  match g x y (cget w c x y) with
  | Some p => cset w h c x y p
  | None => c
  end.

Definition write_loops (w h x0 x1 y0 y1 : Z) (g : Z -> Z -> px -> option px) (c : canvas) : canvas :=
  for_range y0 y1 (fun y c0 => for_range x0 x1 (cell_step w h g y) c0) c.

Definition cell_val (w : Z) (g : Z -> Z -> px -> option px) (c : canvas) (x y : Z) : px :=
  match g x y (cget w c x y) with Some p => p | None => cget w c x y end.

Lemma cell_step_length w h g y x c : length (cell_step w h g y x c) = length c.
Proof. unfold cell_step. destruct (g x y _); [apply cset_length|reflexivity]. Qed.

Lemma cget_cell_step w h g y x c x' y' :
  0 < w -> length c = Z.to_nat (w * h) -> 0 <= x < w -> 0 <= y < h -> 0 <= x' < w -> 0 <= y' < h ->
  cget w (cell_step w h g y x c) x' y' =
    if (x' =? x) && (y' =? y) then cell_val w g c x y else cget w c x' y'.
Proof.
  intros Hw Hl Hx Hy Hx' Hy'. unfold cell_step, cell_val.
  destruct (g x y (cget w c x y)) as [p|].
  - apply cget_cset; assumption.
  - destruct (Z.eqb_spec x' x) as [->|]; destruct (Z.eqb_spec y' y) as [->|]; reflexivity.
Qed.

Theorem write_loops_eq w h x0 x1 y0 y1 g c :
  0 < w -> 0 <= h -> length c = Z.to_nat (w * h) ->
  0 <= x0 -> x1 <= w -> 0 <= y0 -> y1 <= h ->
  write_loops w h x0 x1 y0 y1 g c =
    tab w h (fun x y => if (x0 <=? x) && (x <? x1) && (y0 <=? y) && (y <? y1)
                        then cell_val w g c x y else cget w c x y).
Proof.
  intros Hw Hh Hlen Bx0 Bx1 By0 By1.
  apply (cell_loops_tab w h x0 x1 y0 y1 (fun x y p => match g x y p with Some q => q | None => p end)
           (cell_step w h g)); try assumption.
  - intros y x c0. apply cell_step_length.
  - intros y x c0 x' y' Hx Hy Hl Hx' Hy'. apply cget_cell_step; lia.
Qed.

(* extractSubImage: a fresh w x h picture, rows copied from the canvas *)
Definition extract_sub_loops (W : Z) (c : canvas) (r : rect) : img :=
  let w := rx1 r - rx0 r in
  let h := ry1 r - ry0 r in
  if (w <=? 0) || (h <=? 0) then mkimg 1 1 [px0]
  else mkimg w h (write_loops w h 0 w 0 h
                    (fun x y _ => Some (cget W c (rx0 r + x) (ry0 r + y))) (blank w h)).

Theorem extract_sub_loops_eq W c r : extract_sub_loops W c r = extract_sub W c r.
Proof.
  unfold extract_sub_loops, extract_sub.
  destruct (Z.leb_spec (rx1 r - rx0 r) 0); [reflexivity|].
  destruct (Z.leb_spec (ry1 r - ry0 r) 0); [reflexivity|]. cbn [orb]. f_equal.
  rewrite write_loops_eq; try lia; [|apply tab_length].
  apply tab_ext; [lia|]. intros x y Hx Hy. unfold cell_val.
  destruct (Z.leb_spec 0 x); [|lia]. destruct (Z.ltb_spec x (rx1 r - rx0 r)); [|lia].
  destruct (Z.leb_spec 0 y); [|lia]. destruct (Z.ltb_spec y (ry1 r - ry0 r)); [|lia]. reflexivity.
Qed.

(* clearKeptPixels: in place on the sub-image, bounded by the picture and by the rectangle *)
Definition clear_kept_loops (W : Z) (sub : img) (base : canvas) (r : rect) : img :=
  mkimg (iw sub) (ih sub)
    (write_loops (iw sub) (ih sub) 0 (Z.min (iw sub) (rx1 r - rx0 r)) 0 (Z.min (ih sub) (ry1 r - ry0 r))
       (fun x y p =>
          if negb (pa p =? 255) && negb (pa p =? 0) && (pa p =? pa (cget W base (rx0 r + x) (ry0 r + y)))
          then Some px0 else None)
       (ipix sub)).

Theorem clear_kept_loops_eq W sub base r :
  0 < iw sub -> 0 <= ih sub -> length (ipix sub) = Z.to_nat (iw sub * ih sub) ->
  clear_kept_loops W sub base r = clear_kept W sub base r.
Proof.
  intros Hw Hh Hlen. unfold clear_kept_loops, clear_kept. f_equal.
  rewrite write_loops_eq; try lia.
  apply tab_ext; [lia|]. intros x y Hx Hy. unfold cell_val, iget.
  change (nth (Z.to_nat (y * iw sub + x)) (ipix sub) px0) with (cget (iw sub) (ipix sub) x y).
  set (p := cget (iw sub) (ipix sub) x y).
  destruct (Z.leb_spec 0 x); [|lia]. destruct (Z.leb_spec 0 y); [|lia].
  destruct (Z.ltb_spec x (Z.min (iw sub) (rx1 r - rx0 r))); destruct (Z.ltb_spec (rx0 r + x) (rx1 r)); try lia;
  destruct (Z.ltb_spec y (Z.min (ih sub) (ry1 r - ry0 r))); destruct (Z.ltb_spec (ry0 r + y) (ry1 r)); try lia;
    cbn [andb]; try reflexivity.
  destruct (negb (pa p =? 255) && negb (pa p =? 0) && (pa p =? pa (cget W base (rx0 r + x) (ry0 r + y))));
    reflexivity.
Qed.

(* the padding copy of addOptimizedFrame: copyImageRect onto a fresh transparent canvas *)
Definition pad_loops (W H : Z) (i : img) : canvas :=
  write_loops W H 0 (Z.min (iw i) W) 0 (Z.min (ih i) H) (fun x y _ => Some (iget i x y)) (blank W H).

Theorem pad_loops_eq W H i : 0 < W -> 0 <= H -> pad_loops W H i = pad W H i.
Proof.
  intros HW HH. unfold pad_loops, pad.
  rewrite write_loops_eq; try lia; [|apply tab_length].
  apply tab_ext; [lia|]. intros x y Hx Hy. unfold cell_val.
  destruct (Z.leb_spec 0 x); [|lia]. destruct (Z.leb_spec 0 y); [|lia].
  destruct (Z.ltb_spec x (Z.min (iw i) W)); destruct (Z.ltb_spec x (iw i)); try lia;
  destruct (Z.ltb_spec y (Z.min (ih i) H)); destruct (Z.ltb_spec y (ih i)); try lia;
    cbn [andb]; try reflexivity; unfold blank; rewrite cget_tab by lia; reflexivity.
Qed.
