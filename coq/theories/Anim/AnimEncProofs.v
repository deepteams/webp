(** The round-trip theorem of the AnimEncoder model, generically in a pixel
    projection [pi] (C08: colour under alpha 0 ignored; C18: alpha channel only):
    after any history of AddFrame / AddRawFrame calls, some of them refused, and
    Close, what the decoder plays is the show of the accepted calls.

    [invw] / [inv]: prevCanvas is what the decoder shows after the muxer's frames, prevFrameRect
      the rectangle of the frame at prevMuxIndex, and the shows collapse alike.
    [ucore]: the part of that about the frame list only; all a key or pre-encoded frame needs.
    [uinv]: [ucore] for a state that remembers no canvas.
    [einv]: [inv] up to the dispose flag a refused call may have left on the last frame.
    [minv]: [uinv] or [einv]; what the induction over a mixed history carries. *)
From Coq Require Import List ZArith Lia Bool ZifyBool.
From Webp Require Import Anim.Blend Anim.Canvas Anim.AnimDec Anim.AnimDecProof
  Anim.AnimEncModel Anim.AnimEncSpec Anim.AnimEncLemmas.
From Webp Require Import Base.ListFacts.
From Webp Require Anim.AnimDecOps Anim.AnimDecLoops.
Import ListNotations.
Open Scope Z_scope.

(* ZifyBool's case analysis on boolean constraints is off: in [Section Generic] it makes every
   [lia] rest on the boolean section hypotheses ([fx_blend], [fx_filler], ...). *)
Local Ltac Zify.zify_post_hook ::= idtac.

Lemma Forall2_nth_pi (pi : px -> px) l1 l2 :
  Forall2 (fun p q => pi p = pi q) l1 l2 -> forall k, pi (nth k l1 px0) = pi (nth k l2 px0).
Proof.
  induction 1 as [|p q l1 l2 Hpq _ IH]; intros [|k]; cbn [nth]; auto.
Qed.

Definition with_disp (b : bool) (r : mrec) : mrec :=
  mkmrec (m_x r) (m_y r) (m_img r) (m_lossy r) (m_blend_none r) b (m_dur r).
Definition with_dur (d : Z) (r : mrec) : mrec :=
  mkmrec (m_x r) (m_y r) (m_img r) (m_lossy r) (m_blend_none r) (m_dispose_bg r) d.

Lemma with_disp_false r : m_dispose_bg r = false -> with_disp false r = r.
Proof. destruct r; cbn. intros ->. reflexivity. Qed.

Definition content (r : mrec) (x y : Z) : px :=
  nth (Z.to_nat ((y - m_y r) * iw (m_img r) + (x - m_x r))) (ipix (m_img r)) px0.

Section Generic.
  Variable pi : px -> px.
  Hypothesis pi_blend : forall s s' d d',
    pi s = pi s' -> pi d = pi d' -> pi (blend_spec s d) = pi (blend_spec s' d').
  Hypothesis pi_zero : forall p q, pa p = 0 -> pa q = 0 -> pi p = pi q.

  Variables rt_ll rt_ly : img -> img.
  Variable fx : fixes.
  Hypothesis fx_blend : fix_blend fx = true.
  Hypothesis fx_filler : fix_filler fx = true.

  Definition img_psim (a b : img) : Prop :=
    iw a = iw b /\ ih a = ih b /\ Forall2 (fun p q => pi p = pi q) (ipix a) (ipix b).

  (* whether [Hdec] also covers frames stored lossy: false for C08, which stores none ([Hop]) *)
  Variable lossy_fine : bool.
  Hypothesis Hdec : forall via r, wf_img (m_img r) -> (m_lossy r = true -> lossy_fine = true) ->
    img_psim (decoded rt_ll rt_ly fx via r) (m_img r).

  Variables W H : Z.
  Hypothesis HW : 1 <= W.
  Hypothesis HH : 1 <= H.

  Notation frame_of := (frame_of rt_ll rt_ly fx).

  Definition rec_ok (r : mrec) : Prop :=
    wf_img (m_img r) /\ (m_lossy r = true -> lossy_fine = true) /\
    0 <= m_x r /\ 0 <= m_y r /\ m_x r mod 2 = 0 /\ m_y r mod 2 = 0 /\
    m_x r + iw (m_img r) <= W /\ m_y r + ih (m_img r) <= H /\ 0 <= m_dur r <= max_duration.

  Definition rec_rect (r : mrec) : rect :=
    mkrect (m_x r) (m_y r) (m_x r + iw (m_img r)) (m_y r + ih (m_img r)).

  Lemma rec_ok_dur r : rec_ok r -> 0 <= m_dur r <= max_duration.
  Proof. intros (_ & _ & _ & _ & _ & _ & _ & _ & Hd). exact Hd. Qed.

  Lemma rec_ok_same r r' : rec_ok r ->
    m_x r' = m_x r -> m_y r' = m_y r -> m_img r' = m_img r -> m_lossy r' = m_lossy r ->
    0 <= m_dur r' <= max_duration -> rec_ok r'.
  Proof.
    intros (H1 & H2 & H3 & H4 & H5 & H6 & H7 & H8 & _) Ex Ey Ei El Hd. unfold rec_ok.
    rewrite Ex, Ey, Ei, El.
    exact (conj H1 (conj H2 (conj H3 (conj H4 (conj H5 (conj H6 (conj H7 (conj H8 Hd)))))))).
  Qed.

  Lemma rec_ok_with_dur r d : rec_ok r -> 0 <= d <= max_duration -> rec_ok (with_dur d r).
  Proof. intros Hr Hd. apply (rec_ok_same r); try reflexivity; assumption. Qed.

  Lemma rec_ok_at x y im lossy bn dg dur :
    wf_img im -> (lossy = true -> lossy_fine = true) ->
    0 <= x -> 0 <= y -> x mod 2 = 0 -> y mod 2 = 0 -> x + iw im <= W -> y + ih im <= H ->
    rec_ok (mkmrec x y im lossy bn dg (clamp_dur dur)).
  Proof.
    intros H1 H2 H3 H4 H5 H6 H7 H8.
    exact (conj H1 (conj H2 (conj H3 (conj H4 (conj H5 (conj H6 (conj H7 (conj H8
             (clamp_dur_range dur))))))))).
  Qed.

  (* offsets are stored halved: even ones survive *)
  Lemma frame_of_x via r : m_x r mod 2 = 0 -> Canvas.fx (frame_of via r) = m_x r.
  Proof.
    intros He. change (2 * (m_x r / 2) = m_x r). symmetry. apply Z.div_exact; [discriminate|exact He].
  Qed.

  Lemma frame_of_y via r : m_y r mod 2 = 0 -> Canvas.fy (frame_of via r) = m_y r.
  Proof.
    intros He. change (2 * (m_y r / 2) = m_y r). symmetry. apply Z.div_exact; [discriminate|exact He].
  Qed.

  Lemma true_rect_frame_of via r : rec_ok r -> true_rect (frame_of via r) = rec_rect r.
  Proof.
    intros (Hwf & Hl & _ & _ & Hxe & Hye & _).
    destruct (Hdec via r Hwf Hl) as (Hw & Hh & _).
    unfold true_rect. rewrite (frame_of_x via r Hxe), (frame_of_y via r Hye).
    change (fw (frame_of via r)) with (iw (decoded rt_ll rt_ly fx via r)).
    change (fh (frame_of via r)) with (ih (decoded rt_ll rt_ly fx via r)).
    rewrite Hw, Hh. reflexivity.
  Qed.

  Lemma cget_composite_frame_of via r c x y : rec_ok r -> 0 <= x < W -> 0 <= y < H ->
    cget W (composite W H c (frame_of via r)) x y
    = if in_rect (rec_rect r) x y then
        let s := fget (frame_of via r) (x - m_x r) (y - m_y r) in
        if m_blend_none r then s else blend_spec s (cget W c x y)
      else cget W c x y.
  Proof.
    intros Hok Hx Hy. unfold composite. rewrite cget_tab by assumption.
    rewrite (true_rect_frame_of via r Hok).
    destruct Hok as (_ & _ & _ & _ & Hxe & Hye & _).
    rewrite (frame_of_x via r Hxe), (frame_of_y via r Hye). reflexivity.
  Qed.

  Lemma fget_frame_of via r x y :
    rec_ok r -> in_rect (rec_rect r) x y = true ->
    pi (fget (frame_of via r) (x - m_x r) (y - m_y r)) = pi (content r x y).
  Proof.
    intros (Hwf & Hl & _) Hin.
    destruct (Hdec via r Hwf Hl) as (Hw & Hh & HF).
    unfold fget, content. change (fw (frame_of via r)) with (iw (decoded rt_ll rt_ly fx via r)).
    rewrite Hw. apply Forall2_nth_pi. exact HF.
  Qed.

  (* clearKeptPixels on one pixel: [b] canvas underneath, [t] target *)
  Definition kept (b t : px) : px :=
    if negb (pa t =? 255) && negb (pa t =? 0) && (pa t =? pa b) then px0 else t.

  (* [Proof using]: what a lemma states outside the section must not vary with what [lia] collects *)
  Lemma lossless_ok_sound b t : lossless_px_ok b t = true -> pi (blend_spec (kept b t) b) = pi t.
  Proof using Type.
    unfold lossless_px_ok, kept. intros Hok.
    destruct (Z.eqb_spec (pa t) 255) as [Ha|Ha].
    { cbn [negb andb]. rewrite blend_src_opaque by exact Ha. reflexivity. }
    cbn [orb] in Hok. apply px_eqb_eq in Hok. subst b. cbn [negb andb].
    destruct (Z.eqb_spec (pa t) 0) as [Hz|Hz]; cbn [negb andb].
    - rewrite blend_src_transparent by exact Hz. reflexivity.
    - rewrite Z.eqb_refl. rewrite blend_src_transparent by reflexivity. reflexivity.
  Qed.

  Variable op : eopts.
  (* in lossy mode kept pixels are only similar: [pi] must not see the difference
     (true of the alpha projection; vacuous for lossless sessions) *)
  Hypothesis pi_similar : eo_lossless op = false ->
    forall md p t, pixels_similar p t md = true -> pi p = pi t.

  Lemma lossy_ok_sound md b t : eo_lossless op = false ->
    lossy_px_ok md b t = true -> pi (blend_spec (kept b t) b) = pi t.
  Proof.
    unfold lossy_px_ok, kept. intros Hll Hok.
    destruct (Z.eqb_spec (pa t) 255) as [Ha|Ha].
    { cbn [negb andb]. rewrite blend_src_opaque by exact Ha. reflexivity. }
    cbn [orb] in Hok. pose proof (pi_similar Hll md b t Hok) as Hpi.
    assert (Hal : pa b = pa t) by (unfold pixels_similar in Hok; lia).
    cbn [negb andb].
    destruct (Z.eqb_spec (pa t) 0) as [Hz|Hz]; cbn [negb andb].
    - rewrite blend_src_transparent by exact Hz. exact Hpi.
    - destruct (Z.eqb_spec (pa t) (pa b)); [|lia].
      rewrite blend_src_transparent by reflexivity. exact Hpi.
  Qed.

  (* [base]: what the encoder believed lay underneath; [curr]: the target *)
  Lemma composite_sound via r c1 base curr :
    rec_ok r -> psim pi W H c1 base ->
    (forall x y, 0 <= x < W -> 0 <= y < H -> in_rect (rec_rect r) x y = false ->
                 cget W base x y = cget W curr x y) ->
    (m_blend_none r = true -> forall x y, 0 <= x < W -> 0 <= y < H -> in_rect (rec_rect r) x y = true ->
                 pi (content r x y) = pi (cget W curr x y)) ->
    (m_blend_none r = false -> forall x y, 0 <= x < W -> 0 <= y < H -> in_rect (rec_rect r) x y = true ->
                 pi (blend_spec (content r x y) (cget W base x y)) = pi (cget W curr x y)) ->
    psim pi W H (composite W H c1 (frame_of via r)) curr.
  Proof.
    intros Hok Hsim Hout Hnb Hbl x y Hx Hy.
    rewrite cget_composite_frame_of by assumption. cbv zeta.
    destruct (in_rect (rec_rect r) x y) eqn:Hin.
    - pose proof (fget_frame_of via r x y Hok Hin) as Hf.
      destruct (m_blend_none r) eqn:Hbn.
      + rewrite Hf. apply Hnb; auto.
      + rewrite <- (Hbl eq_refl x y Hx Hy Hin).
        apply pi_blend; [exact Hf|]. apply Hsim; assumption.
    - rewrite (Hsim x y Hx Hy). f_equal. apply Hout; assumption.
  Qed.

  Lemma iget_wf i x y : Forall wf_px (ipix i) -> wf_px (iget i x y).
  Proof.
    intros HF. unfold iget.
    destruct (nth_in_or_default (Z.to_nat (y * iw i + x)) (ipix i) px0) as [Hin|Hdef].
    - rewrite Forall_forall in HF. apply HF; exact Hin.
    - rewrite Hdef. apply wf_px0.
  Qed.

  Lemma wf_pad i : wf_img i -> wf_canvas W H (pad W H i).
  Proof.
    intros (_ & _ & _ & HF). apply wf_canvas_tab; [lia|]. intros x y _ _.
    destruct ((x <? iw i) && (y <? ih i)); [apply iget_wf; exact HF|apply wf_px0].
  Qed.

  Lemma extract_sub_good curr r : good_rect W H r -> wf_canvas W H curr ->
    let im := extract_sub W curr r in
    iw im = rx1 r - rx0 r /\ ih im = ry1 r - ry0 r /\ wf_img im /\
    (forall x y, in_rect r x y = true ->
       nth (Z.to_nat ((y - ry0 r) * iw im + (x - rx0 r))) (ipix im) px0 = cget W curr x y).
  Proof.
    intros (Hx0 & Hx1 & Hy0 & Hy1) [Hlen Hwf]. cbn zeta. unfold extract_sub.
    destruct (Z.leb_spec (rx1 r - rx0 r) 0); [lia|]. destruct (Z.leb_spec (ry1 r - ry0 r) 0); [lia|].
    cbn [orb iw ih ipix]. set (w := rx1 r - rx0 r). set (h := ry1 r - ry0 r).
    split; [reflexivity|]. split; [reflexivity|]. split.
    - unfold wf_img; cbn [iw ih ipix]. repeat split; try lia.
      + rewrite tab_length. nia.
      + apply Forall_tab; [lia|]. intros x y Hx Hy. apply Hwf; lia.
    - intros x y Hin. unfold in_rect in Hin.
      rewrite nth_tab by lia. f_equal; lia.
  Qed.

  Lemma clear_kept_good base curr r : good_rect W H r -> wf_canvas W H curr ->
    let im := clear_kept W (extract_sub W curr r) base r in
    iw im = rx1 r - rx0 r /\ ih im = ry1 r - ry0 r /\ wf_img im /\
    (forall x y, in_rect r x y = true ->
       nth (Z.to_nat ((y - ry0 r) * iw im + (x - rx0 r))) (ipix im) px0
       = kept (cget W base x y) (cget W curr x y)).
  Proof.
    intros Hg Hc. destruct (extract_sub_good curr r Hg Hc) as (Ew & Eh & Hwf & Hcar).
    pose proof Hg as (Hx0 & Hx1 & Hy0 & Hy1). cbn zeta.
    set (sub := extract_sub W curr r) in *.
    unfold clear_kept; cbn [iw ih ipix]. rewrite Ew, Eh.
    set (w := rx1 r - rx0 r). set (h := ry1 r - ry0 r).
    split; [reflexivity|]. split; [reflexivity|]. split.
    - unfold wf_img; cbn [iw ih ipix]. repeat split; try lia.
      + rewrite tab_length. nia.
      + apply Forall_tab; [lia|]. intros x y _ _. destruct Hwf as (_ & _ & _ & HF).
        destruct (_ && _); [apply wf_px0|apply iget_wf; exact HF].
    - intros x y Hin. pose proof Hin as Hin'. unfold in_rect in Hin'.
      rewrite nth_tab by lia.
      assert (Ei : iget sub (x - rx0 r) (y - ry0 r) = cget W curr x y).
      { unfold iget. apply Hcar. exact Hin. }
      rewrite Ei.
      replace (rx0 r + (x - rx0 r)) with x by lia. replace (ry0 r + (y - ry0 r)) with y by lia.
      unfold kept.
      destruct (Z.ltb_spec x (rx1 r)); [|lia]. destruct (Z.ltb_spec y (ry1 r)); [|lia].
      reflexivity.
  Qed.

  Lemma candidate_sound base curr r bn im :
    wf_canvas W H base -> wf_canvas W H curr ->
    candidate fx op W H base curr = (r, bn, im) ->
    good_rect W H r /\ rx0 r mod 2 = 0 /\ ry0 r mod 2 = 0 /\
    iw im = rx1 r - rx0 r /\ ih im = ry1 r - ry0 r /\ wf_img im /\
    (forall x y, 0 <= x < W -> 0 <= y < H -> in_rect r x y = false -> cget W base x y = cget W curr x y) /\
    (bn = true -> forall x y, in_rect r x y = true ->
        nth (Z.to_nat ((y - ry0 r) * iw im + (x - rx0 r))) (ipix im) px0 = cget W curr x y) /\
    (bn = false -> forall x y, 0 <= x < W -> 0 <= y < H -> in_rect r x y = true ->
        pi (blend_spec (nth (Z.to_nat ((y - ry0 r) * iw im + (x - rx0 r))) (ipix im) px0) (cget W base x y))
        = pi (cget W curr x y)).
  Proof using pi_blend pi_zero fx_blend Hdec HW HH pi_similar.
    intros Hb Hc Hcand. unfold candidate in Hcand.
    set (r0 := find_changed_rect W H base curr) in *.
    set (r1 := if rect_empty r0 then go_rect 0 0 1 1 else r0) in *.
    assert (Hr1 : good_rect W H r1 /\ forall x y, 0 <= x < W -> 0 <= y < H ->
                    px_diff W base curr x y = true -> in_rect r1 x y = true).
    { unfold r1.
      pose proof (find_changed_rect_spec W H base curr ltac:(lia) ltac:(lia)) as Hs. cbv zeta in Hs.
      fold r0 in Hs. destruct Hs as [[E Hno]|[Hg Hcov]].
      - rewrite E. change (rect_empty rect0) with true. cbv iota.
        split; [apply good_unit; lia|]. intros x y Hx Hy Hd. destruct (Hno x y Hx Hy Hd).
      - replace (rect_empty r0) with false by (unfold rect_empty, good_rect in *; lia). split; assumption. }
    destruct Hr1 as [Hg1 Hcov1].
    destruct (snap_clip_good W H r1 Hg1) as (Hg2 & Hex & Hey & Hcov).
    set (r2 := intersect (snap_to_even r1) (canvas_bounds W H)) in *.
    rewrite fx_blend in Hcand. cbn [andb] in Hcand.
    set (ok := if eo_lossless op
               then rect_forall r2 (fun x y => lossless_px_ok (cget W base x y) (cget W curr x y))
               else rect_forall r2 (fun x y => lossy_px_ok (quality_to_max_diff (eo_quality op))
                                                          (cget W base x y) (cget W curr x y))) in *.
    injection Hcand as <- <- <-.
    assert (Hout : forall x y, 0 <= x < W -> 0 <= y < H -> in_rect r2 x y = false ->
                     cget W base x y = cget W curr x y).
    { intros x y Hx Hy Hin.
      destruct (px_diff W base curr x y) eqn:Hd; [|apply px_diff_false; exact Hd].
      rewrite (Hcov x y (Hcov1 x y Hx Hy Hd)) in Hin. discriminate. }
    destruct ok eqn:Hok; cbn [negb];
      [destruct (clear_kept_good base curr r2 Hg2 Hc) as (Ew & Eh & Hwf & Hcar)
      |destruct (extract_sub_good curr r2 Hg2 Hc) as (Ew & Eh & Hwf & Hcar)];
      repeat (split; [assumption|]);
      (split; try discriminate).
    - (* blended: kept pixels were cleared, the rest passed the per-pixel test *)
      intros _ x y Hx Hy Hin. rewrite (Hcar x y Hin). unfold ok in Hok.
      case_eq (eo_lossless op); intros Hll; rewrite Hll, rect_forall_spec in Hok.
      + apply lossless_ok_sound. apply (Hok x y Hin).
      + eapply lossy_ok_sound; [exact Hll|]. apply (Hok x y Hin).
    - intros _ x y Hin. apply Hcar. exact Hin.
  Qed.

  Hypothesis Hop : lossy_fine = false -> eo_lossless op = true /\ eo_mixed op = false.

  Lemma codec_lossy_fine alt : codec_lossy op alt = true -> lossy_fine = true.
  Proof.
    destruct lossy_fine; [reflexivity|]. destruct (Hop eq_refl) as [Hl Hm].
    unfold codec_lossy. rewrite Hl, Hm. cbn. discriminate.
  Qed.

  Definition frames_of (recs : list mrec) : list frame := map (frame_of false) recs.
  Definition s0 : dstate0 := (blank W H, None).
  Definition played (recs : list mrec) : show :=
    combine (spec_run W H (frames_of recs)) (map m_dur recs).
  (* canvas the decoder shows after [init ++ [last]] *)
  Definition cdec (init : list mrec) (last : mrec) : canvas :=
    fst (dstep W H (dfold W H s0 (frames_of init)) (frame_of false last)).

  (* [i_show] keeps the last frame's time apart: a repeated picture extends it.
     [i_first]: a lone frame is the full-canvas key frame (Close may write it as a still). *)
  Record invw (ins : show) (st : est)
              (init : list mrec) (last : mrec) (im : img) (ins' : show) (d : Z) : Prop := {
    i_W : e_W st = W;
    i_H : e_H st = H;
    i_op : e_opts st = op;
    i_recs : e_recs st = init ++ [last];
    i_pidx : e_pidx st = Z.of_nat (length init);
    i_disp : m_dispose_bg last = false;
    i_ok : Forall rec_ok (init ++ [last]);
    i_prect : forall x y, 0 <= x < W -> 0 <= y < H ->
                in_rect (e_prect st) x y = in_rect (rec_rect last) x y;
    i_prev : e_prev st = Some (pad W H im);
    i_ins : ins = ins' ++ [(pad W H im, d)];
    i_im : wf_img im;
    i_dec : psim pi W H (cdec init last) (pad W H im);
    i_show : push (collapse_rev_by pi (played init)) (map pi (cdec init last), m_dur last)
             = collapse_rev_by pi ins;
    i_fcount : e_fcount st = Z.of_nat (length (init ++ [last]));
    i_first : init = [] -> m_x last = 0 /\ m_y last = 0 /\ m_blend_none last = true /\
                           iw (m_img last) = W /\ ih (m_img last) = H
  }.

  Definition inv (ins : show) (st : est) : Prop :=
    exists init last im ins' d, invw ins st init last im ins' d.

  Lemma cdec_length init last : length (cdec init last) = Z.to_nat (W * H).
  Proof. apply dstep_length. Qed.

  Lemma pad_length im : length (pad W H im) = Z.to_nat (W * H).
  Proof. apply tab_length. Qed.

  Lemma played_snoc init last :
    played (init ++ [last]) = played init ++ [(cdec init last, m_dur last)].
  Proof.
    unfold played, frames_of, spec_run. rewrite !map_app. cbn [map].
    rewrite spec_go_dfold. rewrite combine_snoc; [reflexivity|].
    rewrite AnimDecOps.spec_go_length, !map_length. reflexivity.
  Qed.

  Lemma dfold_last init last b : rec_ok last ->
    dfold W H s0 (frames_of (init ++ [with_disp b last])) = (cdec init last, Some (rec_rect last, b)).
  Proof.
    intros Hok. unfold frames_of. rewrite map_app. cbn [map]. rewrite dfold_snoc.
    unfold dstep at 1. f_equal. f_equal. f_equal.
    apply (true_rect_frame_of false (with_disp b last)). exact Hok.
  Qed.

  Lemma wf_canvas_Forall c : wf_canvas W H c -> Forall wf_px c.
  Proof.
    intros [Hlen Hwf]. rewrite <- (tab_cget W H c) by (try lia; exact Hlen).
    apply Forall_tab; [lia|exact Hwf].
  Qed.

  Definition key_rec (curr : canvas) (lossy : bool) (dur : Z) : mrec :=
    mkmrec 0 0 (mkimg W H curr) lossy true false (clamp_dur dur).

  Definition sub_rec (r : rect) (im : img) (lossy bn : bool) (dur : Z) : mrec :=
    mkmrec (rx0 r) (ry0 r) im lossy bn false (clamp_dur dur).

  Definition filler_rec (lossy : bool) (dur : Z) : mrec :=
    mkmrec 0 0 (mkimg 1 1 [px0]) lossy false false (clamp_dur dur).

  Lemma key_rec_ok curr lossy dur : wf_canvas W H curr -> (lossy = true -> lossy_fine = true) ->
    rec_ok (key_rec curr lossy dur).
  Proof.
    intros Hc Hl. apply rec_ok_at; cbn [iw ih]; try lia; try reflexivity; [|exact Hl].
    pose proof Hc as [Hlen _]. unfold wf_img; cbn [iw ih ipix]. rewrite Hlen, Z2Nat.id by nia.
    repeat split; try lia. apply wf_canvas_Forall. exact Hc.
  Qed.

  Lemma filler_ok lossy dur : (lossy = true -> lossy_fine = true) -> rec_ok (filler_rec lossy dur).
  Proof.
    intros Hl. apply rec_ok_at; cbn [iw ih]; try lia; try reflexivity; [|exact Hl].
    unfold wf_img; cbn. repeat split; try lia. constructor; [apply wf_px0|constructor].
  Qed.

  Lemma key_sound via curr lossy dur c1 : wf_canvas W H curr -> (lossy = true -> lossy_fine = true) ->
    0 <= dur <= max_duration ->
    psim pi W H (composite W H c1 (frame_of via (key_rec curr lossy dur))) curr.
  Proof using pi_blend Hdec HW HH pi_similar.
    intros Hc Hl Hd.
    apply (composite_sound via (key_rec curr lossy dur) c1 c1 curr).
    - apply key_rec_ok; assumption.
    - apply psim_refl.
    - intros x y Hx Hy Hin. unfold rec_rect, key_rec, in_rect in Hin; cbn in Hin. lia.
    - intros _ x y _ _ Hin. unfold content, key_rec; cbn [m_x m_y m_img iw ipix]. unfold cget.
      f_equal. f_equal. f_equal. lia.
    - intros Hbn. discriminate.
  Qed.

  Lemma in_rect_key curr lossy dur x y : 0 <= x < W -> 0 <= y < H ->
    in_rect (go_rect 0 0 W H) x y = in_rect (rec_rect (key_rec curr lossy dur)) x y.
  Proof.
    intros Hx Hy. rewrite in_rect_go_rect by lia. unfold rec_rect, key_rec, in_rect; cbn. lia.
  Qed.

  Lemma in_rect_sub_rec r im lossy bn dur x y :
    iw im = rx1 r - rx0 r -> ih im = ry1 r - ry0 r ->
    in_rect (rec_rect (sub_rec r im lossy bn dur)) x y = in_rect r x y.
  Proof.
    intros Ew Eh. unfold rec_rect, sub_rec; cbn [m_x m_y m_img]. rewrite Ew, Eh.
    unfold in_rect; cbn [rx0 ry0 rx1 ry1]. lia.
  Qed.

  Lemma sub_sound c1 base curr r bn im lossy dur :
    good_rect W H r -> rx0 r mod 2 = 0 -> ry0 r mod 2 = 0 ->
    iw im = rx1 r - rx0 r -> ih im = ry1 r - ry0 r -> wf_img im ->
    (lossy = true -> lossy_fine = true) -> 0 <= dur <= max_duration ->
    psim pi W H c1 base ->
    (forall x y, 0 <= x < W -> 0 <= y < H -> in_rect r x y = false -> cget W base x y = cget W curr x y) ->
    (bn = true -> forall x y, in_rect r x y = true ->
        nth (Z.to_nat ((y - ry0 r) * iw im + (x - rx0 r))) (ipix im) px0 = cget W curr x y) ->
    (bn = false -> forall x y, 0 <= x < W -> 0 <= y < H -> in_rect r x y = true ->
        pi (blend_spec (nth (Z.to_nat ((y - ry0 r) * iw im + (x - rx0 r))) (ipix im) px0) (cget W base x y))
        = pi (cget W curr x y)) ->
    let new := sub_rec r im lossy bn dur in
    rec_ok new /\ psim pi W H (composite W H c1 (frame_of false new)) curr.
  Proof using pi_blend Hdec pi_similar.
    intros Hg Hex Hey Ew Eh Hwf Hl Hd Hsim Hout Hnb Hbl new.
    pose proof Hg as (Hx0 & Hx1 & Hy0 & Hy1).
    assert (Hok : rec_ok new) by (apply rec_ok_at; try assumption; lia).
    split; [exact Hok|].
    apply (composite_sound false new c1 base curr Hok).
    - exact Hsim.
    - intros x y Hx Hy Hin. unfold new in Hin. rewrite in_rect_sub_rec in Hin by assumption.
      apply Hout; assumption.
    - intros Hbn x y Hx Hy Hin. unfold new in Hin. rewrite in_rect_sub_rec in Hin by assumption.
      unfold content, new, sub_rec; cbn [m_x m_y m_img]. rewrite (Hnb Hbn x y Hin). reflexivity.
    - intros Hbn x y Hx Hy Hin. unfold new in Hin. rewrite in_rect_sub_rec in Hin by assumption.
      unfold content, new, sub_rec; cbn [m_x m_y m_img]. apply Hbl; assumption.
  Qed.

  Lemma filler_sound lossy dur c1 : (lossy = true -> lossy_fine = true) ->
    psim pi W H (composite W H c1 (frame_of false (filler_rec lossy dur))) c1.
  Proof using pi_blend Hdec HW HH pi_similar.
    intros Hl.
    apply (composite_sound false (filler_rec lossy dur) c1 c1 c1 (filler_ok lossy dur Hl)).
    - apply psim_refl.
    - reflexivity.
    - discriminate.
    - intros _ x y _ _ _.
      assert (E : content (filler_rec lossy dur) x y = px0).
      { unfold content, filler_rec; cbn [m_img ipix]. destruct (Z.to_nat _) as [|[|k]]; reflexivity. }
      rewrite E, blend_src_transparent by reflexivity. reflexivity.
  Qed.

  Lemma inv_append ins st init last im ins' d b new im2 dur st' :
    invw ins st init last im ins' d ->
    e_W st' = W -> e_H st' = H -> e_opts st' = op ->
    e_recs st' = (init ++ [with_disp b last]) ++ [new] ->
    e_pidx st' = Z.of_nat (length (init ++ [with_disp b last])) ->
    m_dispose_bg new = false -> rec_ok new -> m_dur new = dur ->
    (forall x y, 0 <= x < W -> 0 <= y < H -> in_rect (e_prect st') x y = in_rect (rec_rect new) x y) ->
    e_prev st' = Some (pad W H im2) -> wf_img im2 ->
    e_fcount st' = e_fcount st + 1 ->
    psim pi W H (composite W H (if b then fill W H (cdec init last) (rec_rect last) else cdec init last)
                           (frame_of false new)) (pad W H im2) ->
    inv (ins ++ [(pad W H im2, dur)]) st'.
  Proof.
    intros Hi HW' HH' Hop' Hrecs Hpidx Hdisp Hok Hdur Hprect Hprev Him2 Hfc Hsim.
    destruct Hi.
    apply Forall_snoc in i_ok0 as [Hokinit Hoklast].
    assert (Hcd : cdec (init ++ [with_disp b last]) new
                  = composite W H (if b then fill W H (cdec init last) (rec_rect last) else cdec init last)
                              (frame_of false new)).
    { unfold cdec at 1. rewrite (dfold_last init last b Hoklast). unfold dstep; cbn [fst snd].
      destruct b; reflexivity. }
    exists (init ++ [with_disp b last]), new, im2, ins, dur.
    constructor; try assumption.
    - (* i_ok *) apply Forall_snoc. split; [|exact Hok]. apply Forall_snoc. split; [exact Hokinit|exact Hoklast].
    - (* i_ins *) reflexivity.
    - (* i_dec *) rewrite Hcd. exact Hsim.
    - (* i_show *) rewrite played_snoc, collapse_rev_by_snoc.
      change (cdec init (with_disp b last)) with (cdec init last).
      change (m_dur (with_disp b last)) with (m_dur last). rewrite i_show0.
      rewrite collapse_rev_by_snoc. rewrite Hdur. f_equal. f_equal.
      apply (psim_map pi W H _ _ HW HH); [apply cdec_length|apply pad_length|]. rewrite Hcd. exact Hsim.
    - (* i_fcount *) rewrite Hfc, i_fcount0. rewrite !app_length. cbn [length]. lia.
    - (* i_first *) intros Habs. apply app_eq_nil in Habs as [_ Habs]. discriminate.
  Qed.

  Lemma show_dup A c d0 dur ins im2 :
    push A (c, d0) = collapse_rev_by pi ins ->
    map pi (pad W H im2) = c ->
    push A (c, d0 + dur) = collapse_rev_by pi (ins ++ [(pad W H im2, dur)]).
  Proof.
    intros Hs Hc.
    rewrite collapse_rev_by_snoc, <- Hs, push_add, Hc.
    destruct (push_head A c d0) as (d1 & t & E). rewrite E. rewrite push_same_head. reflexivity.
  Qed.

  Lemma same_picture init last im im2 : psim pi W H (cdec init last) (pad W H im) ->
    pad W H im2 = pad W H im -> map pi (pad W H im2) = map pi (cdec init last).
  Proof.
    intros Hd ->. symmetry. apply (psim_map pi W H _ _ HW HH); [apply cdec_length|apply pad_length|exact Hd].
  Qed.

  Lemma merge_invw ins st init last im ins' d im2 dur st2 :
    invw ins st init last im ins' d ->
    wf_img im2 -> 0 <= dur -> pad W H im2 = pad W H im ->
    m_dur last + dur < max_duration ->
    same_enc st2 st -> e_recs st2 = init ++ [with_dur (m_dur last + dur) last] ->
    invw (ins ++ [(pad W H im2, dur)]) st2 init (with_dur (m_dur last + dur) last) im2 ins dur.
  Proof.
    intros Hi Him2 Hdur Hpad Hlt (E1 & E2 & E3 & E4 & E5 & E6 & E7) Hr. destruct Hi.
    pose proof (proj1 (Forall_snoc _ _ _) i_ok0) as [Hokinit Hoklast].
    pose proof (rec_ok_dur last Hoklast) as Hdl.
    constructor; rewrite ?E1, ?E2, ?E3, ?E4, ?E5, ?E6, ?E7; try assumption; try reflexivity.
    - (* i_ok *) apply Forall_snoc. split; [exact Hokinit|]. apply rec_ok_with_dur; [exact Hoklast|lia].
    - (* i_prev *) rewrite i_prev0, Hpad. reflexivity.
    - (* i_dec *) rewrite Hpad. exact i_dec0.
    - (* i_show *) apply show_dup; [exact i_show0|exact (same_picture init last im im2 i_dec0 Hpad)].
    - (* i_fcount *) rewrite i_fcount0, !app_length. reflexivity.
  Qed.

  Lemma step_dup ins st init last im ins' d im2 dur o :
    invw ins st init last im ins' d ->
    wf_img im2 -> 0 <= dur <= max_duration -> pad W H im2 = pad W H im ->
    inv (ins ++ [(pad W H im2, dur)]) (increase_prev_duration fx st dur o).
  Proof using pi_blend fx_filler Hdec HW HH pi_similar Hop.
    intros Hi Him2 Hdur Hpad. pose proof Hi as Hi'. destruct Hi'.
    pose proof (proj1 (Forall_snoc _ _ _) i_ok0) as [Hokinit Hoklast].
    pose proof (rec_ok_dur last Hoklast) as Hdl.
    unfold increase_prev_duration. rewrite i_recs0, i_pidx0, mux_dur_last.
    destruct (Z.ltb_spec (m_dur last + dur) max_duration) as [Hlt|Hge].
    - (* extend the previous frame *)
      rewrite mux_set_dur_last, clamp_dur_id by lia.
      exists init, (with_dur (m_dur last + dur) last), im2, ins, dur.
      apply (merge_invw ins st init last im ins' d); try assumption; [lia| |reflexivity].
      repeat split. symmetry. exact i_pidx0.
    - (* cap it and emit the 1x1 filler *)
      rewrite mux_set_dur_last. unfold mux_add.
      assert (Hcm : clamp_dur max_duration = max_duration) by (apply clamp_dur_id; unfold max_duration; lia).
      rewrite Hcm.
      set (last' := with_dur max_duration last).
      set (fl := filler_rec (codec_lossy op (oc_alt_a o)) (m_dur last + dur - max_duration)).
      assert (Hokl' : rec_ok last') by (apply rec_ok_with_dur; [exact Hoklast|unfold max_duration; lia]).
      assert (Hokf : rec_ok fl) by (apply filler_ok, codec_lossy_fine).
      assert (Hcd : cdec (init ++ [last']) fl = composite W H (cdec init last) (frame_of false fl)).
      { unfold cdec at 1. rewrite <- (with_disp_false last') by exact i_disp0.
        rewrite (dfold_last init last' false Hokl'). reflexivity. }
      assert (Hsf : psim pi W H (cdec (init ++ [last']) fl) (cdec init last)).
      { rewrite Hcd. apply filler_sound, codec_lossy_fine. }
      exists (init ++ [last']), fl, im2, ins, dur.
      constructor; cbn [e_W e_H e_opts e_recs e_pidx e_prect e_prev e_fcount]; try assumption; try reflexivity.
      + (* i_recs *) rewrite i_op0. reflexivity.
      + (* i_pidx *) rewrite i_op0, last_idx_last. reflexivity.
      + (* i_ok *) apply Forall_snoc. split; [|exact Hokf]. apply Forall_snoc. split; assumption.
      + (* i_prect: the filler's rectangle, not the stale one *)
        intros x y Hx Hy. rewrite fx_filler. rewrite in_rect_go_rect by lia.
        unfold rec_rect, fl, filler_rec, in_rect; cbn. lia.
      + (* i_prev *) rewrite i_prev0, Hpad. reflexivity.
      + (* i_dec *) rewrite Hpad. eapply psim_trans; [exact Hsf|exact i_dec0].
      + (* i_show *)
        rewrite played_snoc, collapse_rev_by_snoc.
        change (cdec init last') with (cdec init last). change (m_dur last') with max_duration.
        rewrite (psim_map pi W H _ _ HW HH (cdec_length _ _) (cdec_length _ _) Hsf), push_push_same.
        unfold fl, filler_rec; cbn [m_dur]. rewrite clamp_dur_id by (unfold max_duration in *; lia).
        replace (max_duration + (m_dur last + dur - max_duration)) with (m_dur last + dur) by lia.
        apply show_dup; [exact i_show0|exact (same_picture init last im im2 i_dec0 Hpad)].
      + (* i_fcount *) rewrite i_fcount0, !app_length. cbn [length]. lia.
      + (* i_first *) intros Habs. apply app_eq_nil in Habs as [_ Habs]. discriminate.
  Qed.

  Definition eff (p : option (rect * bool)) : option rect :=
    match p with Some (r, true) => Some r | _ => None end.

  Definition dispose_of (s : dstate0) : canvas :=
    match snd s with Some (r, true) => fill W H (fst s) r | _ => fst s end.

  Definition dagree (ds rs : dstate0) : Prop :=
    psim pi W H (fst ds) (fst rs) /\ eff (snd ds) = eff (snd rs).

  Lemma dispose_psim ds rs : dagree ds rs -> psim pi W H (dispose_of ds) (dispose_of rs).
  Proof using Hdec pi_similar.
    intros [Hs He]. unfold dispose_of.
    destruct (snd ds) as [[r [|]]|], (snd rs) as [[r' [|]]|]; cbn [eff] in He;
      try discriminate; try exact Hs.
    injection He as <-. intros x y Hx Hy. rewrite !cget_fill by assumption.
    destruct (in_rect r x y); [reflexivity|apply Hs; assumption].
  Qed.

  Lemma composite_psim via r c c' : rec_ok r -> psim pi W H c c' ->
    psim pi W H (composite W H c (frame_of via r)) (composite W H c' (id_frame r)).
  Proof using pi_blend Hdec pi_similar.
    intros Hok Hs x y Hx Hy. rewrite cget_composite_frame_of by assumption.
    unfold composite at 1. rewrite cget_tab by assumption.
    change (true_rect (id_frame r)) with (rec_rect r).
    change (fget (id_frame r) (x - Canvas.fx (id_frame r)) (y - Canvas.fy (id_frame r)))
      with (content r x y).
    change (fblend_none (id_frame r)) with (m_blend_none r). cbv zeta.
    destruct (in_rect (rec_rect r) x y) eqn:Hin; [|apply Hs; assumption].
    pose proof (fget_frame_of via r x y Hok Hin) as Hf.
    destruct (m_blend_none r); [exact Hf|].
    apply pi_blend; [exact Hf|apply Hs; assumption].
  Qed.

  Definition ucore (R : show) (rs : dstate0) (recs : list mrec) : Prop :=
    Forall rec_ok recs /\
    dagree (dfold W H s0 (frames_of recs)) rs /\
    collapse_rev_by pi (played recs) = collapse_rev_by pi R.

  Lemma ucore_nil rs recs : ucore [] rs recs -> recs = [].
  Proof.
    intros (_ & _ & Hshow). destruct recs as [|r recs _] using rev_ind; [reflexivity|].
    rewrite played_snoc, collapse_rev_by_snoc in Hshow.
    destruct (push_head (collapse_rev_by pi (played recs)) (map pi (cdec recs r)) (m_dur r)) as (d0 & t & E).
    discriminate (eq_trans (eq_sym Hshow) E).
  Qed.

  Lemma inv_ucore ins st init last im ins' d rs :
    invw ins st init last im ins' d -> fst rs = pad W H im -> eff (snd rs) = None ->
    ucore ins rs (e_recs st) /\ e_fcount st = Z.of_nat (length (e_recs st)).
  Proof.
    intros Hi Hf He. destruct Hi. rewrite i_recs0. split; [|exact i_fcount0].
    pose proof (proj2 (proj1 (Forall_snoc _ _ _) i_ok0)) as Hoklast.
    split; [exact i_ok0|]. split.
    - rewrite <- (with_disp_false last i_disp0) at 1. rewrite (dfold_last init last false Hoklast).
      split; cbn [fst snd eff]; [rewrite Hf; exact i_dec0|symmetry; exact He].
    - rewrite played_snoc, collapse_rev_by_snoc. exact i_show0.
  Qed.

  Record uinv (R : show) (rs : dstate0) (st : est) : Prop := {
    u_W : e_W st = W;
    u_H : e_H st = H;
    u_op : e_opts st = op;
    u_prev : e_prev st = None;
    u_core : ucore R rs (e_recs st);
    u_fcount : e_fcount st = Z.of_nat (length (e_recs st))
  }.

  Lemma uinv_new st0 :
    e_W st0 = W -> e_H st0 = H -> e_opts st0 = op -> e_recs st0 = [] -> e_fcount st0 = 0 ->
    e_prev st0 = None -> uinv [] s0 st0.
  Proof.
    intros HW0 HH0 Hop0 Hrecs0 Hfc0 Hprev0. constructor; try assumption; rewrite Hrecs0.
    - split; [constructor|]. split; [split; [apply psim_refl|reflexivity]|reflexivity].
    - exact Hfc0.
  Qed.

  (* a full-canvas key frame: whatever is stored before it, it shows its picture *)

  Lemma key_append R rs st im2 dur alt :
    e_W st = W -> e_H st = H -> e_opts st = op ->
    ucore R rs (e_recs st) -> e_fcount st = Z.of_nat (length (e_recs st)) ->
    wf_img im2 -> 0 <= dur <= max_duration ->
    inv (R ++ [(pad W H im2, dur)]) (encode_keyframe st (pad W H im2) dur alt).
  Proof.
    intros HW1 HH1 Hop1 (Hok & _ & Hshow) Hfc Him2 Hdur.
    set (k := key_rec (pad W H im2) (codec_lossy op alt) dur).
    assert (Hk : rec_ok k) by (apply key_rec_ok; [apply wf_pad; exact Him2|apply codec_lossy_fine]).
    assert (Hs : psim pi W H (cdec (e_recs st) k) (pad W H im2)).
    { unfold cdec, dstep; cbn [fst snd].
      apply key_sound; [apply wf_pad; exact Him2|apply codec_lossy_fine|exact Hdur]. }
    exists (e_recs st), k, im2, R, dur.
    constructor; unfold encode_keyframe; cbn [e_W e_H e_opts e_recs e_pidx e_prect e_prev e_fcount];
      rewrite ?HW1, ?HH1, ?Hop1; try reflexivity; try assumption.
    - (* i_pidx *) unfold mux_add. rewrite last_idx_last. reflexivity.
    - (* i_ok *) apply Forall_snoc. split; assumption.
    - (* i_prect *) intros x y Hx Hy. apply in_rect_key; assumption.
    - (* i_show *) rewrite Hshow, collapse_rev_by_snoc. unfold k at 2, key_rec; cbn [m_dur].
      rewrite clamp_dur_id by exact Hdur. f_equal. f_equal.
      apply (psim_map pi W H _ _ HW HH); [apply cdec_length|apply pad_length|exact Hs].
    - (* i_fcount *) rewrite Hfc. unfold mux_add. rewrite !app_length. cbn [length]. lia.
    - (* i_first *) intros _. repeat split.
  Qed.

  (* forced by Kmax or chosen by the size fallback; [st1]: countSinceKeyframe moved *)
  Lemma step_keyframe ins st init last im ins' d im2 dur alt st1 :
    invw ins st init last im ins' d ->
    e_W st1 = W -> e_H st1 = H -> e_opts st1 = op -> e_recs st1 = e_recs st -> e_fcount st1 = e_fcount st ->
    wf_img im2 -> 0 <= dur <= max_duration ->
    inv (ins ++ [(pad W H im2, dur)]) (encode_keyframe st1 (pad W H im2) dur alt).
  Proof.
    intros Hi HW1 HH1 Hop1 Hrecs1 Hfc1.
    destruct (inv_ucore _ _ _ _ _ _ _ (pad W H im, None) Hi eq_refl eq_refl) as [Hc Hfc].
    apply (key_append ins (pad W H im, None)); try assumption; [rewrite Hrecs1|rewrite Hfc1, Hrecs1]; assumption.
  Qed.

  (* the candidate computed against [base], after the last frame got dispose flag [b] *)
  Lemma step_cand ins st init last im ins' d (b : bool) base r bn imc lossy im2 dur since calls :
    invw ins st init last im ins' d -> wf_img im2 -> 0 <= dur <= max_duration ->
    wf_canvas W H base ->
    psim pi W H (if b then fill W H (cdec init last) (rec_rect last) else cdec init last) base ->
    candidate fx op W H base (pad W H im2) = (r, bn, imc) ->
    (lossy = true -> lossy_fine = true) ->
    let recs := mux_add (init ++ [with_disp b last]) (rx0 r) (ry0 r) imc lossy bn dur in
    inv (ins ++ [(pad W H im2, dur)])
        (mkest W H op recs (Some (pad W H im2)) (e_fcount st + 1) since r (last_idx recs) calls).
  Proof.
    intros Hi Him2 Hdur Hwb Hsim Hc Hl recs.
    destruct (candidate_sound base (pad W H im2) r bn imc Hwb (wf_pad im2 Him2) Hc)
      as (Hg & Hex & Hey & Ew & Eh & Hwf & Hout & Hnb & Hbl).
    destruct (sub_sound _ base (pad W H im2) r bn imc lossy dur Hg Hex Hey Ew Eh Hwf Hl Hdur
                Hsim Hout Hnb Hbl) as [Hok Hs].
    apply (inv_append ins st init last im ins' d b (sub_rec r imc lossy bn dur) im2 dur);
      try assumption; try reflexivity.
    - apply last_idx_last.
    - apply clamp_dur_id. exact Hdur.
    - intros x y _ _. symmetry. apply in_rect_sub_rec; assumption.
  Qed.

  Lemma step_sub ins st init last im ins' d im2 dur o st1 :
    invw ins st init last im ins' d ->
    e_W st1 = W -> e_H st1 = H -> e_opts st1 = op -> e_recs st1 = e_recs st ->
    e_fcount st1 = e_fcount st -> e_pidx st1 = e_pidx st -> e_prect st1 = e_prect st ->
    wf_img im2 -> 0 <= dur <= max_duration ->
    inv (ins ++ [(pad W H im2, dur)]) (encode_sub_frame fx st1 (pad W H im) (pad W H im2) dur o).
  Proof.
    intros Hi HW1 HH1 Hop1 Hrecs1 Hfc1 Hpidx1 Hprect1 Him2 Hdur.
    pose proof Hi as Hi'. destruct Hi'.
    unfold encode_sub_frame. rewrite HW1, HH1, Hop1, Hrecs1, Hpidx1, Hprect1, Hfc1.
    set (prev := pad W H im). set (curr := pad W H im2).
    assert (Hwp : wf_canvas W H prev) by (apply wf_pad; exact i_im0).
    destruct (candidate fx op W H prev curr) as [[rN bnN] imN] eqn:HcN.
    set (disposed := fill_impl W H prev (e_prect st)).
    destruct (candidate fx op W H disposed curr) as [[rB bnB] imB] eqn:HcB.
    destruct (oc_key o); [eapply step_keyframe; eassumption|].
    destruct (oc_bg o).
    - (* dispose-background candidate *)
      rewrite i_recs0, i_pidx0, mux_set_dispose_bg_last.
      apply (step_cand ins st init last im ins' d true disposed); try assumption.
      + apply AnimDecLoops.wf_fill_impl; [lia|exact Hwp].
      + intros x y Hx Hy. unfold disposed. rewrite cget_fill, cget_fill_impl by assumption.
        rewrite (i_prect0 x y Hx Hy). destruct (in_rect (rec_rect last) x y); [reflexivity|].
        apply i_dec0; assumption.
      + apply codec_lossy_fine.
    - (* dispose-none candidate *)
      rewrite <- (with_disp_false last i_disp0) in i_recs0. rewrite i_recs0.
      apply (step_cand ins st init last im ins' d false prev); try assumption.
      apply codec_lossy_fine.
  Qed.

  Lemma inv_calls ins st : inv ins st -> inv ins (set_calls st).
  Proof.
    intros (init & last & im & ins' & d & Hi). exists init, last, im, ins', d.
    destruct Hi. constructor; assumption.
  Qed.

  Lemma step_add oracle ins st f : inv ins st -> wf_input f ->
    inv (ins ++ [(pad W H (fst f), snd f)]) (add_frame fx oracle st f).
  Proof.
    intros (init & last & im & ins' & d & Hi) Hf. destruct f as [im2 dur]. destruct Hf as [Him2 Hdur].
    cbn [fst snd] in Him2, Hdur. pose proof Hi as Hi'. destruct Hi'.
    unfold add_frame. apply inv_calls. rewrite i_prev0, i_W0, i_H0.
    destruct (canvas_eqb (pad W H im) (pad W H im2)) eqn:Heq.
    - apply canvas_eqb_eq in Heq. eapply step_dup; try eassumption. symmetry. exact Heq.
    - cbn [e_opts e_since].
      destruct (eo_kmax (e_opts st) <=? e_since st + 1).
      + (* Kmax reached: forced key frame *)
        eapply step_keyframe; try eassumption; reflexivity.
      + eapply step_sub; try eassumption; reflexivity.
  Qed.

  Lemma run_inv oracle rest : forall ins st, inv ins st -> Forall wf_input rest ->
    inv (ins ++ inputs_of W H rest) (run_frames fx oracle st rest).
  Proof.
    induction rest as [|f rest IH]; intros ins st Hi Hwf.
    - rewrite app_nil_r. exact Hi.
    - inversion Hwf as [|? ? Hf Hrest]; subst. cbn [run_frames fold_left].
      cbn [inputs_of map].
      replace (ins ++ (pad W H (fst f), snd f) :: map (fun f0 => (pad W H (fst f0), snd f0)) rest)
        with ((ins ++ [(pad W H (fst f), snd f)]) ++ inputs_of W H rest) by (rewrite <- app_assoc; reflexivity).
      apply IH; [|exact Hrest]. apply step_add; assumption.
  Qed.

  Lemma blend_over_blank t : pi (blend_spec t px0) = pi t.
  Proof.
    unfold blend_spec. destruct (Z.eqb_spec (pa t) 0) as [Hz|Hz].
    - apply pi_zero; [reflexivity|exact Hz].
    - cbn [px0 pa]. rewrite Z.eqb_refl, orb_true_r. reflexivity.
  Qed.

  (* a still is stored as a blended frame at (0,0); over the blank canvas blending changes nothing *)
  Lemma still_sound via r prev :
    rec_ok r -> m_x r = 0 -> m_y r = 0 ->
    psim pi W H (composite W H (blank W H) (frame_of via r)) prev ->
    psim pi W H (composite W H (blank W H)
                   (frame_of via (mkmrec 0 0 (m_img r) (m_lossy r) false false 0))) prev.
  Proof.
    intros Hok Hx0 Hy0 Hs x y Hx Hy. rewrite <- (Hs x y Hx Hy). clear Hs.
    set (r' := mkmrec 0 0 (m_img r) (m_lossy r) false false 0).
    assert (Hok' : rec_ok r').
    { apply (rec_ok_same r); try assumption; try reflexivity; [symmetry..|unfold max_duration; cbn; lia];
        assumption. }
    rewrite !cget_composite_frame_of by assumption.
    replace (rec_rect r') with (rec_rect r)
      by (unfold rec_rect, r'; cbn [m_x m_y m_img]; rewrite Hx0, Hy0; reflexivity).
    destruct (in_rect (rec_rect r) x y); [|reflexivity]. cbv zeta. rewrite Hx0, Hy0.
    change (fget (frame_of via r') (x - m_x r') (y - m_y r')) with (fget (frame_of via r) (x - 0) (y - 0)).
    change (m_blend_none r') with false. cbv iota.
    destruct (m_blend_none r); [|reflexivity].
    unfold blank. rewrite cget_tab by assumption. apply blend_over_blank.
  Qed.

  Lemma single_show via k out prevc last frames :
    out_W out = W -> out_H out = H -> out_recs out = [k] -> out_via_encode out = via ->
    length prevc = Z.to_nat (W * H) ->
    psim pi W H (composite W H (blank W H) (frame_of via k)) prevc ->
    psim pi W H (cdec [] last) prevc ->
    push [] (map pi (cdec [] last), m_dur last) = collapse_rev_by pi frames ->
    forall loop, same_show_by pi W H loop out (playback rt_ll rt_ly fx out) frames.
  Proof.
    intros HoW HoH Hrecs Hvia Hlen Hs Hd Hshow loop.
    assert (Hpb : playback rt_ll rt_ly fx out
                  = [(composite W H (blank W H) (frame_of via k), m_dur k)]).
    { unfold playback, play_recs. rewrite Hrecs, Hvia, HoW, HoH. reflexivity. }
    assert (Hc : map pi (composite W H (blank W H) (frame_of via k)) = map pi (cdec [] last)).
    { transitivity (map pi prevc); [|symmetry]; apply (psim_map pi W H _ _ HW HH); try assumption;
        [apply tab_length|apply cdec_length]. }
    assert (HI : collapse_by pi frames = [(map pi (cdec [] last), m_dur last)]).
    { unfold collapse_by. rewrite <- Hshow. reflexivity. }
    constructor.
    - split; assumption.
    - rewrite HI, Hpb. unfold collapse_by, collapse_rev_by, proj_show.
      cbn [map fold_left push rev app fst snd]. rewrite Hc. reflexivity.
    - rewrite HI. cbn [length]. lia.
  Qed.

  Lemma muxer_show has_meta recs R out :
    Forall rec_ok recs -> collapse_rev_by pi (played recs) = collapse_rev_by pi R ->
    (forall r0, recs = [r0] -> m_dur r0 <= 0 ->
                has_meta = true \/ (iw (m_img r0) = W /\ ih (m_img r0) = H)) ->
    muxer_wrote has_meta W H (eo_loop op) recs out ->
    same_show_by pi W H (eo_loop op) out (playback rt_ll rt_ly fx out) R.
  Proof.
    intros Hok Hshow Hdims [[_ ->]|(r0 & -> & Hd0 & Hx0 & Hy0 & ->)].
    - (* an animation *)
      change (playback rt_ll rt_ly fx (mkout false false W H (eo_loop op) recs)) with (played recs).
      assert (Hcol : collapse_by pi (played recs) = collapse_by pi R)
        by (unfold collapse_by; f_equal; exact Hshow).
      constructor; cbn [out_W out_H out_loop out_still].
      + split; reflexivity.
      + rewrite Hcol. reflexivity.
      + intros _. repeat split. exact Hcol.
    - (* a lone frame of duration 0: a simple file, its canvas the frame's size *)
      assert (Hr0 : rec_ok r0) by (inversion Hok; assumption).
      eapply (single_show false _ _ (cdec [] r0) r0); try reflexivity.
      + cbn [out_W]. destruct (Hdims r0 eq_refl Hd0) as [->|[-> _]]; [|destruct has_meta]; reflexivity.
      + cbn [out_H]. destruct (Hdims r0 eq_refl Hd0) as [->|[_ ->]]; [|destruct has_meta]; reflexivity.
      + apply cdec_length.
      + apply (still_sound false r0 (cdec [] r0) Hr0 Hx0 Hy0), psim_refl.
      + apply psim_refl.
      + rewrite <- Hshow. reflexivity.
  Qed.

  Hypothesis HWmax : W <= max_canvas_dimension.
  Hypothesis HHmax : H <= max_canvas_dimension.

  (* Muxer.validate accepts what the encoder stores; the theorems assume Close succeeded
     and do not go through this *)
  Lemma rec_ok_valid animated r : rec_ok r -> (animated = true \/ (m_x r = 0 /\ m_y r = 0)) ->
    rec_valid W H animated r = true.
  Proof.
    intros (Hwf & _ & Hx & Hy & _ & _ & Hxw & Hyh & _) Ha. destruct Hwf as (Hiw & Hih & _).
    unfold rec_valid, max_position_off. unfold max_canvas_dimension in HWmax, HHmax.
    assert (m_x r / 2 < 16777216) by (apply Z.div_lt_upper_bound; lia).
    assert (m_y r / 2 < 16777216) by (apply Z.div_lt_upper_bound; lia).
    destruct Ha as [->|[Hx0 Hy0]]; [|rewrite Hx0, Hy0 in *]; cbn [orb]; try rewrite orb_true_r; lia.
  Qed.

  Lemma valid_all recs : Forall rec_ok recs ->
    (mux_animated recs = false -> Forall (fun r => m_x r = 0 /\ m_y r = 0) recs) ->
    forallb (rec_valid W H (mux_animated recs)) recs = true.
  Proof.
    intros Hok Hna. apply forallb_forall. intros r Hr. rewrite Forall_forall in Hok.
    apply rec_ok_valid; [apply Hok; exact Hr|].
    destruct (mux_animated recs) eqn:Ha; [left; reflexivity|right].
    specialize (Hna eq_refl). rewrite Forall_forall in Hna. apply Hna. exact Hr.
  Qed.

  Lemma close_sound has_meta simple st ins out init last im ins' d b :
    invw ins (set_recs st (init ++ [last])) init last im ins' d ->
    e_recs st = init ++ [with_disp b last] ->
    close has_meta simple st = Some out ->
    same_show_by pi W H (eo_loop op) out (playback rt_ll rt_ly fx out) ins.
  Proof.
    intros Hi Hrecs Hclose.
    destruct Hi. cbn [set_recs e_W e_H e_opts e_recs e_prev e_fcount e_pidx e_prect] in *.
    pose proof (proj1 (Forall_snoc _ _ _) i_ok0) as [Hokinit Hoklast].
    destruct (close_cases _ _ _ _ Hclose) as [(prev & Hprev & Hfc & ->)|Hmux];
      rewrite i_W0, i_H0, i_op0 in *.
    - (* the still written by SimpleEncodeFunc *)
      rewrite i_prev0 in Hprev. injection Hprev as <-.
      assert (Hinit : init = []).
      { destruct init as [|a init']; [reflexivity|]. rewrite i_fcount0, app_length in Hfc. cbn [length] in Hfc. lia. }
      subst init.
      set (lossy := negb (eo_lossless op)).
      assert (Hl : lossy = true -> lossy_fine = true).
      { unfold lossy. destruct lossy_fine; [reflexivity|]. destruct (Hop eq_refl) as [-> _]. discriminate. }
      eapply (single_show true _ _ (pad W H im) last); try reflexivity; try assumption; [apply pad_length|].
      apply (still_sound true (key_rec (pad W H im) lossy 0) (pad W H im)); try reflexivity.
      + apply key_rec_ok; [apply wf_pad; exact i_im0|exact Hl].
      + apply key_sound; [apply wf_pad; exact i_im0|exact Hl|unfold max_duration; lia].
    - rewrite Hrecs in Hmux. apply (muxer_show has_meta (init ++ [with_disp b last])); [| | |exact Hmux].
      + apply Forall_snoc. split; [exact Hokinit|exact Hoklast].
      + rewrite played_snoc, collapse_rev_by_snoc. exact i_show0.
      + intros r0 Hr0 _. right. destruct init as [|a [|]]; try discriminate.
        injection Hr0 as <-. apply (i_first0 eq_refl).
  Qed.

  Theorem generic_roundtrip oracle has_meta simple st0 frames out :
    e_W st0 = W -> e_H st0 = H -> e_opts st0 = op -> e_recs st0 = [] -> e_fcount st0 = 0 ->
    e_prev st0 = None ->
    frames <> [] -> Forall wf_input frames ->
    close has_meta simple (run_frames fx oracle st0 frames) = Some out ->
    same_show_by pi W H (eo_loop op) out (playback rt_ll rt_ly fx out) (inputs_of W H frames).
  Proof.
    intros HW0 HH0 Hop0 Hrecs0 Hfc0 Hprev0 Hne Hwf Hclose.
    destruct frames as [|[im2 dur] rest]; [contradiction|].
    apply Forall_cons_iff in Hwf as [[Him2 Hdur] Hrest]. cbn [fst snd] in Him2, Hdur.
    set (stf := run_frames fx oracle st0 ((im2, dur) :: rest)) in *.
    assert (Hinv : inv (inputs_of W H ((im2, dur) :: rest)) stf).
    { unfold stf. cbn [run_frames fold_left].
      change (inputs_of W H ((im2, dur) :: rest)) with ([(pad W H im2, dur)] ++ inputs_of W H rest).
      apply run_inv; [|exact Hrest]. unfold add_frame. apply inv_calls. rewrite Hprev0, HW0, HH0.
      destruct (uinv_new st0 HW0 HH0 Hop0 Hrecs0 Hfc0 Hprev0). apply (key_append [] s0); assumption. }
    destruct Hinv as (init & last & im & ins' & d & Hi).
    apply (close_sound has_meta simple stf _ out init last im ins' d false); [| |exact Hclose].
    - rewrite <- (i_recs _ _ _ _ _ _ _ Hi), set_recs_same. exact Hi.
    - rewrite (i_recs _ _ _ _ _ _ _ Hi), (with_disp_false last (i_disp _ _ _ _ _ _ _ Hi)). reflexivity.
  Qed.

  Variable maxf : Z.

  (* up to the dispose flag the encoder set on the last muxer frame just before a full
     muxer refused the next one *)
  Definition einv (ins : show) (st : est) : Prop :=
    exists init last im ins' d b,
      invw ins (set_recs st (init ++ [last])) init last im ins' d /\
      e_recs st = init ++ [with_disp b last] /\
      (b = true -> mux_full maxf st = true).

  Lemma inv_einv ins st : inv ins st -> einv ins st.
  Proof.
    intros (init & last & im & ins' & d & Hi). pose proof Hi as Hi'. destruct Hi'.
    exists init, last, im, ins', d, false. split; [|split].
    - rewrite <- i_recs0, set_recs_same. exact Hi.
    - rewrite i_recs0, (with_disp_false last i_disp0). reflexivity.
    - discriminate.
  Qed.

  Lemma einv_inv ins st : einv ins st -> mux_full maxf st = false -> inv ins st.
  Proof.
    intros (init & last & im & ins' & d & b & Hi & Hrecs & Hb) Hnf.
    destruct b; [rewrite (Hb eq_refl) in Hnf; discriminate|].
    rewrite (with_disp_false last (i_disp _ _ _ _ _ _ _ Hi)) in Hrecs.
    exists init, last, im, ins', d. rewrite <- (set_recs_same st), Hrecs. exact Hi.
  Qed.

  Lemma einv_nonempty st : einv [] st -> False.
  Proof. intros (init & last & im & ins' & d & b & Hi & _). destruct Hi. destruct ins'; discriminate. Qed.

  Lemma invw_transfer ins st st2 init last im ins' d :
    invw ins st init last im ins' d -> same_enc st2 st -> e_recs st2 = e_recs st ->
    invw ins st2 init last im ins' d.
  Proof.
    intros Hi (E1 & E2 & E3 & E4 & E5 & E6 & E7) Er. destruct Hi.
    constructor; rewrite ?E1, ?E2, ?E3, ?E4, ?E5, ?E6, ?E7, ?Er; assumption.
  Qed.

  Lemma einv_err ins st st2 :
    einv ins st -> same_enc st2 st ->
    (e_recs st2 = e_recs st \/
     (mux_full maxf st = true /\ e_recs st2 = mux_set_dispose_bg (e_recs st) (e_pidx st))) ->
    einv ins st2.
  Proof.
    intros (init & last & im & ins' & d & b & Hi & Hrecs & Hb) Hs Hr.
    assert (Hi2 : invw ins (set_recs st2 (init ++ [last])) init last im ins' d)
      by (apply (invw_transfer ins (set_recs st (init ++ [last]))); [exact Hi|exact Hs|reflexivity]).
    destruct Hr as [Hr|[Hfull Hr]].
    - exists init, last, im, ins', d, b. split; [exact Hi2|]. split; [congruence|].
      intros Hbt. specialize (Hb Hbt). unfold mux_full in *. rewrite Hr. exact Hb.
    - exists init, last, im, ins', d, true. split; [exact Hi2|].
      assert (Hr2 : e_recs st2 = init ++ [with_disp true last]).
      { rewrite Hr, Hrecs, (i_pidx _ _ _ _ _ _ _ Hi : e_pidx st = _), mux_set_dispose_bg_last. reflexivity. }
      split; [exact Hr2|]. intros _. unfold mux_full in *. rewrite Hr2.
      rewrite Hrecs in Hfull. rewrite app_length in *. exact Hfull.
  Qed.

  (* a merged repeat: possible even when the muxer is full *)
  Lemma einv_merge oracle ins st f :
    einv ins st -> wf_input f ->
    e_prev st = Some (pad (e_W st) (e_H st) (fst f)) ->
    mux_dur (e_recs st) (e_pidx st) + snd f < max_duration ->
    einv (ins ++ [(pad W H (fst f), snd f)]) (add_frame fx oracle st f).
  Proof.
    intros (init & last & im & ins' & d & b & Hi & Hrecs & Hb) [Him2 Hdur] Hprev Hlt.
    destruct f as [im2 dur]. cbn [fst snd] in *. rewrite (add_frame_merge _ _ _ _ _ Hprev Hlt).
    rewrite (i_W _ _ _ _ _ _ _ Hi : e_W st = W), (i_H _ _ _ _ _ _ _ Hi : e_H st = H),
      (i_prev _ _ _ _ _ _ _ Hi : e_prev st = _) in Hprev.
    injection Hprev as Hpad.
    pose proof (rec_ok_dur last (proj2 (proj1 (Forall_snoc _ _ _) (i_ok _ _ _ _ _ _ _ Hi)))) as Hdl.
    rewrite Hrecs, (i_pidx _ _ _ _ _ _ _ Hi : e_pidx st = _), mux_dur_last, mux_set_dur_last in *.
    change (m_dur (with_disp b last)) with (m_dur last) in *. rewrite clamp_dur_id by lia.
    exists init, (with_dur (m_dur last + dur) last), im2, ins, dur, b. split; [|split].
    - apply (merge_invw ins (set_recs st (init ++ [last])) init last im ins' d);
        try assumption; try reflexivity; [lia|symmetry; exact Hpad|repeat split].
    - reflexivity.
    - intros Hbt. specialize (Hb Hbt). unfold mux_full in *. cbn [set_calls set_recs e_recs].
      rewrite Hrecs in Hb. rewrite app_length in *. exact Hb.
  Qed.

  Lemma step_add_e oracle fails acc st f st2 ok :
    einv acc st -> wf_input f ->
    add_frame_e fx true maxf oracle fails st f = (st2, ok) ->
    einv (if ok then acc ++ [(pad W H (fst f), snd f)] else acc) st2.
  Proof.
    intros He Hf Hadd.
    destruct (add_frame_e_cases _ _ _ _ _ _ _ _ Hadd) as [(-> & -> & [Hnf|[Hprev Hlt]])|(-> & Hs & Hr)].
    - apply inv_einv, step_add; [exact (einv_inv _ _ He Hnf)|exact Hf].
    - exact (einv_merge _ _ _ _ He Hf Hprev Hlt).
    - exact (einv_err _ _ _ He Hs Hr).
  Qed.

  Lemma ucore_raw R rs recs r : ucore R rs recs -> rec_ok r ->
    ucore (R ++ [(fst (rstep W H rs (ORaw r)), m_dur r)]) (rstep W H rs (ORaw r)) (recs ++ [r]).
  Proof using pi_blend Hdec HW HH pi_similar maxf.
    intros (Hok & Hag & Hshow) Hr.
    assert (Hc : psim pi W H (cdec recs r) (fst (rstep W H rs (ORaw r)))).
    { unfold cdec, dstep, rstep; cbn [fst snd].
      apply composite_psim; [exact Hr|]. exact (dispose_psim _ _ Hag). }
    split; [apply Forall_snoc; split; assumption|]. split.
    - unfold frames_of. rewrite map_app. cbn [map]. rewrite dfold_snoc. split.
      + exact Hc.
      + unfold dstep, rstep; cbn [snd eff]. rewrite (true_rect_frame_of false r Hr).
        change (true_rect (id_frame r)) with (rec_rect r).
        change (fdispose_bg (frame_of false r)) with (m_dispose_bg r). reflexivity.
    - rewrite played_snoc, !collapse_rev_by_snoc, Hshow. f_equal. f_equal.
      apply (psim_map pi W H _ _ HW HH); [apply cdec_length| |exact Hc].
      unfold rstep; cbn [fst]. unfold composite. apply tab_length.
  Qed.

  Lemma step_key_u R rs st im2 dur alt :
    uinv R rs st -> wf_img im2 -> 0 <= dur <= max_duration ->
    inv (R ++ [(pad W H im2, dur)]) (encode_keyframe st (pad W H im2) dur alt).
  Proof using pi_blend Hdec HW HH pi_similar Hop maxf.
    intros Hu. destruct Hu. apply (key_append R rs); assumption. Qed.

  (* like [key_append], needs no more of the state than [ucore] and the counters *)
  Lemma raw_append R rs st r :
    e_W st = W -> e_H st = H -> e_opts st = op ->
    ucore R rs (e_recs st) -> e_fcount st = Z.of_nat (length (e_recs st)) -> rec_ok r ->
    uinv (R ++ [(fst (rstep W H rs (ORaw r)), m_dur r)]) (rstep W H rs (ORaw r))
         (set_calls (mkest (e_W st) (e_H st) (e_opts st) (e_recs st ++ [r]) None (e_fcount st + 1)
                           (e_since st) (e_prect st) (e_pidx st) (e_calls st))).
  Proof.
    intros HW1 HH1 Hop1 Hc Hfc Hr.
    constructor; cbn [set_calls e_W e_H e_opts e_recs e_prev e_fcount]; try assumption; try reflexivity.
    - apply ucore_raw; assumption.
    - rewrite Hfc, app_length. cbn [length]. lia.
  Qed.

  Lemma raw_norm r : rec_ok r ->
    mkmrec (m_x r) (m_y r) (m_img r) (m_lossy r) (m_blend_none r) (m_dispose_bg r) (clamp_dur (m_dur r)) = r.
  Proof. intros Hr. rewrite clamp_dur_id by exact (rec_ok_dur r Hr). destruct r; reflexivity. Qed.

  Definition op_ok (o : AnimEncModel.op) : Prop :=
    match o with OAdd f => wf_input f | ORaw r => rec_ok r end.

  (* The first branch also tracks that a lone stored frame is the lone accepted raw frame:
     [close_u] needs the theorem's canvas-size premise, stated of the accepted calls, for it. *)
  Definition minv (ops : list AnimEncModel.op) (st : est) : Prop :=
    let R := ref_show W H s0 ops in
    let rs := rfold W H s0 ops in
    (uinv R rs st /\ (e_recs st = [] -> ops = []) /\ (forall r0, e_recs st = [r0] -> ops = [ORaw r0])) \/
    (einv R st /\ eff (snd rs) = None).

  Lemma minv_new st0 :
    e_W st0 = W -> e_H st0 = H -> e_opts st0 = op -> e_recs st0 = [] -> e_fcount st0 = 0 ->
    e_prev st0 = None -> minv [] st0.
  Proof.
    intros HW0 HH0 Hop0 Hrecs0 Hfc0 Hprev0. left. split; [apply uinv_new; assumption|].
    rewrite Hrecs0. split; [reflexivity|discriminate].
  Qed.

  Lemma uinv_calls R rs st : uinv R rs st -> uinv R rs (set_calls st).
  Proof. intros Hu. destruct Hu. constructor; assumption. Qed.

  Lemma step_op_minv oracle fails ops st o st2 ok :
    minv ops st -> op_ok o ->
    step_op fx maxf oracle fails st o = (st2, ok) ->
    minv (if ok then ops ++ [o] else ops) st2.
  Proof.
    intros HM Hwf Hstep. unfold minv in *. cbv zeta in *.
    set (R := ref_show W H s0 ops) in *. set (rs := rfold W H s0 ops) in *.
    destruct o as [[im2 dur]|r]; cbn [step_op op_ok] in *.
    - (* AddFrame *)
      destruct HM as [(Hu & He0 & He1)|[He Heff]].
      + pose proof Hu as Hu'. destruct Hu'. destruct Hwf as [Him2 Hdur]. cbn [fst snd] in Him2, Hdur.
        unfold add_frame_e in Hstep. rewrite u_prev0 in Hstep.
        destruct (ef_a (fails (e_calls st)) || mux_full maxf st); injection Hstep as <- <-.
        * left. split; [apply uinv_calls; exact Hu|]. split; assumption.
        * right. rewrite ref_show_snoc, rfold_snoc. cbn [rstep fst snd op_dur eff]. fold R.
          split; [|reflexivity]. apply inv_einv. unfold add_frame. apply inv_calls.
          rewrite u_prev0, u_W0, u_H0. apply (step_key_u R rs); assumption.
      + pose proof (step_add_e oracle fails R st (im2, dur) st2 ok He Hwf Hstep) as HP.
        right. destruct ok; [|split; assumption].
        rewrite ref_show_snoc, rfold_snoc. split; [exact HP|reflexivity].
    - (* AddRawFrame *)
      unfold add_raw_e in Hstep.
      destruct (mux_full maxf st) eqn:Hfull; injection Hstep as <- <-.
      + destruct HM as [(Hu & He0 & He1)|[He Heff]].
        * left. split; [apply uinv_calls; exact Hu|]. split; assumption.
        * right. split; [|exact Heff]. apply (einv_err R st); [exact He|repeat split|left; reflexivity].
      + left. rewrite (raw_norm r Hwf). rewrite ref_show_snoc, rfold_snoc. fold R. fold rs. cbn [op_dur].
        destruct HM as [(Hu & He0 & He1)|[He Heff]].
        * destruct Hu. split; [apply raw_append; assumption|]. cbn [set_calls e_recs].
          destruct (e_recs st) as [|a [|a' tl]]; (split; [discriminate|]); intros r0 Hr0; try discriminate.
          injection Hr0 as <-. rewrite (He0 eq_refl). reflexivity.
        * destruct (einv_inv _ _ He Hfull) as (init & last & im & ins' & d & Hi).
          destruct (inv_ucore _ _ _ _ _ _ _ rs Hi) as [Hc Hfc];
            [exact (ref_last W H s0 ops ins' _ d (i_ins _ _ _ _ _ _ _ Hi))|exact Heff|].
          split; [apply raw_append; try assumption; apply Hi|]. cbn [set_calls e_recs].
          rewrite (i_recs _ _ _ _ _ _ _ Hi).
          split; [intros Habs|intros r0 Habs]; apply (f_equal (@length _)) in Habs;
            rewrite !app_length in Habs; cbn in Habs; lia.
  Qed.

  Lemma run_ops_minv oracle fails ops : forall st acc0 stf acc,
    minv acc0 st -> Forall op_ok ops ->
    run_ops fx maxf oracle fails st ops = (stf, acc) ->
    minv (acc0 ++ acc) stf.
  Proof.
    induction ops as [|o rest IH]; intros st acc0 stf acc HM Hwf Hrun.
    - cbn in Hrun. injection Hrun as <- <-. rewrite app_nil_r. exact HM.
    - inversion Hwf as [|? ? Ho Hrest]; subst. cbn [run_ops] in Hrun.
      destruct (step_op fx maxf oracle fails st o) as [st1 ok] eqn:Hstep.
      destruct (run_ops fx maxf oracle fails st1 rest) as [stf' acc'] eqn:Hrest'.
      injection Hrun as <- <-.
      pose proof (step_op_minv oracle fails acc0 st o st1 ok HM Ho Hstep) as HM1.
      specialize (IH st1 _ stf' acc' HM1 Hrest Hrest').
      destruct ok; [rewrite <- app_assoc in IH|]; exact IH.
  Qed.

  Lemma close_u has_meta simple st R rs out :
    uinv R rs st ->
    (forall r0, e_recs st = [r0] -> has_meta = true \/ 0 < m_dur r0 \/
                                     (iw (m_img r0) = W /\ ih (m_img r0) = H)) ->
    close has_meta simple st = Some out ->
    same_show_by pi W H (eo_loop op) out (playback rt_ll rt_ly fx out) R.
  Proof using pi_zero Hdec HW HH pi_similar maxf.
    intros Hu Hcanvas Hclose. destruct Hu. destruct u_core0 as (Hok & _ & Hshow).
    destruct (close_cases _ _ _ _ Hclose) as [(prev & Hprev & _)|Hmux]; [congruence|].
    rewrite u_W0, u_H0, u_op0 in Hmux. apply (muxer_show has_meta (e_recs st)); try assumption.
    intros r0 Hr0 Hd0. destruct (Hcanvas r0 Hr0) as [Hm|[Hd|Hd]]; [left; exact Hm|lia|right; exact Hd].
  Qed.

  Theorem generic_mixed_roundtrip oracle fails has_meta simple st0 ops stf acc out :
    e_W st0 = W -> e_H st0 = H -> e_opts st0 = op -> e_recs st0 = [] -> e_fcount st0 = 0 ->
    e_prev st0 = None ->
    Forall op_ok ops ->
    run_ops fx maxf oracle fails st0 ops = (stf, acc) ->
    (forall r, acc = [ORaw r] -> has_meta = true \/ 0 < m_dur r \/
                                 (iw (m_img r) = W /\ ih (m_img r) = H)) ->
    close has_meta simple stf = Some out ->
    same_show_by pi W H (eo_loop op) out (playback rt_ll rt_ly fx out) (ref_show W H s0 acc).
  Proof.
    intros HW0 HH0 Hop0 Hrecs0 Hfc0 Hprev0 Hwf Hrun Hcanvas Hclose.
    pose proof (run_ops_minv oracle fails ops st0 [] stf acc
                  (minv_new st0 HW0 HH0 Hop0 Hrecs0 Hfc0 Hprev0) Hwf Hrun) as HM. cbn [app] in HM.
    destruct HM as [(Hu & He0 & He1)|[(init & last & im & ins' & d & b & Hi & Hrecs & _) _]].
    - apply (close_u has_meta simple stf _ _ out Hu); [|exact Hclose].
      intros r0 Hr0. apply Hcanvas. apply He1. exact Hr0.
    - exact (close_sound has_meta simple stf _ out init last im ins' d b Hi Hrecs Hclose).
  Qed.

  Theorem generic_error_roundtrip oracle fails has_meta simple st0 frames stf acc out :
    e_W st0 = W -> e_H st0 = H -> e_opts st0 = op -> e_recs st0 = [] -> e_fcount st0 = 0 ->
    e_prev st0 = None ->
    Forall wf_input frames ->
    run_e fx true maxf oracle fails st0 frames = (stf, acc) ->
    close has_meta simple stf = Some out ->
    same_show_by pi W H (eo_loop op) out (playback rt_ll rt_ly fx out) (inputs_of W H acc).
  Proof using pi_blend pi_zero fx_blend fx_filler Hdec HW HH pi_similar Hop HWmax HHmax.
    intros HW0 HH0 Hop0 Hrecs0 Hfc0 Hprev0 Hwf Hrun Hclose.
    rewrite <- (ref_show_adds W H acc s0).
    apply (generic_mixed_roundtrip oracle fails has_meta simple st0 (map OAdd frames) stf); try assumption.
    - apply Forall_map. exact Hwf.
    - apply run_e_ops. exact Hrun.
    - intros r Habs. destruct acc as [|a [|]]; discriminate.
  Qed.

  Lemma all_refused_nothing_written oracle fails has_meta simple st0 frames stf :
    e_W st0 = W -> e_H st0 = H -> e_opts st0 = op -> e_recs st0 = [] -> e_fcount st0 = 0 ->
    e_prev st0 = None -> Forall wf_input frames ->
    run_e fx true maxf oracle fails st0 frames = (stf, []) ->
    close has_meta simple stf = None.
  Proof using pi_blend pi_zero fx_blend fx_filler Hdec HW HH pi_similar Hop maxf.
    intros HW0 HH0 Hop0 Hrecs0 Hfc0 Hprev0 Hwf Hrun.
    pose proof (run_ops_minv oracle fails (map OAdd frames) st0 [] stf []
                  (minv_new st0 HW0 HH0 Hop0 Hrecs0 Hfc0 Hprev0)
                  (proj2 (Forall_map OAdd op_ok frames) Hwf) (run_e_ops _ _ _ _ _ _ _ _ Hrun)) as HM.
    destruct HM as [(Hu & _)|[He _]]; [|destruct (einv_nonempty _ He)].
    unfold close. rewrite (ucore_nil _ _ (u_core _ _ _ Hu)). reflexivity.
  Qed.
End Generic.
