(** The frame-codec hypotheses of the C08 / C18 theorems discharged on the codec MODELS:

    * VP8L frames: [rt_ll_model] = decode (emit (plan of the picture, for the encoder's
      choices)) of Vp8l/Vp8lRoundtrip.v; [lossless_roundtrip_pixels] gives [codec_lossless] for
      every choice function whose choices are valid (alpha-0 clean-up changes RGB only).
    * VP8 + ALPH frames: [rt_ly_model] = any colour decode (C06's domain; only its size and
      byte range matter here) with the alpha plane obtained by decoding the ALPH chunk the
      encoder writes (lossless coding of the filtered plane, any filter, any plan):
      Conform/ConformAlpha.alpha_lossless_chunk_exact gives [codec_alpha_exact].  An opaque
      picture has no ALPH chunk and decodes opaque.

    Both functions are the model codec on every picture that can occur as an animation
    frame (at most 16383 x 16383, the canvas limit); on larger pictures, which the
    animation encoder never produces, they are the identity so that the hypotheses, which
    quantify over all pictures, hold.  What remains outside the proof, as in C01 / C06 /
    C07: that the Go encoders make *some* valid choice and are the models for it (checked
    per written frame by the harness). *)
From Coq Require Import List ZArith Lia Bool.
From Webp Require Import Base.Res.
From Webp Require Anim.Blend Anim.Canvas.
From Webp Require Import Anim.AnimEncModel Anim.AnimEncSpec Anim.AnimEncLemmas Anim.AnimEncMain.
From Webp Require Vp8l.Vp8lPixel Vp8l.Vp8lSpec Vp8l.Vp8lEmit Vp8l.Vp8lEmitDecode Vp8l.Vp8lRoundtrip.
From Webp Require Alpha.AlphaModel Alpha.AlphaProofs Conform.ConformAlpha Conform.ConformFile.
Import ListNotations.
Open Scope Z_scope.

Module B := Anim.Blend.
Module VP := Vp8l.Vp8lPixel.
Module RT := Vp8l.Vp8lRoundtrip.

Definition small_img (i : img) : bool :=
  (iw i <=? max_canvas_dimension) && (ih i <=? max_canvas_dimension).

Definition to_vp (p : B.px) : VP.px := VP.mkpx (B.pa p) (B.pr p) (B.pg p) (B.pb p).
Definition of_vp (q : VP.px) : B.px := B.mkpx (VP.pr q) (VP.pg q) (VP.pb q) (VP.pa q).

Definition src_of (i : img) : RT.src_image := RT.mksrc (iw i) (ih i) (map to_vp (ipix i)).

Definition ll_stream (o : RT.ll_opts) (choose : img -> RT.choices) (i : img) : list Z :=
  Vp8l.Vp8lEmit.emit (RT.plan_of (src_of i) o (choose i)).

Definition rt_ll_model (o : RT.ll_opts) (choose : img -> RT.choices) (i : img) : img :=
  if small_img i then
    match Vp8l.Vp8lSpec.decode (ll_stream o choose i) with
    | Ok im => mkimg (Vp8l.Vp8lSpec.i_w im) (Vp8l.Vp8lSpec.i_h im) (map of_vp (Vp8l.Vp8lSpec.i_px im))
    | _ => i
    end
  else i.

Definition ll_choices_valid (o : RT.ll_opts) (choose : img -> RT.choices) : Prop :=
  forall i, wf_img i -> small_img i = true -> RT.valid (src_of i) o (choose i).

Lemma of_to_vp p : of_vp (to_vp p) = p.
Proof. destruct p; reflexivity. Qed.

Theorem codec_lossless_model o choose :
  ll_choices_valid o choose -> codec_lossless (rt_ll_model o choose).
Proof.
  intros Hv i Hwf. unfold rt_ll_model.
  destruct (small_img i) eqn:Hs; [|apply img_sim_refl].
  destruct (RT.lossless_roundtrip_pixels (src_of i) o (choose i) (Hv i Hwf Hs))
    as (im & Hdec & Hw & Hh & Hpx).
  unfold ll_stream. rewrite Hdec. unfold img_sim; cbn [iw ih ipix].
  split; [exact Hw|]. split; [exact Hh|].
  rewrite Hpx. cbn [RT.s_px src_of]. rewrite !map_map.
  induction (ipix i) as [|p l IH]; cbn [map]; constructor; [|exact IH].
  cbn [to_vp VP.pa]. destruct (negb (RT.o_exact o) && (B.pa p =? 0)) eqn:Hc.
  - apply andb_true_iff in Hc as [_ Hz]. unfold px_sim, norm_px, of_vp, VP.px_zero; cbn.
    rewrite Hz. reflexivity.
  - rewrite of_to_vp. reflexivity.
Qed.

(* on the pictures that occur, the function is the model codec *)
Lemma rt_ll_model_is_decode o choose i im :
  small_img i = true -> Vp8l.Vp8lSpec.decode (ll_stream o choose i) = Ok im ->
  rt_ll_model o choose i = mkimg (Vp8l.Vp8lSpec.i_w im) (Vp8l.Vp8lSpec.i_h im) (map of_vp (Vp8l.Vp8lSpec.i_px im)).
Proof. intros Hs Hd. unfold rt_ll_model. rewrite Hs, Hd. reflexivity. Qed.

Record achoice := mkachoice {
  ac_rows : list (list Z);        (* the alpha plane, row by row *)
  ac_filter : Z;                  (* prediction filter 0..3 *)
  ac_r16 : Z;                     (* pre-processing bits of the ALPH header: 0 or 16 *)
  ac_plan : Vp8l.Vp8lEmit.plan    (* the lossless coder's plan for the filtered plane *)
}.

Definition alph_chunk (a : achoice) : list Z :=
  (1 + 4 * ac_filter a + ac_r16 a) :: skipn 5 (Vp8l.Vp8lEmit.emit (ac_plan a)).

Definition achoice_valid (i : img) (a : achoice) : Prop :=
  concat (ac_rows a) = map B.pa (ipix i) /\
  Alpha.AlphaProofs.wf_plane (Z.to_nat (iw i)) (ac_rows a) /\
  Z.of_nat (length (ac_rows a)) = ih i /\
  0 <= ac_filter a <= 3 /\ (ac_r16 a = 0 \/ ac_r16 a = 16) /\
  Vp8l.Vp8lEmitDecode.wf_plan (ac_plan a) /\ Vp8l.Vp8lEmit.p_alpha (ac_plan a) = 0 /\
  Vp8l.Vp8lEmit.p_w (ac_plan a) = iw i /\ Vp8l.Vp8lEmit.p_h (ac_plan a) = ih i /\
  Conform.ConformAlpha.green_of (ac_plan a) =
    concat (Alpha.AlphaModel.apply_filter (ac_filter a) (ac_rows a)).

Definition opaque (i : img) : bool := forallb (fun p => B.pa p =? 255) (ipix i).

Definition with_alpha (cols : list B.px) (alphas : list Z) : list B.px :=
  map (fun ca => B.mkpx (B.pr (fst ca)) (B.pg (fst ca)) (B.pb (fst ca)) (snd ca)) (combine cols alphas).

(* [colour i]: the RGB the VP8 decoder reconstructs (any function of the right size and
   range); the alpha plane comes from the ALPH chunk, or is opaque when there is none *)
Definition rt_ly_model (colour : img -> list B.px) (achoose : img -> achoice) (i : img) : img :=
  if small_img i then
    if opaque i then mkimg (iw i) (ih i) (with_alpha (colour i) (map (fun _ => 255) (ipix i)))
    else
      match Conform.ConformFile.alpha_decode (alph_chunk (achoose i)) (iw i) (ih i) with
      | Ok plane => mkimg (iw i) (ih i) (with_alpha (colour i) plane)
      | _ => i
      end
  else i.

Definition colour_ok (colour : img -> list B.px) : Prop :=
  forall i, wf_img i -> length (colour i) = length (ipix i) /\ Forall B.wf_px (colour i).

Definition alpha_choices_valid (achoose : img -> achoice) : Prop :=
  forall i, wf_img i -> small_img i = true -> opaque i = false -> achoice_valid i (achoose i).

Lemma with_alpha_pa cols : forall alphas, length cols = length alphas ->
  map B.pa (with_alpha cols alphas) = alphas.
Proof.
  induction cols as [|c cols IH]; intros [|a alphas] Hl; cbn in Hl; try discriminate; [reflexivity|].
  unfold with_alpha in *. cbn [combine map fst snd B.pa]. f_equal. apply IH. lia.
Qed.

Lemma with_alpha_wf cols : forall alphas, Forall B.wf_px cols -> Forall (fun a => 0 <= a <= 255) alphas ->
  Forall B.wf_px (with_alpha cols alphas).
Proof.
  induction cols as [|c cols IH]; intros [|a alphas] Hc Ha; unfold with_alpha in *; cbn [combine map];
    try constructor.
  - inversion Hc as [|? ? (Hr & Hg & Hb & _) _]; subst. inversion Ha; subst.
    unfold B.wf_px; cbn. repeat split; lia.
  - inversion Hc; inversion Ha; subst. apply IH; assumption.
Qed.

Theorem codec_alpha_exact_model colour achoose :
  colour_ok colour -> alpha_choices_valid achoose -> codec_alpha_exact (rt_ly_model colour achoose).
Proof.
  intros Hcol Hval i Hwf. pose proof Hwf as (Hw1 & Hh1 & Hlen & Hpx).
  destruct (Hcol i Hwf) as [Hcl Hcw].
  assert (Hbytes : Forall (fun a => 0 <= a <= 255) (map B.pa (ipix i))).
  { apply Forall_forall. intros a Ha. apply in_map_iff in Ha as (p & <- & Hp).
    rewrite Forall_forall in Hpx. destruct (Hpx p Hp) as (_ & _ & _ & Hpa). exact Hpa. }
  unfold rt_ly_model. destruct (small_img i) eqn:Hs.
  2:{ repeat split. exact Hpx. }
  destruct (opaque i) eqn:Hop.
  - unfold img_alpha_eq; cbn [iw ih ipix]. split; [reflexivity|]. split; [reflexivity|]. split.
    + rewrite with_alpha_pa by (rewrite map_length; exact Hcl).
      unfold opaque in Hop. rewrite forallb_forall in Hop.
      apply map_ext_in. intros p Hp. specialize (Hop p Hp). lia.
    + apply with_alpha_wf; [exact Hcw|]. apply Forall_forall. intros a Ha.
      apply in_map_iff in Ha as (p & <- & _). lia.
  - destruct (Hval i Hwf Hs Hop) as (Hcat & Hpl & Hrl & Hf & Hr & Hp & Hpa & Hpw & Hph & Hg).
    (* the area bound of alpha_lossless_chunk_exact: 16383 * 16383 < 2^30 *)
    assert (Harea : iw i * ih i <= 2^30).
    { unfold small_img, max_canvas_dimension in Hs. change (2^30) with 1073741824. nia. }
    unfold alph_chunk.
    rewrite (Conform.ConformAlpha.alpha_lossless_chunk_exact (ac_rows (achoose i)) (iw i) (ih i)
               (ac_filter (achoose i)) (ac_r16 (achoose i)) (ac_plan (achoose i))
               Hw1 Hh1 Harea Hpl Hrl Hf Hr Hp Hpa Hpw Hph Hg).
    unfold img_alpha_eq; cbn [iw ih ipix]. split; [reflexivity|]. split; [reflexivity|].
    rewrite Hcat. split.
    + apply with_alpha_pa. rewrite map_length. exact Hcl.
    + apply with_alpha_wf; assumption.
Qed.

Section OnModels.
  Variables (o : RT.ll_opts) (choose : img -> RT.choices)
            (colour : img -> list B.px) (achoose : img -> achoice).
  Hypothesis Hll : ll_choices_valid o choose.
  Hypothesis Hcol : colour_ok colour.
  Hypothesis Hal : alpha_choices_valid achoose.

  Let rt_ll := rt_ll_model o choose.
  Let rt_ly := rt_ly_model colour achoose.

  Theorem anim_alpha_preserved_on_models :
    forall (W H : Z) (opts : eopts) (frames : list (img * Z))
           (oracle : nat -> orc) (has_meta simple : bool) (st0 : est) (out : output),
      wf_canvas_dims W H -> alpha_opts opts -> frames <> [] -> Forall wf_input frames ->
      new_encoder W H opts = Some st0 ->
      close has_meta simple (run_frames repaired oracle st0 frames) = Some out ->
      same_show_by alpha_only W H (eo_loop opts) out (playback rt_ll rt_ly repaired out)
                   (inputs_of W H frames).
  Proof.
    intros. eapply anim_alpha_preserved; try eassumption.
    - apply codec_lossless_model; exact Hll.
    - apply codec_alpha_exact_model; assumption.
  Qed.

  Theorem anim_mixed_alpha_on_models :
    forall (W H : Z) (opts : eopts) (ops : list op)
           (oracle : nat -> orc) (fails : nat -> efail) (maxf : Z) (has_meta simple : bool)
           (st0 stf : est) (acc : list op) (out : output),
      wf_canvas_dims W H -> alpha_opts opts -> Forall (wf_op W H) ops ->
      new_encoder W H opts = Some st0 ->
      run_ops repaired maxf oracle fails st0 ops = (stf, acc) ->
      lone_small_raw_ok W H has_meta acc ->
      close has_meta simple stf = Some out ->
      same_show_by alpha_only W H (eo_loop opts) out (playback rt_ll rt_ly repaired out)
                   (ref_show W H (Canvas.blank W H, None) acc).
  Proof.
    intros. eapply anim_mixed_alpha; try eassumption.
    - apply codec_lossless_model; exact Hll.
    - apply codec_alpha_exact_model; assumption.
  Qed.

  Theorem anim_mixed_roundtrip_on_models :
    forall (W H : Z) (opts : eopts) (ops : list op)
           (oracle : nat -> orc) (fails : nat -> efail) (maxf : Z) (has_meta simple : bool)
           (st0 stf : est) (acc : list op) (out : output),
      wf_canvas_dims W H -> lossless_opts opts -> Forall (wf_op W H) ops ->
      new_encoder W H opts = Some st0 ->
      run_ops repaired maxf oracle fails st0 ops = (stf, acc) ->
      lone_small_raw_ok W H has_meta acc ->
      close has_meta simple stf = Some out ->
      same_show W H (eo_loop opts) out (playback rt_ll rt_ly repaired out)
                (ref_show W H (Canvas.blank W H, None) acc).
  Proof.
    intros. eapply (anim_mixed_roundtrip rt_ll rt_ly); try eassumption.
    - apply codec_lossless_model; exact Hll.
    - intros _. assumption.
  Qed.
End OnModels.
