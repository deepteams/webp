(** C08 and C18 as instances of the generic round-trip theorems of [AnimEncProofs]:
    C08 with the projection "colour under alpha 0 ignored" on lossless sessions,
    C18 with the projection "alpha channel only" on all four codec modes.
    The statements about failing AddFrame calls are the mixed-history statements
    restricted to histories without pre-encoded frames. *)
From Coq Require Import List ZArith Lia Bool ZifyBool.
From Webp Require Import Anim.Blend Anim.Canvas Anim.AnimDec Anim.AnimDecProof
  Anim.AnimEncModel Anim.AnimEncSpec Anim.AnimEncLemmas Anim.AnimEncProofs.
Import ListNotations.
Open Scope Z_scope.

Lemma clamp_loop_id v : 0 <= v <= max_loop_count -> clamp_loop v = v.
Proof.
  intros Hv. unfold clamp_loop. destruct (Z.ltb_spec v 0); [lia|].
  destruct (Z.ltb_spec max_loop_count v); lia.
Qed.

Lemma new_encoder_facts W H o st0 : new_encoder W H o = Some st0 -> 0 <= eo_loop o <= max_loop_count ->
  1 <= W /\ 1 <= H /\
  e_W st0 = W /\ e_H st0 = H /\ e_recs st0 = [] /\ e_fcount st0 = 0 /\ e_prev st0 = None /\
  eo_loop (e_opts st0) = eo_loop o /\ eo_lossless (e_opts st0) = eo_lossless o /\
  eo_mixed (e_opts st0) = eo_mixed o.
Proof.
  unfold new_encoder.
  destruct ((W <=? 0) || (H <=? 0) || (max_canvas_dimension <? W) || (max_canvas_dimension <? H)) eqn:Hc;
    [discriminate|].
  destruct (sanitize_k (eo_kmin o) (eo_kmax o)) as [kmin kmax].
  intros [= <-] Hloop. cbn. rewrite (clamp_loop_id _ Hloop). repeat split; lia.
Qed.

Lemma norm_eq_cases p q : norm_px p = norm_px q -> p = q \/ (pa p = 0 /\ pa q = 0).
Proof.
  unfold norm_px. destruct (Z.eqb_spec (pa p) 0) as [Hp|Hp], (Z.eqb_spec (pa q) 0) as [Hq|Hq]; intros He.
  - right; auto.
  - subst q. cbn in Hq. lia.
  - subst p. cbn in Hp. lia.
  - left; exact He.
Qed.

Lemma norm_zero p q : pa p = 0 -> pa q = 0 -> norm_px p = norm_px q.
Proof. intros Hp Hq. unfold norm_px. rewrite Hp, Hq. reflexivity. Qed.

Lemma norm_blend s s' d d' :
  norm_px s = norm_px s' -> norm_px d = norm_px d' ->
  norm_px (blend_spec s d) = norm_px (blend_spec s' d').
Proof.
  intros Hs Hd.
  destruct (norm_eq_cases _ _ Hs) as [->|[Hs0 Hs0']].
  - destruct (norm_eq_cases _ _ Hd) as [->|[Hd0 Hd0']]; [reflexivity|].
    unfold blend_spec. destruct (pa s' =? 0); [exact Hd|].
    rewrite Hd0, Hd0'. cbn [Z.eqb]. rewrite !orb_true_r. reflexivity.
  - rewrite (blend_src_transparent s d Hs0), (blend_src_transparent s' d' Hs0'). exact Hd.
Qed.

Lemma alpha_only_eq p q : alpha_only p = alpha_only q <-> pa p = pa q.
Proof. unfold alpha_only. split; [intros [= H]; exact H|intros ->; reflexivity]. Qed.

Lemma alpha_blend s s' d d' :
  alpha_only s = alpha_only s' -> alpha_only d = alpha_only d' ->
  alpha_only (blend_spec s d) = alpha_only (blend_spec s' d').
Proof.
  rewrite !alpha_only_eq. intros Hs Hd. unfold blend_spec. rewrite <- Hs, <- Hd.
  destruct (pa s =? 0); [exact Hd|].
  destruct ((pa s =? 255) || (pa d =? 0)); [exact Hs|]. cbn [pa]. reflexivity.
Qed.

Lemma norm_eq_alpha p q : norm_px p = norm_px q -> pa p = pa q.
Proof. intros He. destruct (norm_eq_cases _ _ He) as [->|[H1 H2]]; lia. Qed.

Lemma map_pa_Forall2 l1 : forall l2, map pa l1 = map pa l2 ->
  Forall2 (fun p q => alpha_only p = alpha_only q) l1 l2.
Proof.
  induction l1 as [|p l1 IH]; intros [|q l2] He; cbn in He; try discriminate; constructor.
  - apply alpha_only_eq. injection He as He _. exact He.
  - apply IH. injection He as _ He. exact He.
Qed.

Lemma Forall2_weaken {A B} (P Q : A -> B -> Prop) l1 l2 :
  (forall a b, P a b -> Q a b) -> Forall2 P l1 l2 -> Forall2 Q l1 l2.
Proof. intros HPQ HF. induction HF; constructor; auto. Qed.

(* lossless sessions store VP8L frames only *)
Lemma norm_decoded rt_ll rt_ly : codec_lossless rt_ll -> forall via r,
  wf_img (m_img r) -> (m_lossy r = true -> false = true) ->
  img_psim norm_px (decoded rt_ll rt_ly repaired via r) (m_img r).
Proof.
  intros Hcodec via r Hwfi Hl. unfold decoded. destruct (m_lossy r); [discriminate (Hl eq_refl)|].
  exact (Hcodec (m_img r) Hwfi).
Qed.

Lemma alpha_decoded rt_ll rt_ly : codec_lossless rt_ll -> codec_alpha_exact rt_ly -> forall via r,
  wf_img (m_img r) -> (m_lossy r = true -> true = true) ->
  img_psim alpha_only (decoded rt_ll rt_ly repaired via r) (m_img r).
Proof.
  intros Hll Hly via r Hwfi _. unfold decoded. destruct (m_lossy r).
  - cbn [repaired fix_alph orb].
    destruct (Hly (m_img r) Hwfi) as (Hw & Hh & Hpa & _). repeat split; try assumption.
    apply map_pa_Forall2. exact Hpa.
  - destruct (Hll (m_img r) Hwfi) as (Hw & Hh & HF). repeat split; try assumption.
    eapply Forall2_weaken; [|exact HF]. intros a b Hab. apply alpha_only_eq. apply norm_eq_alpha. exact Hab.
Qed.

Lemma alpha_zero p q : pa p = 0 -> pa q = 0 -> alpha_only p = alpha_only q.
Proof. intros Hp Hq. apply alpha_only_eq. congruence. Qed.

Lemma similar_pixels_have_equal_alpha p t md : pixels_similar p t md = true -> pa p = pa t.
Proof. intros Hs. unfold pixels_similar in Hs. lia. Qed.

Lemma alpha_similar (o : eopts) : eo_lossless o = false ->
  forall md p t, pixels_similar p t md = true -> alpha_only p = alpha_only t.
Proof. intros _ md p t Hs. apply alpha_only_eq. exact (similar_pixels_have_equal_alpha p t md Hs). Qed.

Lemma wf_ops_generic lossy_fine W H ops :
  Forall (AnimEncSpec.wf_op W H) ops -> Forall (AnimEncProofs.op_ok lossy_fine W H) ops.
Proof.
  intros HF. eapply Forall_impl; [|exact HF]. intros [f|r]; cbn; [auto|].
  intros (Hwf & Hl & Hrest). refine (conj Hwf (conj _ Hrest)). rewrite Hl. discriminate.
Qed.

Theorem anim_lossless_roundtrip : anim_lossless_roundtrip_statement repaired.
Proof.
  intros rt_ll rt_ly W H opts frames oracle has_meta simple st0 out Hcodec Hdims (Hll & Hmx & Hloop) Hne Hwf Hnew Hclose.
  destruct (new_encoder_facts W H opts st0 Hnew Hloop)
    as (HW & HH & EW & EH & Erecs & Efc & Eprev & Eloop & Ell & Emx).
  rewrite <- Eloop.
  apply (generic_roundtrip norm_px norm_blend norm_zero rt_ll rt_ly repaired eq_refl eq_refl false
           (norm_decoded rt_ll rt_ly Hcodec) W H HW HH (e_opts st0))
    with (oracle := oracle) (has_meta := has_meta) (simple := simple) (st0 := st0);
    try assumption; try reflexivity.
  - intros Habs. rewrite Ell, Hll in Habs. discriminate.
  - intros _. rewrite Ell, Emx. split; assumption.
Qed.

Theorem anim_mixed_roundtrip : anim_mixed_roundtrip_statement true.
Proof.
  intros rt_ll rt_ly W H opts ops oracle fails maxf has_meta simple st0 stf acc out
         Hcodec Hdims (Hll & Hmx & Hloop) Hwf Hnew Hrun Hcanvas Hclose.
  destruct (new_encoder_facts W H opts st0 Hnew Hloop)
    as (HW & HH & EW & EH & Erecs & Efc & Eprev & Eloop & Ell & Emx).
  rewrite <- Eloop.
  apply (generic_mixed_roundtrip norm_px norm_blend norm_zero rt_ll rt_ly repaired eq_refl eq_refl false
           (norm_decoded rt_ll rt_ly Hcodec) W H HW HH (e_opts st0))
    with (maxf := maxf) (oracle := oracle) (fails := fails) (has_meta := has_meta) (simple := simple)
         (st0 := st0) (ops := ops) (stf := stf); try assumption; try reflexivity.
  - intros Habs. rewrite Ell, Hll in Habs. discriminate.
  - intros _. rewrite Ell, Emx. split; assumption.
  - apply wf_ops_generic. exact Hwf.
  - exact (Hcanvas eq_refl).
Qed.

Theorem anim_error_roundtrip : anim_error_roundtrip_statement true.
Proof.
  intros rt_ll rt_ly W H opts frames oracle fails maxf has_meta simple st0 stf acc out
         Hcodec Hdims Hopts Hwf Hnew Hrun Hclose.
  destruct (error_history W H has_meta _ _ _ _ _ _ _ _ (blank W H, None) Hwf Hrun) as (Hwf' & Hrun' & Hlone & <-).
  exact (anim_mixed_roundtrip rt_ll rt_ly W H opts (map OAdd frames) oracle fails maxf has_meta simple
           st0 stf (map OAdd acc) out Hcodec Hdims Hopts Hwf' Hnew Hrun' (fun _ => Hlone) Hclose).
Qed.

Theorem anim_alpha_preserved : anim_alpha_preserved_statement repaired.
Proof.
  intros rt_ll rt_ly W H opts frames oracle has_meta simple st0 out Hll Hly Hdims (_ & Hloop) Hne Hwf Hnew Hclose.
  destruct (new_encoder_facts W H opts st0 Hnew Hloop)
    as (HW & HH & EW & EH & Erecs & Efc & Eprev & Eloop & Ell & Emx).
  rewrite <- Eloop.
  apply (generic_roundtrip alpha_only alpha_blend alpha_zero rt_ll rt_ly repaired eq_refl eq_refl true
           (alpha_decoded rt_ll rt_ly Hll Hly) W H HW HH (e_opts st0) (alpha_similar _))
    with (oracle := oracle) (has_meta := has_meta) (simple := simple) (st0 := st0);
    try assumption; try reflexivity.
  discriminate.
Qed.

Theorem anim_mixed_alpha : anim_mixed_alpha_statement.
Proof.
  intros rt_ll rt_ly W H opts ops oracle fails maxf has_meta simple st0 stf acc out
         Hll Hly Hdims (_ & Hloop) Hwf Hnew Hrun Hcanvas Hclose.
  destruct (new_encoder_facts W H opts st0 Hnew Hloop)
    as (HW & HH & EW & EH & Erecs & Efc & Eprev & Eloop & Ell & Emx).
  rewrite <- Eloop.
  apply (generic_mixed_roundtrip alpha_only alpha_blend alpha_zero rt_ll rt_ly repaired eq_refl eq_refl true
           (alpha_decoded rt_ll rt_ly Hll Hly) W H HW HH (e_opts st0) (alpha_similar _))
    with (maxf := maxf) (oracle := oracle) (fails := fails) (has_meta := has_meta)
         (simple := simple) (st0 := st0) (ops := ops) (stf := stf);
    try assumption; try reflexivity.
  - discriminate.
  - apply wf_ops_generic. exact Hwf.
Qed.

Theorem anim_error_alpha : anim_error_alpha_statement true.
Proof.
  intros rt_ll rt_ly W H opts frames oracle fails maxf has_meta simple st0 stf acc out
         Hll Hly Hdims Hopts Hwf Hnew Hrun Hclose.
  destruct (error_history W H has_meta _ _ _ _ _ _ _ _ (blank W H, None) Hwf Hrun) as (Hwf' & Hrun' & Hlone & <-).
  exact (anim_mixed_alpha rt_ll rt_ly W H opts (map OAdd frames) oracle fails maxf has_meta simple
           st0 stf (map OAdd acc) out Hll Hly Hdims Hopts Hwf' Hnew Hrun' Hlone Hclose).
Qed.

Lemma lossy_frame_carries_alph (rt_ll rt_ly : img -> img) via r :
  codec_alpha_exact rt_ly -> m_lossy r = true -> wf_img (m_img r) ->
  map pa (ipix (decoded rt_ll rt_ly repaired via r)) = map pa (ipix (m_img r)).
Proof.
  intros Hly Hl Hwf. unfold decoded. rewrite Hl. cbn [repaired fix_alph orb].
  destruct (Hly (m_img r) Hwf) as (_ & _ & Hpa & _). exact Hpa.
Qed.

(* whichever codec the oracle picks for a frame in mixed mode *)
Lemma mixed_never_drops_alpha (rt_ll rt_ly : img -> img) via r :
  codec_lossless rt_ll -> codec_alpha_exact rt_ly -> wf_img (m_img r) ->
  map pa (ipix (decoded rt_ll rt_ly repaired via r)) = map pa (ipix (m_img r)).
Proof.
  intros Hll Hly Hwf. destruct (m_lossy r) eqn:Hl; [apply lossy_frame_carries_alph; assumption|].
  unfold decoded. rewrite Hl. destruct (Hll (m_img r) Hwf) as (_ & _ & HF).
  induction HF as [|a b l1 l2 Hab _ IH]; [reflexivity|]. cbn [map]. f_equal; [|exact IH].
  apply norm_eq_alpha. exact Hab.
Qed.
