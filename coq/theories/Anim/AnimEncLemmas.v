(** Facts about the AnimEncoder model alone; no invariant of the round-trip proof occurs here. *)
From Coq Require Import List ZArith Lia Bool ZifyBool.
From Webp Require Import Anim.Blend Anim.Canvas Anim.AnimDec Anim.AnimDecProof
  Anim.AnimEncModel Anim.AnimEncSpec.
Import ListNotations.
Open Scope Z_scope.

(* [lia] needs ZifyBool for the comparisons in [in_rect] and the like, not its case analysis
   on boolean constraints, which no goal here needs and which is slow to check. *)
Local Ltac Zify.zify_post_hook ::= idtac.

Lemma Forall_tab (P : px -> Prop) W H g : 0 < W ->
  (forall x y, 0 <= x < W -> 0 <= y < H -> P (g x y)) -> Forall P (tab W H g).
Proof.
  intros HW Hg. apply Forall_forall. intros p Hp. unfold tab in Hp.
  apply in_map_iff in Hp as (i & <- & Hi). apply zrange_In in Hi.
  apply Hg; apply (index_cell W H i HW Hi).
Qed.

Lemma nth_tab w h g x y : 0 <= x < w -> 0 <= y < h ->
  nth (Z.to_nat (y * w + x)) (tab w h g) px0 = g x y.
Proof. exact (cget_tab w h g x y). Qed.

Lemma first_from_Some P k : forall i r, first_from P k i = Some r <->
  i <= r < i + Z.of_nat k /\ P r = true /\ forall j, i <= j < r -> P j = false.
Proof.
  induction k as [|k IH]; intros i r; cbn [first_from]; [split; [discriminate|lia]|].
  destruct (P i) eqn:HP.
  - split.
    + intros [= <-]. split; [lia|]. split; [exact HP|]. intros j Hj. lia.
    + intros (Hr & Hp & Hb). f_equal. destruct (Z.eq_dec i r) as [E|E]; [exact E|].
      rewrite (Hb i) in HP by lia. discriminate.
  - rewrite IH. split; intros (Hr & Hp & Hb).
    + split; [lia|]. split; [exact Hp|]. intros j Hj.
      destruct (Z.eq_dec j i) as [->|]; [exact HP|apply Hb; lia].
    + assert (i <> r) by congruence. split; [lia|]. split; [exact Hp|]. intros j Hj. apply Hb. lia.
Qed.

Lemma first_from_None P k : forall i, first_from P k i = None <->
  forall j, i <= j < i + Z.of_nat k -> P j = false.
Proof.
  induction k as [|k IH]; intros i; cbn [first_from]; [split; [intros _ j Hj; lia|reflexivity]|].
  destruct (P i) eqn:HP.
  - split; [discriminate|]. intros Hb. rewrite (Hb i) in HP by lia. discriminate.
  - rewrite IH. split; intros Hb j Hj.
    + destruct (Z.eq_dec j i) as [->|]; [exact HP|apply Hb; lia].
    + apply Hb. lia.
Qed.

(* the downward scan is the upward scan of the mirrored predicate *)
Lemma last_from_mirror P k : forall i,
  last_from P k i = option_map Z.opp (first_from (fun j => P (- j)) k (- i)).
Proof.
  induction k as [|k IH]; intros i; cbn [last_from first_from option_map]; [reflexivity|].
  rewrite Z.opp_involutive. destruct (P i); cbn [option_map]; [rewrite Z.opp_involutive; reflexivity|].
  rewrite IH. replace (- (i - 1)) with (- i + 1) by lia. reflexivity.
Qed.

Lemma last_from_Some P k i r : last_from P k i = Some r <->
  i - Z.of_nat k < r <= i /\ P r = true /\ forall j, r < j <= i -> P j = false.
Proof.
  rewrite last_from_mirror.
  transitivity (first_from (fun j => P (- j)) k (- i) = Some (- r)).
  { destruct (first_from _ k (- i)) as [q|]; cbn [option_map]; split; try discriminate.
    - intros [= <-]. rewrite Z.opp_involutive. reflexivity.
    - intros [= ->]. rewrite Z.opp_involutive. reflexivity. }
  rewrite first_from_Some, Z.opp_involutive.
  split; intros (Hr & Hp & Hb); (repeat split; [lia|lia|exact Hp|]); intros j Hj.
  - rewrite <- (Z.opp_involutive j). apply Hb. lia.
  - apply Hb. lia.
Qed.

Lemma last_from_None P k i : last_from P k i = None <->
  forall j, i - Z.of_nat k < j <= i -> P j = false.
Proof.
  rewrite last_from_mirror.
  transitivity (first_from (fun j => P (- j)) k (- i) = None).
  { destruct (first_from _ k (- i)); cbn [option_map]; split; congruence. }
  rewrite first_from_None. split; intros Hb j Hj.
  - rewrite <- (Z.opp_involutive j). apply Hb. lia.
  - apply Hb. lia.
Qed.

Lemma zspan_In a b j : In j (zspan a b) <-> a <= j < b.
Proof.
  unfold zspan. rewrite in_map_iff. split.
  - intros (i & <- & Hi). apply zrange_In in Hi. lia.
  - intros Hj. exists (j - a). split; [lia|]. apply zrange_In. lia.
Qed.

Lemma row_diff_true W a b x y : 0 <= x < W -> px_diff W a b x y = true -> row_diff W a b y = true.
Proof.
  intros Hx Hd. unfold row_diff. apply existsb_exists. exists x. split; [apply zrange_In; lia|exact Hd].
Qed.

Lemma col_diff_true W a b y0 y1 x y : y0 <= y < y1 -> px_diff W a b x y = true ->
  col_diff W a b y0 y1 x = true.
Proof.
  intros Hy Hd. unfold col_diff. apply existsb_exists. exists y. split; [apply zspan_In; lia|exact Hd].
Qed.

Lemma in_rect_go_rect a b c d x y : a <= c -> b <= d ->
  in_rect (go_rect a b c d) x y = (a <=? x) && (x <? c) && (b <=? y) && (y <? d).
Proof.
  intros H1 H2. unfold go_rect, in_rect; cbn [rx0 ry0 rx1 ry1].
  destruct (Z.ltb_spec c a); [lia|]. destruct (Z.ltb_spec d b); [lia|]. reflexivity.
Qed.

Definition good_rect (W H : Z) (r : rect) : Prop :=
  0 <= rx0 r /\ rx0 r < rx1 r <= W /\ 0 <= ry0 r /\ ry0 r < ry1 r <= H.

(* Either no pixel differs, or the result is a box inside the canvas that contains every
   differing pixel: a differing pixel makes its row differ, so its row lies between the
   first and last differing rows, and then its column differs within those rows. *)
Lemma find_changed_rect_spec W H prev curr : 0 < W -> 0 < H ->
  let r := find_changed_rect W H prev curr in
  (r = rect0 /\ forall x y, 0 <= x < W -> 0 <= y < H -> px_diff W prev curr x y = true -> False) \/
  (good_rect W H r /\
   forall x y, 0 <= x < W -> 0 <= y < H -> px_diff W prev curr x y = true -> in_rect r x y = true).
Proof.
  intros HW HH. cbv zeta. unfold find_changed_rect.
  destruct (Z.eqb_spec W 0); [lia|]. destruct (Z.eqb_spec H 0); [lia|]. cbn [orb].
  set (rd := row_diff W prev curr).
  assert (Hrow : forall x y, 0 <= x < W -> px_diff W prev curr x y = true -> rd y = true)
    by (intros x y Hx Hd; exact (row_diff_true W prev curr x y Hx Hd)).
  destruct (first_from rd (Z.to_nat H) 0) as [minY|] eqn:Hf.
  2:{ left. split; [reflexivity|]. intros x y Hx Hy Hd. pose proof (Hrow x y Hx Hd) as Hr.
      rewrite (proj1 (first_from_None _ _ _) Hf) in Hr by lia. discriminate. }
  apply first_from_Some in Hf as (HminY & _ & HbeforeY).
  set (maxY := match last_from rd (Z.to_nat (H - 1 - minY)) (H - 1) with
               | Some y0 => y0 + 1 | None => minY + 1 end).
  assert (HmaxY : minY < maxY <= H /\ forall y, maxY <= y < H -> rd y = false).
  { unfold maxY. destruct (last_from rd (Z.to_nat (H - 1 - minY)) (H - 1)) as [ly|] eqn:Hl.
    - apply last_from_Some in Hl as (Hly & _ & Hafter). split; [lia|]. intros y Hy. apply Hafter. lia.
    - split; [lia|]. intros y Hy. apply (proj1 (last_from_None _ _ _) Hl). lia. }
  destruct HmaxY as (HmM & HafterY).
  assert (Hrows : forall x y, 0 <= x < W -> 0 <= y < H -> px_diff W prev curr x y = true -> minY <= y < maxY).
  { intros x y Hx Hy Hd. pose proof (Hrow x y Hx Hd) as Hr.
    destruct (Z.lt_ge_cases y minY); [rewrite HbeforeY in Hr by lia; discriminate|].
    destruct (Z.lt_ge_cases y maxY); [lia|]. rewrite HafterY in Hr by lia. discriminate. }
  set (cd := col_diff W prev curr minY maxY).
  assert (Hcol : forall x y, 0 <= x < W -> 0 <= y < H -> px_diff W prev curr x y = true -> cd x = true)
    by (intros x y Hx Hy Hd; exact (col_diff_true W prev curr minY maxY x y (Hrows x y Hx Hy Hd) Hd)).
  destruct (first_from cd (Z.to_nat W) 0) as [minX|] eqn:Hfx.
  2:{ left. split; [reflexivity|]. intros x y Hx Hy Hd. pose proof (Hcol x y Hx Hy Hd) as Hc.
      rewrite (proj1 (first_from_None _ _ _) Hfx) in Hc by lia. discriminate. }
  destruct (last_from cd (Z.to_nat W) (W - 1)) as [lastX|] eqn:Hlx.
  2:{ left. split; [reflexivity|]. intros x y Hx Hy Hd. pose proof (Hcol x y Hx Hy Hd) as Hc.
      rewrite (proj1 (last_from_None _ _ _) Hlx) in Hc by lia. discriminate. }
  apply first_from_Some in Hfx as (HminX & _ & HbeforeX).
  apply last_from_Some in Hlx as (HlastX & _ & HafterX).
  assert (Hcols : forall x y, 0 <= x < W -> 0 <= y < H -> px_diff W prev curr x y = true -> minX <= x <= lastX).
  { intros x y Hx Hy Hd. pose proof (Hcol x y Hx Hy Hd) as Hc.
    destruct (Z.lt_ge_cases x minX); [rewrite HbeforeX in Hc by lia; discriminate|].
    destruct (Z.le_gt_cases x lastX); [lia|]. rewrite HafterX in Hc by lia. discriminate. }
  destruct (Z.leb_spec (lastX + 1) minX).
  - left. split; [reflexivity|]. intros x y Hx Hy Hd. pose proof (Hcols x y Hx Hy Hd). lia.
  - right. split.
    + unfold good_rect, go_rect; cbn [rx0 ry0 rx1 ry1].
      destruct (Z.ltb_spec (lastX + 1) minX); [lia|]. destruct (Z.ltb_spec maxY minY); lia.
    + intros x y Hx Hy Hd. rewrite in_rect_go_rect by lia.
      pose proof (Hrows x y Hx Hy Hd). pose proof (Hcols x y Hx Hy Hd). lia.
Qed.

Lemma changed_rect_covers_diff W H prev curr x y :
  0 < W -> 0 < H -> 0 <= x < W -> 0 <= y < H ->
  px_diff W prev curr x y = true ->
  in_rect (find_changed_rect W H prev curr) x y = true.
Proof.
  intros HW HH Hx Hy Hd.
  destruct (find_changed_rect_spec W H prev curr HW HH) as [[_ Hno]|[_ Hcov]].
  - destruct (Hno x y Hx Hy Hd).
  - exact (Hcov x y Hx Hy Hd).
Qed.

Lemma snap_to_even_char r : rx0 r <= rx1 r -> ry0 r <= ry1 r ->
  snap_to_even r = mkrect (rx0 r - rx0 r mod 2) (ry0 r - ry0 r mod 2) (rx1 r) (ry1 r).
Proof.
  intros Hx Hy. unfold snap_to_even, go_rect.
  assert (0 <= rx0 r mod 2 < 2) by (apply Z.mod_pos_bound; lia).
  assert (0 <= ry0 r mod 2 < 2) by (apply Z.mod_pos_bound; lia).
  destruct (Z.ltb_spec (rx0 r - rx0 r mod 2 + (rx1 r - rx0 r + rx0 r mod 2)) (rx0 r - rx0 r mod 2)); [lia|].
  destruct (Z.ltb_spec (ry0 r - ry0 r mod 2 + (ry1 r - ry0 r + ry0 r mod 2)) (ry0 r - ry0 r mod 2)); [lia|].
  f_equal; lia.
Qed.

Lemma even_floor a : 0 <= a -> 0 <= a - a mod 2 <= a /\ (a - a mod 2) mod 2 = 0.
Proof. intros Ha. Z.div_mod_to_equations. lia. Qed.

Lemma snap_clip_good W H r : good_rect W H r ->
  let r2 := intersect (snap_to_even r) (canvas_bounds W H) in
  good_rect W H r2 /\ rx0 r2 mod 2 = 0 /\ ry0 r2 mod 2 = 0 /\
  (forall x y, in_rect r x y = true -> in_rect r2 x y = true).
Proof.
  intros (Hx0 & Hx1 & Hy0 & Hy1). cbn zeta.
  rewrite snap_to_even_char by lia.
  destruct (even_floor (rx0 r) Hx0) as (Hmx & Hex). destruct (even_floor (ry0 r) Hy0) as (Hmy & Hey).
  set (mx := rx0 r - rx0 r mod 2) in *. set (my := ry0 r - ry0 r mod 2) in *.
  unfold intersect, canvas_bounds, rect_empty; cbn [rx0 ry0 rx1 ry1].
  rewrite (Z.max_l mx 0), (Z.max_l my 0), (Z.min_l (rx1 r) W), (Z.min_l (ry1 r) H) by lia.
  destruct (Z.leb_spec (rx1 r) mx); [lia|]. destruct (Z.leb_spec (ry1 r) my); [lia|].
  cbn [orb rx0 ry0 rx1 ry1]. unfold good_rect; cbn [rx0 ry0 rx1 ry1].
  split; [lia|]. split; [exact Hex|]. split; [exact Hey|].
  intros x y Hin. unfold in_rect in *; cbn [rx0 ry0 rx1 ry1]. lia.
Qed.

Lemma good_unit W H : 0 < W -> 0 < H -> good_rect W H (go_rect 0 0 1 1).
Proof. intros. unfold good_rect, go_rect; cbn. lia. Qed.

Lemma rect_forall_spec r P :
  rect_forall r P = true <-> (forall x y, in_rect r x y = true -> P x y = true).
Proof.
  unfold rect_forall. rewrite forallb_forall. split.
  - intros Hf x y Hin. unfold in_rect in Hin.
    specialize (Hf y ltac:(apply zspan_In; lia)). rewrite forallb_forall in Hf.
    apply Hf. apply zspan_In. lia.
  - intros Hf y Hy. apply zspan_In in Hy. apply forallb_forall. intros x Hx. apply zspan_In in Hx.
    apply Hf. unfold in_rect. lia.
Qed.

Lemma px_eqb_eq p q : px_eqb p q = true <-> p = q.
Proof.
  destruct p as [r g b a], q as [r' g' b' a']. unfold px_eqb; cbn [pr pg pb pa]. split.
  - intros Hq. f_equal; lia.
  - intros [= -> -> -> ->]. rewrite !Z.eqb_refl. reflexivity.
Qed.

Lemma canvas_eqb_eq a : forall b, canvas_eqb a b = true <-> a = b.
Proof.
  induction a as [|p a IH]; intros [|q b]; cbn [canvas_eqb]; split; try discriminate; try reflexivity.
  - intros Hq. apply andb_true_iff in Hq as [H1 H2]. apply px_eqb_eq in H1. apply IH in H2. congruence.
  - intros [= -> ->]. apply andb_true_iff. split; [apply px_eqb_eq; reflexivity|apply IH; reflexivity].
Qed.

Lemma canvas_eqb_refl a : canvas_eqb a a = true.
Proof. apply canvas_eqb_eq. reflexivity. Qed.

Lemma px_diff_false W a b x y : px_diff W a b x y = false -> cget W a x y = cget W b x y.
Proof.
  unfold px_diff. intros Hd. apply negb_false_iff in Hd. apply px_eqb_eq. exact Hd.
Qed.

Lemma img_sim_refl i : img_sim i i.
Proof. repeat split. induction (ipix i); constructor; [reflexivity|assumption]. Qed.

Definition psim (pi : px -> px) (W H : Z) (c1 c2 : canvas) : Prop :=
  forall x y, 0 <= x < W -> 0 <= y < H -> pi (cget W c1 x y) = pi (cget W c2 x y).

Lemma psim_refl pi W H c : psim pi W H c c.
Proof. intros x y _ _. reflexivity. Qed.

Lemma psim_trans pi W H a b c : psim pi W H a b -> psim pi W H b c -> psim pi W H a c.
Proof. intros H1 H2 x y Hx Hy. rewrite (H1 x y Hx Hy). apply H2; assumption. Qed.

Lemma psim_sym pi W H a b : psim pi W H a b -> psim pi W H b a.
Proof. intros H1 x y Hx Hy. symmetry. apply H1; assumption. Qed.

Lemma psim_map pi W H c1 c2 : 1 <= W -> 1 <= H ->
  length c1 = Z.to_nat (W * H) -> length c2 = Z.to_nat (W * H) ->
  psim pi W H c1 c2 -> map pi c1 = map pi c2.
Proof.
  intros HW1 HH1 L1 L2 Hs. assert (HW : 0 < W) by lia. assert (HH : 0 <= H) by lia.
  rewrite <- (tab_cget W H c1 HW HH L1), <- (tab_cget W H c2 HW HH L2).
  unfold tab. rewrite !map_map. apply map_ext_in. intros i Hi. apply zrange_In in Hi.
  apply Hs; apply (index_cell W H i HW Hi).
Qed.

Definition add_head (d : Z) (acc : show) : show :=
  match acc with (c, d0) :: t => (c, d0 + d) :: t | [] => [] end.

Lemma push_head acc c d : exists d0 t, push acc (c, d) = (c, d0) :: t.
Proof.
  destruct acc as [|[c0 d0] t]; cbn [push fst snd]; [eauto|].
  destruct (canvas_eqb c0 c) eqn:He; [|eauto].
  apply canvas_eqb_eq in He. subst. eauto.
Qed.

Lemma push_add acc c d1 d2 : push acc (c, d1 + d2) = add_head d2 (push acc (c, d1)).
Proof.
  destruct acc as [|[c0 d0] t]; cbn [push fst snd add_head]; [reflexivity|].
  destruct (canvas_eqb c0 c); cbn [add_head]; [f_equal; f_equal; lia|reflexivity].
Qed.

Lemma push_same_head c d0 t d : push ((c, d0) :: t) (c, d) = add_head d ((c, d0) :: t).
Proof. cbn [push fst snd add_head]. rewrite canvas_eqb_refl. reflexivity. Qed.

Lemma push_push_same acc c d1 d2 : push (push acc (c, d1)) (c, d2) = push acc (c, d1 + d2).
Proof.
  destruct (push_head acc c d1) as (d0 & t & E). rewrite push_add, E. apply push_same_head.
Qed.

Lemma collapse_rev_by_snoc pi l c d :
  collapse_rev_by pi (l ++ [(c, d)]) = push (collapse_rev_by pi l) (map pi c, d).
Proof. unfold collapse_rev_by, proj_show. rewrite map_app, fold_left_app. reflexivity. Qed.

Lemma clamp_dur_id d : 0 <= d <= max_duration -> clamp_dur d = d.
Proof.
  intros Hd. unfold clamp_dur. destruct (Z.ltb_spec d 0); [lia|]. destruct (Z.ltb_spec max_duration d); lia.
Qed.

Lemma clamp_dur_range d : 0 <= clamp_dur d <= max_duration.
Proof.
  assert (0 <= max_duration) by (unfold max_duration; lia).
  unfold clamp_dur. destruct (Z.ltb_spec d 0); [lia|]. destruct (Z.ltb_spec max_duration d); lia.
Qed.

Lemma set_recs_same st : set_recs st (e_recs st) = st.
Proof. destruct st; reflexivity. Qed.

Lemma upd_nth_app_last {A} (f : A -> A) (l : list A) a :
  upd_nth (length l) f (l ++ [a]) = l ++ [f a].
Proof. induction l as [|b l IH]; cbn [length upd_nth app]; [reflexivity|]. rewrite IH. reflexivity. Qed.

Lemma nth_error_app_last {A} (l : list A) a : nth_error (l ++ [a]) (length l) = Some a.
Proof. induction l as [|b l IH]; cbn; [reflexivity|exact IH]. Qed.

Section MuxLast.
  Variables (init : list mrec) (last : mrec).
  Let recs := init ++ [last].
  Let idx := Z.of_nat (length init).

  Lemma idx_ok_last : idx_ok recs idx = true.
  Proof. unfold idx_ok, recs, idx. rewrite app_length. cbn [length]. lia. Qed.

  Lemma mux_dur_last : mux_dur recs idx = m_dur last.
  Proof.
    unfold mux_dur. rewrite idx_ok_last. unfold idx, recs. rewrite Nat2Z.id, nth_error_app_last. reflexivity.
  Qed.

  Lemma mux_set_dur_last d : mux_set_dur recs idx d =
    init ++ [mkmrec (m_x last) (m_y last) (m_img last) (m_lossy last) (m_blend_none last)
                    (m_dispose_bg last) (clamp_dur d)].
  Proof.
    unfold mux_set_dur. rewrite idx_ok_last. unfold idx, recs. rewrite Nat2Z.id, upd_nth_app_last. reflexivity.
  Qed.

  Lemma mux_set_dispose_bg_last : mux_set_dispose_bg recs idx =
    init ++ [mkmrec (m_x last) (m_y last) (m_img last) (m_lossy last) (m_blend_none last) true (m_dur last)].
  Proof.
    unfold mux_set_dispose_bg. rewrite idx_ok_last. unfold idx, recs.
    rewrite Nat2Z.id, upd_nth_app_last. reflexivity.
  Qed.

  Lemma last_idx_last : last_idx recs = idx.
  Proof. unfold last_idx, recs, idx. rewrite app_length. cbn [length]. lia. Qed.
End MuxLast.

Definition dstate0 := (canvas * option (rect * bool))%type.

Definition dstep (W H : Z) (s : dstate0) (f : frame) : dstate0 :=
  let c1 := match snd s with
            | Some (r, true) => fill W H (fst s) r
            | _ => fst s
            end in
  (composite W H c1 f, Some (true_rect f, fdispose_bg f)).

Definition dfold (W H : Z) (s : dstate0) (fs : list frame) : dstate0 := fold_left (dstep W H) fs s.

Lemma spec_go_dfold W H fs : forall c p f,
  spec_go W H c p (fs ++ [f]) = spec_go W H c p fs ++ [fst (dstep W H (dfold W H (c, p) fs) f)].
Proof.
  induction fs as [|g fs IH]; intros c p f.
  - cbn [app spec_go dfold fold_left dstep fst snd]. destruct p as [[r [|]]|]; reflexivity.
  - cbn [app spec_go]. rewrite IH. cbn [app].
    replace (dfold W H (c, p) (g :: fs)) with
      (dfold W H (composite W H match p with Some (r, true) => fill W H c r | _ => c end g,
                  Some (true_rect g, fdispose_bg g)) fs); [reflexivity|].
    unfold dfold. cbn [fold_left]. f_equal.
Qed.

Lemma dfold_snoc W H s fs f : dfold W H s (fs ++ [f]) = dstep W H (dfold W H s fs) f.
Proof. unfold dfold. rewrite fold_left_app. reflexivity. Qed.

Lemma dstep_length W H s f : length (fst (dstep W H s f)) = Z.to_nat (W * H).
Proof. unfold dstep; cbn [fst]. unfold composite. apply tab_length. Qed.

Lemma combine_snoc {A B} (l1 : list A) (l2 : list B) a b : length l1 = length l2 ->
  combine (l1 ++ [a]) (l2 ++ [b]) = combine l1 l2 ++ [(a, b)].
Proof.
  revert l2. induction l1 as [|x l1 IH]; intros [|y l2] HL; cbn in HL; try discriminate; [reflexivity|].
  cbn [app combine]. rewrite IH by lia. reflexivity.
Qed.

Lemma cget_fill W H c r x y : 0 <= x < W -> 0 <= y < H ->
  cget W (fill W H c r) x y = if in_rect r x y then px0 else cget W c x y.
Proof. intros Hx Hy. unfold fill. apply cget_tab; assumption. Qed.

Lemma cget_fill_impl W H c r x y : 0 <= x < W -> 0 <= y < H ->
  cget W (fill_impl W H c r) x y = if in_rect r x y then px0 else cget W c x y.
Proof.
  intros Hx Hy. unfold fill_impl. rewrite cget_tab, in_rect_clip by assumption. reflexivity.
Qed.

(* what a refused call leaves alone: everything but the frame list and the two counters *)
Definition same_enc (st2 st : est) : Prop :=
  e_W st2 = e_W st /\ e_H st2 = e_H st /\ e_opts st2 = e_opts st /\ e_prev st2 = e_prev st /\
  e_fcount st2 = e_fcount st /\ e_prect st2 = e_prect st /\ e_pidx st2 = e_pidx st.

(* a repeated picture whose time fits into the previous frame *)
Lemma add_frame_merge fx oracle st im dur :
  e_prev st = Some (pad (e_W st) (e_H st) im) ->
  mux_dur (e_recs st) (e_pidx st) + dur < max_duration ->
  add_frame fx oracle st (im, dur)
  = set_calls (set_recs st (mux_set_dur (e_recs st) (e_pidx st) (mux_dur (e_recs st) (e_pidx st) + dur))).
Proof.
  intros Hp Hlt. unfold add_frame. rewrite Hp, canvas_eqb_refl. unfold increase_prev_duration.
  destruct (Z.ltb_spec (mux_dur (e_recs st) (e_pidx st) + dur) max_duration); [reflexivity|lia].
Qed.

(* A call that returns nil is [add_frame] under the oracle the failures leave, and either the
   muxer had room or the picture was merged into the previous frame.  A refused call changes
   at most the frame list, and that only by the dispose flag SetFrameDisposeMode had already
   set when the full muxer refused the frame. *)
Lemma add_frame_e_cases fx maxf oracle fails st f st2 ok :
  add_frame_e fx true maxf oracle fails st f = (st2, ok) ->
  (ok = true /\ st2 = add_frame fx (fun n => eff_orc (oracle n) (fails n)) st f /\
   (mux_full maxf st = false \/
    (e_prev st = Some (pad (e_W st) (e_H st) (fst f)) /\
     mux_dur (e_recs st) (e_pidx st) + snd f < max_duration))) \/
  (ok = false /\ same_enc st2 st /\
   (e_recs st2 = e_recs st \/
    (mux_full maxf st = true /\ e_recs st2 = mux_set_dispose_bg (e_recs st) (e_pidx st)))).
Proof.
  destruct f as [im dur]. unfold add_frame_e. cbn [fst snd].
  set (ok' := (add_frame _ _ _ _, true)).
  (* every exit but two is [if e || full then (set_calls s, false) else ok'], with [s] the
     state or the state with countSinceKeyframe moved: [Hgate] splits it, [Hno] / [Hyes]
     conclude for its two outcomes *)
  assert (Hgate : forall (e : bool) s G,
    ((set_calls s, false) = (st2, ok) -> G) -> (mux_full maxf st = false -> ok' = (st2, ok) -> G) ->
    (if e || mux_full maxf st then (set_calls s, false) else ok') = (st2, ok) -> G).
  { intros e s G Hno Hyes. destruct (mux_full maxf st); [rewrite orb_true_r; exact Hno|].
    destruct e; [exact Hno|exact (Hyes eq_refl)]. }
  intros Hadd.
  match goal with |- ?G =>
    assert (Hno : forall s, same_enc s st -> e_recs s = e_recs st -> (set_calls s, false) = (st2, ok) -> G);
    [|assert (Hyes : mux_full maxf st = false -> ok' = (st2, ok) -> G)] end.
  { intros s Hs Hr [= <- <-]. right. split; [reflexivity|]. split; [exact Hs|left; exact Hr]. }
  { intros Hnf [= <- <-]. left. split; [reflexivity|]. split; [reflexivity|left; exact Hnf]. }
  assert (Hst : forall k, same_enc (set_since st k) st) by (intros k; repeat split).
  destruct (e_prev st) as [prev|] eqn:Hprev.
  2:{ revert Hadd. apply Hgate; [apply Hno; [apply (Hst (e_since st))|reflexivity]|exact Hyes]. }
  destruct (canvas_eqb prev (pad (e_W st) (e_H st) im)) eqn:Heq.
  - apply canvas_eqb_eq in Heq. subst prev.
    destruct (Z.ltb_spec (mux_dur (e_recs st) (e_pidx st) + dur) max_duration) as [Hlt|_].
    + injection Hadd as <- <-. left. split; [reflexivity|]. split; [reflexivity|right; split; [reflexivity|exact Hlt]].
    + revert Hadd. apply Hgate; [apply Hno; [apply (Hst (e_since st))|reflexivity]|exact Hyes].
  - destruct (eo_kmax (e_opts st) <=? e_since (set_since st (e_since st + 1))).
    { revert Hadd. apply Hgate; [apply Hno; [apply Hst|reflexivity]|exact Hyes]. }
    destruct (ef_a (fails (e_calls st))); [apply (Hno _ (Hst _) eq_refl Hadd)|].
    destruct (oc_key _).
    { revert Hadd. apply Hgate; [apply Hno; [apply Hst|reflexivity]|exact Hyes]. }
    destruct (mux_full maxf st) eqn:Hfull; [|exact (Hyes eq_refl Hadd)].
    destruct (oc_bg _); [|apply (Hno _ (Hst _) eq_refl Hadd)].
    injection Hadd as <- <-. right. split; [reflexivity|]. split; [repeat split|].
    right. split; reflexivity.
Qed.

Lemma mux_animated_false r0 tl : mux_animated (r0 :: tl) = false -> tl = [] /\ m_dur r0 <= 0.
Proof.
  unfold mux_animated. cbn [length existsb]. intros Ha.
  destruct tl; [split; [reflexivity|lia]|cbn [length] in Ha; lia].
Qed.

(* What Muxer.Assemble writes for the frame list [recs]: an animation, or a simple file for a
   lone frame of duration 0 (which validate admits at offset (0,0) only); the simple file
   stores no canvas size. *)
Definition muxer_wrote (has_meta : bool) (W H loop : Z) (recs : list mrec) (out : output) : Prop :=
  (mux_animated recs = true /\ out = mkout false false W H loop recs) \/
  (exists r0, recs = [r0] /\ m_dur r0 <= 0 /\ m_x r0 = 0 /\ m_y r0 = 0 /\
     out = mkout true false (if has_meta then W else iw (m_img r0))
             (if has_meta then H else ih (m_img r0)) 0
             [mkmrec 0 0 (m_img r0) (m_lossy r0) false false 0]).

Lemma muxer_wrote_cases (has_meta : bool) W H loop r0 tl out :
  forallb (rec_valid W H (mux_animated (r0 :: tl))) (r0 :: tl) = true ->
  (if mux_animated (r0 :: tl)
   then Some (mkout false false W H loop (r0 :: tl))
   else Some (mkout true false (if has_meta then W else iw (m_img r0))
                (if has_meta then H else ih (m_img r0)) 0
                [mkmrec 0 0 (m_img r0) (m_lossy r0) false false 0])) = Some out ->
  muxer_wrote has_meta W H loop (r0 :: tl) out.
Proof.
  intros Hval. destruct (mux_animated (r0 :: tl)) eqn:Han; intros [= <-];
    [left; split; [exact Han|reflexivity]|right].
  destruct (mux_animated_false _ _ Han) as [-> Hd]. exists r0.
  cbn [forallb] in Hval. unfold rec_valid in Hval. cbn [orb] in Hval.
  repeat split; try reflexivity; lia.
Qed.

(* Close wrote the still of SimpleEncodeFunc, or what the muxer assembles *)
Lemma close_cases has_meta simple st out : close has_meta simple st = Some out ->
  (exists prev, e_prev st = Some prev /\ e_fcount st = 1 /\
     out = mkout true true (e_W st) (e_H st) 0
             [mkmrec 0 0 (mkimg (e_W st) (e_H st) prev) (negb (eo_lossless (e_opts st))) false false 0]) \/
  muxer_wrote has_meta (e_W st) (e_H st) (eo_loop (e_opts st)) (e_recs st) out.
Proof.
  unfold close. destruct (e_recs st) as [|r0 tl] eqn:Hrecs; [discriminate|]. cbv zeta.
  destruct (forallb _ (r0 :: tl)) eqn:Hval; cbn [negb]; [|discriminate].
  destruct (e_prev st) as [prev|]; [|intros Hc; right; exact (muxer_wrote_cases _ _ _ _ _ _ _ Hval Hc)].
  destruct ((e_fcount st =? 1) && negb has_meta && simple) eqn:Hstill;
    [|intros Hc; right; exact (muxer_wrote_cases _ _ _ _ _ _ _ Hval Hc)].
  intros [= <-]. left. exists prev. repeat split. lia.
Qed.

Lemma ref_show_snoc W H ops : forall s o,
  ref_show W H s (ops ++ [o]) = ref_show W H s ops ++ [(fst (rstep W H (rfold W H s ops) o), op_dur o)].
Proof.
  induction ops as [|a ops IH]; intros s o; cbn [app ref_show rfold fold_left]; [reflexivity|].
  rewrite IH. reflexivity.
Qed.

Lemma rfold_snoc W H s ops o : rfold W H s (ops ++ [o]) = rstep W H (rfold W H s ops) o.
Proof. unfold rfold. rewrite fold_left_app. reflexivity. Qed.

Lemma ref_last W H s ops R' c d : ref_show W H s ops = R' ++ [(c, d)] -> fst (rfold W H s ops) = c.
Proof.
  intros HR. destruct (exists_last (l := ops)) as (ops' & o & ->).
  - intros ->. cbn in HR. destruct R'; discriminate.
  - rewrite ref_show_snoc in HR. apply app_inj_tail in HR as [_ HR]. injection HR as <- _.
    rewrite rfold_snoc. reflexivity.
Qed.

(* a history of AddFrame calls alone is a mixed history without pre-encoded frames *)
Lemma run_e_ops fx maxf oracle fails fs : forall st stf acc,
  run_e fx true maxf oracle fails st fs = (stf, acc) ->
  run_ops fx maxf oracle fails st (map OAdd fs) = (stf, map OAdd acc).
Proof.
  induction fs as [|f fs IH]; intros st stf acc; cbn [run_e run_ops map step_op].
  - intros [= <- <-]. reflexivity.
  - destruct (add_frame_e fx true maxf oracle fails st f) as [st1 ok].
    destruct (run_e fx true maxf oracle fails st1 fs) as [stf' acc'] eqn:Hrest.
    intros [= <- <-]. rewrite (IH _ _ _ Hrest). destruct ok; reflexivity.
Qed.

Lemma ref_show_adds W H fs : forall s, ref_show W H s (map OAdd fs) = inputs_of W H fs.
Proof. induction fs as [|f fs IH]; intros s; cbn [map ref_show inputs_of]; [|rewrite IH]; reflexivity. Qed.

Lemma error_history W H has_meta fx maxf oracle fails frames st stf acc s :
  Forall wf_input frames -> run_e fx true maxf oracle fails st frames = (stf, acc) ->
  Forall (wf_op W H) (map OAdd frames) /\
  run_ops fx maxf oracle fails st (map OAdd frames) = (stf, map OAdd acc) /\
  lone_small_raw_ok W H has_meta (map OAdd acc) /\
  ref_show W H s (map OAdd acc) = inputs_of W H acc.
Proof.
  intros Hwf Hrun. split; [apply Forall_map; exact Hwf|]. split; [exact (run_e_ops _ _ _ _ _ _ _ _ Hrun)|].
  split; [|apply ref_show_adds]. intros r Habs. destruct acc as [|a [|]]; discriminate.
Qed.
