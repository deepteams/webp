(** Witnesses, each a concrete session evaluated with [vm_compute]: the statements of C08 /
    C18 are false of code variants that lack one of the fixes ([pinned]: none of them;
    [mkfixes true false false]: no filler fix; [keep_dur] = false: duration capped before the
    filler is encoded) and of the mixed statement without its canvas-size hypothesis; and
    what the same sessions play on [repaired].  The sessions are also in the Go harness corpus. *)
From Coq Require Import List ZArith Lia Bool.
From Webp Require Import Anim.Blend Anim.Canvas Anim.AnimDec Anim.AnimEncModel Anim.AnimEncSpec
  Anim.AnimEncLemmas.
Import ListNotations.
Open Scope Z_scope.

Definition id_img (i : img) : img := i.

Lemma id_codec_lossless : codec_lossless id_img.
Proof. intros i _. apply img_sim_refl. Qed.

Lemma id_codec_alpha_exact : codec_alpha_exact id_img.
Proof. intros i (_ & _ & _ & Hp). unfold id_img, img_alpha_eq. repeat split. exact Hp. Qed.

Definition o_none : orc := mkorc false false false false false.
Definition o_bg : orc := mkorc true false false false false.

Definition P (r g b a : Z) : px := mkpx r g b a.

Definition lossless_default : eopts := mkeopts 0 0 0 true false 75.

Lemma lossless_default_ok : lossless_opts lossless_default.
Proof. unfold lossless_opts, max_loop_count; cbn; repeat split; lia. Qed.

Lemma small_dims W H : 1 <= W <= 4 -> 1 <= H <= 4 -> wf_canvas_dims W H.
Proof. unfold wf_canvas_dims, max_canvas_dimension. lia. Qed.

(* A session refutes the C08 statement for [fx] if what it plays shows other pictures than
   were added.  [st0] and [out] are left to be found by evaluating the premises in order. *)
Lemma lossless_refutation fx W H frames oracle st0 out :
  wf_canvas_dims W H -> frames <> [] -> Forall wf_input frames ->
  new_encoder W H lossless_default = Some st0 ->
  close false false (run_frames fx oracle st0 frames) = Some out ->
  map fst (collapse (playback id_img id_img fx out)) <> map fst (collapse (inputs_of W H frames)) ->
  ~ anim_lossless_roundtrip_statement fx.
Proof.
  intros Hd Hne Hwf Hn Hc Hbad Hs. apply Hbad.
  exact (ss_pictures _ _ _ _ _ _ _
           (Hs id_img id_img W H lossless_default frames oracle false false st0 out
               id_codec_lossless Hd lossless_default_ok Hne Hwf Hn Hc)).
Qed.

Ltac wf_inputs :=
  repeat (constructor; [ unfold wf_input, wf_img, wf_px, max_duration; cbn;
                         repeat split; try lia; repeat (constructor; [cbn; lia|]); try constructor | ]);
  try constructor.

(* An unchanged semi-transparent pixel inside a blended rectangle.
   2x2 canvas; (0,0) has alpha 128 in both frames, (1,0) changes.  The sub-frame
   is the top row, alpha-blended: the decoder shows alpha 192 at (0,0). *)

Definition w1_frames : list (img * Z) :=
  [ (mkimg 2 2 [P 10 20 30 128; P 1 1 1 255; P 2 2 2 255; P 3 3 3 255], 10);
    (mkimg 2 2 [P 10 20 30 128; P 9 9 9 255; P 2 2 2 255; P 3 3 3 255], 10) ].

Definition w1_played (fx : fixes) : option show :=
  match new_encoder 2 2 lossless_default with
  | Some st0 =>
      match close false false (run_frames fx (fun _ => o_none) st0 w1_frames) with
      | Some out => Some (playback id_img id_img fx out)
      | None => None
      end
  | None => None
  end.

Example w1_pinned_shows_192 :
  option_map (map (fun e => nth 0 (fst e) px0)) (w1_played pinned)
  = Some [P 10 20 30 128; P 9 19 29 192].
Proof. vm_compute. reflexivity. Qed.

Example w1_repaired_shows_128 :
  option_map (map (fun e => nth 0 (fst e) px0)) (w1_played repaired)
  = Some [P 10 20 30 128; P 10 20 30 128].
Proof. vm_compute. reflexivity. Qed.

Lemma blend_candidate_sound_refuted :
  exists s d, wf_px s /\ wf_px d /\ lossless_px_ok s d = true /\ blend_spec d s <> d.
Proof.
  exists (P 10 20 30 128), (P 10 20 30 128).
  assert (Hwf : wf_px (P 10 20 30 128)) by (unfold wf_px; cbn; lia).
  split; [exact Hwf|]. split; [exact Hwf|]. split; [reflexivity|]. vm_compute. discriminate.
Qed.

Theorem anim_lossless_roundtrip_refuted_blend :
  ~ anim_lossless_roundtrip_statement pinned.
Proof.
  eapply (lossless_refutation pinned 2 2 w1_frames (fun _ => o_none)).
  - apply small_dims; lia.
  - discriminate.
  - unfold w1_frames; wf_inputs.
  - vm_compute; reflexivity.
  - vm_compute; reflexivity.
  - vm_compute. discriminate.
Qed.

(* Stale prevFrameRect after an overflow filler.  4x4 canvas:
   blank; a 2x2 red block at (2,2) shown 0xFFFFFF ms; the same picture again
   (+10 ms: filler frame, prevMuxIndex now points at the 1x1 filler while
   prevFrameRect still is the block's rectangle); then a picture without the
   block and a green pixel at (0,0).  The dispose-background candidate assumes
   the block's rectangle is cleared, but the flag lands on the filler. *)

Definition T : px := P 0 0 0 0.
Definition R : px := P 255 0 0 255.
Definition G : px := P 0 255 0 255.

Definition w2_frames : list (img * Z) :=
  [ (mkimg 4 4 [T;T;T;T; T;T;T;T; T;T;T;T; T;T;T;T], 10);
    (mkimg 4 4 [T;T;T;T; T;T;T;T; T;T;R;R; T;T;R;R], 16777215);
    (mkimg 4 4 [T;T;T;T; T;T;T;T; T;T;R;R; T;T;R;R], 10);
    (mkimg 4 4 [G;T;T;T; T;T;T;T; T;T;T;T; T;T;T;T], 10) ].

Definition w2_oracle (n : nat) : orc := match n with 3%nat => o_bg | _ => o_none end.

Definition w2_last (fx : fixes) : option (canvas * Z) :=
  match new_encoder 4 4 lossless_default with
  | Some st0 =>
      match close false false (run_frames fx w2_oracle st0 w2_frames) with
      | Some out => Some (last (playback id_img id_img fx out) ([], 0))
      | None => None
      end
  | None => None
  end.

Example w2_pinned_keeps_block :
  w2_last pinned = Some ([G;T;T;T; T;T;T;T; T;T;R;R; T;T;R;R], 10).
Proof. vm_compute. reflexivity. Qed.

Example w2_repaired_clears_block :
  w2_last repaired = Some ([G;T;T;T; T;T;T;T; T;T;T;T; T;T;T;T], 10).
Proof. vm_compute. reflexivity. Qed.

(* the invariant conjunct "prevFrameRect is the rectangle of the muxer frame at
   prevMuxIndex" fails after the filler *)
Lemma prev_rect_invariant_refuted :
  exists st0 st, new_encoder 4 4 lossless_default = Some st0 /\
    st = run_frames pinned w2_oracle st0 (firstn 3 w2_frames) /\
    match nth_error (e_recs st) (Z.to_nat (e_pidx st)) with
    | Some r => e_prect st <> mkrect (m_x r) (m_y r) (m_x r + iw (m_img r)) (m_y r + ih (m_img r))
    | None => False
    end.
Proof.
  eexists. eexists. split; [vm_compute; reflexivity|]. split; [reflexivity|].
  vm_compute. discriminate.
Qed.

Theorem anim_lossless_roundtrip_refuted_filler :
  ~ anim_lossless_roundtrip_statement (mkfixes true false false).
Proof.
  eapply (lossless_refutation (mkfixes true false false) 4 4 w2_frames w2_oracle).
  - apply small_dims; lia.
  - discriminate.
  - unfold w2_frames, T, R, G; wf_inputs.
  - vm_compute; reflexivity.
  - vm_compute; reflexivity.
  - vm_compute. discriminate.
Qed.

(* C18: on the pinned code the lossy frame payload reaches the muxer without
   its alpha data (encodeFrameForAnimation -> encodeLossy), so a lossy frame
   plays back opaque.  1x1 canvas, a transparent picture then an opaque one. *)

Definition lossy_default : eopts := mkeopts 0 0 0 false false 75.

Definition w3_frames : list (img * Z) := [ (mkimg 1 1 [T], 10); (mkimg 1 1 [R], 10) ].

Lemma lossy_frame_carries_alph_refuted :
  exists r : mrec, m_lossy r = true /\ wf_img (m_img r) /\
    map pa (ipix (decoded id_img id_img pinned false r)) <> map pa (ipix (m_img r)).
Proof.
  exists (mkmrec 0 0 (mkimg 1 1 [T]) true true false 10).
  split; [reflexivity|]. split.
  - unfold wf_img, wf_px; cbn. repeat split; try lia. repeat constructor; cbn; lia.
  - vm_compute. discriminate.
Qed.

Theorem anim_alpha_preserved_refuted : ~ anim_alpha_preserved_statement pinned.
Proof.
  intros Hs.
  assert (exists st0 out,
            new_encoder 1 1 lossy_default = Some st0 /\
            close false false (run_frames pinned (fun _ => o_none) st0 w3_frames) = Some out /\
            map fst (collapse_by alpha_only (playback id_img id_img pinned out))
            <> map fst (collapse_by alpha_only (inputs_of 1 1 w3_frames)))
    as (st0 & out & Hn & Hc & Hbad).
  { do 2 eexists. split; [vm_compute; reflexivity|]. split; [vm_compute; reflexivity|].
    vm_compute. discriminate. }
  apply Hbad.
  refine (ss_pictures _ _ _ _ _ _ _
            (Hs id_img id_img 1 1 lossy_default w3_frames (fun _ => o_none) false false st0 out
                id_codec_lossless id_codec_alpha_exact _ _ _ _ Hn Hc)).
  - apply small_dims; lia.
  - unfold alpha_opts, max_loop_count; cbn; lia.
  - discriminate.
  - unfold w3_frames, T, R; wf_inputs.
Qed.

(* A failed AddFrame must leave the animation as it was.  When increasePreviousDuration
   caps the previous duration before it encodes the overflow filler ([keep_dur] = false;
   the code before fix 60cfee7), a call whose filler encode fails returns an error but has already changed
   the previous picture's display time.  1x1 canvas: red 10 ms, green 0xFFFFFF-5 ms,
   green again 10 ms with the filler encode failing. *)

Definition w4_frames : list (img * Z) :=
  [ (mkimg 1 1 [R], 10); (mkimg 1 1 [G], 16777210); (mkimg 1 1 [G], 10) ].

Definition w4_fails (n : nat) : efail :=
  match n with 2%nat => mkefail true false false false | _ => no_fail end.

Definition w4_show (keep_dur : bool) : option (list (img * Z) * show) :=
  match new_encoder 1 1 lossless_default with
  | Some st0 =>
      let '(stf, acc) := run_e repaired keep_dur 10000 (fun _ => o_none) w4_fails st0 w4_frames in
      match close false false stf with
      | Some out => Some (acc, playback id_img id_img repaired out)
      | None => None
      end
  | None => None
  end.

Example w4_kept : w4_show true = Some ([(mkimg 1 1 [R], 10); (mkimg 1 1 [G], 16777210)],
                                       [([R], 10); ([G], 16777210)]).
Proof. vm_compute. reflexivity. Qed.

Example w4_pinned_changes_duration :
  w4_show false = Some ([(mkimg 1 1 [R], 10); (mkimg 1 1 [G], 16777210)],
                        [([R], 10); ([G], 16777215)]).
Proof. vm_compute. reflexivity. Qed.

Theorem anim_error_roundtrip_refuted_cap_first : ~ anim_error_roundtrip_statement false.
Proof.
  intros Hs.
  assert (exists st0 stf acc out,
            new_encoder 1 1 lossless_default = Some st0 /\
            run_e repaired false 10000 (fun _ => o_none) w4_fails st0 w4_frames = (stf, acc) /\
            close false false stf = Some out /\
            (2 <= length (collapse (inputs_of 1 1 acc)))%nat /\
            collapse (playback id_img id_img repaired out) <> collapse (inputs_of 1 1 acc))
    as (st0 & stf & acc & out & Hn & Hr & Hc & H2 & Hbad).
  { do 4 eexists. split; [vm_compute; reflexivity|]. split; [vm_compute; reflexivity|].
    split; [vm_compute; reflexivity|]. split; [vm_compute; repeat constructor|].
    vm_compute. discriminate. }
  apply Hbad.
  refine (proj1 (ss_timing _ _ _ _ _ _ _
            (Hs id_img id_img 1 1 lossless_default w4_frames (fun _ => o_none) w4_fails 10000
                false false st0 stf acc out id_codec_lossless _ lossless_default_ok _ Hn Hr Hc) H2)).
  - apply small_dims; lia.
  - unfold w4_frames, R, G; wf_inputs.
Qed.

(* Observation raw-frames:canvas-size: NewEncoder 4x2, one pre-encoded 1x1 frame of
   duration 0, no metadata, Close: Muxer.assembleSimple writes a simple file, the explicit
   canvas size is not stored and the file's canvas is 1x1. *)

Definition w5_ops : list op := [ORaw (mkmrec 0 0 (mkimg 1 1 [R]) false true false 0)].

Definition w5_out : option output :=
  match new_encoder 4 2 lossless_default with
  | Some st0 =>
      let '(stf, _) := run_ops repaired 10000 (fun _ => o_none) (fun _ => no_fail) st0 w5_ops in
      close false false stf
  | None => None
  end.

Example w5_canvas_is_the_frame_size :
  option_map (fun o => (out_W o, out_H o)) w5_out = Some (1, 1).
Proof. vm_compute. reflexivity. Qed.

Theorem anim_mixed_roundtrip_refuted_lone_small_raw : ~ anim_mixed_roundtrip_statement false.
Proof.
  intros Hs.
  assert (exists st0 stf acc out,
            new_encoder 4 2 lossless_default = Some st0 /\
            run_ops repaired 10000 (fun _ => o_none) (fun _ => no_fail) st0 w5_ops = (stf, acc) /\
            close false false stf = Some out /\ out_W out <> 4)
    as (st0 & stf & acc & out & Hn & Hr & Hc & Hbad).
  { do 4 eexists. split; [vm_compute; reflexivity|]. split; [vm_compute; reflexivity|].
    split; [vm_compute; reflexivity|]. vm_compute. discriminate. }
  apply Hbad.
  refine (proj1 (ss_size _ _ _ _ _ _ _
            (Hs id_img id_img 4 2 lossless_default w5_ops (fun _ => o_none) (fun _ => no_fail) 10000
                false false st0 stf acc out id_codec_lossless _ lossless_default_ok _ Hn Hr
                ltac:(discriminate) Hc))).
  - apply small_dims; lia.
  - constructor; [|constructor]. unfold wf_op, wf_raw, wf_img, max_duration, R, P; cbn.
    repeat split; try lia. constructor; [unfold wf_px; cbn; lia|constructor].
Qed.

(* a mixed history on the model: AddFrame, AddRawFrame (green 2x2 block at (2,0), blended,
   disposed to background afterwards), AddFrame *)
Definition w6_ops : list op :=
  [ OAdd (mkimg 4 2 [R;R;R;R; R;R;R;R], 10);
    ORaw (mkmrec 2 0 (mkimg 2 2 [G;G;G;G]) false false true 20);
    OAdd (mkimg 4 2 [R;R;T;R; R;R;R;G], 30) ].

Definition w6_show : option (show * show) :=
  match new_encoder 4 2 lossless_default with
  | Some st0 =>
      let '(stf, acc) := run_ops repaired 10000 (fun _ => o_none) (fun _ => no_fail) st0 w6_ops in
      match close false false stf with
      | Some out => Some (playback id_img id_img repaired out, ref_show 4 2 (blank 4 2, None) acc)
      | None => None
      end
  | None => None
  end.

Example w6_mixed_history_plays_the_reference_show :
  w6_show = Some ([([R;R;R;R; R;R;R;R], 10); ([R;R;G;G; R;R;G;G], 20); ([R;R;T;R; R;R;R;G], 30)],
                  [([R;R;R;R; R;R;R;R], 10); ([R;R;G;G; R;R;G;G], 20); ([R;R;T;R; R;R;R;G], 30)]).
Proof. vm_compute. reflexivity. Qed.
