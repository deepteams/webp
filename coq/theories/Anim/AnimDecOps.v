(** Histories of AnimDecoder calls: any interleaving of NextFrame and Reset.
    Every snapshot handed out equals the specification canvas of the frame
    index it was produced for; Reset replays identically (it is the initial
    state), and calling NextFrame past the end yields no picture. *)
From Coq Require Import List ZArith Lia Bool Arith.
From Webp Require Import Anim.Blend Anim.Canvas Anim.AnimDec Anim.AnimDecProof.
Import ListNotations.
Open Scope Z_scope.

Inductive op := ONext | OReset.

Record player := mkplayer { ppos : nat; pst : dstate }.

Definition pinit (W H : Z) : player := mkplayer 0 (dinit W H).

(* AnimDecoder.NextFrame / Reset on the implementation model. *)
Definition pstep (W H : Z) (fs : list frame) (p : player) (o : op) : player * option canvas :=
  match o with
  | OReset => (pinit W H, None)
  | ONext =>
      match nth_error fs (ppos p) with
      | None => (p, None)                                 (* ErrNoFrames *)
      | Some f =>
          let '(snap, st') := next_frame W H (Nat.eqb (ppos p) 0) f (pst p) in
          (mkplayer (S (ppos p)) st', Some snap)
      end
  end.

Fixpoint prun (W H : Z) (fs : list frame) (p : player) (ops : list op) : list (option canvas) :=
  match ops with
  | [] => []
  | o :: ops' => let '(p', out) := pstep W H fs p o in out :: prun W H fs p' ops'
  end.

(* The specification of a history: only the position matters. *)
Fixpoint srun (pics : list canvas) (pos : nat) (ops : list op) : list (option canvas) :=
  match ops with
  | [] => []
  | OReset :: ops' => None :: srun pics 0 ops'
  | ONext :: ops' =>
      match nth_error pics pos with
      | None => None :: srun pics pos ops'
      | Some c => Some c :: srun pics (S pos) ops'
      end
  end.

Lemma spec_go_length W H fs : forall c prev, length (spec_go W H c prev fs) = length fs.
Proof. induction fs as [|g fs IH]; intros; cbn; [reflexivity|f_equal; apply IH]. Qed.

Lemma skipn_cons_iff {A} (l : list A) : forall k a t,
  skipn k l = a :: t <-> nth_error l k = Some a /\ skipn (S k) l = t.
Proof.
  induction l as [|b l IH]; intros [|k] a t; cbn [skipn nth_error];
    try (split; [discriminate|intros [? _]; discriminate]).
  - split; [intros [= -> ->]; split; reflexivity|intros [[= ->] ->]; reflexivity].
  - apply IH.
Qed.

(** A player at position k stands in the relation [inv] to a specification state from which
    [spec_go] produces what remains of the specification's run. *)
Definition pinv (W H : Z) (fs : list frame) (p : player) : Prop :=
  exists c prev, inv W H (pst p) c prev /\ (ppos p = 0%nat <-> prev = None) /\
    skipn (ppos p) (spec_run W H fs) = spec_go W H c prev (skipn (ppos p) fs).

Lemma pinv_init W H fs : wf_dims W H -> pinv W H fs (pinit W H).
Proof.
  intros Hd. exists (blank W H), None. split; [apply inv_init; destruct Hd; lia|].
  split; [split; reflexivity|reflexivity].
Qed.

Lemma pstep_refines W H fs p o ops :
  wf_dims W H -> Forall wf_frame fs -> pinv W H fs p ->
  pinv W H fs (fst (pstep W H fs p o)) /\
  srun (spec_run W H fs) (ppos p) (o :: ops) =
    snd (pstep W H fs p o) :: srun (spec_run W H fs) (ppos (fst (pstep W H fs p o))) ops.
Proof.
  intros Hd Hwf Hp. destruct o; cbn [pstep srun]; [|split; [apply pinv_init; exact Hd|reflexivity]].
  destruct (nth_error fs (ppos p)) as [f|] eqn:Hk.
  - destruct Hp as (c & prev & Hinv & Hz & Hs).
    assert (Hf : wf_frame f).
    { rewrite Forall_forall in Hwf. apply Hwf. eapply nth_error_In; exact Hk. }
    rewrite (proj2 (skipn_cons_iff fs _ f _) (conj Hk eq_refl)) in Hs. cbn [spec_go] in Hs.
    apply skipn_cons_iff in Hs as [-> Hs].
    assert (Hfirst : (ppos p =? 0)%nat = true <-> prev = None) by (rewrite Nat.eqb_eq; exact Hz).
    destruct (step_refines W H _ f (pst p) c prev Hd Hf Hinv Hfirst) as [Hsn Hi].
    destruct (next_frame W H _ f (pst p)) as [snap st']. cbn [fst snd ppos pst] in *. subst snap.
    split; [|reflexivity]. eexists _, _. split; [exact Hi|]. split; [split; discriminate|exact Hs].
  - assert (Hn : nth_error (spec_run W H fs) (ppos p) = None).
    { apply nth_error_None. unfold spec_run. rewrite spec_go_length. apply nth_error_None, Hk. }
    rewrite Hn. split; [exact Hp|reflexivity].
Qed.

Theorem history_refines_spec W H fs ops :
  wf_dims W H -> Forall wf_frame fs ->
  prun W H fs (pinit W H) ops = srun (spec_run W H fs) 0 ops.
Proof.
  intros Hd Hwf. change 0%nat with (ppos (pinit W H)). generalize (pinv_init W H fs Hd).
  generalize (pinit W H). induction ops as [|o ops IH]; intros p Hp; [reflexivity|].
  destruct (pstep_refines W H fs p o ops Hd Hwf Hp) as [Hp' E]. rewrite E. cbn [prun].
  destruct (pstep W H fs p o) as [p' out]. cbn [fst snd]. f_equal. apply IH, Hp'.
Qed.

(** Non-vacuity: a concrete animation satisfying the hypotheses, on which the
    key-frame shortcut, dispose-to-background, blending and an overhanging
    rectangle all occur. *)
Example c09_example_frames : list frame :=
  [ mkframe 0 0 2 2 [mkpx 255 0 0 255; mkpx 0 255 0 255; mkpx 0 0 255 255; mkpx 9 9 9 255] false true false;
    mkframe 1 1 2 2 [mkpx 10 20 30 128; mkpx 1 2 3 0; mkpx 4 5 6 255; mkpx 7 8 9 1] false false true;
    mkframe (-1) 0 2 1 [mkpx 50 60 70 200; mkpx 80 90 100 77] false true true ].

Example c09_example_wf : wf_dims 2 2 /\ Forall wf_frame c09_example_frames.
Proof.
  split; [unfold wf_dims; cbn; lia|].
  repeat constructor; cbn; unfold int64; try lia;
    unfold wf_px; cbn; lia.
Qed.

Example c09_example_runs :
  impl_run 2 2 c09_example_frames = spec_run 2 2 c09_example_frames /\
  length (impl_run 2 2 c09_example_frames) = 3%nat.
Proof. (* by running both, not by [animdec_refines_spec] *) vm_compute. split; reflexivity. Qed.
