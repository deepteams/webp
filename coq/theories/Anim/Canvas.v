(** Specification of WebP animation canvas reconstruction (container spec,
    "Assembling the canvas from frames"): start from a transparent canvas; before
    rendering a frame, clear the previous frame's rectangle if that frame asked
    for dispose-to-background; then overwrite (no-blend) or alpha-blend the
    frame's rectangle, clipped to the canvas.  Coordinates are unbounded [Z]. *)
From Coq Require Import List ZArith Lia Bool.
From Webp Require Import Anim.Blend.
Import ListNotations.
Open Scope Z_scope.

Record rect := mkrect { rx0 : Z; ry0 : Z; rx1 : Z; ry1 : Z }.

Definition in_rect (r : rect) (x y : Z) : bool :=
  (rx0 r <=? x) && (x <? rx1 r) && (ry0 r <=? y) && (y <? ry1 r).

Record frame := mkframe {
  fx : Z; fy : Z;               (* offset on the canvas *)
  fw : Z; fh : Z;               (* size of the frame picture *)
  fpix : list px;               (* row-major, fw*fh entries *)
  fblend_none : bool;           (* true: BlendNone, false: BlendAlpha *)
  fdispose_bg : bool;           (* true: DisposeBackground *)
  fhas_alpha : bool             (* the bitstream-level flag Frame.HasAlpha *)
}.

Definition fget (f : frame) (sx sy : Z) : px :=
  nth (Z.to_nat (sy * fw f + sx)) (fpix f) px0.

Definition canvas := list px.

Definition zrange (n : Z) : list Z := map Z.of_nat (seq 0 (Z.to_nat n)).

Definition tab (W H : Z) (g : Z -> Z -> px) : canvas :=
  map (fun i => g (i mod W) (i / W)) (zrange (W * H)).

Definition cget (W : Z) (c : canvas) (x y : Z) : px :=
  nth (Z.to_nat (y * W + x)) c px0.

Definition blank (W H : Z) : canvas := tab W H (fun _ _ => px0).

Definition true_rect (f : frame) : rect :=
  mkrect (fx f) (fy f) (fx f + fw f) (fy f + fh f).

Definition composite (W H : Z) (c : canvas) (f : frame) : canvas :=
  tab W H (fun x y =>
    if in_rect (true_rect f) x y then
      let s := fget f (x - fx f) (y - fy f) in
      if fblend_none f then s else blend_spec s (cget W c x y)
    else cget W c x y).

Definition fill (W H : Z) (c : canvas) (r : rect) : canvas :=
  tab W H (fun x y => if in_rect r x y then px0 else cget W c x y).

(** [spec_go c prev fs]: [c] is the canvas currently shown, [prev] the rectangle
    and dispose flag of the frame that produced it. *)
Fixpoint spec_go (W H : Z) (c : canvas) (prev : option (rect * bool)) (fs : list frame)
  : list canvas :=
  match fs with
  | [] => []
  | f :: fs' =>
      let c1 := match prev with
                | Some (r, true) => fill W H c r
                | _ => c
                end in
      let c2 := composite W H c1 f in
      c2 :: spec_go W H c2 (Some (true_rect f, fdispose_bg f)) fs'
  end.

Definition spec_run (W H : Z) (fs : list frame) : list canvas :=
  spec_go W H (blank W H) None fs.

Lemma zrange_length n : length (zrange n) = Z.to_nat n.
Proof. unfold zrange. rewrite map_length, seq_length. reflexivity. Qed.

Lemma zrange_In n i : In i (zrange n) <-> 0 <= i < n.
Proof.
  unfold zrange. rewrite in_map_iff. split.
  - intros (k & <- & Hk). apply in_seq in Hk. lia.
  - intros Hi. exists (Z.to_nat i). split; [lia|]. apply in_seq. lia.
Qed.

Lemma zrange_nth n k : (k < Z.to_nat n)%nat -> nth k (zrange n) 0 = Z.of_nat k.
Proof.
  intros Hk. unfold zrange.
  change 0 with (Z.of_nat 0%nat). rewrite map_nth. rewrite seq_nth by exact Hk. reflexivity.
Qed.

Lemma nth_map_zrange {A} (F : Z -> A) n k d :
  (k < Z.to_nat n)%nat -> nth k (map F (zrange n)) d = F (Z.of_nat k).
Proof.
  intros Hk. rewrite nth_indep with (d' := F 0) by (rewrite map_length, zrange_length; lia).
  rewrite map_nth, zrange_nth by lia. reflexivity.
Qed.

Lemma tab_length W H g : length (tab W H g) = Z.to_nat (W * H).
Proof. unfold tab. rewrite map_length. apply zrange_length. Qed.

Lemma cell_index_bound W H x y : 0 <= x < W -> 0 <= y < H -> 0 <= y * W + x < W * H.
Proof. nia. Qed.

Lemma cell_index_divmod W x y : 0 <= x < W -> (y * W + x) mod W = x /\ (y * W + x) / W = y.
Proof.
  intros Hx. rewrite Z.add_comm, Z.mod_add, Z.div_add, Z.mod_small, Z.div_small by lia. lia.
Qed.

Lemma cell_index_inj W x y x' y' :
  0 <= x < W -> 0 <= x' < W -> y * W + x = y' * W + x' -> x = x' /\ y = y'.
Proof.
  intros Hx Hx' E. destruct (cell_index_divmod W x y Hx) as [M D].
  rewrite E in M, D. destruct (cell_index_divmod W x' y' Hx') as [M' D']. lia.
Qed.

Lemma index_cell W H i : 0 < W -> 0 <= i < W * H ->
  0 <= i mod W < W /\ 0 <= i / W < H /\ i / W * W + i mod W = i.
Proof.
  intros HW Hi. split; [apply Z.mod_pos_bound; exact HW|]. split.
  - split; [apply Z.div_pos; lia|apply Z.div_lt_upper_bound; lia].
  - rewrite Z.mul_comm. symmetry. apply Z.div_mod. lia.
Qed.

Lemma cget_tab W H g x y : 0 <= x < W -> 0 <= y < H -> cget W (tab W H g) x y = g x y.
Proof.
  intros Hx Hy. unfold cget, tab. pose proof (cell_index_bound W H x y Hx Hy).
  rewrite nth_map_zrange, Z2Nat.id by lia.
  destruct (cell_index_divmod W x y Hx) as [-> ->]. reflexivity.
Qed.

Lemma tab_ext W H g g' : 0 < W ->
  (forall x y, 0 <= x < W -> 0 <= y < H -> g x y = g' x y) -> tab W H g = tab W H g'.
Proof.
  intros HW Hext. unfold tab. apply map_ext_in. intros i Hi. apply zrange_In in Hi.
  apply Hext; apply (index_cell W H i HW Hi).
Qed.

Lemma tab_cget W H c : 0 < W -> 0 <= H -> length c = Z.to_nat (W * H) ->
  tab W H (fun x y => cget W c x y) = c.
Proof.
  intros HW HH Hlen. apply nth_ext with (d := px0) (d' := px0).
  - rewrite tab_length. symmetry. exact Hlen.
  - intros n Hn. rewrite tab_length in Hn. unfold tab, cget.
    rewrite nth_map_zrange by lia.
    destruct (index_cell W H (Z.of_nat n) HW ltac:(lia)) as (_ & _ & ->).
    rewrite Nat2Z.id. reflexivity.
Qed.
