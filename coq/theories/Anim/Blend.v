(** Non-premultiplied "src over dst" blend arithmetic.
    [blend_impl] transcribes animation.alphaBlendNRGBA with its uint32 arithmetic
    (every product reduced mod 2^32, as Go's uint32 does); [blend_spec] is the
    reference formula (libwebp BlendPixelNonPremult) over unbounded integers. *)
From Coq Require Import List ZArith Lia Bool.
Import ListNotations.
Open Scope Z_scope.

Record px := mkpx { pr : Z; pg : Z; pb : Z; pa : Z }.

Definition px0 : px := mkpx 0 0 0 0.

Definition px_eqb (p q : px) : bool :=
  (pr p =? pr q) && (pg p =? pg q) && (pb p =? pb q) && (pa p =? pa q).

Definition wf_px (p : px) : Prop :=
  0 <= pr p <= 255 /\ 0 <= pg p <= 255 /\ 0 <= pb p <= 255 /\ 0 <= pa p <= 255.

Definition u32 (z : Z) : Z := z mod 2^32.

Definition dst_factor (srcA dstA : Z) : Z := u32 (u32 (dstA * u32 (256 - srcA)) / 2^8).

Definition chan_impl (sc dc srcA dfa scale : Z) : Z :=
  let v := u32 (u32 (u32 (sc * srcA) + u32 (dc * dfa)) * scale) / 2^24 in
  if 255 <? v then 255 else v.

Definition blend_impl (src dst : px) : px :=
  if pa src =? 0 then dst
  else if (pa src =? 255) || (pa dst =? 0) then src
  else
    let srcA := pa src in
    let dfa := dst_factor srcA (pa dst) in
    let blendA := u32 (srcA + dfa) in
    if blendA =? 0 then px0
    else
      let scale := (2^24) / blendA in
      mkpx (chan_impl (pr src) (pr dst) srcA dfa scale)
           (chan_impl (pg src) (pg dst) srcA dfa scale)
           (chan_impl (pb src) (pb dst) srcA dfa scale)
           (blendA mod 256).

(* reference: no wrap-around, and the alpha is not truncated to uint8 *)
Definition chan_spec (sc dc srcA dfa scale : Z) : Z :=
  Z.min 255 (((sc * srcA + dc * dfa) * scale) / 2^24).

Definition blend_spec (src dst : px) : px :=
  if pa src =? 0 then dst
  else if (pa src =? 255) || (pa dst =? 0) then src
  else
    let srcA := pa src in
    let dfa := (pa dst * (256 - srcA)) / 2^8 in
    let blendA := srcA + dfa in
    let scale := (2^24) / blendA in
    mkpx (chan_spec (pr src) (pr dst) srcA dfa scale)
         (chan_spec (pg src) (pg dst) srcA dfa scale)
         (chan_spec (pb src) (pb dst) srcA dfa scale)
         blendA.

Lemma u32_small z : 0 <= z < 2^32 -> u32 z = z.
Proof. intros H. unfold u32. apply Z.mod_small. exact H. Qed.

Lemma dfa_bounds sa da : 1 <= sa <= 254 -> 1 <= da <= 255 ->
  0 <= (da * (256 - sa)) / 2^8 <= 254 /\ sa + (da * (256 - sa)) / 2^8 <= 255.
Proof.
  intros Hs Hd.
  assert (0 <= da * (256 - sa)) by nia.
  assert (da * (256 - sa) <= 255 * (256 - sa)) by nia.
  assert (H8 : 2^8 = 256) by reflexivity. rewrite H8.
  assert (Hq : (da * (256 - sa)) / 256 <= (255 * (256 - sa)) / 256)
    by (apply Z.div_le_mono; lia).
  assert ((255 * (256 - sa)) / 256 < 256 - sa).
  { apply Z.div_lt_upper_bound; lia. }
  assert (0 <= (da * (256 - sa)) / 256) by (apply Z.div_pos; lia).
  lia.
Qed.

Lemma dst_factor_eq sa da : 1 <= sa <= 254 -> 1 <= da <= 255 ->
  dst_factor sa da = (da * (256 - sa)) / 2^8.
Proof.
  intros Hs Hd. unfold dst_factor.
  assert (Hb := dfa_bounds sa da Hs Hd).
  rewrite (u32_small (256 - sa)) by lia.
  assert (0 <= da * (256 - sa) < 2^32).
  { split; [nia|]. assert (da * (256 - sa) <= 255 * 255) by nia.
    lia. }
  rewrite (u32_small (da * (256 - sa))) by assumption.
  apply u32_small. lia.
Qed.

(** The 32-bit product never overflows: with b = sa + dfa the numerator is at most 255*b, and
    255 * b * (2^24 / b) <= 255 * 2^24 < 2^32. *)
Lemma chan_no_overflow sc dc sa dfa :
  0 <= sc <= 255 -> 0 <= dc <= 255 -> 1 <= sa -> 0 <= dfa -> 1 <= sa + dfa <= 255 ->
  0 <= (sc * sa + dc * dfa) * ((2^24) / (sa + dfa)) < 2^32.
Proof.
  intros Hsc Hdc Hsa Hdfa Hb.
  set (b := sa + dfa) in *.
  assert (Hn : 0 <= sc * sa + dc * dfa <= 255 * b) by (unfold b; nia).
  assert (Hs : 0 <= 2^24 / b) by (apply Z.div_pos; lia).
  assert (Hs2 : b * (2^24 / b) <= 2^24) by (apply Z.mul_div_le; lia).
  split; [nia|].
  assert ((sc * sa + dc * dfa) * (2^24 / b) <= 255 * b * (2^24 / b)) by nia.
  assert (255 * b * (2^24 / b) <= 255 * 2^24) by nia.
  lia.
Qed.

Lemma chan_impl_eq sc dc sa dfa :
  0 <= sc <= 255 -> 0 <= dc <= 255 -> 1 <= sa -> 0 <= dfa -> 1 <= sa + dfa <= 255 ->
  chan_impl sc dc sa dfa ((2^24) / (sa + dfa)) = chan_spec sc dc sa dfa ((2^24) / (sa + dfa)).
Proof.
  intros Hsc Hdc Hsa Hdfa Hb. unfold chan_impl, chan_spec.
  assert (Ho := chan_no_overflow sc dc sa dfa Hsc Hdc Hsa Hdfa Hb).
  assert (0 <= sc * sa < 2^32) by (nia).
  assert (0 <= dc * dfa < 2^32) by (nia).
  rewrite (u32_small (sc * sa)), (u32_small (dc * dfa)) by assumption.
  rewrite (u32_small (sc * sa + dc * dfa)) by (nia).
  rewrite (u32_small _ Ho).
  set (v := (sc * sa + dc * dfa) * (2 ^ 24 / (sa + dfa)) / 2 ^ 24).
  destruct (Z.ltb_spec 255 v); lia.
Qed.

Theorem blend_impl_eq_spec src dst :
  wf_px src -> wf_px dst -> blend_impl src dst = blend_spec src dst.
Proof.
  intros (Hr & Hg & Hb & Ha) (Hr' & Hg' & Hb' & Ha').
  unfold blend_impl, blend_spec.
  destruct (Z.eqb_spec (pa src) 0) as [|Hn0]; [reflexivity|].
  destruct (Z.eqb_spec (pa src) 255) as [|Hn255]; [reflexivity|].
  destruct (Z.eqb_spec (pa dst) 0) as [|Hd0]; [reflexivity|].
  cbn [orb].
  assert (Hs : 1 <= pa src <= 254) by lia.
  assert (Hd : 1 <= pa dst <= 255) by lia.
  rewrite (dst_factor_eq _ _ Hs Hd).
  destruct (dfa_bounds _ _ Hs Hd) as [Hdf Hsum].
  set (dfa := pa dst * (256 - pa src) / 2 ^ 8) in *.
  rewrite (u32_small (pa src + dfa)) by (lia).
  destruct (Z.eqb_spec (pa src + dfa) 0); [lia|].
  rewrite !chan_impl_eq by lia.
  rewrite (Z.mod_small (pa src + dfa)) by lia.
  reflexivity.
Qed.

Lemma chan_spec_bounds sc dc sa dfa s : 0 <= chan_spec sc dc sa dfa s \/ True.
Proof. right; exact I. Qed.

Theorem blend_spec_wf src dst : wf_px src -> wf_px dst -> wf_px (blend_spec src dst).
Proof.
  intros Hs Hd. pose proof Hs as (Hr & Hg & Hb & Ha). pose proof Hd as (Hr' & Hg' & Hb' & Ha').
  unfold blend_spec.
  destruct (Z.eqb_spec (pa src) 0) as [|Hn0]; [exact Hd|].
  destruct (Z.eqb_spec (pa src) 255) as [|Hn255]; [exact Hs|].
  destruct (Z.eqb_spec (pa dst) 0) as [|Hd0]; [exact Hs|].
  cbn [orb].
  assert (Hsa : 1 <= pa src <= 254) by lia.
  assert (Hda : 1 <= pa dst <= 255) by lia.
  destruct (dfa_bounds _ _ Hsa Hda) as [Hdf Hsum].
  set (dfa := pa dst * (256 - pa src) / 2 ^ 8) in *.
  assert (Hc : forall sc dc, 0 <= sc <= 255 -> 0 <= dc <= 255 ->
     0 <= chan_spec sc dc (pa src) dfa (2^24 / (pa src + dfa)) <= 255).
  { intros sc dc H1 H2. unfold chan_spec.
    assert (Ho := chan_no_overflow sc dc (pa src) dfa H1 H2 ltac:(lia) ltac:(lia) ltac:(lia)).
    assert (0 <= (sc * pa src + dc * dfa) * (2 ^ 24 / (pa src + dfa)) / 2 ^ 24)
      by (apply Z.div_pos; lia).
    lia. }
  unfold wf_px; cbn [pr pg pb pa].
  repeat split; try apply Hc; try lia.
Qed.

Theorem blend_src_transparent src dst : pa src = 0 -> blend_spec src dst = dst.
Proof. intros H. unfold blend_spec. rewrite H. reflexivity. Qed.

Theorem blend_src_opaque src dst : pa src = 255 -> blend_spec src dst = src.
Proof. intros H. unfold blend_spec. rewrite H. reflexivity. Qed.

Theorem blend_dst_transparent src dst : pa dst = 0 -> blend_spec src dst = src \/ blend_spec src dst = dst.
Proof.
  intros H. unfold blend_spec. rewrite H.
  destruct (pa src =? 0); [right; reflexivity|].
  rewrite orb_true_r. left; reflexivity.
Qed.

Theorem blend_alpha_formula src dst :
  wf_px src -> wf_px dst -> pa src <> 0 -> pa src <> 255 -> pa dst <> 0 ->
  pa (blend_spec src dst) = pa src + (pa dst * (256 - pa src)) / 256.
Proof.
  intros _ _ H0 H255 Hd. unfold blend_spec.
  destruct (Z.eqb_spec (pa src) 0); [contradiction|].
  destruct (Z.eqb_spec (pa src) 255); [contradiction|].
  destruct (Z.eqb_spec (pa dst) 0); [contradiction|].
  reflexivity.
Qed.
