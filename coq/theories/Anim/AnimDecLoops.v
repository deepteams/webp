(** compositeFrame and fillRect as the nested loops the Go code runs (row by
    row, pixel by pixel, reading and writing the canvas in place through
    NRGBAAt / SetNRGBA), and the proof that they compute the pointwise
    definitions [composite_impl] / [fill_impl] of Anim/AnimDec.v that the
    refinement theorem is stated about. *)
From Coq Require Import List ZArith Lia Bool ZifyBool.
From Webp Require Import Anim.Blend Anim.Canvas Anim.AnimDec Anim.AnimDecProof.
Import ListNotations.
Open Scope Z_scope.

(* image.NRGBA.SetNRGBA: ignores points outside the rectangle.  [list_set] is the function
   Vp8Spec.v and Vp8lPrefix.v call set_nth; the Anim files import neither. *)
Fixpoint list_set {A} (n : nat) (a : A) (l : list A) : list A :=
  match l, n with
  | [], _ => []
  | _ :: tl, O => a :: tl
  | b :: tl, S k => b :: list_set k a tl
  end.

Definition cset (W H : Z) (c : canvas) (x y : Z) (p : px) : canvas :=
  if (0 <=? x) && (x <? W) && (0 <=? y) && (y <? H) then list_set (Z.to_nat (y * W + x)) p c else c.

(* for v := lo; v < lo + n; v++ { c = body v c } *)
Fixpoint loop (n : nat) (v : Z) (body : Z -> canvas -> canvas) (c : canvas) : canvas :=
  match n with
  | O => c
  | S k => loop k (v + 1) body (body v c)
  end.

Definition for_range (lo hi : Z) (body : Z -> canvas -> canvas) (c : canvas) : canvas :=
  loop (Z.to_nat (hi - lo)) lo body c.

Definition composite_loops (W H : Z) (c : canvas) (f : frame) : canvas :=
  let r := intersect (go_bounds f) (canvas_bounds W H) in
  if rect_empty r then c else
  for_range (ry0 r) (ry1 r) (fun y c =>
    let sy := wrap64 (y - fy f) in
    if (sy <? 0) || (fh f <=? sy) then c else
    for_range (rx0 r) (rx1 r) (fun x c =>
      let sx := wrap64 (x - fx f) in
      if (sx <? 0) || (fw f <=? sx) then c else
      let s := fget f sx sy in
      if fblend_none f then cset W H c x y s
      else cset W H c x y (blend_impl s (cget W c x y))) c) c.

Definition fill_loops (W H : Z) (c : canvas) (r : rect) : canvas :=
  let r' := intersect r (canvas_bounds W H) in
  for_range (ry0 r') (ry1 r') (fun y c =>
    for_range (rx0 r') (rx1 r') (fun x c => cset W H c x y px0) c) c.

Lemma list_set_length {A} n (a : A) l : length (list_set n a l) = length l.
Proof. revert n; induction l as [|b tl IH]; intros [|k]; cbn; auto. Qed.

Lemma nth_list_set {A} n m (a d : A) l : (n < length l)%nat ->
  nth m (list_set n a l) d = if Nat.eqb m n then a else nth m l d.
Proof.
  revert n m; induction l as [|b tl IH]; intros n m Hn; [cbn in Hn; lia|].
  destruct n as [|k]; destruct m as [|j]; cbn; try reflexivity.
  apply IH. cbn in Hn. lia.
Qed.

Lemma cset_length W H c x y p : length (cset W H c x y p) = length c.
Proof. unfold cset. destruct (_ && _); [apply list_set_length|reflexivity]. Qed.

Lemma cget_cset W H c x y p x' y' :
  0 < W -> length c = Z.to_nat (W * H) ->
  0 <= x < W -> 0 <= y < H -> 0 <= x' < W -> 0 <= y' < H ->
  cget W (cset W H c x y p) x' y' = if (x' =? x) && (y' =? y) then p else cget W c x' y'.
Proof.
  intros HW Hlen Hx Hy Hx' Hy'. unfold cset, cget.
  replace ((0 <=? x) && (x <? W) && (0 <=? y) && (y <? H)) with true by lia.
  pose proof (cell_index_bound W H x y Hx Hy). pose proof (cell_index_bound W H x' y' Hx' Hy').
  rewrite nth_list_set by lia.
  destruct (Nat.eqb_spec (Z.to_nat (y' * W + x')) (Z.to_nat (y * W + x))) as [E|E].
  - apply Z2Nat.inj, cell_index_inj in E; try lia. destruct E as [-> ->].
    rewrite !Z.eqb_refl. reflexivity.
  - destruct (Z.eqb_spec x' x) as [->|]; [|reflexivity].
    destruct (Z.eqb_spec y' y) as [->|]; [contradiction|reflexivity].
Qed.

(* writing back what is there *)
Lemma cget_same W (c : canvas) x y x' y' :
  cget W c x' y' = if (x' =? x) && (y' =? y) then cget W c x y else cget W c x' y'.
Proof.
  destruct (Z.eqb_spec x' x) as [->|]; [|reflexivity]. destruct (Z.eqb_spec y' y) as [->|]; reflexivity.
Qed.

(** Invariant of a loop whose body only touches cells of "its" index: after the
    loop, every cell that belongs to an index in range has the value the body
    gives it from the ORIGINAL canvas, every other cell is unchanged. *)
Section LoopSpec.
  Variables (W H : Z).
  Hypothesis HW : 0 < W.

  Definition same_len (c c' : canvas) : Prop := length c' = length c.

  (* [owns v x y]: cell (x,y) is written (only) by iteration v;
     [val v c x y]: the value iteration v writes there, computed from canvas c,
     depending on c only through cell (x,y) itself. *)
  Variables (owns : Z -> Z -> Z -> bool) (val : Z -> canvas -> Z -> Z -> px)
            (body : Z -> canvas -> canvas).
  Hypothesis owns_unique : forall v v' x y, owns v x y = true -> owns v' x y = true -> v = v'.
  Hypothesis body_len : forall v c, length (body v c) = length c.
  Hypothesis body_spec : forall v c x y,
    length c = Z.to_nat (W * H) -> 0 <= x < W -> 0 <= y < H ->
    cget W (body v c) x y = if owns v x y then val v c x y else cget W c x y.
  Hypothesis val_local : forall v c c' x y,
    cget W c x y = cget W c' x y -> val v c x y = val v c' x y.

  Lemma loop_spec n : forall lo c x y,
    length c = Z.to_nat (W * H) -> 0 <= x < W -> 0 <= y < H ->
    length (loop n lo body c) = length c /\
    cget W (loop n lo body c) x y =
      match find (fun v => owns v x y) (map (fun k => lo + Z.of_nat k) (seq 0 n)) with
      | Some v => val v c x y
      | None => cget W c x y
      end.
  Proof.
    induction n as [|n IH]; intros lo c x y Hlen Hx Hy; [split; reflexivity|].
    cbn [loop]. destruct (IH (lo + 1) (body lo c) x y ltac:(rewrite body_len; exact Hlen) Hx Hy) as [Hl Hc].
    split; [rewrite Hl; apply body_len|].
    assert (Hlist : map (fun k => lo + Z.of_nat k) (seq 0 (S n)) =
                    lo :: map (fun k => lo + 1 + Z.of_nat k) (seq 0 n)).
    { cbn [seq map]. f_equal; [lia|]. rewrite <- seq_shift, map_map. apply map_ext. intros k. lia. }
    rewrite Hlist, Hc. cbn [find].
    destruct (owns lo x y) eqn:Eo.
    - (* this iteration owns the cell: no later one does *)
      destruct (find (fun v => owns v x y) (map (fun k => lo + 1 + Z.of_nat k) (seq 0 n))) as [v|] eqn:Ef.
      + exfalso. apply find_some in Ef as [Hin Hv]. apply in_map_iff in Hin as (k & <- & _).
        assert (lo = lo + 1 + Z.of_nat k) by (eapply owns_unique; eassumption). lia.
      + rewrite body_spec by assumption. rewrite Eo. reflexivity.
    - destruct (find (fun v => owns v x y) (map (fun k => lo + 1 + Z.of_nat k) (seq 0 n))) as [v|] eqn:Ef.
      + apply val_local. rewrite body_spec by assumption. rewrite Eo. reflexivity.
      + rewrite body_spec by assumption. rewrite Eo. reflexivity.
  Qed.
End LoopSpec.

Lemma loop_length n : forall v (body : Z -> canvas -> canvas) c,
  (forall v c, length (body v c) = length c) -> length (loop n v body c) = length c.
Proof. induction n as [|n IH]; intros v body c Hb; [reflexivity|]. cbn [loop]. rewrite IH by exact Hb. apply Hb. Qed.

Lemma canvas_ext W H (c c' : canvas) : 0 < W -> 0 <= H ->
  length c = Z.to_nat (W * H) -> length c' = Z.to_nat (W * H) ->
  (forall x y, 0 <= x < W -> 0 <= y < H -> cget W c x y = cget W c' x y) -> c = c'.
Proof.
  intros HW HH Hl Hl' Hext. rewrite <- (tab_cget W H c HW HH Hl), <- (tab_cget W H c' HW HH Hl').
  apply tab_ext; [exact HW|]. exact Hext.
Qed.

Lemma intersect_canvas_bounds r W H : 0 < W -> 0 < H ->
  let r' := intersect r (canvas_bounds W H) in
  0 <= rx0 r' /\ rx1 r' <= W /\ 0 <= ry0 r' /\ ry1 r' <= H.
Proof.
  intros HW HH. unfold intersect, canvas_bounds, rect_empty. cbn [rx0 ry0 rx1 ry1].
  destruct ((_ <=? _) || (_ <=? _)); cbn [rx0 ry0 rx1 ry1]; lia.
Qed.

Lemma for_range_id lo hi c : for_range lo hi (fun _ c0 => c0) c = c.
Proof. unfold for_range. induction (Z.to_nat (hi - lo)) in lo |- *; cbn [loop]; auto. Qed.

Lemma for_range_ext lo hi body body' c :
  (forall i c0, body i c0 = body' i c0) -> for_range lo hi body c = for_range lo hi body' c.
Proof.
  intros E. unfold for_range.
  induction (Z.to_nat (hi - lo)) in lo, c |- *; cbn [loop]; [reflexivity|]. rewrite E. auto.
Qed.

(** One cell, read by [get], watched through a loop.  Iteration [i] leaves it as it is unless
    [i = k]; iteration [k] sets it to [val] of the canvas it finds.  [val] looks at the watched
    cell only, which no earlier iteration has touched, so it can be taken of the canvas the
    loop starts from. *)
Lemma for_range_one_cell (len : nat) (get val : canvas -> px) (k : Z) body lo hi c :
  (forall c0 c1, get c0 = get c1 -> val c0 = val c1) ->
  (forall i c0, lo <= i < hi -> length c0 = len ->
     length (body i c0) = len /\ get (body i c0) = if i =? k then val c0 else get c0) ->
  length c = len ->
  length (for_range lo hi body c) = len /\
  get (for_range lo hi body c) = if (lo <=? k) && (k <? hi) then val c else get c.
Proof.
  intros Hloc. unfold for_range. remember (Z.to_nat (hi - lo)) as n eqn:En.
  revert lo c En. induction n as [|n IH]; intros lo c En Hb Hc; cbn [loop].
  - split; [exact Hc|]. replace ((lo <=? k) && (k <? hi)) with false by lia. reflexivity.
  - destruct (Hb lo c ltac:(lia) Hc) as [Hl1 Hg1].
    destruct (IH (lo + 1) (body lo c)) as [Hl Hg]; [lia|intros i c0 Hi; apply Hb; lia|exact Hl1|].
    split; [exact Hl|]. rewrite Hg, Hg1. destruct (Z.eqb_spec lo k) as [->|Hne].
    + replace ((k + 1 <=? k) && (k <? hi)) with false by lia.
      replace ((k <=? k) && (k <? hi)) with true by lia. reflexivity.
    + rewrite (Hloc (body lo c) c) by exact Hg1.
      replace (lo + 1 <=? k) with (lo <=? k) by lia. reflexivity.
Qed.

(** Nested loops in which iteration (x,y) changes cell (x,y) only, to a value [v] computed from
    what the cell held: the result is the starting canvas with [v] applied inside the box. *)
Theorem cell_loops_tab W H x0 x1 y0 y1 (v : Z -> Z -> px -> px) (step : Z -> Z -> canvas -> canvas) c :
  0 < W -> 0 <= H -> length c = Z.to_nat (W * H) ->
  0 <= x0 -> x1 <= W -> 0 <= y0 -> y1 <= H ->
  (forall y x c0, length (step y x c0) = length c0) ->
  (forall y x c0 x' y', x0 <= x < x1 -> y0 <= y < y1 -> length c0 = Z.to_nat (W * H) ->
     0 <= x' < W -> 0 <= y' < H ->
     cget W (step y x c0) x' y' =
       if (x' =? x) && (y' =? y) then v x y (cget W c0 x y) else cget W c0 x' y') ->
  for_range y0 y1 (fun y c0 => for_range x0 x1 (step y) c0) c =
  tab W H (fun x y => if (x0 <=? x) && (x <? x1) && (y0 <=? y) && (y <? y1)
                      then v x y (cget W c x y) else cget W c x y).
Proof.
  intros HW HH Hlen Bx0 Bx1 By0 By1 Hsl Hs. apply (canvas_ext W H); try assumption.
  - unfold for_range. rewrite loop_length; [exact Hlen|]. intros y c0. apply loop_length, Hsl.
  - apply tab_length.
  - intros x' y' Hx' Hy'. rewrite cget_tab by assumption.
    set (get := fun c0 : canvas => cget W c0 x' y').
    (* rows: only row y' touches the cell; inside a row: only column x' does *)
    destruct (for_range_one_cell (Z.to_nat (W * H)) get
                (fun c0 => if (x0 <=? x') && (x' <? x1) then v x' y' (get c0) else get c0) y'
                (fun y (c0 : canvas) => for_range x0 x1 (step y) c0) y0 y1 c) as [_ Hc].
    + intros c0 c1 E. rewrite E. reflexivity.
    + intros y c0 Hy Hl0.
      destruct (for_range_one_cell (Z.to_nat (W * H)) get
                  (fun c1 => if y =? y' then v x' y' (get c1) else get c1) x' (step y) x0 x1 c0)
        as [Hl Hr].
      * intros c1 c2 E. rewrite E. reflexivity.
      * intros x c1 Hx Hl1. split; [rewrite Hsl; exact Hl1|]. unfold get.
        rewrite Hs, (Z.eqb_sym x' x), (Z.eqb_sym y' y) by (assumption || lia).
        destruct (Z.eqb_spec x x') as [->|]; [|reflexivity].
        destruct (Z.eqb_spec y y') as [->|]; reflexivity.
      * exact Hl0.
      * split; [exact Hl|]. rewrite Hr. destruct (y =? y'), ((x0 <=? x') && (x' <? x1)); reflexivity.
    + exact Hlen.
    + unfold get in Hc. cbv beta in Hc. rewrite Hc, <- andb_assoc.
      destruct ((x0 <=? x') && (x' <? x1)), ((y0 <=? y') && (y' <? y1)); reflexivity.
Qed.

Theorem composite_loops_eq W H c f :
  wf_dims W H -> wf_frame f -> wf_canvas W H c ->
  composite_loops W H c f = composite_impl W H c f.
Proof.
  (* a skipped row is a row whose cells are all skipped: with the row test moved into the cell
     step, the loops are an instance of [cell_loops_tab] *)
  intros (HW & HH & _) _ [Hlen _]. unfold composite_loops, composite_impl.
  set (r := intersect (go_bounds f) (canvas_bounds W H)).
  destruct (rect_empty r); [reflexivity|].
  destruct (intersect_canvas_bounds (go_bounds f) W H ltac:(lia) ltac:(lia)) as (Bx0 & Bx1 & By0 & By1).
  fold r in Bx0, Bx1, By0, By1.
  set (skipy := fun y => (wrap64 (y - fy f) <? 0) || (fh f <=? wrap64 (y - fy f))).
  set (skipx := fun x => (wrap64 (x - fx f) <? 0) || (fw f <=? wrap64 (x - fx f))).
  set (src := fun x y => fget f (wrap64 (x - fx f)) (wrap64 (y - fy f))).
  set (step := fun y x c1 =>
    if skipy y then c1 else if skipx x then c1 else
    if fblend_none f then cset W H c1 x y (src x y)
    else cset W H c1 x y (blend_impl (src x y) (cget W c1 x y))).
  rewrite (for_range_ext _ _ _ (fun y c0 => for_range (rx0 r) (rx1 r) (step y) c0))
    by (intros y c0; unfold step; fold (skipy y); destruct (skipy y);
        [symmetry; apply for_range_id|reflexivity]).
  rewrite (cell_loops_tab W H _ _ _ _
             (fun x y p => if skipy y || skipx x then p
                           else if fblend_none f then src x y else blend_impl (src x y) p) step);
    try lia.
  - apply tab_ext; [lia|]. intros x y _ _. unfold in_rect. fold (skipy y) (skipx x) (src x y).
    destruct ((rx0 r <=? x) && (x <? rx1 r) && (ry0 r <=? y) && (y <? ry1 r)), (skipy y), (skipx x);
      reflexivity.
  - intros y x c0. unfold step.
    destruct (skipy y), (skipx x), (fblend_none f); try reflexivity; apply cset_length.
  - intros y x c0 x' y' Hx Hy Hl0 Hx' Hy'. unfold step.
    destruct (skipy y); [apply cget_same|]. destruct (skipx x); [apply cget_same|]. cbn [orb].
    destruct (fblend_none f); apply cget_cset; lia.
Qed.

Theorem fill_loops_eq W H c r :
  wf_dims W H -> length c = Z.to_nat (W * H) -> fill_loops W H c r = fill_impl W H c r.
Proof.
  intros (HW & HH & _) Hlen.
  destruct (intersect_canvas_bounds r W H ltac:(lia) ltac:(lia)) as (Bx0 & Bx1 & By0 & By1).
  apply (cell_loops_tab W H _ _ _ _ (fun _ _ _ => px0) (fun y x c0 => cset W H c0 x y px0)); try lia.
  - intros y x c0. apply cset_length.
  - intros y x c0 x' y' Hx Hy Hl0 Hx' Hy'. apply cget_cset; lia.
Qed.

Definition next_frame_loops (W H : Z) (first : bool) (f : frame) (st : dstate) : canvas * dstate :=
  let key := is_key W H first f st in
  let c0 := if key then blank W H else prevd st in          (* clearCanvas / copy(prevFrameDisposed) *)
  let c1 := composite_loops W H c0 f in                      (* compositeFrame *)
  let pd := if fdispose_bg f then fill_loops W H c1 (go_bounds f) else c1 in   (* copy + applyDispose *)
  (c1, mkd c1 pd key (fdispose_bg f) (go_bounds f)).

Fixpoint impl_go_loops (W H : Z) (first : bool) (st : dstate) (fs : list frame) : list canvas :=
  match fs with
  | [] => []
  | f :: fs' =>
      let '(snap, st') := next_frame_loops W H first f st in
      snap :: impl_go_loops W H false st' fs'
  end.

Definition impl_run_loops (W H : Z) (fs : list frame) : list canvas :=
  impl_go_loops W H true (dinit W H) fs.

Lemma wf_fill_impl W H c r : 0 < W -> wf_canvas W H c -> wf_canvas W H (fill_impl W H c r).
Proof.
  intros HW [_ Hc]. unfold fill_impl. apply wf_canvas_tab; [exact HW|]. intros x y Hx Hy.
  destruct (in_rect _ x y); [apply wf_px0|apply Hc; assumption].
Qed.

Lemma next_frame_loops_eq W H first f st :
  wf_dims W H -> wf_frame f -> wf_canvas W H (prevd st) ->
  next_frame_loops W H first f st = next_frame W H first f st /\
  wf_canvas W H (prevd (snd (next_frame W H first f st))).
Proof.
  intros Hd Hf Hp. pose proof Hd as (HW & HH & HA).
  unfold next_frame_loops, next_frame.
  set (c0 := if is_key W H first f st then blank W H else prevd st).
  assert (Hc0 : wf_canvas W H c0) by (unfold c0; destruct (is_key _ _ _ _ _); [apply wf_blank; lia|exact Hp]).
  rewrite (composite_loops_eq W H c0 f Hd Hf Hc0).
  assert (Hc1 : wf_canvas W H (composite_impl W H c0 f)).
  { rewrite (composite_impl_eq W H c0 f Hd Hf Hc0). apply wf_composite; [lia|exact Hc0|apply (wf_pix f Hf)]. }
  rewrite (fill_loops_eq W H _ (go_bounds f) Hd (proj1 Hc1)).
  split; [reflexivity|]. cbn [snd prevd].
  destruct (fdispose_bg f); [apply wf_fill_impl; [lia|exact Hc1]|exact Hc1].
Qed.

Lemma impl_go_loops_eq W H fs : forall first st,
  wf_dims W H -> Forall wf_frame fs -> wf_canvas W H (prevd st) ->
  impl_go_loops W H first st fs = impl_go W H first st fs.
Proof.
  induction fs as [|f fs IH]; intros first st Hd Hwf Hp; [reflexivity|].
  inversion Hwf as [|? ? Hf Hwf']; subst. cbn [impl_go_loops impl_go].
  destruct (next_frame_loops_eq W H first f st Hd Hf Hp) as [E Hp'].
  rewrite E. destruct (next_frame W H first f st) as [snap st'] eqn:En. cbn [snd] in Hp'.
  f_equal. apply IH; assumption.
Qed.

Theorem animdec_loops_refine_spec W H fs :
  wf_dims W H -> Forall wf_frame fs -> impl_run_loops W H fs = spec_run W H fs.
Proof.
  intros Hd Hwf. unfold impl_run_loops. rewrite impl_go_loops_eq; try assumption.
  - apply animdec_refines_spec; assumption.
  - cbn. apply wf_blank. destruct Hd; lia.
Qed.
