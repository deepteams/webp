(** Proofs about the ALPH codec model: every prediction filter is inverted
    exactly by its unfilter, for every plane; the chunk codec round-trips for
    every method / filter / fallback; quantisation yields at most the requested
    number of levels. *)
From Coq Require Import List ZArith Lia Bool ZifyBool.
From Webp Require Import Base.Res Alpha.AlphaModel.
Import ListNotations.
Open Scope Z_scope.

Definition is_byte (b : Z) : Prop := 0 <= b < 256.
Definition row_ok (w : nat) (r : list Z) : Prop := length r = w /\ Forall is_byte r.
Definition wf_plane (w : nat) (rs : plane) : Prop := Forall (row_ok w) rs.

Lemma b8_byte z : is_byte (b8 z).
Proof. apply Z.mod_pos_bound. reflexivity. Qed.

Lemma b8_cancel_sub a c : is_byte a -> b8 (b8 (a - c) + c) = a.
Proof. unfold b8. intros H. rewrite Zplus_mod_idemp_l, Z.sub_add. apply Z.mod_small, H. Qed.

Lemma clip8_byte t : is_byte t -> clip8 t = t.
Proof. unfold is_byte, clip8. intros H. destruct (Z.ltb_spec t 0); [lia|]. destruct (Z.ltb_spec 255 t); lia. Qed.

Lemma hd_byte r : Forall is_byte r -> is_byte (hd 0 r).
Proof. intros H. destruct r as [|a r]; cbn; [unfold is_byte; lia|]. inversion H; assumption. Qed.

Lemma row_ok_cons n x l : row_ok n l -> row_ok (S n) (b8 x :: l).
Proof. intros [L B]. split; [cbn [length]; f_equal; exact L|constructor; [apply b8_byte|exact B]]. Qed.

Lemma diffs_spec row : forall p, Forall is_byte row ->
  cumsum p (diffs p row) = row /\ row_ok (length row) (diffs p row).
Proof.
  induction row as [|a tl IH]; intros p Hb; [repeat constructor|].
  inversion Hb as [|? ? Ha Htl]; subst. destruct (IH a Htl) as [E O]. cbn [diffs cumsum length].
  rewrite (b8_cancel_sub a p Ha), E. split; [reflexivity|apply row_ok_cons, O].
Qed.

Lemma sub_rows_spec r : forall prev, Forall is_byte r -> (length r <= length prev)%nat ->
  add_rows (sub_rows r prev) prev = r /\ row_ok (length r) (sub_rows r prev).
Proof.
  induction r as [|a tl IH]; intros prev Hb Hlen; [destruct prev; repeat constructor|].
  destruct prev as [|t ptl]; [inversion Hlen|].
  inversion Hb as [|? ? Ha Htl]; subst. destruct (IH ptl Htl (le_S_n _ _ Hlen)) as [E O].
  cbn [sub_rows add_rows length].
  rewrite (b8_cancel_sub a t Ha), E. split; [reflexivity|apply row_ok_cons, O].
Qed.

Lemma grad_tail_spec src : forall prev left topleft,
  Forall is_byte src -> (length src <= length prev)%nat ->
  grad_u_go left topleft (grad_f_tail left topleft src prev) prev = src /\
  row_ok (length src) (grad_f_tail left topleft src prev).
Proof.
  induction src as [|s stl IH]; intros prev left topleft Hb Hlen; [destruct prev; repeat constructor|].
  destruct prev as [|t ptl]; [inversion Hlen|].
  inversion Hb as [|? ? Hs Htl]; subst. destruct (IH ptl s t Htl (le_S_n _ _ Hlen)) as [E O].
  cbn [grad_f_tail grad_u_go length].
  rewrite (b8_cancel_sub s _ Hs), E. split; [reflexivity|apply row_ok_cons, O].
Qed.

(* Over a byte row above, x = 0 of the forward gradient row is the x >= 1 loop
   started as the inverse starts it, with left = topleft = prev[0]. *)
Lemma grad_f_row_tail src prev : Forall is_byte prev ->
  grad_f_row src prev = grad_f_tail (hd 0 prev) (hd 0 prev) src prev.
Proof.
  intros Hp. destruct src as [|s stl], prev as [|t ptl]; try reflexivity.
  cbn [grad_f_row grad_f_tail hd]. rewrite Z.add_simpl_r, (clip8_byte t (hd_byte _ Hp)). reflexivity.
Qed.

Lemma grad_row_spec src prev :
  Forall is_byte src -> Forall is_byte prev -> (length src <= length prev)%nat ->
  grad_u_row (grad_f_row src prev) prev = src /\ row_ok (length src) (grad_f_row src prev).
Proof.
  intros Hs Hp Hlen. unfold grad_u_row. rewrite (grad_f_row_tail src prev Hp).
  apply grad_tail_spec; assumption.
Qed.

Definition inverse_on (w : nat) (F U : plane -> plane) : Prop :=
  forall rs, wf_plane w rs -> U (F rs) = rs /\ wf_plane w (F rs) /\ length (F rs) = length rs.

(* The three row loops of alpha.go have one shape: a row is coded against a state
   [s] left by the row above it ([st] of that row, once decoded).  filt_h, filt_v_rest
   and filt_g_rest with their inverses unfold to [filt_rows] / [unfilt_rows]
   (st = first pixel for h, the row itself for v and g). *)
Section Rows.
  Variables (St : Type) (st : list Z -> St) (rowf rowu : list Z -> St -> list Z).

  Fixpoint filt_rows (s : St) (rs : plane) : plane :=
    match rs with
    | [] => []
    | r :: tl => rowf r s :: filt_rows (st r) tl
    end.

  Fixpoint unfilt_rows (s : St) (ds : plane) : plane :=
    match ds with
    | [] => []
    | d :: tl => let r := rowu d s in r :: unfilt_rows (st r) tl
    end.

  Variables (w : nat) (Inv : St -> Prop).
  Hypothesis st_ok : forall r, row_ok w r -> Inv (st r).
  Hypothesis row_spec : forall r s, row_ok w r -> Inv s -> rowu (rowf r s) s = r /\ row_ok w (rowf r s).

  Lemma rows_spec s : Inv s -> inverse_on w (filt_rows s) (unfilt_rows s).
  Proof.
    intros Hs rs. revert s Hs. induction rs as [|r tl IH]; intros s Hs Hwf; [repeat constructor|].
    inversion Hwf as [|? ? Hr Htl]; subst. cbn [filt_rows unfilt_rows length].
    destruct (row_spec r s Hr Hs) as [-> Hd]. destruct (IH (st r) (st_ok r Hr) Htl) as (-> & Hw & ->).
    split; [reflexivity|split; [constructor; assumption|reflexivity]].
  Qed.
End Rows.

Lemma filt_h_spec w p : inverse_on w (filt_h p) (unfilt_h p).
Proof.
  refine (rows_spec Z (hd 0) (fun r p => diffs p r) (fun d p => cumsum p d) w (fun _ => True) _ _ p I);
    [trivial|].
  intros r s [<- Hr] _. apply diffs_spec, Hr.
Qed.

Lemma filt_v_rest_spec w prev : row_ok w prev -> inverse_on w (filt_v_rest prev) (unfilt_v_rest prev).
Proof.
  refine (rows_spec _ (fun r => r) sub_rows add_rows w (row_ok w) _ _ prev); [trivial|].
  intros r s [<- Hr] [Hl _]. apply sub_rows_spec; [exact Hr|rewrite Hl; constructor].
Qed.

Lemma filt_g_rest_spec w prev : row_ok w prev -> inverse_on w (filt_g_rest prev) (unfilt_g_rest prev).
Proof.
  refine (rows_spec _ (fun r => r) grad_f_row grad_u_row w (row_ok w) _ _ prev); [trivial|].
  intros r s [<- Hr] [Hl Hs]. apply grad_row_spec; [exact Hr|exact Hs|rewrite Hl; constructor].
Qed.

(* filt_v and filt_g unfold to this: row 0 is coded horizontally, the rest by the row loop. *)
Lemma top_spec w (F U : list Z -> plane -> plane) :
  (forall prev, row_ok w prev -> inverse_on w (F prev) (U prev)) ->
  inverse_on w (fun rs => match rs with [] => [] | r :: tl => diffs 0 r :: F r tl end)
               (fun ds => match ds with [] => [] | d :: tl => let r := cumsum 0 d in r :: U r tl end).
Proof.
  intros HFU [|r tl] Hwf; [repeat constructor|].
  inversion Hwf as [|? ? Hr Htl]; subst. destruct Hr as [<- Hr].
  destruct (diffs_spec r 0 Hr) as [E Hd]. cbv beta iota zeta. cbn [length]. rewrite E.
  destruct (HFU r (conj eq_refl Hr) tl Htl) as (-> & Hw & ->).
  split; [reflexivity|split; [constructor; assumption|reflexivity]].
Qed.

Lemma filter_spec w f : inverse_on w (apply_filter f) (apply_unfilter f).
Proof.
  intros rs Hwf. unfold apply_filter, apply_unfilter.
  destruct (f =? 1); [exact (filt_h_spec w 0 rs Hwf)|].
  destruct (f =? 2); [exact (top_spec w _ _ (filt_v_rest_spec w) rs Hwf)|].
  destruct (f =? 3); [exact (top_spec w _ _ (filt_g_rest_spec w) rs Hwf)|].
  repeat constructor. exact Hwf.
Qed.

Theorem unfilter_filter w rs f : wf_plane w rs -> apply_unfilter f (apply_filter f rs) = rs.
Proof. intros Hwf. apply (filter_spec w f rs Hwf). Qed.

Lemma chunk_concat w rs : (1 <= w)%nat -> wf_plane w rs -> chunk (length rs) w (concat rs) = rs.
Proof.
  intros Hw. induction rs as [|r tl IH]; intros Hwf; [reflexivity|].
  inversion Hwf as [|? ? [Hl Hr] Htl]; subst. cbn [length chunk concat].
  destruct (r ++ concat tl) eqn:E.
  { destruct r; [inversion Hw|discriminate]. }
  rewrite <- E. rewrite firstn_app, Nat.sub_diag, firstn_all. cbn [firstn]. rewrite app_nil_r.
  rewrite skipn_app, Nat.sub_diag, skipn_all. cbn [skipn app]. f_equal. apply IH. exact Htl.
Qed.

Lemma concat_ok w rs : wf_plane w rs -> row_ok (length rs * w) (concat rs).
Proof.
  induction rs as [|r tl IH]; intros Hwf; [repeat constructor|].
  inversion Hwf as [|? ? [Hl Hr] Htl]; subst. destruct (IH Htl) as [L B]. cbn [concat].
  split; [rewrite app_length, L; reflexivity|apply Forall_app; split; assumption].
Qed.

Lemma filtered_flat rs w h f : 1 <= w -> wf_plane (Z.to_nat w) rs -> Z.of_nat (length rs) = h ->
  Z.of_nat (length (concat (apply_filter f rs))) = w * h /\ Forall is_byte (concat (apply_filter f rs)).
Proof.
  intros Hw Hwf Hlen. destruct (filter_spec _ f rs Hwf) as (_ & Hfw & Hfl).
  destruct (concat_ok _ _ Hfw) as [L B]. split; [rewrite L, Hfl; lia|exact B].
Qed.

Lemma unfilter_rows rs w h f : 1 <= w -> wf_plane (Z.to_nat w) rs -> Z.of_nat (length rs) = h ->
  apply_unfilter f (rows_of w h (concat (apply_filter f rs))) = rs.
Proof.
  intros Hw Hwf Hlen. destruct (filter_spec _ f rs Hwf) as (E & Hfw & Hfl).
  unfold rows_of. replace (Z.to_nat h) with (length (apply_filter f rs)) by lia.
  rewrite chunk_concat by (lia || exact Hfw). exact E.
Qed.

Lemma decode_hdr ldec hd payload w h : 1 <= w -> 1 <= h -> w * h <= 2^30 ->
  decode ldec (hd :: payload) w h =
  (raw <- (if hd mod 4 =? 0 then
             if Z.of_nat (length payload) <? w * h then Err 4
             else Ok (firstn (Z.to_nat (w * h)) payload)
           else if hd mod 4 =? 1 then
             match ldec w h payload with Some g => Ok g | None => Err 5 end
           else Err 6) ;;
   Ok (concat (apply_unfilter ((hd / 4) mod 4) (rows_of w h raw)))).
Proof.
  intros Hw Hh Ha. unfold decode.
  destruct (Z.leb_spec w 0); [lia|]. destruct (Z.leb_spec h 0); [lia|].
  destruct (Z.ltb_spec (2^30) (w * h)); [lia|]. reflexivity.
Qed.

Lemma hdr_fields c f r16 : 0 <= c < 4 -> 0 <= f <= 3 -> r16 = 0 \/ r16 = 16 ->
  (c + 4 * f + r16) mod 4 = c /\ ((c + 4 * f + r16) / 4) mod 4 = f.
Proof. intros Hc Hf Hr. Z.div_mod_to_equations. lia. Qed.

Lemma decode_filtered ldec rs w h f r16 c payload :
  1 <= w -> 1 <= h -> w * h <= 2^30 ->
  wf_plane (Z.to_nat w) rs -> Z.of_nat (length rs) = h -> 0 <= f <= 3 -> r16 = 0 \/ r16 = 16 ->
  c = 0 /\ payload = concat (apply_filter f rs) \/
  c = 1 /\ ldec w h payload = Some (concat (apply_filter f rs)) ->
  decode ldec ((c + 4 * f + r16) :: payload) w h = Ok (concat rs).
Proof.
  intros Hw Hh Ha Hwf Hlen Hf Hr Hp.
  destruct (hdr_fields c f r16 ltac:(lia) Hf Hr) as [Ec Ef].
  rewrite decode_hdr, Ec, Ef by assumption.
  destruct Hp as [[-> ->] | [-> ->]]; cbn [Z.eqb Pos.eqb].
  1: destruct (filtered_flat rs w h f Hw Hwf Hlen) as [L _];
     rewrite <- L, Z.ltb_irrefl, Nat2Z.id, firstn_all.
  all: cbn [bind]; rewrite (unfilter_rows rs w h f Hw Hwf Hlen); reflexivity.
Qed.

Section CodecProofs.
  Variable lenc : Z -> Z -> Z -> Z -> list Z -> list Z.
  Variable ldec : Z -> Z -> list Z -> option (list Z).
  (** Property C01 for the green-channel image (lossless.Encode then DecodeVP8L). *)
  Hypothesis ldec_lenc : forall q m w h p,
    Z.of_nat (length p) = w * h -> Forall is_byte p -> ldec w h (lenc q m w h p) = Some p.

  Theorem alpha_chunk_roundtrip rs w h method filter reduce effort :
    1 <= w -> 1 <= h -> w * h <= 2^30 ->
    wf_plane (Z.to_nat w) rs -> Z.of_nat (length rs) = h ->
    (method = 0 \/ method = 1) -> 0 <= filter <= 3 ->
    decode ldec (encode_internal lenc rs w h method filter reduce effort) w h = Ok (concat rs).
  Proof.
    intros Hw Hh Harea Hwf Hlen Hm Hf. unfold encode_internal.
    set (src := concat (apply_filter filter rs)). set (r16 := if reduce then 16 else 0).
    assert (Hr : r16 = 0 \/ r16 = 16) by (destruct reduce; auto).
    (* the raw payload serves method 0 and the fallback of method 1 *)
    assert (Hraw : decode ldec ((0 + 4 * filter + r16) :: src) w h = Ok (concat rs))
      by (apply decode_filtered; auto).
    destruct Hm as [-> | ->]; cbn [Z.eqb Pos.eqb]; [exact Hraw|].
    destruct (w * h <? _); [exact Hraw|].
    apply decode_filtered; try assumption. right. split; [reflexivity|].
    apply ldec_lenc; apply (filtered_flat rs w h filter Hw Hwf Hlen).
  Qed.

  (** Whatever filter the size competition of applyFiltersAndEncode picks. *)
  Theorem alpha_exact_any_choice rs w h method reduce effort pick :
    1 <= w -> 1 <= h -> w * h <= 2^30 ->
    wf_plane (Z.to_nat w) rs -> Z.of_nat (length rs) = h ->
    (method = 0 \/ method = 1) ->
    decode ldec (encode_with_choice lenc rs w h method reduce effort pick) w h = Ok (concat rs).
  Proof.
    intros. unfold encode_with_choice. apply alpha_chunk_roundtrip; try assumption.
    destruct (Z.leb_spec 0 pick); destruct (Z.leb_spec pick 3); cbn [andb]; lia.
  Qed.
End CodecProofs.

Theorem decode_total ldec data w h : decode ldec data w h <> Panic.
Proof.
  unfold decode. destruct data as [|hd payload]; [discriminate|].
  destruct ((w <=? 0) || (h <=? 0)); [discriminate|].
  destruct (2^30 <? w * h); [discriminate|].
  destruct (hd mod 4 =? 0).
  { destruct (Z.of_nat (length payload) <? w * h); cbn [bind]; discriminate. }
  destruct (hd mod 4 =? 1); [|cbn [bind]; discriminate].
  destruct (ldec w h payload); cbn [bind]; discriminate.
Qed.

Theorem decode_rejects_unknown_compression ldec hd payload w h :
  2 <= hd mod 4 -> 1 <= w -> 1 <= h -> w * h <= 2^30 -> exists e, decode ldec (hd :: payload) w h = Err e.
Proof.
  intros Hc Hw Hh Ha. rewrite decode_hdr by assumption.
  destruct (Z.eqb_spec (hd mod 4) 0); [lia|]. destruct (Z.eqb_spec (hd mod 4) 1); [lia|].
  cbn [bind]. eauto.
Qed.

Theorem decode_raw_truncated ldec hd payload w h :
  hd mod 4 = 0 -> 1 <= w -> 1 <= h -> w * h <= 2^30 -> Z.of_nat (length payload) < w * h ->
  exists e, decode ldec (hd :: payload) w h = Err e.
Proof.
  intros Hc Hw Hh Ha Hl. rewrite decode_hdr, Hc by assumption. cbn [Z.eqb].
  destruct (Z.ltb_spec (Z.of_nat (length payload)) (w * h)); [|lia]. cbn [bind]. eauto.
Qed.

Theorem alpha_levels_range q : 0 <= q < 100 -> 2 <= alpha_levels q <= 256.
Proof. intros H. unfold alpha_levels. destruct (Z.leb_spec q 70); Z.div_mod_to_equations; lia. Qed.

Definition zseq (n : Z) : list Z := map Z.of_nat (seq 0 (Z.to_nat n)).

(** At most [n] distinct output values, whatever the float k-means computed. *)
Theorem quantize_levels_bound qlevel centroid data n :
  (forall v, In v data -> 0 <= qlevel v < n) ->
  incl (quantize qlevel centroid data) (map centroid (zseq n)) /\
  length (map centroid (zseq n)) = Z.to_nat n.
Proof.
  intros Hq. split.
  - intros y Hy. unfold quantize in Hy. apply in_map_iff in Hy as (v & <- & Hv).
    apply in_map. unfold zseq. apply in_map_iff. exists (Z.to_nat (qlevel v)).
    specialize (Hq v Hv). split; [lia|]. apply in_seq. lia.
  - unfold zseq. rewrite !map_length, seq_length. reflexivity.
Qed.

(** Smallest and largest value are kept, under the facts the float computation is relied on for
    (checked per run, not proved): the levels of [lo] and [hi] have [lo] and [hi] as centroids,
    and every value's centroid lies between them. *)
Theorem quantize_keeps_min_max qlevel centroid data lo hi :
  In lo data -> In hi data -> (forall v, In v data -> lo <= v <= hi) ->
  centroid (qlevel lo) = lo -> centroid (qlevel hi) = hi ->
  (forall v, In v data -> lo <= centroid (qlevel v) <= hi) ->
  In lo (quantize qlevel centroid data) /\ In hi (quantize qlevel centroid data) /\
  (forall y, In y (quantize qlevel centroid data) -> lo <= y <= hi).
Proof.
  intros Hlo Hhi _ Clo Chi Hall. unfold quantize. split; [|split].
  - apply in_map_iff. exists lo. split; assumption.
  - apply in_map_iff. exists hi. split; assumption.
  - intros y Hy. apply in_map_iff in Hy as (v & <- & Hv). apply Hall, Hv.
Qed.

(** Non-vacuity: a concrete 3x3 plane round-trips through every filter. *)
Example alpha_example_plane : plane := [[0; 255; 17]; [200; 3; 128]; [255; 255; 1]].
Example alpha_example_wf : wf_plane 3 alpha_example_plane.
Proof. repeat constructor; unfold is_byte; lia. Qed.
Example alpha_example_filters :
  map (fun f => apply_unfilter f (apply_filter f alpha_example_plane)) [0; 1; 2; 3]
  = [alpha_example_plane; alpha_example_plane; alpha_example_plane; alpha_example_plane]
  /\ apply_filter 3 alpha_example_plane <> alpha_example_plane.
Proof. split; [vm_compute; reflexivity|vm_compute; discriminate]. Qed.
