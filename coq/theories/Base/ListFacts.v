(** Facts about the standard library's lists ([Forall], [Forall2], [firstn], [skipn], [nth], [nth_error], [repeat],
    [seq], [concat], [NoDup]) and about [if] that Coq 8.16 lacks; nothing here mentions a definition of the development. *)
From Coq Require Import List PeanoNat Lia.
Import ListNotations.

Lemma Forall2_length {A B} (R : A -> B -> Prop) l1 l2 : Forall2 R l1 l2 -> length l1 = length l2.
Proof. induction 1; cbn [length]; congruence. Qed.

Lemma Forall2_nth {A B} (R : A -> B -> Prop) l1 l2 d1 d2 : Forall2 R l1 l2 ->
  forall i, i < length l1 -> R (nth i l1 d1) (nth i l2 d2).
Proof.
  induction 1 as [|x y l1 l2 Hxy _ IH]; intros i Hi; [cbn in Hi; lia|].
  destruct i; cbn [nth]; [assumption|]. apply IH. cbn in Hi. lia.
Qed.

Lemma forallb_Forall {A} (f : A -> bool) (P : A -> Prop) : (forall a, f a = true -> P a) ->
  forall l, forallb f l = true -> Forall P l.
Proof. intros Hf l H. rewrite forallb_forall in H. apply Forall_forall. intros x Hx. apply Hf, H, Hx. Qed.

Lemma Forall_nth_default {A} (P : A -> Prop) (l : list A) i d : Forall P l -> P d -> P (nth i l d).
Proof.
  intros Hl Hd. destruct (Nat.lt_ge_cases i (length l)) as [Hi|Hi].
  - rewrite Forall_forall in Hl. apply Hl, nth_In, Hi.
  - rewrite nth_overflow by exact Hi. exact Hd.
Qed.

Lemma Forall_snoc {A} (P : A -> Prop) l a : Forall P (l ++ [a]) <-> Forall P l /\ P a.
Proof.
  rewrite Forall_app. split; intros [H1 H2]; split; auto.
  - inversion H2; assumption.
Qed.

Lemma Forall_combine2 {A B} (P : A -> Prop) (Q : B -> Prop) (R : A * B -> Prop) :
  (forall a b, P a -> Q b -> R (a, b)) ->
  forall (l1 : list A) (l2 : list B), Forall P l1 -> Forall Q l2 -> Forall R (combine l1 l2).
Proof.
  intros HR l1 l2 H1. revert l2. induction H1 as [|a l1 Ha _ IH]; intros l2 H2; [constructor|].
  destruct H2 as [|b l2 Hb H2]; [constructor|]. cbn [combine]. constructor; [apply HR; assumption|apply IH, H2].
Qed.

Lemma hd_skipn {A} (d : A) : forall c (l : list A), hd d (skipn c l) = nth c l d.
Proof. induction c as [|c IH]; intros [|x l]; cbn [skipn hd nth]; auto. Qed.

Lemma skipn_tail {A} : forall c (l : list A), tl (skipn c l) = skipn (S c) l.
Proof. induction c as [|c IH]; intros [|x l]; cbn [skipn tl]; try reflexivity. apply IH. Qed.

Lemma skipn_plus {A} : forall a b (l : list A), skipn a (skipn b l) = skipn (b + a) l.
Proof.
  intros a b. revert a. induction b as [|b IH]; intros a l; [reflexivity|].
  destruct l as [|x l]; [now rewrite !skipn_nil|]. cbn [skipn Nat.add]. apply IH.
Qed.

Lemma firstn_app_exact {A} (l1 l2 : list A) : firstn (length l1) (l1 ++ l2) = l1.
Proof. induction l1 as [|x l1 IH]; cbn [length app firstn]; congruence. Qed.

Lemma skipn_app_exact {A} (l1 l2 : list A) : skipn (length l1) (l1 ++ l2) = l2.
Proof. induction l1 as [|x l1 IH]; cbn [length app skipn]; [reflexivity|exact IH]. Qed.

Lemma firstn_add {A} : forall a b (l : list A), firstn (a + b) l = firstn a l ++ firstn b (skipn a l).
Proof.
  induction a as [|a IH]; intros b l; [reflexivity|]. destruct l as [|x l]; [cbn; rewrite firstn_nil; reflexivity|].
  cbn [Nat.add firstn skipn app]. f_equal. apply IH.
Qed.

Lemma firstn_app_le {A} n (l e : list A) : n <= length l -> firstn n (l ++ e) = firstn n l.
Proof. intros H. rewrite firstn_app. replace (n - length l) with 0 by lia. cbn [firstn]. apply app_nil_r. Qed.

Lemma skipn_app_lt {A} c (l e : list A) : c <= length l -> skipn c (l ++ e) = skipn c l ++ e.
Proof. intros H. rewrite skipn_app. replace (c - length l) with 0 by lia. reflexivity. Qed.

Lemma nth_firstn_lt {A} (d : A) (l : list A) : forall n i, i < n -> nth i (firstn n l) d = nth i l d.
Proof.
  induction l as [|x l IH]; intros n i Hi; [now rewrite firstn_nil|].
  destruct n as [|n]; [lia|]. destruct i as [|i]; cbn [firstn nth]; [reflexivity|]. apply IH. lia.
Qed.

Lemma nth_skipn_add {A} (d : A) (l : list A) : forall n i, nth i (skipn n l) d = nth (n + i) l d.
Proof. intros n i. rewrite <- hd_skipn, skipn_plus, hd_skipn. reflexivity. Qed.

Lemma last_nth {A} (d : A) : forall l, last l d = nth (length l - 1) l d.
Proof.
  induction l as [|a l IH]; [reflexivity|]. destruct l as [|b l]; [reflexivity|].
  change (last (a :: b :: l) d) with (last (b :: l) d). rewrite IH. cbn [length].
  replace (S (S (length l)) - 1) with (S (S (length l) - 1)) by lia. reflexivity.
Qed.

Lemma nth_map_seq {A} (g : nat -> A) d a len m : (m < len) -> nth m (map g (seq a len)) d = g (a + m).
Proof.
  intros Hm. rewrite (nth_indep _ d (g 0)), map_nth, seq_nth by (rewrite ?map_length, ?seq_length; lia). reflexivity.
Qed.

Lemma seq_shift0 : forall a n, seq a n = map (fun k => a + k) (seq 0 n).
Proof.
  intros a n. revert a. induction n as [|n IH]; intros a; cbn; [reflexivity|].
  f_equal; [lia|]. rewrite (IH (S a)), (IH 1), map_map. apply map_ext. intros; lia.
Qed.

Lemma map_seq_shift {A} b a (g : nat -> A) : map g (seq a b) = map (fun k => g (a + k)) (seq 0 b).
Proof. rewrite seq_shift0, map_map. reflexivity. Qed.

Lemma concat_length_uniform {A} (rows : list (list A)) w :
  Forall (fun r => length r = w) rows -> length (concat rows) = (length rows * w).
Proof.
  induction rows as [|r tl IH]; intros H; cbn [concat length]; [reflexivity|].
  rewrite app_length, (Forall_inv H), IH by exact (Forall_inv_tail H). lia.
Qed.

Lemma concat_nth_uniform {A} (d : A) : forall (rows : list (list A)) w y x,
  Forall (fun r => length r = w) rows -> (y < length rows) -> (x < w) ->
  nth (y * w + x) (concat rows) d = nth x (nth y rows []) d.
Proof.
  induction rows as [|r tl IH]; intros w y x H Hy Hx; [cbn in Hy; lia|].
  pose proof (Forall_inv H) as Hr. cbn beta in Hr. cbn [concat].
  destruct y as [|y].
  - cbn [Nat.mul Nat.add nth]. apply app_nth1. lia.
  - cbn [nth]. rewrite app_nth2 by lia. rewrite Hr.
    replace (S y * w + x - w) with (y * w + x) by lia.
    apply IH; [exact (Forall_inv_tail H)|cbn in Hy; lia|exact Hx].
Qed.

Lemma NoDup_app_iff {A} (l1 l2 : list A) :
  NoDup (l1 ++ l2) <-> NoDup l1 /\ NoDup l2 /\ (forall x, In x l1 -> ~ In x l2).
Proof.
  induction l1 as [|a l1 IH]; cbn.
  - split; [intros H; repeat split; [constructor|exact H|intros x []]|intros (_ & H & _); exact H].
  - split.
    + intros H. inversion H as [|? ? Hn Hd]; subst. apply IH in Hd. destruct Hd as (H1 & H2 & H3).
      split; [constructor; [intros Hin; apply Hn, in_or_app; now left|exact H1]|]. split; [exact H2|].
      intros x [<-|Hx]; [intros Hin; apply Hn, in_or_app; now right|exact (H3 x Hx)].
    + intros (H1 & H2 & H3). inversion H1 as [|? ? Hn Hd]; subst. constructor.
      * intros Hin. apply in_app_or in Hin. destruct Hin as [Hin|Hin]; [exact (Hn Hin)|exact (H3 a (or_introl eq_refl) Hin)].
      * apply IH. split; [exact Hd|]. split; [exact H2|]. intros x Hx. apply H3. now right.
Qed.

Lemma nth_error_lt {A} (l : list A) i a : nth_error l i = Some a -> i < length l.
Proof. intros H. apply nth_error_Some. congruence. Qed.

Lemma nth_error_map_inv {A B} (g : A -> B) l j b :
  nth_error (map g l) j = Some b -> exists a, nth_error l j = Some a /\ b = g a.
Proof.
  rewrite nth_error_map. destruct (nth_error l j) as [a|]; cbn; [|discriminate].
  intros H; inversion H. exists a. auto.
Qed.

Lemma map_repeat {A B} (g : A -> B) a k : map g (repeat a k) = repeat (g a) k.
Proof. induction k as [|k IH]; cbn; [reflexivity|now rewrite IH]. Qed.

Lemma nth_error_repeat_inv {A} (a b : A) n i : nth_error (repeat a n) i = Some b -> b = a.
Proof. intros H. apply nth_error_In, repeat_spec in H. exact H. Qed.

(* [lia] decides the first premise when the tests are made of Z comparisons *)
Lemma if_ext {A} (b b' : bool) (u u' w : A) :
  (b = true <-> b' = true) -> (b' = true -> u = u') -> (if b then u else w) = (if b' then u' else w).
Proof.
  intros H Hu. destruct b'; [rewrite (proj2 H eq_refl); apply Hu; reflexivity|].
  destruct b; [discriminate (proj1 H eq_refl)|reflexivity].
Qed.

Lemma if_true {A} (b : bool) (u w : A) : b = true -> (if b then u else w) = u.
Proof. intros ->. reflexivity. Qed.

Lemma if_false {A} (b : bool) (u w : A) : b = false -> (if b then u else w) = w.
Proof. intros ->. reflexivity. Qed.
