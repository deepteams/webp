(** Outcome type shared by every implementation model: a Go call either
    returns a value, returns an error, or panics (index/slice out of range,
    nil dereference).  [Panic] is a distinct outcome so that "never panics" is a
    statement about the model and not an artefact of totalisation. *)
From Coq Require Import List ZArith Lia.
Import ListNotations.

Inductive Res (A : Type) : Type :=
| Ok (a : A)
| Err (e : nat)
| Panic.
Arguments Ok {A} a.
Arguments Err {A} e.
Arguments Panic {A}.

Definition bind {A B} (r : Res A) (f : A -> Res B) : Res B :=
  match r with
  | Ok a => f a
  | Err e => Err e
  | Panic => Panic
  end.

Notation "x <- r ;; k" := (bind r (fun x => k))
  (at level 61, r at next level, right associativity).
Notation "' p <- r ;; k" := (bind r (fun p => k))
  (at level 61, p pattern, r at next level, right associativity).

Definition is_panic {A} (r : Res A) : bool :=
  match r with Panic => true | _ => false end.
Definition is_ok {A} (r : Res A) : bool :=
  match r with Ok _ => true | _ => false end.

Lemma bind_not_panic {A B} (r : Res A) (f : A -> Res B) :
  r <> Panic -> (forall a, r = Ok a -> f a <> Panic) -> bind r f <> Panic.
Proof.
  destruct r as [a|e|]; cbn; intros Hr Hf; [apply Hf; reflexivity|discriminate|congruence].
Qed.

Lemma bind_ok_inv {A B} (r : Res A) (f : A -> Res B) b :
  bind r f = Ok b -> exists a, r = Ok a /\ f a = Ok b.
Proof. destruct r as [a|e|]; cbn; intros H; try discriminate; eauto. Qed.

(** Go slice expression [s[lo:hi]] on a list: panics unless 0 <= lo <= hi <= len. *)
Definition slice {A} (l : list A) (lo hi : Z) : Res (list A) :=
  if ((0 <=? lo) && (lo <=? hi) && (hi <=? Z.of_nat (length l)))%Z%bool
  then Ok (firstn (Z.to_nat (hi - lo)) (skipn (Z.to_nat lo) l))
  else Panic.

(** Go index expression [s[i]]. *)
Definition index {A} (l : list A) (i : Z) : Res A :=
  if ((0 <=? i) && (i <? Z.of_nat (length l)))%Z%bool
  then match nth_error l (Z.to_nat i) with Some a => Ok a | None => Panic end
  else Panic.

Lemma slice_ok {A} (l : list A) lo hi :
  (0 <= lo <= hi)%Z -> (hi <= Z.of_nat (length l))%Z ->
  slice l lo hi = Ok (firstn (Z.to_nat (hi - lo)) (skipn (Z.to_nat lo) l)).
Proof.
  intros [H1 H2] H3. unfold slice.
  destruct (Z.leb_spec 0 lo); try lia.
  destruct (Z.leb_spec lo hi); try lia.
  destruct (Z.leb_spec hi (Z.of_nat (length l))); try lia. reflexivity.
Qed.

Lemma slice_inv {A} (l : list A) lo hi s :
  slice l lo hi = Ok s ->
  (0 <= lo)%Z /\ (lo <= hi)%Z /\ (hi <= Z.of_nat (length l))%Z /\
  s = firstn (Z.to_nat (hi - lo)) (skipn (Z.to_nat lo) l).
Proof.
  unfold slice.
  destruct (Z.leb_spec 0 lo); cbn [andb]; try discriminate.
  destruct (Z.leb_spec lo hi); cbn [andb]; try discriminate.
  destruct (Z.leb_spec hi (Z.of_nat (length l))); cbn [andb]; try discriminate.
  intros [= <-]. auto.
Qed.

(** [n] is the list's length under whatever name the caller's model gives it. *)
Lemma slice_in_range {A} (l : list A) lo hi n :
  n = Z.of_nat (length l) -> (0 <= lo <= hi)%Z -> (hi <= n)%Z ->
  exists s, slice l lo hi = Ok s /\ Z.of_nat (length s) = (hi - lo)%Z.
Proof.
  intros -> H1 H2. rewrite (slice_ok l lo hi H1 H2). eexists. split; [reflexivity|].
  rewrite firstn_length, skipn_length. lia.
Qed.

Lemma slice_Forall {A} (P : A -> Prop) (l : list A) lo hi s :
  Forall P l -> slice l lo hi = Ok s -> Forall P s.
Proof.
  intros Hl H. apply slice_inv in H. destruct H as (_ & _ & _ & ->).
  rewrite Forall_forall in *. intros x Hx. apply Hl.
  rewrite <- (firstn_skipn (Z.to_nat lo) l). apply in_or_app. right.
  rewrite <- (firstn_skipn (Z.to_nat (hi - lo)) (skipn (Z.to_nat lo) l)). apply in_or_app. left. exact Hx.
Qed.
Lemma index_ok {A} (l : list A) i :
  (0 <= i < Z.of_nat (length l))%Z -> exists a, index l i = Ok a.
Proof.
  intros H. unfold index.
  destruct (Z.leb_spec 0 i); try lia.
  destruct (Z.ltb_spec i (Z.of_nat (length l))); try lia. cbn.
  destruct (nth_error l (Z.to_nat i)) eqn:E; eauto.
  apply nth_error_None in E. lia.
Qed.
