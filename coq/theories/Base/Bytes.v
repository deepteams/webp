(** Bytes as [Z] in [0,256); little-endian 16/24/32-bit fields as the RIFF
    container uses them (binary.LittleEndian.Uint32, putLE24, ...). *)
From Coq Require Import List ZArith Lia Bool.
Import ListNotations.
Open Scope Z_scope.

(** [lia] eliminates [/] and [mod] by constants before it runs; the setting is global, so
    every file that requires this one inherits it. *)
Ltac Zify.zify_post_hook ::= Z.div_mod_to_equations.

Definition byte := Z.
Definition is_byte (b : Z) : Prop := 0 <= b < 256.
Definition bytes_ok (l : list Z) : Prop := Forall is_byte l.

Definition le16 (v : Z) : list Z := [v mod 256; (v / 256) mod 256].
Definition le24 (v : Z) : list Z := [v mod 256; (v / 256) mod 256; (v / 65536) mod 256].
Definition le32 (v : Z) : list Z :=
  [v mod 256; (v / 256) mod 256; (v / 65536) mod 256; (v / 16777216) mod 256].

Definition rd16 (l : list Z) : Z :=
  match l with a :: b :: _ => a + 256 * b | _ => 0 end.
Definition rd24 (l : list Z) : Z :=
  match l with a :: b :: c :: _ => a + 256 * b + 65536 * c | _ => 0 end.
Definition rd32 (l : list Z) : Z :=
  match l with a :: b :: c :: d :: _ => a + 256 * b + 65536 * c + 16777216 * d | _ => 0 end.

Lemma le16_length v : length (le16 v) = 2%nat. Proof. reflexivity. Qed.
Lemma le24_length v : length (le24 v) = 3%nat. Proof. reflexivity. Qed.
Lemma le32_length v : length (le32 v) = 4%nat. Proof. reflexivity. Qed.

Lemma le16_bytes v : bytes_ok (le16 v).
Proof. unfold le16, bytes_ok, is_byte. repeat constructor; lia. Qed.
Lemma le24_bytes v : bytes_ok (le24 v).
Proof. unfold le24, bytes_ok, is_byte. repeat constructor; lia. Qed.
Lemma le32_bytes v : bytes_ok (le32 v).
Proof. unfold le32, bytes_ok, is_byte. repeat constructor; lia. Qed.

Lemma rd16_le16 v tl : 0 <= v < 65536 -> rd16 (le16 v ++ tl) = v.
Proof. intros H. unfold le16, rd16. cbn [app]. lia. Qed.
Lemma rd24_le24 v tl : 0 <= v < 16777216 -> rd24 (le24 v ++ tl) = v.
Proof. intros H. unfold le24, rd24. cbn [app]. lia. Qed.
Lemma rd32_le32 v tl : 0 <= v < 4294967296 -> rd32 (le32 v ++ tl) = v.
Proof. intros H. unfold le32, rd32. cbn [app]. lia. Qed.

(** Bytes determine their little-endian fields. *)
Lemma le32_rd32 a b c d : is_byte a -> is_byte b -> is_byte c -> is_byte d ->
  le32 (rd32 [a; b; c; d]) = [a; b; c; d].
Proof. unfold is_byte, le32, rd32. intros Ha Hb Hc Hd. repeat f_equal; lia. Qed.

Lemma le24_rd24 a b c : is_byte a -> is_byte b -> is_byte c ->
  le24 (rd24 [a; b; c]) = [a; b; c].
Proof. unfold is_byte, le24, rd24. intros Ha Hb Hc. repeat f_equal; lia. Qed.

Lemma le32_byte f : is_byte f -> le32 f = [f; 0; 0; 0].
Proof.
  intros H. unfold le32, is_byte in *. rewrite (Z.mod_small f 256) by exact H.
  rewrite !Z.div_small by lia. reflexivity.
Qed.

(** What a truncating write stores when the value does not fit (uint32(v),
    putLE24 of a too-large value): the low bits. *)
Lemma rd24_le24_wrap v tl : rd24 (le24 v ++ tl) = v mod 16777216.
Proof. unfold le24, rd24. cbn [app]. lia. Qed.

Lemma rd32_bound a b c d tl : is_byte a -> is_byte b -> is_byte c -> is_byte d ->
  0 <= rd32 (a :: b :: c :: d :: tl) < 4294967296.
Proof. unfold is_byte, rd32. lia. Qed.
Lemma rd24_bound a b c tl : is_byte a -> is_byte b -> is_byte c ->
  0 <= rd24 (a :: b :: c :: tl) < 16777216.
Proof. unfold is_byte, rd24. lia. Qed.
Lemma rd16_bound a b tl : is_byte a -> is_byte b -> 0 <= rd16 (a :: b :: tl) < 65536.
Proof. unfold is_byte, rd16. lia. Qed.

Lemma bytes_ok_cons b l : bytes_ok (b :: l) <-> is_byte b /\ bytes_ok l.
Proof. unfold bytes_ok. split; [intros H; inversion H; auto|intros [H1 H2]; constructor; assumption]. Qed.

Lemma bytes_ok_app l1 l2 : bytes_ok (l1 ++ l2) <-> bytes_ok l1 /\ bytes_ok l2.
Proof. unfold bytes_ok. apply Forall_app. Qed.

Lemma bytes_ok_firstn n l : bytes_ok l -> bytes_ok (firstn n l).
Proof.
  unfold bytes_ok. rewrite !Forall_forall. intros H x Hx. apply H.
  rewrite <- (firstn_skipn n l). apply in_or_app. left; exact Hx.
Qed.
Lemma bytes_ok_skipn n l : bytes_ok l -> bytes_ok (skipn n l).
Proof.
  unfold bytes_ok. rewrite !Forall_forall. intros H x Hx. apply H.
  rewrite <- (firstn_skipn n l). apply in_or_app. right; exact Hx.
Qed.
